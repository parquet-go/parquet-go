(** Proofs about Stats/Model.v: page bounds and chunk statistics are true
    bounds, truncated bounds remain bounds, the column index has one entry per
    page with exact counts, a claimed boundary order is true, and pruning pages
    with the stored bounds never drops a page that holds the value. *)
From Coq Require Import List NArith ZArith Bool Arith Lia.
From Coq Require Import ZifyN ZifyNat ZifyBool.
From PQ Require Import Base.Bytes Base.Order Search.Model Search.Proofs Stats.Order Stats.OrderProofs Stats.Model.
Import ListNotations.
Open Scope Z_scope.

Lemma no_adjacent_cons V (bad : V -> V -> bool) a b t :
  no_adjacent bad (a :: b :: t) = negb (bad a b) && no_adjacent bad (b :: t).
Proof. reflexivity. Qed.

(** One side of the bounds, and the ascending scan; the other side and the
    descending scan are the same for the reversed comparison [flip]. *)
Section Lower.
  Variable V : Type.
  Variable cmp : V -> V -> Z.
  Variable nan : V -> bool.
  (* the values on which the comparison is a preorder: all of them, or the
     well-formed byte strings for binary DECIMAL *)
  Variable good : V -> Prop.
  Hypothesis cmp_opp : forall a b, good a -> good b -> (cmp a b < 0 <-> cmp b a > 0).
  Hypothesis cmp_trans : forall a b d, good a -> good b -> good d ->
    nan b = false -> cmp a b <= 0 -> cmp b d <= 0 -> cmp a d <= 0.
  Hypothesis cmp_nan : forall a b, nan a = true -> cmp a b = 0 /\ cmp b a = 0.
  Notation goods l := (forall x : V, In x l -> good x).

  Definition flip (a b : V) : Z := cmp b a.

  Lemma flip_nan a b : nan a = true -> flip a b = 0 /\ flip b a = 0.
  Proof. unfold flip. intros H. destruct (cmp_nan a b H). auto. Qed.

  Lemma flip_opp a b : good a -> good b -> (flip a b < 0 <-> flip b a > 0).
  Proof. unfold flip. intros Ga Gb. apply cmp_opp; assumption. Qed.
  Lemma flip_trans a b d : good a -> good b -> good d ->
    nan b = false -> flip a b <= 0 -> flip b d <= 0 -> flip a d <= 0.
  Proof. unfold flip. intros Ga Gb Gd N H1 H2. apply (cmp_trans d b a); auto. Qed.

  Lemma cmp_refl_on a : good a -> cmp a a <= 0.
  Proof. intros G. pose proof (cmp_opp a a G G). lia. Qed.

  Lemma cmp_nlt_le_on a b : good a -> good b -> ~ cmp a b < 0 -> cmp b a <= 0.
  Proof. intros Ga Gb. pose proof (cmp_opp a b Ga Gb). lia. Qed.

  Lemma cmp_pos_nonnan a b : cmp a b <> 0 -> nan a = false /\ nan b = false.
  Proof.
    intros H. split.
    - destruct (nan a) eqn:E; [|reflexivity]. destruct (cmp_nan a b E). lia.
    - destruct (nan b) eqn:E; [|reflexivity]. destruct (cmp_nan b a E). lia.
  Qed.

  Notation some_value l := (exists v, In v l /\ nan v = false).

  Lemma some_value_app a b : some_value (a ++ b) -> some_value a \/ some_value b.
  Proof.
    intros (v & Hv & Nv). apply in_app_or in Hv. destruct Hv; [left|right]; exists v; auto.
  Qed.

  Definition lower (lo : V) (l : list V) : Prop :=
    In lo l /\ (forall v, In v l -> nan v = false -> cmp lo v <= 0) /\ (some_value l -> nan lo = false).

  Lemma lower_single v : good v -> lower v [v].
  Proof.
    intros G. split; [left; reflexivity|]. split.
    - intros x [<-|[]] _. apply cmp_refl_on, G.
    - intros (x & [<-|[]] & Nx). exact Nx.
  Qed.

  Lemma lower_all_nan lo l : In lo l -> Forall (fun x => nan x = true) l -> lower lo l.
  Proof.
    intros Hin F. rewrite Forall_forall in F. split; [exact Hin|].
    split; [intros v Hv Nv|intros (v & Hv & Nv)]; rewrite (F v Hv) in Nv; discriminate.
  Qed.

  Lemma lower_merge em pm seen vals : goods seen -> goods vals ->
    lower em seen -> lower pm vals ->
    lower (if (nan em && negb (nan pm)) || (cmp pm em <? 0) then pm else em) (seen ++ vals).
  Proof.
    intros Gs Gv (Ie & We & Ne) (Ip & Wp & Np).
    assert (Hs : forall v, In v seen -> nan v = false -> nan em = false)
      by (intros v Hi Nv; apply Ne; exists v; auto).
    assert (Hv : forall v, In v vals -> nan v = false -> nan pm = false)
      by (intros v Hi Nv; apply Np; exists v; auto).
    destruct (nan em && negb (nan pm)) eqn:R; cbn [orb].
    - (* replacesNaNBound: the existing bound is NaN, nothing seen so far is a value *)
      apply andb_true_iff in R. destruct R as [Ne' Np']. apply negb_true_iff in Np'.
      split; [apply in_or_app; auto|]. split; [|auto].
      intros v Hin Nv. apply in_app_or in Hin. destruct Hin as [H|H]; [|auto].
      rewrite (Hs v H Nv) in Ne'. discriminate.
    - destruct (Z.ltb_spec (cmp pm em) 0) as [L|L].
      + destruct (cmp_pos_nonnan pm em ltac:(lia)) as [Np' Ne'].
        split; [apply in_or_app; auto|]. split; [|auto].
        intros v Hin Nv. apply in_app_or in Hin. destruct Hin as [H|H]; [|auto].
        apply (cmp_trans pm em v); auto. lia.
      + split; [apply in_or_app; auto|]. split.
        * intros v Hin Nv. apply in_app_or in Hin. destruct Hin as [H|H]; [auto|].
          apply (cmp_trans em pm v); [auto..|exact (Hv v H Nv)| |exact (Wp v H Nv)].
          apply cmp_nlt_le_on; auto. lia.
        * (* a NaN bound survives only while no value has been seen *)
          intros HV. apply some_value_app in HV. destruct HV as [HV|HV]; [auto|].
          specialize (Np HV). rewrite Np in R. cbn in R. rewrite andb_true_r in R. exact R.
  Qed.

  Lemma lower_snoc lo seen v : goods seen -> good v -> some_value seen -> lower lo seen ->
    lower (if cmp v lo <? 0 then v else lo) (seen ++ [v]).
  Proof.
    intros Gs G HV L.
    assert (Gv : goods [v]) by (intros x [<-|[]]; exact G).
    pose proof (lower_merge lo v seen [v] Gs Gv L (lower_single v G)) as M.
    destruct L as (_ & _ & N). rewrite (N HV) in M. exact M.
  Qed.

  Lemma lower_nan_prefix lo pre l : Forall (fun x => nan x = true) pre -> lower lo l -> lower lo (pre ++ l).
  Proof.
    intros F (I & W & N). rewrite Forall_forall in F.
    assert (Hp : forall v, In v pre -> nan v = false -> False)
      by (intros v Hv Nv; rewrite (F v Hv) in Nv; discriminate).
    split; [apply in_or_app; auto|]. split.
    - intros v Hv Nv. apply in_app_or in Hv. destruct Hv as [Hv|Hv]; [destruct (Hp v Hv Nv)|auto].
    - intros HV. apply some_value_app in HV. destruct HV as [(v & Hv & Nv)|HV]; [destruct (Hp v Hv Nv)|auto].
  Qed.

  Definition pairwise_le (l : list V) : Prop :=
    forall i j a b, (i < j)%nat -> nth_error l i = Some a -> nth_error l j = Some b -> cmp a b <= 0.

  Lemma ascending_head l : forall a, good a -> goods l -> Forall (fun x => nan x = false) l ->
    order_is_ascending cmp (a :: l) = true -> forall b, In b l -> cmp a b <= 0.
  Proof.
    unfold order_is_ascending.
    induction l as [|x l IH]; intros a Ga Gl F H b Hb; [destruct Hb|].
    cbn [no_adjacent] in H. apply andb_true_iff in H. destruct H as [H1 H2].
    inversion F; subst.
    assert (Hax : cmp a x <= 0).
    { destruct (Z.gtb_spec (cmp a x) 0); [discriminate|lia]. }
    destruct Hb as [<-|Hb]; [exact Hax|].
    apply (cmp_trans a x b); auto using in_eq, in_cons.
  Qed.

  Lemma ascending_tail a l : order_is_ascending cmp (a :: l) = true -> order_is_ascending cmp l = true.
  Proof.
    unfold order_is_ascending. destruct l as [|x l]; [reflexivity|].
    cbn [no_adjacent]. intros H. apply andb_true_iff in H. tauto.
  Qed.

  Lemma ascending_pairwise l : goods l -> Forall (fun x => nan x = false) l ->
    order_is_ascending cmp l = true -> pairwise_le l.
  Proof.
    induction l as [|x l IH]; intros G F H i j a b Hij Hi Hj.
    - destruct i; discriminate.
    - inversion F; subst. destruct j as [|j]; [lia|]. cbn [nth_error] in Hj.
      destruct i as [|i].
      + cbn in Hi. injection Hi as <-. apply (ascending_head l x); auto using in_eq, in_cons.
        eapply nth_error_In; eauto.
      + cbn [nth_error] in Hi.
        apply (IH (fun y Hy => G y (in_cons _ _ _ Hy)) H3 (ascending_tail _ _ H) i j); auto. lia.
  Qed.
End Lower.

Lemma non_nulls_in V (l : list (option V)) v : In v (non_nulls l) <-> In (Some v) l.
Proof.
  induction l as [|[x|] r IH]; cbn.
  - tauto.
  - rewrite IH. split; intros [H|H]; auto; left; congruence.
  - rewrite IH. split; [auto|]. intros [H|H]; [discriminate|exact H].
Qed.

Section Bounds.
  Variable V : Type.
  Variable cmp : V -> V -> Z.
  Variable nan : V -> bool.
  Variable good : V -> Prop.
  Hypothesis cmp_opp : forall a b, good a -> good b -> (cmp a b < 0 <-> cmp b a > 0).
  Hypothesis cmp_trans : forall a b d, good a -> good b -> good d ->
    nan b = false -> cmp a b <= 0 -> cmp b d <= 0 -> cmp a d <= 0.
  Hypothesis cmp_nan : forall a b, nan a = true -> cmp a b = 0 /\ cmp b a = 0.
  Notation goods l := (forall x : V, In x l -> good x).
  Notation some_value l := (exists v, In v l /\ nan v = false).
  Notation lower_bound := (lower V cmp nan).
  Notation upper_bound := (lower V (flip V cmp) nan).
  Notation f_opp := (flip_opp V cmp good cmp_opp).
  Notation f_trans := (flip_trans V cmp nan good cmp_trans).
  Notation f_nan := (flip_nan V cmp nan cmp_nan).

  Definition bounds_inv (acc : V * V) (seen : list V) : Prop :=
    goods seen /\ some_value seen /\ lower_bound (fst acc) seen /\ upper_bound (snd acc) seen.

  (* both tests of the loop, also where the switch of page_byte_array.go skips
     the second: a new minimum is not above the maximum *)
  Lemma bounds_step_inv sw acc seen v : good v ->
    bounds_inv acc seen -> bounds_inv (bounds_step cmp nan sw acc v) (seen ++ [v]).
  Proof.
    destruct acc as [lo hi]. intros G (Gs & HV & L & U). cbn [fst snd] in L, U.
    assert (E : bounds_step cmp nan sw (lo, hi) v =
                (if cmp v lo <? 0 then v else lo, if cmp hi v <? 0 then v else hi)).
    { unfold bounds_step. destruct L as (Il & Wl & Nl). destruct U as (Ih & _ & Nh).
      pose proof (cmp_opp hi v (Gs hi Ih) G) as O.
      replace (cmp v hi >? 0) with (cmp hi v <? 0)
        by (destruct (Z.gtb_spec (cmp v hi) 0), (Z.ltb_spec (cmp hi v) 0); try reflexivity; lia).
      destruct (nan v) eqn:Nv.
      - destruct (cmp_nan v lo Nv) as [-> _]. destruct (cmp_nan v hi Nv) as [_ ->]. reflexivity.
      - destruct (Z.ltb_spec (cmp v lo) 0) as [Lt|_]; [|reflexivity]. destruct sw; [|reflexivity].
        pose proof (cmp_trans v lo hi G (Gs lo Il) (Gs hi Ih) (Nl HV) ltac:(lia) (Wl hi Ih (Nh HV))).
        destruct (Z.ltb_spec (cmp hi v) 0); [lia|reflexivity]. }
    rewrite E. split; [|split; [|split; cbn [fst snd]]].
    - intros x Hx. apply in_app_or in Hx. destruct Hx as [Hx|[<-|[]]]; auto.
    - destruct HV as (x & Hx & Nx). exists x. split; [apply in_or_app; auto|exact Nx].
    - apply (lower_snoc V cmp nan good cmp_opp cmp_trans cmp_nan); assumption.
    - apply (lower_snoc V (flip V cmp) nan good f_opp f_trans f_nan); assumption.
  Qed.

  Lemma bounds_fold_inv sw r : forall acc seen, goods r ->
    bounds_inv acc seen -> bounds_inv (fold_left (bounds_step cmp nan sw) r acc) (seen ++ r).
  Proof.
    induction r as [|v r IH]; intros acc seen G H; cbn [fold_left].
    - rewrite app_nil_r. exact H.
    - replace (seen ++ v :: r) with ((seen ++ [v]) ++ r) by (rewrite <- app_assoc; reflexivity).
      apply IH; [intros x Hx; apply G; right; exact Hx|]. apply bounds_step_inv; [apply G; left; reflexivity|exact H].
  Qed.

  Lemma skip_nan_spec l :
    exists pre, l = pre ++ skip_nan nan l /\ Forall (fun x => nan x = true) pre /\
                match skip_nan nan l with [] => True | x :: _ => nan x = false end.
  Proof.
    induction l as [|x l IH]; cbn [skip_nan].
    - exists []. repeat split. constructor.
    - destruct (nan x) eqn:E.
      + destruct IH as (pre & E1 & F & T). exists (x :: pre). repeat split.
        * cbn. rewrite <- E1. reflexivity.
        * constructor; assumption.
        * exact T.
      + exists []. repeat split; [constructor|exact E].
  Qed.

  Lemma page_bounds_sides sw l mn mx : goods l ->
    page_bounds cmp nan sw l = Some (mn, mx) -> lower_bound mn l /\ upper_bound mx l.
  Proof.
    intros G. unfold page_bounds. destruct l as [|first rest]; [discriminate|].
    destruct (skip_nan_spec (first :: rest)) as (pre & E & F & T).
    destruct (skip_nan nan (first :: rest)) as [|x r] eqn:S.
    - intros H. injection H as <- <-. rewrite app_nil_r in E. subst pre.
      split; apply lower_all_nan; try assumption; left; reflexivity.
    - intros H. injection H as H.
      assert (Gx : goods (x :: r)) by (intros y Hy; apply G; rewrite E; apply in_or_app; right; exact Hy).
      assert (I0 : bounds_inv (x, x) [x]).
      { split; [intros y [<-|[]]; apply Gx; left; reflexivity|].
        split; [exists x; split; [left; reflexivity|exact T]|].
        split; [apply (lower_single V cmp nan good cmp_opp cmp_trans cmp_nan)
               |apply (lower_single V (flip V cmp) nan good f_opp f_trans f_nan)];
          apply Gx; left; reflexivity. }
      pose proof (bounds_fold_inv sw r (x, x) [x] (fun y Hy => Gx y (or_intror Hy)) I0) as I. rewrite H in I.
      destruct I as (_ & _ & L & U). rewrite E. split; apply lower_nan_prefix; assumption.
  Qed.

  Lemma descending_is_flipped_ascending l : goods l ->
    order_is_descending cmp l = order_is_ascending (flip V cmp) l.
  Proof.
    unfold order_is_descending, order_is_ascending, flip.
    induction l as [|a [|b l] IH]; intros G; try reflexivity.
    cbn [no_adjacent]. cbn [no_adjacent] in IH. rewrite IH by (intros x Hx; apply G; right; exact Hx).
    f_equal. f_equal. pose proof (cmp_opp a b (G a (in_eq _ _)) (G b (in_cons _ _ _ (in_eq _ _)))).
    destruct (Z.ltb_spec (cmp a b) 0), (Z.gtb_spec (cmp b a) 0); try reflexivity; lia.
  Qed.

  Lemma descending_pairwise l : goods l -> Forall (fun x => nan x = false) l ->
    order_is_descending cmp l = true -> pairwise_le V (flip V cmp) l.
  Proof.
    intros G F H. rewrite descending_is_flipped_ascending in H by exact G.
    apply (ascending_pairwise V (flip V cmp) nan good f_opp f_trans f_nan); assumption.
  Qed.

  Lemma equiv_le x y d0 : good x -> good y -> good d0 ->
    nan d0 = false -> cmp x d0 = 0 -> cmp y d0 = 0 -> cmp x y <= 0.
  Proof.
    intros Gx Gy Gd N Hx Hy. apply (cmp_trans x d0 y); [auto..|lia|].
    apply (cmp_nlt_le_on V cmp nan good cmp_opp cmp_trans cmp_nan); auto. lia.
  Qed.

  (* the streak-skipping variant answers +1 / -1 only when the plain scan of the
     whole list succeeds *)
  Lemma streak_ascending d0 (G0 : good d0) (N0 : nan d0 = false) : forall rest prev,
    goods rest -> good prev -> cmp prev d0 = 0 ->
    match skip_streak_from cmp d0 prev rest with
    | a :: ((b :: _) as t) => cmp a b < 0 /\ order_is_ascending cmp t = true
    | _ => True
    end -> order_is_ascending cmp (prev :: rest) = true.
  Proof.
    unfold order_is_ascending.
    induction rest as [|x r IH]; intros prev G Gp Hp H; [reflexivity|].
    cbn [skip_streak_from] in H. rewrite no_adjacent_cons.
    assert (Gx : good x) by (apply G; left; reflexivity).
    destruct (Z.eqb_spec (cmp x d0) 0) as [E|E].
    - rewrite (IH x (fun y Hy => G y (or_intror Hy)) Gx E H), andb_true_r.
      pose proof (equiv_le prev x d0 Gp Gx G0 N0 Hp E).
      destruct (Z.gtb_spec (cmp prev x) 0); [lia|reflexivity].
    - destruct H as [H1 H2]. rewrite H2, andb_true_r.
      destruct (Z.gtb_spec (cmp prev x) 0); [lia|reflexivity].
  Qed.

  Lemma streak_descending d0 (G0 : good d0) (N0 : nan d0 = false) : forall rest prev,
    goods rest -> good prev -> cmp prev d0 = 0 ->
    match skip_streak_from cmp d0 prev rest with
    | a :: ((b :: _) as t) => cmp a b > 0 /\ order_is_descending cmp t = true
    | _ => True
    end -> order_is_descending cmp (prev :: rest) = true.
  Proof.
    unfold order_is_descending.
    induction rest as [|x r IH]; intros prev G Gp Hp H; [reflexivity|].
    cbn [skip_streak_from] in H. rewrite no_adjacent_cons.
    assert (Gx : good x) by (apply G; left; reflexivity).
    destruct (Z.eqb_spec (cmp x d0) 0) as [E|E].
    - rewrite (IH x (fun y Hy => G y (or_intror Hy)) Gx E H), andb_true_r.
      pose proof (equiv_le x prev d0 Gx Gp G0 N0 E Hp).
      destruct (Z.ltb_spec (cmp prev x) 0) as [L|L]; [|reflexivity].
      apply (cmp_opp prev x Gp Gx) in L. lia.
    - destruct H as [H1 H2]. rewrite H2, andb_true_r.
      destruct (Z.ltb_spec (cmp prev x) 0); [lia|reflexivity].
  Qed.

  Lemma order_of_streak_sound_on l : (forall v, nan v = false) -> goods l ->
    (order_of_streak cmp l = 1 -> order_is_ascending cmp l = true) /\
    (order_of_streak cmp l = -1 -> order_is_descending cmp l = true).
  Proof.
    intros NN G. unfold order_of_streak.
    destruct (length l <=? 1)%nat eqn:L; [split; discriminate|].
    destruct l as [|d0 rest]; [discriminate|]. cbn [skip_streak].
    assert (G0 : good d0) by (apply G; left; reflexivity).
    assert (Gr : goods rest) by (intros y Hy; apply G; right; exact Hy).
    assert (R0 : cmp d0 d0 = 0) by (pose proof (cmp_opp d0 d0 G0 G0); lia).
    pose proof (streak_ascending d0 G0 (NN d0) rest d0 Gr G0 R0) as HA.
    pose proof (streak_descending d0 G0 (NN d0) rest d0 Gr G0 R0) as HD.
    destruct (skip_streak_from cmp d0 d0 rest) as [|a [|b t]].
    - split; intros _; [apply HA|apply HD]; exact I.
    - split; intros _; [apply HA|apply HD]; exact I.
    - destruct (Z.ltb_spec (cmp a b) 0) as [Hlt|Hge].
      + destruct (order_is_ascending cmp (b :: t)) eqn:A; split; try discriminate.
        intros _. apply HA. split; [exact Hlt|reflexivity].
      + destruct (Z.gtb_spec (cmp a b) 0) as [Hgt|Hle]; [|split; discriminate].
        destruct (order_is_descending cmp (b :: t)) eqn:D; split; try discriminate.
        intros _. apply HD. split; [lia|reflexivity].
  Qed.

  Variable zero : V.
  Variable tmin tmax : V -> V.
  Variable ord : list V -> Z.

  Lemma fold_index_page ps : forall ix,
    fold_left (index_page zero) ps ix =
    {| ix_null_pages := ix_null_pages ix ++ map (fun p => pi_num_values p =? pi_num_nulls p) ps;
       ix_null_counts := ix_null_counts ix ++ map (@pi_num_nulls V) ps;
       ix_mins := ix_mins ix ++ map (fun p => match pi_bounds p with Some (mn, _) => mn | None => zero end) ps;
       ix_maxs := ix_maxs ix ++ map (fun p => match pi_bounds p with Some (_, mx) => mx | None => zero end) ps |}.
  Proof.
    induction ps as [|p ps IH]; intros ix; cbn [fold_left map].
    - rewrite !app_nil_r. destruct ix; reflexivity.
    - rewrite IH. unfold index_page. cbn [ix_null_pages ix_null_counts ix_mins ix_maxs].
      rewrite <- !app_assoc. cbn [app]. reflexivity.
  Qed.

  Definition entry_min (p : page_info V) : V :=
    tmin (match pi_bounds p with Some (mn, _) => mn | None => zero end).
  Definition entry_max (p : page_info V) : V :=
    tmax (match pi_bounds p with Some (_, mx) => mx | None => zero end).

  Lemma index_pages_maps ps :
    index_pages zero tmin tmax ord ps =
    {| ci_null_pages := map (fun p => pi_num_values p =? pi_num_nulls p) ps;
       ci_null_counts := map (@pi_num_nulls V) ps;
       ci_min_values := map entry_min ps;
       ci_max_values := map entry_max ps;
       ci_order := boundary_order_of (ord (map entry_min ps)) (ord (map entry_max ps)) |}.
  Proof.
    unfold index_pages, column_index. rewrite fold_index_page. cbn.
    rewrite !map_map. reflexivity.
  Qed.

  Theorem index_counts_exact ps i p :
    nth_error ps i = Some p ->
    let ci := index_pages zero tmin tmax ord ps in
    nth_error (ci_null_counts ci) i = Some (pi_num_nulls p) /\
    nth_error (ci_null_pages ci) i = Some (pi_num_values p =? pi_num_nulls p) /\
    nth_error (ci_min_values ci) i = Some (entry_min p) /\
    nth_error (ci_max_values ci) i = Some (entry_max p).
  Proof.
    intros H. rewrite index_pages_maps. cbn [ci_null_counts ci_null_pages ci_min_values ci_max_values].
    split; [exact (map_nth_error (@pi_num_nulls V) i ps H)|].
    split; [exact (map_nth_error (fun p => pi_num_values p =? pi_num_nulls p) i ps H)|].
    split; [exact (map_nth_error entry_min i ps H)|exact (map_nth_error entry_max i ps H)].
  Qed.

  Lemma boundary_order_cases a b :
    (boundary_order_of a b = 1 -> a > 0 /\ b = a) /\ (boundary_order_of a b = 2 -> a < 0 /\ b = a).
  Proof.
    unfold boundary_order_of. destruct (Z.eqb_spec a b) as [E|E]; [|split; discriminate].
    destruct (Z.gtb_spec a 0); [split; [lia|discriminate]|].
    destruct (Z.ltb_spec a 0); split; try discriminate; lia.
  Qed.

  Lemma boundary_order_on ps :
    (forall l, goods l -> (ord l = 1 -> order_is_ascending cmp l = true) /\
                          (ord l = -1 -> order_is_descending cmp l = true)) ->
    (forall l, ord l = 1 \/ ord l = -1 \/ ord l = 0) ->
    (forall l, ord l <> 0 -> Forall (fun x => nan x = false) l) ->
    goods (map entry_min ps) -> goods (map entry_max ps) ->
    let ci := index_pages zero tmin tmax ord ps in
    (ci_order ci = 1 -> pairwise_le V cmp (ci_min_values ci) /\ pairwise_le V cmp (ci_max_values ci)) /\
    (ci_order ci = 2 -> pairwise_le V (flip V cmp) (ci_min_values ci) /\ pairwise_le V (flip V cmp) (ci_max_values ci)).
  Proof.
    intros ord_sound ord_range ord_nan_free Gm Gx. cbv zeta.
    rewrite index_pages_maps. split; cbn [ci_order ci_min_values ci_max_values].
    - intros H. apply boundary_order_cases in H. destruct H as [Hp He].
      assert (H1 : ord (map entry_min ps) = 1) by (destruct (ord_range (map entry_min ps)) as [?|[?|?]]; lia).
      assert (H2 : ord (map entry_max ps) = 1) by lia.
      split; apply (ascending_pairwise V cmp nan good cmp_opp cmp_trans cmp_nan);
        try assumption; try (apply ord_nan_free; lia); apply ord_sound; assumption.
    - intros H. apply boundary_order_cases in H. destruct H as [Hp He].
      assert (H1 : ord (map entry_min ps) = -1) by (destruct (ord_range (map entry_min ps)) as [?|[?|?]]; lia).
      assert (H2 : ord (map entry_max ps) = -1) by lia.
      split; apply descending_pairwise;
        try assumption; try (apply ord_nan_free; lia); apply ord_sound; assumption.
  Qed.

  Variable ok : V -> Prop.
  Hypothesis ok_good : forall v, ok v -> good v /\ good (tmin v) /\ good (tmax v).
  Hypothesis tmin_lower : forall v, ok v -> cmp (tmin v) v <= 0.
  Hypothesis tmax_upper : forall v, ok v -> cmp v (tmax v) <= 0.

  Lemma skip_safe_on sw (pages : list (list (option V))) p vals v :
    nth_error pages p = Some vals -> (forall x, In (Some x) vals -> ok x) ->
    In (Some v) vals -> nan v = false ->
    may_skip cmp (index_pages zero tmin tmax ord (map (page_of_values cmp nan sw) pages)) p v = false.
  Proof.
    intros Hp Hg Hv Nv.
    assert (Hq : nth_error (map (page_of_values cmp nan sw) pages) p = Some (page_of_values cmp nan sw vals))
      by (apply map_nth_error; exact Hp).
    destruct (index_counts_exact _ _ _ Hq) as (_ & Hnp & Hmn & Hmx).
    unfold may_skip. rewrite Hnp, Hmn, Hmx. clear Hnp Hmn Hmx Hq.
    assert (Hin : In v (non_nulls vals)) by (apply non_nulls_in; exact Hv).
    assert (Hlen : (length (non_nulls vals) <= length vals)%nat).
    { clear. induction vals as [|[x|] r IH]; cbn; lia. }
    unfold entry_min, entry_max, page_of_values. cbn [pi_bounds pi_num_values pi_num_nulls].
    destruct (page_bounds cmp nan sw (non_nulls vals)) as [[mn mx]|] eqn:B.
    2:{ unfold page_bounds in B. destruct (non_nulls vals); [destruct Hin|].
        destruct (skip_nan nan (v0 :: l)); discriminate. }
    assert (Gn : goods (non_nulls vals)) by (intros x Hx; apply ok_good, Hg, non_nulls_in, Hx).
    destruct (page_bounds_sides sw _ _ _ Gn B) as ((Imn & Wmn & Nmn) & (Imx & Wmx & Nmx)).
    pose proof (Wmn v Hin Nv) as H1. pose proof (Wmx v Hin Nv) as H2. unfold flip in H2.
    pose proof (Nmn (ex_intro _ v (conj Hin Nv))). pose proof (Nmx (ex_intro _ v (conj Hin Nv))).
    assert (Omn : ok mn) by (apply Hg, non_nulls_in; exact Imn).
    assert (Omx : ok mx) by (apply Hg, non_nulls_in; exact Imx).
    assert (Ov : good v) by (apply ok_good, Hg, Hv).
    destruct (ok_good mn Omn) as (Gmn & Gtmn & _). destruct (ok_good mx Omx) as (Gmx & _ & Gtmx).
    assert (L1 : cmp (tmin mn) v <= 0) by (apply (cmp_trans _ mn _); auto).
    assert (L2 : cmp v (tmax mx) <= 0) by (apply (cmp_trans _ mx _); auto).
    assert (Hnn : (Z.of_nat (length vals) =? Z.of_nat (length vals - length (non_nulls vals))) = false).
    { apply Z.eqb_neq. destruct (non_nulls vals); [destruct Hin|]. cbn [length] in *. lia. }
    rewrite Hnn. cbn [orb].
    destruct (Z.ltb_spec (cmp v (tmin mn)) 0) as [C|C].
    { apply (cmp_opp v (tmin mn) Ov Gtmn) in C. lia. }
    destruct (Z.gtb_spec (cmp v (tmax mx)) 0); [lia|reflexivity].
  Qed.
End Bounds.

Section Generic.
  Variable V : Type.
  Variable cmp : V -> V -> Z.
  Variable nan : V -> bool.
  Hypothesis cmp_opp : forall a b, cmp a b < 0 <-> cmp b a > 0.
  Hypothesis cmp_trans : forall a b d, nan b = false -> cmp a b <= 0 -> cmp b d <= 0 -> cmp a d <= 0.
  Hypothesis cmp_nan : forall a b, nan a = true -> cmp a b = 0 /\ cmp b a = 0.

  Lemma cmp_total' a b : ~ cmp a b > 0 -> cmp a b <= 0.
  Proof. lia. Qed.

  Notation all := (fun _ : V => True).
  Notation opp_all := (fun a b (_ _ : True) => cmp_opp a b).
  Notation trans_all := (fun a b d (_ _ _ : True) => cmp_trans a b d).
  Notation f_opp := (flip_opp V cmp all opp_all).
  Notation f_trans := (flip_trans V cmp nan all trans_all).
  Notation f_nan := (flip_nan V cmp nan cmp_nan).
  Notation lower_bound := (lower V cmp nan).
  Notation upper_bound := (lower V (flip V cmp) nan).

  Definition has_value (l : list V) : Prop := exists v, In v l /\ nan v = false.

  Definition within (lo hi : V) (l : list V) : Prop :=
    forall v, In v l -> nan v = false -> cmp lo v <= 0 /\ cmp v hi <= 0.

  Lemma sound_sides mn mx l :
    within mn mx l /\ In mn l /\ In mx l /\ (has_value l -> nan mn = false /\ nan mx = false)
    <-> lower_bound mn l /\ upper_bound mx l.
  Proof.
    unfold within, lower, flip. split.
    - intros (W & Im & Ix & N). split.
      + split; [exact Im|]. split; [intros v Hv Nv; apply (W v Hv Nv)|intros HV; apply (N HV)].
      + split; [exact Ix|]. split; [intros v Hv Nv; apply (W v Hv Nv)|intros HV; apply (N HV)].
    - intros ((Im & Wm & Nm) & (Ix & Wx & Nx)). repeat split; auto.
  Qed.

  (** every non-NaN value of the page lies within the bounds; the bounds are
      values of the page; they are NaN only when every value is *)
  Theorem page_bounds_sound sw l mn mx :
    page_bounds cmp nan sw l = Some (mn, mx) ->
    within mn mx l /\ In mn l /\ In mx l /\
    ((exists v, In v l /\ nan v = false) -> nan mn = false /\ nan mx = false).
  Proof.
    intros H. apply sound_sides.
    exact (page_bounds_sides V cmp nan all opp_all trans_all cmp_nan sw l mn mx (fun _ _ => I) H).
  Qed.

  Lemma page_bounds_none sw l : page_bounds cmp nan sw l = None <-> l = [].
  Proof.
    unfold page_bounds. destruct l as [|first rest]; [tauto|].
    destruct (skip_nan nan (first :: rest)); split; discriminate.
  Qed.

  (* what a page's bounds must satisfy with respect to the non-null values
     [vals] of the page (page_bounds_sound establishes it) *)
  Definition page_sound (p : page_info V) (vals : list V) : Prop :=
    match pi_bounds p with
    | None => vals = []
    | Some (mn, mx) =>
        within mn mx vals /\ In mn vals /\ In mx vals /\
        ((exists v, In v vals /\ nan v = false) -> nan mn = false /\ nan mx = false)
    end.

  Definition chunk_inv (st : chunk_stats V) (seen : list V) : Prop :=
    match cs_bounds st with
    | None => seen = []
    | Some (mn, mx) =>
        within mn mx seen /\ In mn seen /\ In mx seen /\
        (has_value seen -> nan mn = false /\ nan mx = false)
    end.

  Lemma record_page_inv st seen p vals :
    chunk_inv st seen -> page_sound p vals -> chunk_inv (record_page cmp nan st p) (seen ++ vals).
  Proof.
    unfold chunk_inv, page_sound, record_page, record_page_gen, replaces_nan_bound.
    destruct (pi_bounds p) as [[pm px]|]; cbn [cs_bounds].
    2:{ intros H ->. rewrite app_nil_r. exact H. }
    destruct (cs_bounds st) as [[em ex]|]; cbn [cs_bounds negb andb].
    2:{ intros -> H. exact H. }
    rewrite (cmp_gtb_ltb _ _ cmp_opp), !sound_sides. intros [Le Ue] [Lp Up]. split.
    - apply (lower_merge V cmp nan all opp_all trans_all cmp_nan); auto.
    - apply (lower_merge V (flip V cmp) nan all f_opp f_trans f_nan); auto.
  Qed.

  Lemma chunk_fold_inv ps : forall valss st seen,
    Forall2 page_sound ps valss -> chunk_inv st seen ->
    chunk_inv (fold_left (record_page cmp nan) ps st) (seen ++ concat valss).
  Proof.
    induction ps as [|p ps IH]; intros valss st seen F I; inversion F; subst; cbn [fold_left concat].
    - rewrite app_nil_r. exact I.
    - rewrite app_assoc. apply IH; [assumption|]. apply record_page_inv; assumption.
  Qed.

  (** the chunk bounds are bounds of every non-NaN value of every page, are
      values of the chunk, and are NaN only when the chunk holds no other value *)
  Theorem chunk_stats_sound ps valss :
    Forall2 page_sound ps valss ->
    match cs_bounds (chunk_fold cmp nan ps) with
    | None => concat valss = []
    | Some (mn, mx) =>
        within mn mx (concat valss) /\ In mn (concat valss) /\ In mx (concat valss) /\
        (has_value (concat valss) -> nan mn = false /\ nan mx = false)
    end.
  Proof.
    intros F. pose proof (chunk_fold_inv ps valss chunk_empty [] F eq_refl) as H.
    exact H.
  Qed.

  Lemma record_page_counts st p :
    cs_num_values (record_page cmp nan st p) = cs_num_values st + pi_num_values p /\
    cs_null_count (record_page cmp nan st p) = cs_null_count st + pi_num_nulls p.
  Proof.
    unfold record_page, record_page_gen. destruct (pi_bounds p) as [[? ?]|]; [destruct (cs_bounds st) as [[? ?]|]|];
      cbn; auto.
  Qed.

  Definition sumZ (l : list Z) : Z := fold_right Z.add 0 l.

  Lemma chunk_fold_counts ps : forall st,
    cs_num_values (fold_left (record_page cmp nan) ps st)
      = cs_num_values st + sumZ (map (@pi_num_values V) ps) /\
    cs_null_count (fold_left (record_page cmp nan) ps st)
      = cs_null_count st + sumZ (map (@pi_num_nulls V) ps).
  Proof.
    induction ps as [|p ps IH]; intros st; cbn [fold_left map sumZ fold_right].
    - lia.
    - destruct (IH (record_page cmp nan st p)) as [H1 H2].
      destruct (record_page_counts st p) as [E1 E2].
      rewrite H1, H2, E1, E2. fold (sumZ (map (@pi_num_values V) ps)).
      fold (sumZ (map (@pi_num_nulls V) ps)). lia.
  Qed.

  Theorem chunk_counts_exact ps :
    cs_num_values (chunk_fold cmp nan ps) = sumZ (map (@pi_num_values V) ps) /\
    cs_null_count (chunk_fold cmp nan ps) = sumZ (map (@pi_num_nulls V) ps).
  Proof.
    unfold chunk_fold. destruct (chunk_fold_counts ps chunk_empty) as [H1 H2].
    rewrite H1, H2. cbn [chunk_empty cs_num_values cs_null_count]. lia.
  Qed.

End Generic.

Section Orders.
  Variable V : Type.
  Variable cmp : V -> V -> Z.
  Variable nan : V -> bool.
  Hypothesis cmp_opp : forall a b, cmp a b < 0 <-> cmp b a > 0.
  Hypothesis cmp_trans : forall a b d, nan b = false -> cmp a b <= 0 -> cmp b d <= 0 -> cmp a d <= 0.

  Hypothesis cmp_nan : forall a b, nan a = true -> cmp a b = 0 /\ cmp b a = 0.

  Notation all := (fun _ : V => True).
  Notation opp_all := (fun a b (_ _ : True) => cmp_opp a b).
  Notation trans_all := (fun a b d (_ _ _ : True) => cmp_trans a b d).

  (* what a function computing the order of a list of bounds must guarantee *)
  Definition order_sound (ord : list V -> Z) : Prop :=
    forall l, (ord l = 1 -> order_is_ascending cmp l = true) /\
              (ord l = -1 -> order_is_descending cmp l = true).

  Lemma order_of_sound : order_sound (order_of cmp).
  Proof.
    intros l. unfold order_of. destruct (1 <? length l)%nat; [|split; discriminate].
    destruct (order_is_ascending cmp l) eqn:A.
    - split; [reflexivity|discriminate].
    - destruct (order_is_descending cmp l) eqn:D; split; try discriminate. reflexivity.
  Qed.

  Lemma order_of_streak_sound : (forall v, nan v = false) -> order_sound (order_of_streak cmp).
  Proof.
    intros NN l. exact (order_of_streak_sound_on V cmp nan all opp_all trans_all cmp_nan l NN (fun _ _ => I)).
  Qed.

  Variable zero : V.
  Variable tmin tmax : V -> V.
  Variable ord : list V -> Z.

  Theorem index_aligned ps :
    let ci := index_pages zero tmin tmax ord ps in
    length (ci_null_pages ci) = length ps /\ length (ci_null_counts ci) = length ps /\
    length (ci_min_values ci) = length ps /\ length (ci_max_values ci) = length ps.
  Proof. rewrite index_pages_maps. cbn. rewrite !map_length. auto. Qed.

  Definition order_claim_true (ci : col_index V) : Prop :=
    (ci_order ci = 1 -> pairwise_le V cmp (ci_min_values ci) /\ pairwise_le V cmp (ci_max_values ci)) /\
    (ci_order ci = 2 -> pairwise_le V (flip V cmp) (ci_min_values ci) /\ pairwise_le V (flip V cmp) (ci_max_values ci)).

  Hypothesis ord_sound : order_sound ord.
  Hypothesis ord_range : forall l, ord l = 1 \/ ord l = -1 \/ ord l = 0.

  (* no order is claimed for a list that holds a NaN (orderOfFloatBounds; the
     other types have no NaN) *)
  Hypothesis ord_nan_free : forall l, ord l <> 0 -> Forall (fun x => nan x = false) l.

  Theorem boundary_order_true ps :
    order_claim_true (index_pages zero tmin tmax ord ps).
  Proof.
    exact (boundary_order_on V cmp nan all opp_all trans_all cmp_nan zero tmin tmax ord ps
             (fun l _ => ord_sound l) ord_range ord_nan_free (fun _ _ => I) (fun _ _ => I)).
  Qed.

  (** connection with Search/Proofs.v: the hypothesis [ascending_nonnull] of
      C06 holds of every index whose order claim is true *)
  Lemma search_index_nth nulls : forall (mins maxs : list V) i (mn mx : V),
    nth_error (search_index nulls mins maxs) i = Some (Some (mn, mx)) ->
    nth_error nulls i = Some false /\ nth_error mins i = Some mn /\ nth_error maxs i = Some mx.
  Proof.
    induction nulls as [|np nulls IH]; intros [|m mins] [|x maxs] i mn mx H; cbn [search_index] in H;
      try (destruct i; discriminate).
    destruct i as [|i]; cbn [nth_error] in *.
    - destruct np; [discriminate|]. injection H as <- <-. auto.
    - apply IH. exact H.
  Qed.

  Lemma search_index_pairwise (c : V -> V -> Z) nulls mins maxs :
    pairwise_le V c mins -> pairwise_le V c maxs ->
    ascending_nonnull V c (search_index nulls mins maxs).
  Proof.
    intros Pm Px i j mi xi mj xj Hij Hi Hj.
    apply search_index_nth in Hi. apply search_index_nth in Hj.
    destruct Hi as (_ & Hi1 & Hi2). destruct Hj as (_ & Hj1 & Hj2).
    split; [apply (Pm i j); auto|apply (Px i j); auto].
  Qed.

  Theorem claim_gives_nonnull ci : order_claim_true ci ->
    (ci_order ci = 1 -> ascending_nonnull V cmp (to_search_index ci)) /\
    (ci_order ci = 2 -> ascending_nonnull V (flip V cmp) (to_search_index ci)).
  Proof. intros [Ha Hd]. split; intros E; apply search_index_pairwise; [apply (Ha E)..|apply (Hd E)|apply (Hd E)]. Qed.

  Variable good : V -> Prop.          (* well-formed values: bytes below 256, right length *)
  Hypothesis tmin_lower : forall v, good v -> cmp (tmin v) v <= 0.
  Hypothesis tmax_upper : forall v, good v -> cmp v (tmax v) <= 0.

  Theorem skip_safe sw (pages : list (list (option V))) p vals v :
    nth_error pages p = Some vals -> (forall x, In (Some x) vals -> good x) ->
    In (Some v) vals -> nan v = false ->
    may_skip cmp (index_pages zero tmin tmax ord (map (page_of_values cmp nan sw) pages)) p v = false.
  (* [ord_range] and [ord_nan_free] are hypotheses of the statement, though not used *)
  Proof using cmp_opp cmp_trans cmp_nan ord_range ord_nan_free tmin_lower tmax_upper.
    exact (skip_safe_on V cmp nan all opp_all trans_all cmp_nan zero tmin tmax ord good
             (fun _ _ => conj I (conj I I)) tmin_lower tmax_upper sw pages p vals v).
  Qed.
End Orders.
