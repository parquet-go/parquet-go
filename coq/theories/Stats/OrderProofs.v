(** The numeric comparisons and cmp_be128 of Stats/Order.v are total preorders
    (binary DECIMAL: Stats/Decimal.v; for FLOAT/DOUBLE: on
    the non-NaN patterns, NaN comparing equal to everything, as compare.go
    does), and the word-wise / half-wise comparisons of the library coincide
    with the arithmetic reading of the bit patterns. *)
From Coq Require Import List NArith ZArith Bool Arith Lia.
From Coq Require Import ZifyN ZifyNat ZifyBool.
From PQ Require Import Base.Bytes Base.Order Search.Model Search.Proofs Stats.Order.
Import ListNotations.
Open Scope Z_scope.

Section Keyed.
  Variable V : Type.
  Variable key : V -> Z.
  Definition cmp_key (a b : V) : Z := cmpZ (key a) (key b).

  Lemma cmp_key_le a b : cmp_key a b <= 0 <-> key a <= key b.
  Proof. apply cmpZ_le. Qed.
End Keyed.

Lemma cmpZ_lt a b : cmpZ a b < 0 <-> a < b.
Proof. unfold cmpZ. destruct (Z.compare_spec a b); lia. Qed.
Lemma cmpZ_gt a b : cmpZ a b > 0 <-> a > b.
Proof. unfold cmpZ. destruct (Z.compare_spec a b); lia. Qed.
Lemma cmpZ_eq a b : cmpZ a b = 0 <-> a = b.
Proof. unfold cmpZ. destruct (Z.compare_spec a b); lia. Qed.
Lemma cmpZ_range a b : -1 <= cmpZ a b <= 1.
Proof. unfold cmpZ. destruct (Z.compare a b); lia. Qed.

Lemma cmp_sint_opp k a b : cmp_sint k a b < 0 <-> cmp_sint k b a > 0.
Proof. apply cmpZ_opp. Qed.
Lemma cmp_sint_trans k a b d : cmp_sint k a b <= 0 -> cmp_sint k b d <= 0 -> cmp_sint k a d <= 0.
Proof. apply cmpZ_trans. Qed.
Lemma cmp_uint_opp a b : cmp_uint a b < 0 <-> cmp_uint b a > 0.
Proof. apply cmpZ_opp. Qed.
Lemma cmp_uint_trans a b d : cmp_uint a b <= 0 -> cmp_uint b d <= 0 -> cmp_uint a d <= 0.
Proof. apply cmpZ_trans. Qed.

Lemma cmp_sint_le k a b : cmp_sint k a b <= 0 <-> sintZ k a <= sintZ k b.
Proof. apply cmpZ_le. Qed.
Lemma cmp_uint_le a b : cmp_uint a b <= 0 <-> (a <= b)%N.
Proof. unfold cmp_uint. rewrite cmpZ_le. lia. Qed.

Section Float.
  Variables eb mb : N.
  Notation nan := (f_is_nan eb mb).
  Notation cmpf := (cmp_float eb mb).

  Lemma cmp_float_opp a b : cmpf a b < 0 <-> cmpf b a > 0.
  Proof.
    unfold cmp_float. rewrite (orb_comm (nan b) (nan a)).
    destruct (nan a || nan b); [lia|]. apply cmpZ_opp.
  Qed.

  (* transitive through a middle value that is not NaN *)
  Lemma cmp_float_trans a b d :
    nan b = false -> cmpf a b <= 0 -> cmpf b d <= 0 -> cmpf a d <= 0.
  Proof.
    unfold cmp_float. intros Hb. rewrite Hb, orb_false_r, orb_false_l.
    destruct (nan a); cbn [orb]; [lia|].
    destruct (nan d); [lia|].
    apply cmpZ_trans.
  Qed.

  (* NaN is neither below nor above anything *)
  Lemma cmp_float_nan_l a b : nan a = true -> cmpf a b = 0.
  Proof. unfold cmp_float. intros ->. reflexivity. Qed.
  Lemma cmp_float_nan_r a b : nan b = true -> cmpf a b = 0.
  Proof. unfold cmp_float. intros ->. rewrite orb_true_r. reflexivity. Qed.

  (* on non-NaN patterns the order is the order of the sign-magnitude keys:
     -inf < negative < -0 = +0 < positive < +inf *)
  Lemma cmp_float_key a b : nan a = false -> nan b = false ->
    (cmpf a b <= 0 <-> f_key eb mb a <= f_key eb mb b).
  Proof. unfold cmp_float. intros -> ->. cbn [orb]. apply cmpZ_le. Qed.
End Float.

Lemma cmpZ_ltb u v : cmpZ u v = if u <? v then -1 else if v <? u then 1 else 0.
Proof. unfold cmpZ. destruct (Z.compare_spec u v), (Z.ltb_spec u v), (Z.ltb_spec v u); lia. Qed.

Lemma compare_digits (B a0 a1 b0 b1 : N) : (a0 < B)%N -> (b0 < B)%N ->
  (a0 + B * a1 ?= b0 + B * b1)%N = match (a1 ?= b1)%N with Eq => (a0 ?= b0)%N | o => o end.
Proof.
  intros Ha Hb. destruct (N.compare_spec a1 b1) as [->|L|L].
  - destruct (N.compare_spec a0 b0);
      [apply N.compare_eq_iff|apply N.compare_lt_iff|apply N.compare_gt_iff]; lia.
  - apply N.compare_lt_iff. nia.
  - apply N.compare_gt_iff. nia.
Qed.

Lemma ltb_digits (B a0 a1 b0 b1 : N) : (a0 < B)%N -> (b0 < B)%N ->
  (a0 + B * a1 <? b0 + B * b1)%N =
  (if a1 <? b1 then true else if b1 <? a1 then false else a0 <? b0)%N.
Proof.
  intros Ha Hb. unfold N.ltb. rewrite compare_digits, (N.compare_antisym a1 b1) by assumption.
  destruct (a1 ?= b1)%N; reflexivity.
Qed.

Lemma leb_top_digit (B h a0 a1 : N) : (a0 < B)%N -> (h <> 0)%N ->
  negb (a1 / h =? 0)%N = (B * h <=? a0 + B * a1)%N.
Proof.
  intros Ha Hh. rewrite N.leb_antisym. f_equal.
  destruct (N.ltb_spec (a0 + B * a1) (B * h)) as [L|L].
  - apply N.eqb_eq, N.div_small. nia.
  - apply N.eqb_neq. rewrite N.div_small_iff by exact Hh. nia.
Qed.

Lemma signed_ltb (h x y : N) : (x < 2 * h)%N -> (y < 2 * h)%N ->
  let s n := if (n <? h)%N then Z.of_N n else Z.of_N n - 2 * Z.of_N h in
  (if (h <=? x)%N then (if negb (h <=? y)%N then true else (x <? y)%N)
   else (if (h <=? y)%N then false else (x <? y)%N)) = (s x <? s y).
Proof.
  intros Hx Hy s. subst s. cbv beta. rewrite !(N.ltb_antisym h).
  destruct (N.leb_spec h x), (N.leb_spec h y); cbn [negb];
    try destruct (N.ltb_spec x y); symmetry;
    first [apply Z.ltb_lt; lia | apply Z.ltb_ge; lia].
Qed.

Definition i96_key (n : N) : Z := sintZ 96 (n mod 2 ^ 96)%N.

Lemma i96_low n : (n mod 2 ^ 64 = i96_word 0 n + 2 ^ 32 * i96_word 1 n)%N.
Proof.
  unfold i96_word. change (2 ^ 64)%N with (2 ^ 32 * 2 ^ 32)%N.
  rewrite N.mod_mul_r by discriminate. change (2 ^ (32 * 0))%N with 1%N.
  rewrite N.div_1_r. reflexivity.
Qed.

Lemma i96_high n : (n mod 2 ^ 96 = n mod 2 ^ 64 + 2 ^ 64 * i96_word 2 n)%N.
Proof.
  change (2 ^ 96)%N with (2 ^ 64 * 2 ^ 32)%N. apply N.mod_mul_r; discriminate.
Qed.

Lemma i96_words_less_mod a b : i96_words_less a b = (a mod 2 ^ 96 <? b mod 2 ^ 96)%N.
Proof.
  rewrite !i96_high, ltb_digits by (apply N.mod_lt; discriminate).
  rewrite !i96_low, ltb_digits by (apply N.mod_lt; discriminate).
  reflexivity.
Qed.

Lemma i96_negative_mod n : i96_negative n = (2 ^ 95 <=? n mod 2 ^ 96)%N.
Proof.
  rewrite i96_high. change (2 ^ 95)%N with (2 ^ 64 * 2 ^ 31)%N.
  apply leb_top_digit; [apply N.mod_lt|]; discriminate.
Qed.

Lemma cmp_i96_key a b : cmp_i96 a b = cmpZ (i96_key a) (i96_key b).
Proof.
  rewrite cmpZ_ltb. unfold cmp_i96, i96_less, i96_key, sintZ.
  rewrite !i96_negative_mod, !i96_words_less_mod.
  pose proof (N.mod_lt a (2 ^ 96) ltac:(discriminate)) as Ha.
  pose proof (N.mod_lt b (2 ^ 96) ltac:(discriminate)) as Hb.
  change (2 ^ (96 - 1))%N with (2 ^ 95)%N.
  change (2 ^ Z.of_N 96) with (2 * Z.of_N (2 ^ 95)).
  rewrite <- !(signed_ltb (2 ^ 95)) by assumption. reflexivity.
Qed.

Lemma cmp_i96_opp a b : cmp_i96 a b < 0 <-> cmp_i96 b a > 0.
Proof. rewrite !cmp_i96_key. apply cmpZ_opp. Qed.
Lemma cmp_i96_trans a b d : cmp_i96 a b <= 0 -> cmp_i96 b d <= 0 -> cmp_i96 a d <= 0.
Proof. rewrite !cmp_i96_key. apply cmpZ_trans. Qed.

Lemma i96_key_small n : (n < 2 ^ 96)%N -> i96_key n = sintZ 96 n.
Proof. intros H. unfold i96_key. rewrite N.mod_small by exact H. reflexivity. Qed.

Lemma cmp_uint_ltb x y r :
  (if (x <? y)%N then -1 else if (y <? x)%N then 1 else r) = lexz (cmp_uint x y) r.
Proof.
  unfold cmp_uint, cmpZ, N.ltb. rewrite N2Z.inj_compare, (N.compare_antisym x y).
  destruct (x ?= y)%N; reflexivity.
Qed.

Definition be128_key (a : bytes) : N * N := (of_be (firstn 8 a), of_be (skipn 8 a)).

Lemma cmp_be128_lex a b :
  cmp_be128 a b = lexz (cmp_uint (fst (be128_key a)) (fst (be128_key b)))
                       (cmp_uint (snd (be128_key a)) (snd (be128_key b))).
Proof.
  unfold cmp_be128. cbv zeta. rewrite !cmp_uint_ltb, lexz_0_r. reflexivity.
Qed.

Lemma cmp_be128_opp a b : cmp_be128 a b < 0 <-> cmp_be128 b a > 0.
Proof.
  rewrite !cmp_be128_lex.
  apply (lexz_opp _ (fun a b => cmp_uint (fst (be128_key a)) (fst (be128_key b)))).
  - intros x y. apply cmp_uint_opp.
  - apply cmp_uint_opp.
Qed.

Lemma cmp_be128_trans a b d : cmp_be128 a b <= 0 -> cmp_be128 b d <= 0 -> cmp_be128 a d <= 0.
Proof.
  rewrite !cmp_be128_lex.
  apply (lexz_trans _ (fun a b => cmp_uint (fst (be128_key a)) (fst (be128_key b)))
                   (fun x y => cmp_uint_opp _ _) (fun _ => True)
                   (fun x y z _ _ _ => cmp_uint_trans _ _ _) a b d); auto.
  apply cmp_uint_trans.
Qed.

Lemma of_be_bound l : wf_bytes l -> (of_be l < 256 ^ N.of_nat (length l))%N.
Proof.
  induction 1 as [|b r Hb Hr IH]; cbn [of_be length].
  - cbn. lia.
  - rewrite Nat2N.inj_succ, N.pow_succ_r'. nia.
Qed.

Lemma cmp_bytes_of_be a : forall b, length a = length b -> wf_bytes a -> wf_bytes b ->
  cmp_bytes a b = cmpZ (Z.of_N (of_be a)) (Z.of_N (of_be b)).
Proof.
  induction a as [|x a IH]; intros [|y b] Hl Ha Hb; try discriminate.
  - reflexivity.
  - apply Forall_cons_iff in Ha, Hb. injection Hl as Hl.
    cbn [cmp_bytes of_be]. rewrite IH by tauto.
    unfold cmpZ. rewrite !N2Z.inj_compare, <- Hl.
    rewrite !(N.add_comm (_ * _)), !(N.mul_comm _ (256 ^ _)), compare_digits.
    + destruct (x ?= y)%N; reflexivity.
    + apply of_be_bound, Ha.
    + rewrite Hl. apply of_be_bound, Hb.
Qed.

Lemma cmp_bytes_app a1 : forall b1 a2 b2, length a1 = length b1 ->
  cmp_bytes (a1 ++ a2) (b1 ++ b2) = lexz (cmp_bytes a1 b1) (cmp_bytes a2 b2).
Proof.
  induction a1 as [|x a1 IH]; intros [|y b1] a2 b2 Hl; try discriminate.
  - reflexivity.
  - cbn [app cmp_bytes]. destruct (N.compare x y); try reflexivity.
    apply IH. injection Hl as Hl. exact Hl.
Qed.

Theorem cmp_be128_lexicographic a b :
  length a = 16%nat -> length b = 16%nat -> wf_bytes a -> wf_bytes b ->
  cmp_be128 a b = cmp_bytes a b.
Proof.
  intros La Lb Wa Wb.
  rewrite <- (firstn_skipn 8 a) in Wa |- * at 2. rewrite <- (firstn_skipn 8 b) in Wb |- * at 2.
  apply wf_bytes_app in Wa, Wb.
  rewrite cmp_bytes_app by (rewrite !firstn_length; lia).
  rewrite (cmp_bytes_of_be (firstn 8 a) (firstn 8 b)) by (try (rewrite !firstn_length; lia); tauto).
  rewrite (cmp_bytes_of_be (skipn 8 a) (skipn 8 b)) by (try (rewrite !skipn_length; lia); tauto).
  apply cmp_be128_lex.
Qed.

Lemma cmp_bytes_eq a : forall b, cmp_bytes a b = 0 <-> a = b.
Proof.
  induction a as [|x a IH]; intros [|y b]; cbn; try (split; [lia|discriminate]).
  - tauto.
  - destruct (N.compare_spec x y) as [E|L|G].
    + subst. rewrite IH. split; [intros ->; reflexivity|intros H; injection H; auto].
    + split; [lia|]. intros H. injection H as H1 _. lia.
    + split; [lia|]. intros H. injection H as H1 _. lia.
Qed.

Lemma cmp_bytes_refl a : cmp_bytes a a = 0.
Proof. apply cmp_bytes_eq. reflexivity. Qed.

Lemma cmp_num_opp k a b : cmp_num k a b < 0 <-> cmp_num k b a > 0.
Proof.
  destruct k; cbn [cmp_num];
    first [apply cmp_uint_opp | apply cmp_sint_opp | apply cmp_float_opp | apply cmp_i96_opp].
Qed.

Lemma cmp_num_trans k a b d : nan_num k b = false ->
  cmp_num k a b <= 0 -> cmp_num k b d <= 0 -> cmp_num k a d <= 0.
Proof.
  destruct k; cbn [cmp_num nan_num]; intros Hb;
    first [apply cmp_uint_trans | apply cmp_sint_trans | apply cmp_i96_trans
          | apply cmp_float_trans; exact Hb].
Qed.

Lemma cmp_num_nan k a b : nan_num k a = true -> cmp_num k a b = 0 /\ cmp_num k b a = 0.
Proof.
  destruct k; cbn [cmp_num nan_num]; try discriminate; intros H; split;
    first [apply cmp_float_nan_l; exact H | apply cmp_float_nan_r; exact H].
Qed.
