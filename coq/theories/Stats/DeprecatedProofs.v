(** Proofs about Stats/Deprecated.v: the deprecated min / max of the column
    chunk statistics are the chunk's min_value / max_value when the option is
    set (whatever the pages: also when a later page moves a bound), absent
    otherwise. *)
From Coq Require Import List NArith ZArith Bool.
From PQ Require Import Stats.Model Stats.Deprecated.
Import ListNotations.
Open Scope Z_scope.

Section Deprecated.
  Variable V : Type.
  Variable cmp : V -> V -> Z.
  Variable nan : V -> bool.

  Lemma record_page_dep_inv : forall dep st p,
    record_page_dep cmp nan dep (st, dep_of_bounds dep (cs_bounds st)) p =
    (record_page cmp nan st p, dep_of_bounds dep (cs_bounds (record_page cmp nan st p))).
  Proof.
    intros dep st p. unfold record_page_dep, record_page, record_page_gen, dep_of_bounds.
    destruct (pi_bounds p) as [[mn mx]|]; destruct (cs_bounds st) as [[emn emx]|]; destruct dep; simpl; try reflexivity.
    destruct (replaces_nan_bound nan mx emx || (cmp mx emx >? 0));
    destruct (replaces_nan_bound nan mn emn || (cmp mn emn <? 0)); reflexivity.
  Qed.

  Lemma fold_dep_inv : forall dep ps st,
    fold_left (record_page_dep cmp nan dep) ps (st, dep_of_bounds dep (cs_bounds st)) =
    (fold_left (record_page cmp nan) ps st,
     dep_of_bounds dep (cs_bounds (fold_left (record_page cmp nan) ps st))).
  Proof.
    intros dep ps. induction ps as [|p ps IH]; intros st; cbn [fold_left].
    - reflexivity.
    - rewrite record_page_dep_inv. apply IH.
  Qed.

  Lemma chunk_fold_dep_spec : forall dep ps,
    chunk_fold_dep cmp nan dep ps =
    (chunk_fold cmp nan ps, dep_of_bounds dep (cs_bounds (chunk_fold cmp nan ps))).
  Proof.
    intros dep ps. unfold chunk_fold_dep, chunk_fold.
    replace (@None V, @None V) with (dep_of_bounds dep (cs_bounds (@chunk_empty V))).
    - apply fold_dep_inv.
    - unfold dep_of_bounds. destruct dep; reflexivity.
  Qed.
End Deprecated.

Lemma dep_true_match (V : Type) (P : V -> V -> Prop) (Q : Prop) (b : option (V * V)) :
  match b with Some (mn, mx) => P mn mx | None => Q end ->
  match dep_of_bounds true b with (Some mn, Some mx) => P mn mx | (None, None) => Q | _ => False end.
Proof. destruct b as [[mn mx]|]; simpl; auto. Qed.

Lemma chunk_dep_num_spec : forall k dep ps,
  chunk_dep_num k dep ps = dep_of_bounds dep (cs_bounds (chunk_num k ps)).
Proof. intros. unfold chunk_dep_num, chunk_num. rewrite chunk_fold_dep_spec. reflexivity. Qed.

Lemma chunk_dep_byte_spec : forall k dep ps,
  chunk_dep_byte k dep ps = dep_of_bounds dep (cs_bounds (chunk_byte k ps)).
Proof. intros. unfold chunk_dep_byte, chunk_byte. rewrite chunk_fold_dep_spec. reflexivity. Qed.

Theorem chunk_deprecated_absent_num k ps : chunk_dep_num k false ps = (None, None).
Proof. rewrite chunk_dep_num_spec. reflexivity. Qed.
Theorem chunk_deprecated_absent_byte k ps : chunk_dep_byte k false ps = (None, None).
Proof. rewrite chunk_dep_byte_spec. reflexivity. Qed.
