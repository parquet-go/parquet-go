(** The theorems of Stats/Proofs.v for the column kinds of parquet-go: every
    numeric kind (boolean, signed and unsigned 32/64-bit integers, FLOAT,
    DOUBLE, INT96) and the byte kinds BYTE_ARRAY, FIXED_LEN_BYTE_ARRAY and
    128-bit big-endian.  Binary DECIMAL columns are in Stats/Decimal.v. *)
From Coq Require Import List NArith ZArith Bool Arith Lia.
From Coq Require Import ZifyN ZifyNat ZifyBool.
From PQ Require Import Base.Bytes Base.Order Search.Model Search.Proofs
     Stats.Order Stats.OrderProofs Stats.Model Stats.Proofs Stats.Instances.
Import ListNotations.
Open Scope Z_scope.

Theorem num_chunk_stats_sound k ps valss :
  Forall2 (page_sound N (cmp_num k) (nan_num k)) ps valss ->
  match cs_bounds (chunk_num k ps) with
  | None => concat valss = []
  | Some (mn, mx) =>
      within N (cmp_num k) (nan_num k) mn mx (concat valss) /\
      In mn (concat valss) /\ In mx (concat valss) /\
      (has_value N (nan_num k) (concat valss) -> nan_num k mn = false /\ nan_num k mx = false)
  end.
Proof.
  exact (chunk_stats_sound N (cmp_num k) (nan_num k) (cmp_num_opp k) (cmp_num_trans k) (cmp_num_nan k)
                           ps valss).
Qed.

(* pages given by their values: the premise of the chunk theorem holds *)
Lemma pages_of_values_sound V cmp nan
      (O : forall a b : V, cmp a b < 0 <-> cmp b a > 0)
      (T : forall a b d : V, nan b = false -> cmp a b <= 0 -> cmp b d <= 0 -> cmp a d <= 0)
      (NN : forall a b : V, nan a = true -> cmp a b = 0 /\ cmp b a = 0)
      sw (pages : list (list (option V))) :
  Forall2 (page_sound V cmp nan) (map (page_of_values cmp nan sw) pages) (map (@non_nulls V) pages).
Proof.
  induction pages as [|l pages IH]; cbn [map]; constructor; [|exact IH].
  unfold page_sound, page_of_values. cbn [pi_bounds].
  destruct (page_bounds cmp nan sw (non_nulls l)) as [[mn mx]|] eqn:B.
  - exact (page_bounds_sound V cmp nan O T NN sw _ _ _ B).
  - apply page_bounds_none in B. exact B.
Qed.

Theorem num_boundary_order_true k ps : order_claim_true N (cmp_num k) (index_num k ps).
Proof.
  exact (boundary_order_true N (cmp_num k) (nan_num k) (cmp_num_opp k) (cmp_num_trans k) (cmp_num_nan k)
           0%N (fun v => v) (fun v => v) (order_num k)
           (order_num_sound k) (order_num_range k) (order_num_nan_free k) ps).
Qed.

Lemma cmp_num_refl k v : cmp_num k v v <= 0.
Proof. exact (cmp_refl_le _ _ (cmp_num_opp k) v). Qed.

Definition lex_opp := cmp_bytes_opp.
Definition lex_trans := no_nan_trans bytes cmp_bytes cmp_bytes_trans.
Definition lex_nan := no_nan_nan bytes cmp_bytes.

Lemma order_of_bytes_sound : order_sound bytes cmp_bytes order_of_bytes.
Proof.
  exact (order_of_streak_sound bytes cmp_bytes no_nan lex_opp lex_trans lex_nan (fun _ => eq_refl)).
Qed.

Lemma order_of_bytes_range l : order_of_bytes l = 1 \/ order_of_bytes l = -1 \/ order_of_bytes l = 0.
Proof. apply order_of_streak_range. Qed.

Lemma order_of_bytes_nan_free (l : list bytes) :
  order_of_bytes l <> 0 -> Forall (fun x => @no_nan bytes x = false) l.
Proof. intros _. apply forall_const_false. Qed.

Theorem bytes_page_bounds_sound sw l mn mx :
  page_bounds cmp_bytes no_nan sw l = Some (mn, mx) ->
  within bytes cmp_bytes no_nan mn mx l /\ In mn l /\ In mx l.
Proof.
  intros H. destruct (page_bounds_sound bytes cmp_bytes no_nan lex_opp lex_trans lex_nan sw l mn mx H)
    as (W & I1 & I2 & _). auto.
Qed.

Theorem be128_page_bounds_sound l mn mx :
  bounds_byte BBe128 l = Some (mn, mx) ->
  within bytes cmp_be128 no_nan mn mx l /\ In mn l /\ In mx l.
Proof.
  intros H.
  destruct (page_bounds_sound bytes cmp_be128 no_nan cmp_be128_opp
              (no_nan_trans bytes cmp_be128 cmp_be128_trans) (no_nan_nan bytes cmp_be128)
              false l mn mx H) as (W & I1 & I2 & _). auto.
Qed.

Theorem bytes_chunk_stats_sound ps valss :
  Forall2 (page_sound bytes cmp_bytes no_nan) ps valss ->
  match cs_bounds (chunk_fold cmp_bytes no_nan ps) with
  | None => concat valss = []
  | Some (mn, mx) =>
      within bytes cmp_bytes no_nan mn mx (concat valss) /\ In mn (concat valss) /\ In mx (concat valss)
  end.
Proof.
  intros F. pose proof (chunk_stats_sound bytes cmp_bytes no_nan lex_opp lex_trans lex_nan ps valss F) as H.
  revert H. unfold bytes. destruct (cs_bounds (chunk_fold cmp_bytes no_nan ps)) as [[mn mx]|]; intros H; [|exact H].
  destruct H as (W & I1 & I2 & _). auto.
Qed.

(* the indexer of each byte kind written as the generic one *)
Definition byte_pages_ok (k : bytekind) (ps : list (page_info bytes)) : Prop :=
  match k with
  | BFlba size => (0 < size)%nat /\ Forall (flba_page_ok size) ps
  | _ => True
  end.

Definition byte_zero (k : bytekind) : bytes :=
  match k with BFlba size => zeros size | BBe128 => zeros 16 | _ => [] end.
Definition byte_tmin (k : bytekind) (limit : Z) : bytes -> bytes :=
  match k with
  | BBytes => limit_min limit
  | BFlba _ => flba_tmin (if 0 <? limit then Z.to_nat limit else O)
  | _ => fun v => v
  end.
Definition byte_tmax (k : bytekind) (limit : Z) : bytes -> bytes :=
  match k with
  | BBytes => limit_max limit
  | BFlba _ => flba_tmax (if 0 <? limit then Z.to_nat limit else O)
  | _ => fun v => v
  end.
Definition byte_ord (k : bytekind) : list bytes -> Z :=
  match k with BDecimal => order_of_streak cmp_decimal | _ => order_of_bytes end.

Lemma index_byte_generic k limit ps : byte_pages_ok k ps ->
  index_byte k limit ps = index_pages (byte_zero k) (byte_tmin k limit) (byte_tmax k limit) (byte_ord k) ps.
Proof.
  destruct k; cbn [index_byte byte_pages_ok byte_zero byte_tmin byte_tmax byte_ord]; try reflexivity.
  intros [Hs F]. apply flba_indexer_generic; assumption.
Qed.

Theorem byte_boundary_order_true k limit ps : k <> BDecimal -> byte_pages_ok k ps ->
  order_claim_true bytes cmp_bytes (index_byte k limit ps).
Proof.
  intros Hk H. rewrite (index_byte_generic k limit ps H).
  assert (E : byte_ord k = order_of_bytes) by (destruct k; try reflexivity; congruence).
  rewrite E.
  exact (boundary_order_true bytes cmp_bytes no_nan lex_opp lex_trans lex_nan _ _ _ order_of_bytes
           order_of_bytes_sound order_of_bytes_range order_of_bytes_nan_free ps).
Qed.

Lemma byte_tmin_lower k limit v : cmp_bytes (byte_tmin k limit v) v <= 0.
Proof.
  destruct k; cbn [byte_tmin];
    first [apply limit_min_lower | apply flba_tmin_lower | rewrite cmp_bytes_refl; lia].
Qed.

Lemma byte_tmax_upper k limit v : wf_bytes v -> cmp_bytes v (byte_tmax k limit v) <= 0.
Proof.
  intros W. destruct k; cbn [byte_tmax];
    first [apply limit_max_upper; exact W | apply flba_tmax_upper; exact W | rewrite cmp_bytes_refl; lia].
Qed.

(* pages of a lexicographically ordered kind given by their values; values of a
   FIXED_LEN_BYTE_ARRAY column have the size of the column *)
Definition byte_value_ok (k : bytekind) (v : bytes) : Prop :=
  wf_bytes v /\ match k with BFlba size => (0 < size)%nat /\ length v = size | _ => True end.

Lemma flba_pages_of_values_ok size sw (pages : list (list (option bytes))) :
  (forall vals x, In vals pages -> In (Some x) vals -> length x = size) ->
  Forall (flba_page_ok size) (map (page_of_values cmp_bytes no_nan sw) pages).
Proof.
  intros H. rewrite Forall_map. apply Forall_forall. intros vals Hin.
  unfold flba_page_ok, page_of_values. cbn [pi_bounds].
  destruct (page_bounds cmp_bytes no_nan sw (non_nulls vals)) as [[mn mx]|] eqn:B; [|exact I].
  destruct (bytes_page_bounds_sound sw _ _ _ B) as (_ & I1 & I2).
  split; apply (H vals); auto; apply (non_nulls_in bytes); assumption.
Qed.

Theorem byte_skip_safe k limit (pages : list (list (option bytes))) p vals v :
  k = BBytes \/ (exists size, k = BFlba size) ->
  (forall vals x, In vals pages -> In (Some x) vals -> byte_value_ok k x) ->
  nth_error pages p = Some vals -> In (Some v) vals ->
  may_skip cmp_bytes
    (index_byte k limit (map (page_of_values cmp_bytes no_nan (match k with BBytes => true | _ => false end)) pages))
    p v = false.
Proof.
  intros Hk Hok Hp Hv.
  set (sw := match k with BBytes => true | _ => false end).
  assert (Hpages : byte_pages_ok k (map (page_of_values cmp_bytes no_nan sw) pages)).
  { destruct Hk as [->|[size ->]]; cbn [byte_pages_ok]; [exact I|].
    assert (Hin : In vals pages) by (eapply nth_error_In; eauto).
    destruct (Hok vals v Hin Hv) as (_ & Hs & _). split; [exact Hs|].
    apply flba_pages_of_values_ok. intros vs x H1 H2. destruct (Hok vs x H1 H2) as (_ & _ & L). exact L. }
  rewrite (index_byte_generic k limit _ Hpages).
  assert (E : byte_ord k = order_of_bytes) by (destruct Hk as [->|[size ->]]; reflexivity).
  rewrite E.
  apply (skip_safe bytes cmp_bytes no_nan lex_opp lex_trans lex_nan _ _ _ order_of_bytes
           order_of_bytes_range order_of_bytes_nan_free wf_bytes
           (fun v _ => byte_tmin_lower k limit v) (fun v W => byte_tmax_upper k limit v W)
           sw pages p vals v Hp); auto.
  intros x Hx. assert (Hin : In vals pages) by (eapply nth_error_In; eauto).
  destruct (Hok vals x Hin Hx) as [W _]. exact W.
Qed.

Theorem be128_skip_safe (pages : list (list (option bytes))) p vals v :
  nth_error pages p = Some vals -> In (Some v) vals ->
  may_skip cmp_be128 (index_byte BBe128 0 (map (page_of_values cmp_be128 no_nan false) pages)) p v = false.
Proof.
  intros Hp Hv. cbn [index_byte].
  pose proof (cmp_refl_le _ _ cmp_be128_opp) as R.
  apply (skip_safe bytes cmp_be128 no_nan cmp_be128_opp
           (no_nan_trans bytes cmp_be128 cmp_be128_trans) (no_nan_nan bytes cmp_be128)
           (zeros 16) (fun v => v) (fun v => v) order_of_bytes
           order_of_bytes_range order_of_bytes_nan_free (fun _ => True)
           (fun v _ => R v) (fun v _ => R v) false pages p vals v Hp); auto.
Qed.

Theorem claim_discharges_search_hypothesis V (cmp : V -> V -> Z) (ci : col_index V) :
  order_claim_true V cmp ci ->
  well_formed V cmp (ci_order ci =? 1) (to_search_index ci).
Proof.
  intros H Hasc. apply Z.eqb_eq in Hasc. apply (claim_gives_nonnull V cmp ci H), Hasc.
Qed.

Theorem num_counts_exact (k : numkind) (pages : list (list (option N))) i vals :
  nth_error pages i = Some vals ->
  let ci := index_num k (map (page_of_values (cmp_num k) (nan_num k) false) pages) in
  nth_error (ci_null_counts ci) i = Some (Z.of_nat (count_nulls vals)) /\
  exists flag, nth_error (ci_null_pages ci) i = Some flag /\
               (flag = true <-> Forall (fun o => o = None) vals).
Proof.
  intros H.
  pose proof (map_nth_error (page_of_values (cmp_num k) (nan_num k) false) i pages H) as Hq.
  destruct (index_counts_exact N 0%N (fun v => v) (fun v => v) (order_num k) _ _ _ Hq) as (H1 & H2 & _).
  destruct (page_of_values_counts N (cmp_num k) (nan_num k) false vals) as (_ & E2 & E3).
  cbv zeta. unfold index_num. split.
  - rewrite H1, E2. reflexivity.
  - eexists. split; [exact H2|exact E3].
Qed.

