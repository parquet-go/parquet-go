(** Proofs about Stats/Multi.v: when multiColumnIndex.isOrdered answers true
    and the claims of the chunks' own indexes are true, then the claim is true
    of all the pages of the concatenated index — over every pair of non-null
    pages, across any number of chunk boundaries and of chunks holding only
    null pages (the hypothesis [ascending_nonnull] that Find relies on). *)
From Coq Require Import List ZArith Bool Arith Lia.
From PQ Require Import Base.Order Search.Model Search.Proofs Stats.Multi.
Import ListNotations.
Open Scope Z_scope.

(** * The argument, for an order [c] and the two ends [lo], [hi] of a page
      (min, max for an ascending index; max, min with the reversed order for a
      descending one) *)
Section Generic.
  Variable V : Type.
  Variable c : V -> V -> Z.
  Variable nan : V -> bool.
  Variable lo hi : V * V -> V.
  Hypothesis c_refl : forall a, c a a <= 0.
  Hypothesis c_trans : forall a b d, nan b = false -> c a b <= 0 -> c b d <= 0 -> c a d <= 0.

  Definition R (a b : V * V) : Prop := c (lo a) (lo b) <= 0 /\ c (hi a) (hi b) <= 0.
  Definition ok (b : V * V) : Prop := nan (lo b) = false /\ nan (hi b) = false /\ c (lo b) (hi b) <= 0.

  (* the bounds of the non-null pages *)
  Fixpoint nn (idx : index V) : list (V * V) :=
    match idx with
    | [] => []
    | Some b :: r => b :: nn r
    | None :: r => nn r
    end.

  Definition asc_gen (idx : index V) : Prop :=
    forall i j bi bj, (i < j)%nat ->
      nth_error idx i = Some (Some bi) -> nth_error idx j = Some (Some bj) -> R bi bj.

  Lemma nn_in idx b : In b (nn idx) <-> exists j, nth_error idx j = Some (Some b).
  Proof.
    induction idx as [|[x|] r IH]; cbn [nn].
    - split; [intros []|intros [j H]; destruct j; discriminate].
    - split.
      + intros [E|H]; [exists 0%nat; subst; reflexivity|].
        apply IH in H. destruct H as [j H]. exists (S j). exact H.
      + intros [[|j] H]; cbn in H; [injection H as ->; left; reflexivity|].
        right. apply IH. exists j. exact H.
    - rewrite IH. split; intros [j H]; [exists (S j); exact H|].
      destruct j; [discriminate|exists j; exact H].
  Qed.

  Lemma asc_gen_fop idx : asc_gen idx <-> ForallOrdPairs R (nn idx).
  Proof.
    induction idx as [|[x|] r IH]; cbn [nn].
    - split; [constructor|intros _ i j bi bj _ H; destruct i; discriminate].
    - split.
      + intros H. constructor.
        * apply Forall_forall. intros b Hb. apply nn_in in Hb. destruct Hb as [j Hj].
          apply (H 0%nat (S j)); [lia|reflexivity|exact Hj].
        * apply IH. intros i j bi bj Hij Hi Hj. apply (H (S i) (S j)); [lia|exact Hi|exact Hj].
      + intros H. inversion H as [|a l Hall Hrest]; subst. intros i j bi bj Hij Hi Hj.
        destruct j as [|j]; [lia|]. destruct i as [|i]; cbn in Hi, Hj.
        * injection Hi as <-. rewrite Forall_forall in Hall. apply Hall. apply nn_in. exists j. exact Hj.
        * apply IH in Hrest. apply (Hrest i j); [lia|assumption|assumption].
    - rewrite <- IH. split; intros H i j bi bj Hij Hi Hj.
      + apply (H (S i) (S j)); [lia|exact Hi|exact Hj].
      + destruct i as [|i]; [discriminate|]. destruct j as [|j]; [lia|].
        apply (H i j); [lia|exact Hi|exact Hj].
  Qed.

  Lemma fop_app (l1 l2 : list (V * V)) :
    ForallOrdPairs R (l1 ++ l2) <->
    ForallOrdPairs R l1 /\ ForallOrdPairs R l2 /\ (forall a b, In a l1 -> In b l2 -> R a b).
  Proof.
    induction l1 as [|x l1 IH]; cbn [app].
    - split.
      + intros H. split; [constructor|]. split; [exact H|intros a b []].
      + intros (_ & H & _). exact H.
    - split.
      + intros H. inversion H as [|a l Hall Hrest]; subst. apply IH in Hrest.
        destruct Hrest as (H1 & H2 & H3). apply Forall_app in Hall. destruct Hall as [Ha1 Ha2].
        split; [constructor; assumption|]. split; [assumption|].
        intros a b [<-|Ha] Hb.
        * rewrite Forall_forall in Ha2. apply Ha2. exact Hb.
        * apply H3; assumption.
      + intros (H1 & H2 & H3). inversion H1 as [|a l Hall Hrest]; subst. constructor.
        * apply Forall_app. split; [exact Hall|]. apply Forall_forall. intros b Hb.
          apply H3; [left; reflexivity|exact Hb].
        * apply IH. split; [exact Hrest|]. split; [exact H2|].
          intros a b Ha Hb. apply H3; [right; exact Ha|exact Hb].
  Qed.

  Lemma nn_app a b : nn (a ++ b) = nn a ++ nn b.
  Proof. induction a as [|[x|] a IH]; cbn; [reflexivity|rewrite IH; reflexivity|exact IH]. Qed.

  Lemma nn_rev idx : nn (rev idx) = rev (nn idx).
  Proof.
    induction idx as [|[x|] r IH]; cbn [rev nn]; [reflexivity| |].
    - rewrite nn_app, IH. reflexivity.
    - rewrite nn_app, IH. cbn. apply app_nil_r.
  Qed.

  Lemma nn_concat chunks : nn (concat chunks) = concat (map nn chunks).
  Proof. induction chunks as [|x r IH]; cbn; [reflexivity|rewrite nn_app, IH; reflexivity]. Qed.

  Lemma first_nonnull_hd idx : first_nonnull idx = hd_error (nn idx).
  Proof. induction idx as [|[x|] r IH]; cbn; [reflexivity|reflexivity|exact IH]. Qed.

  (* the loop of isOrdered over the lists of non-null bounds *)
  Fixpoint gb (prev : option V) (L : list (list (V * V))) : bool :=
    match L with
    | [] => true
    | l :: rest =>
        match hd_error l with
        | Some f =>
            match hd_error (rev l) with
            | Some la =>
                match prev with
                | Some p => if c p (lo f) >? 0 then false else gb (Some (hi la)) rest
                | None => gb (Some (hi la)) rest
                end
            | None => gb prev rest
            end
        | None => gb prev rest
        end
    end.

  Lemma ok_concat (L : list (list (V * V))) :
    Forall (fun l => ForallOrdPairs R l /\ Forall ok l) L -> forall b, In b (concat L) -> ok b.
  Proof.
    intros HL b Hb. apply in_concat in Hb. destruct Hb as (l & Hl & Hb).
    rewrite Forall_forall in HL. destruct (HL l Hl) as [_ Hok].
    rewrite Forall_forall in Hok. apply Hok. exact Hb.
  Qed.

  Lemma gb_sound L : forall prev,
    Forall (fun l => ForallOrdPairs R l /\ Forall ok l) L ->
    gb prev L = true ->
    ForallOrdPairs R (concat L) /\
    (forall p, prev = Some p -> forall b, In b (concat L) -> c p (lo b) <= 0).
  Proof.
    induction L as [|l rest IH]; intros prev HL Hg; cbn [concat].
    - split; [constructor|intros p _ b []].
    - inversion HL as [|l0 rest0 [Hfop Hok] HL']; subst. cbn [gb] in Hg.
      destruct l as [|f t].
      + cbn [hd_error] in Hg. cbn [app]. apply IH; assumption.
      + cbn [hd_error] in Hg.
        assert (Hlast : exists l' la, f :: t = l' ++ [la] /\ hd_error (rev (f :: t)) = Some la).
        { destruct (rev (f :: t)) as [|x r] eqn:E.
          - apply (f_equal (@length _)) in E. rewrite rev_length in E. discriminate.
          - exists (rev r), x. split; [|reflexivity].
            rewrite <- (rev_involutive (f :: t)), E. reflexivity. }
        destruct Hlast as (l' & la & El' & Hla). rewrite Hla in Hg.
        assert (Hgrest : gb (Some (hi la)) rest = true /\ (forall p, prev = Some p -> c p (lo f) <= 0)).
        { destruct prev as [p|].
          - destruct (Z.gtb_spec (c p (lo f)) 0) as [G|G]; [discriminate|].
            split; [exact Hg|]. intros p' E. injection E as <-. lia.
          - split; [exact Hg|intros p' E; discriminate]. }
        destruct Hgrest as [Hg' Hp].
        destruct (IH _ HL' Hg') as [IH1 IH2].
        assert (Hf : forall a, In a (f :: t) -> c (lo f) (lo a) <= 0).
        { intros a [<-|Ha]; [apply c_refl|].
          inversion Hfop as [|a0 l0 Hall _]; subst. rewrite Forall_forall in Hall.
          apply Hall. exact Ha. }
        assert (Hl : forall a, In a (f :: t) -> c (hi a) (hi la) <= 0).
        { intros a Ha. rewrite El' in Ha, Hfop. apply in_app_or in Ha.
          destruct Ha as [Ha|[<-|[]]]; [|apply c_refl].
          apply fop_app in Hfop. destruct Hfop as (_ & _ & H3).
          apply H3; [exact Ha|left; reflexivity]. }
        rewrite Forall_forall in Hok.
        assert (Hokla : ok la).
        { apply Hok. rewrite El'. apply in_or_app. right. left. reflexivity. }
        destruct Hokla as (Nl1 & Nl2 & Nl3).
        assert (Hokf : ok f) by (apply Hok; left; reflexivity).
        destruct Hokf as (Nf1 & Nf2 & Nf3).
        split.
        * apply fop_app. split; [exact Hfop|]. split; [exact IH1|].
          intros a b Ha Hb. destruct (Hok a Ha) as (Na1 & Na2 & Na3).
          destruct (ok_concat rest HL' b Hb) as (Nb1 & Nb2 & Nb3).
          assert (Hb1 : c (hi la) (lo b) <= 0) by (apply (IH2 (hi la)); [reflexivity|exact Hb]).
          assert (H1 : c (hi a) (lo b) <= 0).
          { apply (c_trans _ (hi la)); [exact Nl2|apply Hl; exact Ha|exact Hb1]. }
          split.
          -- apply (c_trans _ (hi a)); [exact Na2|exact Na3|exact H1].
          -- apply (c_trans _ (lo b)); [exact Nb1|exact H1|exact Nb3].
        * intros p Ep b Hb. apply in_app_or in Hb. destruct Hb as [Hb|Hb].
          -- apply (c_trans _ (lo f)); [exact Nf1|apply Hp; exact Ep|apply Hf; exact Hb].
          -- assert (H1 : c (lo f) (hi la) <= 0).
             { apply (c_trans _ (hi f)); [exact Nf2|exact Nf3|apply Hl; left; reflexivity]. }
             assert (H2 : c (lo f) (lo b) <= 0).
             { apply (c_trans _ (hi la)); [exact Nl2|exact H1|].
               apply (IH2 (hi la)); [reflexivity|exact Hb]. }
             apply (c_trans _ (lo f)); [exact Nf1|apply Hp; exact Ep|exact H2].
  Qed.

  (* the chunks' own claims are true and their non-null pages have proper bounds *)
  Definition page_ok_gen (p : option (V * V)) : Prop :=
    match p with Some b => ok b | None => True end.

  Lemma nn_ok idx : Forall page_ok_gen idx -> Forall ok (nn idx).
  Proof.
    induction 1 as [|[b|] r Hp _ IH]; cbn [nn]; [constructor|constructor; assumption|exact IH].
  Qed.

  Theorem gb_gives_asc_gen (chunks : list (index V)) :
    Forall (Forall page_ok_gen) chunks ->
    Forall asc_gen chunks ->
    gb None (map nn chunks) = true ->
    asc_gen (concat chunks).
  Proof.
    intros Hok Hasc Hg. apply asc_gen_fop. rewrite nn_concat.
    apply (gb_sound (map nn chunks) None); [|exact Hg].
    apply Forall_map. rewrite Forall_forall in *. intros idx Hin. split.
    - apply asc_gen_fop. apply Hasc. exact Hin.
    - apply nn_ok. apply Hok. exact Hin.
  Qed.
End Generic.

Section MultiOrder.
  Variable V : Type.
  Variable cmp : V -> V -> Z.
  Variable nan : V -> bool.
  Hypothesis cmp_opp : forall a b, cmp a b < 0 <-> cmp b a > 0.
  Hypothesis cmp_trans : forall a b d, nan b = false -> cmp a b <= 0 -> cmp b d <= 0 -> cmp a d <= 0.

  Definition rcmp (a b : V) : Z := cmp b a.

  Lemma rcmp_trans a b d : nan b = false -> rcmp a b <= 0 -> rcmp b d <= 0 -> rcmp a d <= 0.
  Proof. unfold rcmp. intros N H1 H2. apply (cmp_trans d b a); assumption. Qed.

  (* the bounds of a non-null page: not NaN, min <= max *)
  Definition page_ok (p : option (V * V)) : Prop :=
    match p with
    | Some (mn, mx) => nan mn = false /\ nan mx = false /\ cmp mn mx <= 0
    | None => True
    end.

  Lemma boundaries_asc chunks : forall prev,
    boundaries_ordered cmp true prev chunks = gb V cmp fst snd prev (map (nn V) chunks).
  Proof.
    induction chunks as [|idx rest IH]; intros prev; cbn [boundaries_ordered gb map]; [reflexivity|].
    unfold last_nonnull. rewrite !first_nonnull_hd, nn_rev.
    destruct (hd_error (nn V idx)) as [[fmin fmax]|]; [|apply IH].
    destruct (hd_error (rev (nn V idx))) as [[lmin lmax]|]; [|apply IH].
    cbn [fst snd]. destruct prev as [p|]; [|apply IH].
    destruct (cmp p fmin >? 0); [reflexivity|apply IH].
  Qed.

  Lemma boundaries_desc chunks : forall prev,
    boundaries_ordered cmp false prev chunks = gb V rcmp snd fst prev (map (nn V) chunks).
  Proof.
    induction chunks as [|idx rest IH]; intros prev; cbn [boundaries_ordered gb map]; [reflexivity|].
    unfold last_nonnull. rewrite !first_nonnull_hd, nn_rev.
    destruct (hd_error (nn V idx)) as [[fmin fmax]|]; [|apply IH].
    destruct (hd_error (rev (nn V idx))) as [[lmin lmax]|]; [|apply IH].
    cbn [fst snd]. destruct prev as [p|]; [|apply IH].
    unfold rcmp at 1. rewrite <- (cmp_gtb_ltb _ _ cmp_opp).
    destruct (cmp fmax p >? 0); [reflexivity|apply IH].
  Qed.

  Lemma asc_gen_ascending idx : asc_gen V cmp fst snd idx <-> ascending_nonnull V cmp idx.
  Proof.
    unfold asc_gen, R, ascending_nonnull. split; intros H i j.
    - intros mi xi mj xj Hij Hi Hj. exact (H i j (mi, xi) (mj, xj) Hij Hi Hj).
    - intros [mi xi] [mj xj] Hij Hi Hj. exact (H i j mi xi mj xj Hij Hi Hj).
  Qed.

  Lemma asc_gen_descending idx : asc_gen V rcmp snd fst idx <-> ascending_nonnull V rcmp idx.
  Proof.
    unfold asc_gen, R, ascending_nonnull. split; intros H i j.
    - intros mi xi mj xj Hij Hi Hj. destruct (H i j (mi, xi) (mj, xj) Hij Hi Hj). split; assumption.
    - intros [mi xi] [mj xj] Hij Hi Hj. destruct (H i j mi xi mj xj Hij Hi Hj). split; assumption.
  Qed.

  Lemma page_ok_asc p : page_ok p -> page_ok_gen V cmp nan fst snd p.
  Proof. destruct p as [[mn mx]|]; [|trivial]. intros H. exact H. Qed.

  Lemma page_ok_desc p : page_ok p -> page_ok_gen V rcmp nan snd fst p.
  Proof.
    destruct p as [[mn mx]|]; [|trivial]. intros (H1 & H2 & H3).
    unfold page_ok_gen, ok, rcmp. cbn [fst snd]. auto.
  Qed.

  Lemma claims_true (P : index V -> Prop) claims chunks :
    Forall2 (fun (claim : bool) idx => claim = true -> P idx) claims chunks ->
    forallb (fun b => b) claims = true -> Forall P chunks.
  Proof.
    induction 1 as [|cl idx claims chunks H _ IH]; intros Hf; [constructor|].
    cbn [forallb] in Hf. apply andb_true_iff in Hf. destruct Hf as [H1 H2].
    constructor; [apply H; exact H1|apply IH; exact H2].
  Qed.

  Lemma multi_split asc claims chunks :
    multi_is_ordered cmp asc claims chunks = true ->
    forallb (fun b => b) claims = true /\ boundaries_ordered cmp asc None chunks = true.
  Proof.
    unfold multi_is_ordered. destruct chunks as [|idx rest]; [discriminate|].
    intros H. apply andb_true_iff in H. exact H.
  Qed.

  (** IsAscending of the multi index is true when the IsAscending claims of the
      chunks' indexes are *)
  Theorem multi_ascending_true (claims : list bool) (chunks : list (index V)) :
    Forall (Forall page_ok) chunks ->
    Forall2 (fun (claim : bool) idx => claim = true -> ascending_nonnull V cmp idx) claims chunks ->
    multi_is_ordered cmp true claims chunks = true ->
    ascending_nonnull V cmp (multi_pages chunks).
  Proof.
    intros Hok Hcl Hm. apply multi_split in Hm. destruct Hm as [Hf Hb].
    apply asc_gen_ascending. unfold multi_pages.
    apply (gb_gives_asc_gen V cmp nan fst snd (cmp_refl_le _ _ cmp_opp) cmp_trans).
    - eapply Forall_impl; [|exact Hok]. intros idx H.
      eapply Forall_impl; [|exact H]. exact page_ok_asc.
    - eapply Forall_impl; [|exact (claims_true _ _ _ Hcl Hf)].
      intros idx H. apply asc_gen_ascending. exact H.
    - rewrite <- boundaries_asc. exact Hb.
  Qed.

  (** the same for IsDescending (mins and maxes non-increasing) *)
  Theorem multi_descending_true (claims : list bool) (chunks : list (index V)) :
    Forall (Forall page_ok) chunks ->
    Forall2 (fun (claim : bool) idx => claim = true -> ascending_nonnull V rcmp idx) claims chunks ->
    multi_is_ordered cmp false claims chunks = true ->
    ascending_nonnull V rcmp (multi_pages chunks).
  Proof.
    intros Hok Hcl Hm. apply multi_split in Hm. destruct Hm as [Hf Hb].
    apply asc_gen_descending. unfold multi_pages.
    apply (gb_gives_asc_gen V rcmp nan snd fst (cmp_refl_le _ _ cmp_opp) rcmp_trans).
    - eapply Forall_impl; [|exact Hok]. intros idx H.
      eapply Forall_impl; [|exact H]. exact page_ok_desc.
    - eapply Forall_impl; [|exact (claims_true _ _ _ Hcl Hf)].
      intros idx H. apply asc_gen_descending. exact H.
    - rewrite <- boundaries_desc. exact Hb.
  Qed.
End MultiOrder.
