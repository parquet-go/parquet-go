(** type_decimal.go compareDecimalByteArrays is the order of the signed
    integers that big-endian two's-complement byte strings of any lengths
    denote; hence a total preorder, and the theorems of Stats/Proofs.v apply
    to binary DECIMAL columns. *)
From Coq Require Import List NArith ZArith Bool Arith Lia.
From Coq Require Import ZifyN ZifyNat ZifyBool.
From PQ Require Import Base.Bytes Search.Model Search.Proofs
     Stats.Order Stats.OrderProofs Stats.Model Stats.Proofs Stats.Instances.
Import ListNotations.
Open Scope Z_scope.

Definition pw (n : nat) : Z := 256 ^ Z.of_nat n.
Definition ube (l : bytes) : Z := Z.of_N (of_be l).

(* the integer a byte string denotes: empty = 0 *)
Definition dec_val (a : bytes) : Z :=
  if dec_negative a then ube a - pw (length a) else ube a.

Lemma pw_pos n : 0 < pw n.
Proof. unfold pw. apply Z.pow_pos_nonneg; lia. Qed.

Lemma pw_S n : pw (S n) = 256 * pw n.
Proof. unfold pw. rewrite Nat2Z.inj_succ, Z.pow_succ_r by lia. reflexivity. Qed.

Lemma pw_add a b : pw (a + b) = pw a * pw b.
Proof. unfold pw. rewrite Nat2Z.inj_add, Z.pow_add_r by lia. reflexivity. Qed.

Lemma pw_N n : Z.of_N (256 ^ N.of_nat n) = pw n.
Proof. unfold pw. rewrite N2Z.inj_pow, nat_N_Z. reflexivity. Qed.

Lemma ube_cons x r : ube (x :: r) = Z.of_N x * pw (length r) + ube r.
Proof. unfold ube. cbn [of_be]. rewrite N2Z.inj_add, N2Z.inj_mul, pw_N. reflexivity. Qed.

Lemma ube_nil : ube [] = 0.
Proof. reflexivity. Qed.

Lemma ube_bound l : wf_bytes l -> 0 <= ube l < pw (length l).
Proof.
  intros W. pose proof (of_be_bound l W) as H. unfold ube. rewrite <- pw_N. lia.
Qed.

Lemma ube_app a : forall b, ube (a ++ b) = ube a * pw (length b) + ube b.
Proof.
  induction a as [|x a IH]; intros b; cbn [app].
  - rewrite ube_nil. lia.
  - rewrite !ube_cons, IH, app_length, pw_add. lia.
Qed.

Lemma wf_cons x r : wf_bytes (x :: r) -> (x < 256)%N /\ wf_bytes r.
Proof. intros W. inversion W; subst. auto. Qed.

Lemma dec_sign a : wf_bytes a ->
  (dec_negative a = true -> - pw (length a) <= 2 * dec_val a /\ dec_val a < 0) /\
  (dec_negative a = false -> 0 <= dec_val a /\ 2 * dec_val a < pw (length a) \/ a = []).
Proof.
  intros W. unfold dec_val. destruct a as [|x r]; cbn [dec_negative].
  - split; [discriminate|]. intros _. right. reflexivity.
  - apply wf_cons in W. destruct W as [Hx Wr]. pose proof (ube_bound r Wr) as B.
    pose proof (pw_pos (length r)) as P. cbn [length]. rewrite pw_S, ube_cons.
    destruct (N.leb_spec 128 x) as [H|H]; split; try discriminate; intros _.
    + nia.
    + left. nia.
Qed.

(* the loop over the extra leading bytes of the longer operand *)
Lemma dec_pad_cmp_zero pre : wf_bytes pre ->
  (dec_pad_cmp pre 0 = 0 /\ ube pre = 0) \/ (dec_pad_cmp pre 0 = 1 /\ 1 <= ube pre).
Proof.
  induction 1 as [|c r Hc Wr IH]; cbn [dec_pad_cmp].
  - left. auto.
  - rewrite ube_cons. pose proof (ube_bound r Wr) as B. pose proof (pw_pos (length r)) as P.
    destruct (N.ltb_spec c 0); [lia|]. destruct (N.ltb_spec 0 c) as [H1|H1].
    + right. split; [reflexivity|]. nia.
    + assert (c = 0%N) by lia. subst. destruct IH as [[E1 E2]|[E1 E2]]; [left|right]; split; auto; lia.
Qed.

Lemma dec_pad_cmp_ff pre : wf_bytes pre ->
  (dec_pad_cmp pre 255 = 0 /\ ube pre = pw (length pre) - 1) \/
  (dec_pad_cmp pre 255 = -1 /\ ube pre <= pw (length pre) - 2).
Proof.
  induction 1 as [|c r Hc Wr IH]; cbn [dec_pad_cmp length].
  - left. split; [reflexivity|]. cbn. lia.
  - rewrite ube_cons, pw_S. pose proof (ube_bound r Wr) as B. pose proof (pw_pos (length r)) as P.
    destruct (N.ltb_spec c 255) as [H1|H1].
    + right. split; [reflexivity|]. nia.
    + destruct (N.ltb_spec 255 c); [lia|]. assert (c = 255%N) by lia. subst.
      destruct IH as [[E1 E2]|[E1 E2]]; [left|right]; split; auto; lia.
Qed.

Lemma cmp_bytes_ube a b : length a = length b -> wf_bytes a -> wf_bytes b ->
  cmp_bytes a b = cmpZ (ube a) (ube b).
Proof. intros. unfold ube. apply cmp_bytes_of_be; assumption. Qed.

(* compareDecimalPadded: same sign, a at least as long as b *)
Lemma dec_cmp_padded_val a b :
  wf_bytes a -> wf_bytes b -> (length b <= length a)%nat ->
  dec_negative a = dec_negative b ->
  dec_cmp_padded a b (if dec_negative a then 255%N else 0%N) = cmpZ (dec_val a) (dec_val b).
Proof.
  intros Wa Wb L S. unfold dec_cmp_padded.
  set (d := (length a - length b)%nat).
  assert (Ea : a = firstn d a ++ skipn d a) by (symmetry; apply firstn_skipn).
  assert (Wp : wf_bytes (firstn d a) /\ wf_bytes (skipn d a)).
  { apply wf_bytes_app. rewrite <- Ea. exact Wa. }
  destruct Wp as [Wpre Wsuf].
  assert (Ls : length (skipn d a) = length b) by (rewrite skipn_length; lia).
  assert (Lp : length (firstn d a) = d) by (rewrite firstn_length; lia).
  assert (La : length a = (d + length b)%nat) by lia.
  pose proof (ube_app (firstn d a) (skipn d a)) as Ua. rewrite <- Ea, Ls in Ua.
  pose proof (ube_bound _ Wsuf) as Bs. rewrite Ls in Bs.
  pose proof (ube_bound _ Wb) as Bb. pose proof (ube_bound _ Wpre) as Bp. rewrite Lp in Bp.
  pose proof (pw_pos (length b)) as Pb. pose proof (pw_pos d) as Pd.
  pose proof (cmp_bytes_ube (skipn d a) b Ls Wsuf Wb) as Cs.
  destruct (dec_sign a Wa) as [SaN SaP]. destruct (dec_sign b Wb) as [SbN SbP].
  unfold dec_val in *. rewrite <- S in *. rewrite La, pw_add in *.
  destruct (dec_negative a) eqn:Na.
  - (* both negative *)
    destruct (dec_pad_cmp_ff _ Wpre) as [[E1 E2]|[E1 E2]]; rewrite E1; rewrite Lp in E2.
    + rewrite Cs. unfold cmpZ.
      destruct (Z.compare_spec (ube (skipn d a)) (ube b));
      destruct (Z.compare_spec (ube a - pw d * pw (length b)) (ube b - pw (length b))); try reflexivity; nia.
    + specialize (SbN eq_refl). unfold cmpZ.
      destruct (Z.compare_spec (ube a - pw d * pw (length b)) (ube b - pw (length b))); try reflexivity; nia.
  - (* both non-negative *)
    destruct (dec_pad_cmp_zero _ Wpre) as [[E1 E2]|[E1 E2]]; rewrite E1.
    + rewrite Cs. unfold cmpZ.
      destruct (Z.compare_spec (ube (skipn d a)) (ube b));
      destruct (Z.compare_spec (ube a) (ube b)); try reflexivity; nia.
    + unfold cmpZ. destruct (Z.compare_spec (ube a) (ube b)); try reflexivity; nia.
Qed.

Lemma cmp_decimal_same_sign a b : wf_bytes a -> wf_bytes b -> dec_negative a = dec_negative b ->
  let pad := if dec_negative a then 255%N else 0%N in
  (if (length a <? length b)%nat then - dec_cmp_padded b a pad else dec_cmp_padded a b pad) =
  cmpZ (dec_val a) (dec_val b).
Proof.
  intros Wa Wb S. cbv zeta. destruct (Nat.ltb_spec (length a) (length b)) as [L|L].
  - rewrite S, (dec_cmp_padded_val b a Wb Wa) by (auto; lia).
    unfold cmpZ. rewrite (Z.compare_antisym (dec_val a) (dec_val b)).
    destruct (Z.compare (dec_val a) (dec_val b)); reflexivity.
  - apply dec_cmp_padded_val; assumption.
Qed.

Theorem cmp_decimal_val a b : wf_bytes a -> wf_bytes b ->
  cmp_decimal a b = cmpZ (dec_val a) (dec_val b).
Proof.
  intros Wa Wb. unfold cmp_decimal.
  pose proof (cmp_decimal_same_sign a b Wa Wb) as Same. cbv zeta in Same.
  destruct (dec_sign a Wa) as [SaN SaP]. destruct (dec_sign b Wb) as [SbN SbP].
  destruct (dec_negative a) eqn:Na; destruct (dec_negative b) eqn:Nb; cbn [andb negb].
  - apply Same. reflexivity.
  - specialize (SaN eq_refl). specialize (SbP eq_refl).
    assert (0 <= dec_val b).
    { destruct SbP as [H0|H0]; [lia|]. subst b. cbn. lia. }
    unfold cmpZ. destruct (Z.compare_spec (dec_val a) (dec_val b)); try reflexivity; lia.
  - specialize (SbN eq_refl). specialize (SaP eq_refl).
    assert (0 <= dec_val a).
    { destruct SaP as [H0|H0]; [lia|]. subst a. cbn. lia. }
    unfold cmpZ. destruct (Z.compare_spec (dec_val a) (dec_val b)); try reflexivity; lia.
  - apply Same. reflexivity.
Qed.

Lemma dec_opp a b : wf_bytes a -> wf_bytes b -> (cmp_decimal a b < 0 <-> cmp_decimal b a > 0).
Proof. intros Wa Wb. rewrite !cmp_decimal_val by assumption. apply cmpZ_opp. Qed.

Lemma dec_trans a b d : wf_bytes a -> wf_bytes b -> wf_bytes d -> @no_nan bytes b = false ->
  cmp_decimal a b <= 0 -> cmp_decimal b d <= 0 -> cmp_decimal a d <= 0.
Proof. intros Wa Wb Wd _. rewrite !cmp_decimal_val by assumption. apply cmpZ_trans. Qed.

Lemma dec_refl a : wf_bytes a -> cmp_decimal a a <= 0.
Proof. intros W. rewrite cmp_decimal_val by assumption. apply cmpZ_le. lia. Qed.

Notation dec_nan := (no_nan_nan bytes cmp_decimal).

(* decimalPage.Bounds / decimalDictionary.Bounds *)
Theorem decimal_page_bounds_sound sw (l : list bytes) mn mx :
  Forall wf_bytes l -> page_bounds cmp_decimal no_nan sw l = Some (mn, mx) ->
  (forall v, In v l -> cmp_decimal mn v <= 0 /\ cmp_decimal v mx <= 0) /\ In mn l /\ In mx l.
Proof.
  intros F H. rewrite Forall_forall in F.
  destruct (page_bounds_sides bytes cmp_decimal no_nan wf_bytes dec_opp dec_trans dec_nan sw l mn mx F H)
    as ((I1 & W1 & _) & (I2 & W2 & _)).
  split; [|auto]. intros v Hv. split; [apply W1|apply W2]; auto.
Qed.

Definition dec_page_ok (p : page_info bytes) : Prop :=
  match pi_bounds p with
  | Some (mn, mx) => wf_bytes mn /\ wf_bytes mx
  | None => True
  end.

Lemma dec_entries_wf ps : Forall dec_page_ok ps ->
  Forall wf_bytes (map (entry_min bytes [] (fun v => v)) ps) /\
  Forall wf_bytes (map (entry_max bytes [] (fun v => v)) ps).
Proof.
  induction 1 as [|p ps Hp F [IH1 IH2]]; cbn [map]; [split; constructor|].
  unfold dec_page_ok in Hp. unfold entry_min, entry_max at 2.
  split; constructor; auto; unfold entry_max; unfold bytes in *;
    destruct (pi_bounds p) as [[mn mx]|]; try tauto; constructor.
Qed.

Theorem decimal_order_claim_true limit ps : Forall dec_page_ok ps ->
  order_claim_true bytes cmp_decimal (index_byte BDecimal limit ps).
Proof.
  intros F. destruct (dec_entries_wf ps F) as [F1 F2]. rewrite Forall_forall in F1, F2.
  exact (boundary_order_on bytes cmp_decimal no_nan wf_bytes dec_opp dec_trans dec_nan
           [] (fun v => v) (fun v => v) (order_of_streak cmp_decimal) ps
           (fun l G => order_of_streak_sound_on bytes cmp_decimal no_nan wf_bytes dec_opp dec_trans dec_nan
                         l (fun _ => eq_refl) G)
           (order_of_streak_range bytes cmp_decimal) (fun l _ => forall_const_false bytes l) F1 F2).
Qed.

(* the claim, in the comparison of the library *)
Theorem decimal_boundary_order_nonnull limit ps : Forall dec_page_ok ps ->
  let ci := index_byte BDecimal limit ps in
  (ci_order ci = 1 -> ascending_nonnull bytes cmp_decimal (to_search_index ci)) /\
  (ci_order ci = 2 -> ascending_nonnull bytes (fun a b => cmp_decimal b a) (to_search_index ci)).
Proof. intros F. apply (claim_gives_nonnull bytes cmp_decimal), decimal_order_claim_true, F. Qed.

Theorem decimal_skip_safe sw limit (pages : list (list (option bytes))) p vals v :
  (forall vs x, In vs pages -> In (Some x) vs -> wf_bytes x) ->
  nth_error pages p = Some vals -> In (Some v) vals ->
  may_skip cmp_decimal
    (index_byte BDecimal limit (map (page_of_values cmp_decimal (fun _ => false) sw) pages)) p v = false.
Proof.
  intros Hw Hp Hv.
  apply (skip_safe_on bytes cmp_decimal no_nan wf_bytes dec_opp dec_trans dec_nan
           [] (fun v => v) (fun v => v) (order_of_streak cmp_decimal) wf_bytes
           (fun v W => conj W (conj W W)) dec_refl dec_refl sw pages p vals v Hp); auto.
  intros x Hx. apply (Hw vals x); [eapply nth_error_In; eauto|exact Hx].
Qed.
