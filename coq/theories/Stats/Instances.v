(** The column kinds of parquet-go meet the hypotheses of Stats/Proofs.v:
    truncated byte-array bounds remain bounds, the order functions of order.go
    only answer +1 / -1 for sorted lists, the FIXED_LEN_BYTE_ARRAY indexer with
    its flat buffers is the generic indexer, counts and histograms are exact. *)
From Coq Require Import List NArith ZArith Bool Arith Lia.
From Coq Require Import ZifyN ZifyNat ZifyBool.
From PQ Require Import Base.Bytes Base.Order Search.Model Search.Proofs
     Stats.Order Stats.OrderProofs Stats.Model Stats.Proofs.
Import ListNotations.
Open Scope Z_scope.

(** kinds without NaN: the NaN hypotheses of Stats/Proofs.v are vacuous *)
Definition no_nan {V} : V -> bool := fun _ => false.

Lemma no_nan_trans V (cmp : V -> V -> Z) :
  (forall a b d, cmp a b <= 0 -> cmp b d <= 0 -> cmp a d <= 0) ->
  forall a b d, @no_nan V b = false -> cmp a b <= 0 -> cmp b d <= 0 -> cmp a d <= 0.
Proof. intros T a b d _. apply T. Qed.

Lemma no_nan_nan V (cmp : V -> V -> Z) :
  forall a b, @no_nan V a = true -> cmp a b = 0 /\ cmp b a = 0.
Proof. intros a b H. discriminate. Qed.

Lemma cmp_bytes_prefix a : forall b, cmp_bytes a (a ++ b) <= 0.
Proof.
  induction a as [|x a IH]; intros b; cbn [app cmp_bytes].
  - destruct b; lia.
  - rewrite N.compare_refl. apply IH.
Qed.

Theorem truncate_min_lower limit v : cmp_bytes (truncate_min limit v) v <= 0.
Proof.
  unfold truncate_min. destruct (limit <? length v)%nat.
  - rewrite <- (firstn_skipn limit v) at 2. apply cmp_bytes_prefix.
  - rewrite cmp_bytes_refl. lia.
Qed.

Lemma increment_length l : length (fst (increment l)) = length l.
Proof.
  induction l as [|x r IH]; cbn [increment]; [reflexivity|].
  destruct (increment r) as [r' ok]. cbn [fst] in IH.
  destruct ok; cbn [fst length]; rewrite IH; reflexivity.
Qed.

(* a successful increment yields a string above every extension of the original *)
Lemma increment_above l : wf_bytes l -> forall l', increment l = (l', true) ->
  forall t, cmp_bytes (l ++ t) l' < 0.
Proof.
  induction 1 as [|x r Hx Hr IH]; intros l' E t; cbn [increment] in E; [discriminate|].
  destruct (increment r) as [r' ok]. destruct ok.
  - injection E as <-. cbn [app cmp_bytes]. rewrite N.compare_refl. apply IH. reflexivity.
  - injection E as <- E2. cbn [app cmp_bytes].
    assert (Hne : ((x + 1) mod 256 <> 0)%N).
    { destruct (N.eqb_spec ((x + 1) mod 256) 0); [discriminate|assumption]. }
    assert (Hlt : (x + 1 < 256)%N).
    { destruct (N.lt_ge_cases (x + 1) 256) as [L|G]; [exact L|].
      exfalso. apply Hne. assert (x + 1 = 256)%N by lia. rewrite H. reflexivity. }
    rewrite N.mod_small by exact Hlt.
    destruct (N.compare_spec x (x + 1)); lia.
Qed.

(* a failed increment means every byte was 0xFF *)
Lemma increment_fail l : wf_bytes l -> forall l', increment l = (l', false) ->
  Forall (fun b => b = 255%N) l.
Proof.
  induction 1 as [|x r Hx Hr IH]; intros l' E; cbn [increment] in E; [constructor|].
  destruct (increment r) as [r' ok]. destruct ok; [discriminate|].
  injection E as _ E2. constructor; [|apply (IH r' eq_refl)].
  destruct (N.eqb_spec ((x + 1) mod 256) 0) as [E0|]; [|discriminate].
  destruct (N.lt_ge_cases (x + 1) 256) as [L|G].
  - rewrite N.mod_small in E0 by exact L. lia.
  - lia.
Qed.

Lemma map_const_id (l : bytes) : Forall (fun b => b = 255%N) l -> map (fun _ => 255%N) l = l.
Proof. induction 1; cbn; [reflexivity|]. subst. rewrite IHForall. reflexivity. Qed.

(** for every byte string and every size limit the stored max is at or above
    the value, all-0xFF prefixes included *)
Theorem truncate_max_upper limit v : wf_bytes v -> cmp_bytes v (truncate_max limit v) <= 0.
Proof.
  intros W. unfold truncate_max, increment_inplace.
  destruct (limit <? length v)%nat; [|rewrite cmp_bytes_refl; lia].
  assert (Wp : wf_bytes (firstn limit v)).
  { rewrite <- (firstn_skipn limit v) in W. apply wf_bytes_app in W. tauto. }
  destruct (increment (firstn limit v)) as [p ok] eqn:E. destruct ok.
  - rewrite <- (firstn_skipn limit v) at 1.
    pose proof (increment_above _ Wp p E (skipn limit v)). lia.
  - rewrite (map_const_id _ (increment_fail _ Wp p E)), firstn_skipn, cmp_bytes_refl. lia.
Qed.

Lemma limit_min_lower limit v : cmp_bytes (limit_min limit v) v <= 0.
Proof.
  unfold limit_min. destruct (0 <? limit); [apply truncate_min_lower|].
  rewrite cmp_bytes_refl. lia.
Qed.

Lemma limit_max_upper limit v : wf_bytes v -> cmp_bytes v (limit_max limit v) <= 0.
Proof.
  intros W. unfold limit_max. destruct (0 <? limit); [apply truncate_max_upper; exact W|].
  rewrite cmp_bytes_refl. lia.
Qed.

Lemma order_of_range V (cmp : V -> V -> Z) l :
  order_of cmp l = 1 \/ order_of cmp l = -1 \/ order_of cmp l = 0.
Proof.
  unfold order_of. destruct (1 <? length l)%nat; [|auto].
  destruct (order_is_ascending cmp l); [auto|]. destruct (order_is_descending cmp l); auto.
Qed.

Lemma order_of_streak_range V (cmp : V -> V -> Z) l :
  order_of_streak cmp l = 1 \/ order_of_streak cmp l = -1 \/ order_of_streak cmp l = 0.
Proof.
  unfold order_of_streak. destruct (length l <=? 1)%nat; [auto|].
  destruct (skip_streak cmp l) as [|a [|b t]]; auto.
  destruct (cmp a b <? 0).
  - destruct (order_is_ascending cmp (b :: t)); auto.
  - destruct (cmp a b >? 0); [|auto]. destruct (order_is_descending cmp (b :: t)); auto.
Qed.

Lemma existsb_false_forall V (f : V -> bool) l :
  existsb f l = false -> Forall (fun x => f x = false) l.
Proof.
  induction l as [|x l IH]; cbn; [constructor|].
  intros H. apply orb_false_iff in H. destruct H. constructor; auto.
Qed.

Lemma forall_const_false V (l : list V) : Forall (fun x => (fun _ : V => false) x = false) l.
Proof. induction l; constructor; auto. Qed.

(* orderOfFloatBounds *)
Lemma order_nan_guard_sound V (cmp : V -> V -> Z) nan ord :
  order_sound V cmp ord -> order_sound V cmp (order_nan_guard nan ord).
Proof.
  intros H l. unfold order_nan_guard. destruct (existsb nan l); [split; discriminate|apply H].
Qed.

Lemma order_nan_guard_free V (nan : V -> bool) ord l :
  order_nan_guard nan ord l <> 0 -> Forall (fun x => nan x = false) l.
Proof.
  unfold order_nan_guard. destruct (existsb nan l) eqn:E; [congruence|].
  intros _. apply existsb_false_forall. exact E.
Qed.

(** order.go orderOfBool *)
Lemma streak_of_split b l :
  l = repeat b (streak_of b l) ++ skipn (streak_of b l) l.
Proof.
  induction l as [|x r IH]; cbn [streak_of]; [reflexivity|].
  destruct (N.eqb_spec x b) as [->|]; [|reflexivity].
  cbn [repeat skipn app]. f_equal. exact IH.
Qed.

Lemma streak_of_le b l : (streak_of b l <= length l)%nat.
Proof.
  induction l as [|x r IH]; cbn [streak_of length]; [lia|].
  destruct (x =? b)%N; lia.
Qed.

Lemma streak_full b l : streak_of b l = length l -> l = repeat b (length l).
Proof.
  intros H. pose proof (streak_of_split b l) as E. rewrite H in E.
  rewrite skipn_all, app_nil_r in E. exact E.
Qed.

Lemma two_streaks a b l :
  (streak_of a l + streak_of b (skipn (streak_of a l) l))%nat = length l ->
  exists i j, l = repeat a i ++ repeat b j.
Proof.
  intros E. pose proof (skipn_length (streak_of a l) l) as Ls.
  exists (streak_of a l), (length (skipn (streak_of a l) l)).
  rewrite <- (streak_full b (skipn (streak_of a l) l)) by lia. apply streak_of_split.
Qed.

Lemma no_adjacent_two_runs V (bad : V -> V -> bool) a b :
  bad a a = false -> bad b b = false -> bad a b = false ->
  forall i j, no_adjacent bad (repeat a i ++ repeat b j) = true.
Proof.
  intros Ha Hb Hab.
  assert (Hj : forall j, no_adjacent bad (repeat b j) = true).
  { induction j as [|[|j] IH]; try reflexivity.
    cbn [repeat] in *. rewrite no_adjacent_cons, Hb. exact IH. }
  induction i as [|i IH]; intros j; [apply Hj|].
  specialize (IH j). cbn [repeat app]. destruct i as [|i]; cbn [repeat app] in *.
  - destruct j; [reflexivity|]. cbn [repeat] in *. rewrite no_adjacent_cons, Hab. exact IH.
  - rewrite no_adjacent_cons, Ha. exact IH.
Qed.

Lemma two_runs a b (Hab : cmp_uint a b <= 0) i j :
  order_is_ascending cmp_uint (repeat a i ++ repeat b j) = true.
Proof.
  apply no_adjacent_two_runs; rewrite Z.gtb_ltb; apply Z.ltb_ge;
    rewrite ?(cmp_refl _ _ cmp_uint_opp); lia.
Qed.

Lemma two_runs_desc a b (Hab : cmp_uint b a <= 0) i j :
  order_is_descending cmp_uint (repeat a i ++ repeat b j) = true.
Proof.
  apply no_adjacent_two_runs; apply Z.ltb_ge;
    rewrite ?(cmp_refl _ _ cmp_uint_opp); [lia..|].
  pose proof (cmp_uint_opp a b). lia.
Qed.

Lemma order_of_bool_range l :
  order_of_bool l = 1 \/ order_of_bool l = -1 \/ order_of_bool l = 0.
Proof.
  unfold order_of_bool. destruct (length l <=? 1)%nat; [auto|].
  destruct l as [|d0 r]; [auto|].
  destruct (d0 =? 1)%N.
  - destruct (streak_of 1%N (d0 :: r) =? length (d0 :: r))%nat.
    + destruct (_ =? _)%nat; auto.
    + destruct (_ =? _)%nat; auto.
  - destruct (_ =? _)%nat; auto.
Qed.

Lemma order_of_bool_sound : order_sound N cmp_uint order_of_bool.
Proof.
  intros l. unfold order_of_bool. destruct (length l <=? 1)%nat; [split; discriminate|].
  destruct l as [|d0 r]; [split; discriminate|].
  set (data := d0 :: r).
  assert (C01 : cmp_uint 0 1 <= 0) by (unfold cmp_uint; rewrite cmpZ_le; lia).
  destruct (d0 =? 1)%N.
  - destruct (Nat.eqb_spec (streak_of 1%N data) (length data)) as [E|NE].
    + rewrite E, Nat.eqb_refl. split; [|discriminate]. intros _.
      rewrite (streak_full _ _ E). rewrite <- (app_nil_r (repeat 1%N (length data))).
      apply (two_runs 1%N 1%N ltac:(unfold cmp_uint; rewrite cmpZ_le; lia) (length data) O).
    + destruct (Nat.eqb_spec (streak_of 1%N data + streak_of 0%N (skipn (streak_of 1%N data) data))
                             (length data)) as [E|NE2]; [|split; discriminate].
      split; [discriminate|]. intros _.
      destruct (two_streaks _ _ _ E) as (i & j & ->). apply two_runs_desc. exact C01.
  - destruct (Nat.eqb_spec (streak_of 0%N data + streak_of 1%N (skipn (streak_of 0%N data) data))
                           (length data)) as [E|NE]; [|split; discriminate].
    split; [|discriminate]. intros _.
    destruct (two_streaks _ _ _ E) as (i & j & ->). apply two_runs. exact C01.
Qed.

Lemma order_num_sound k : order_sound N (cmp_num k) (order_num k).
Proof.
  destruct k; cbn [order_num cmp_num];
    first [exact order_of_bool_sound
          | apply order_nan_guard_sound; apply order_of_sound
          | apply order_of_sound].
Qed.

Lemma order_num_range k l : order_num k l = 1 \/ order_num k l = -1 \/ order_num k l = 0.
Proof.
  destruct k; cbn [order_num];
    first [apply order_of_bool_range
          | unfold order_nan_guard; destruct (existsb _ l); [auto|apply order_of_range]
          | apply order_of_range].
Qed.

Lemma order_num_nan_free k l : order_num k l <> 0 -> Forall (fun x => nan_num k x = false) l.
Proof.
  destruct k; cbn [order_num nan_num]; intros H;
    first [apply order_nan_guard_free in H; exact H | apply forall_const_false].
Qed.

Lemma split_fixed_fuel_concat size chunks :
  Forall (fun c => length c = size) chunks ->
  split_fixed_fuel (length chunks) size (concat chunks) = chunks.
Proof.
  induction 1 as [|c chunks Hc F IH]; cbn [length split_fixed_fuel concat]; [reflexivity|].
  rewrite firstn_app, skipn_app, Hc, Nat.sub_diag, <- Hc, firstn_all, skipn_all.
  cbn [firstn skipn app]. rewrite app_nil_r, Hc, IH. reflexivity.
Qed.

Lemma concat_length_fixed size (chunks : list bytes) :
  Forall (fun c => length c = size) chunks ->
  length (concat chunks) = (length chunks * size)%nat.
Proof.
  induction 1 as [|c chunks Hc F IH]; cbn [concat length]; [reflexivity|].
  rewrite app_length, IH, Hc. lia.
Qed.

Lemma split_fixed_concat size chunks : (0 < size)%nat ->
  Forall (fun c => length c = size) chunks ->
  split_fixed size (concat chunks) = chunks.
Proof.
  intros Hs F. unfold split_fixed.
  rewrite (concat_length_fixed size chunks F), Nat.div_mul by lia.
  apply split_fixed_fuel_concat. exact F.
Qed.

Definition flba_page_ok (size : nat) (p : page_info bytes) : Prop :=
  match pi_bounds p with
  | Some (mn, mx) => length mn = size /\ length mx = size
  | None => True
  end.

Lemma fold_flba_index_page pinned size ps : forall ix,
  fold_left (flba_index_page pinned size) ps ix =
  {| fx_null_pages := fx_null_pages ix ++ map (fun p => pi_num_values p =? pi_num_nulls p) ps;
     fx_null_counts := fx_null_counts ix ++ map (@pi_num_nulls bytes) ps;
     fx_mins := fx_mins ix ++ concat (map (fun p => match pi_bounds p with Some (mn, _) => mn
                                                     | None => if pinned then [] else zeros size end) ps);
     fx_maxs := fx_maxs ix ++ concat (map (fun p => match pi_bounds p with Some (_, mx) => mx
                                                     | None => if pinned then [] else zeros size end) ps) |}.
Proof.
  induction ps as [|p ps IH]; intros ix; cbn [fold_left map concat].
  - rewrite !app_nil_r. destruct ix; reflexivity.
  - rewrite IH. unfold flba_index_page. cbn [fx_null_pages fx_null_counts fx_mins fx_maxs].
    rewrite <- !app_assoc. cbn [app]. reflexivity.
Qed.

Definition flba_tmin (limit : nat) (v : bytes) : bytes :=
  if (0 <? limit)%nat then truncate_min limit v else v.
Definition flba_tmax (limit : nat) (v : bytes) : bytes :=
  if (0 <? limit)%nat then truncate_max limit v else v.

Theorem flba_indexer_generic size limit ps : (0 < size)%nat ->
  Forall (flba_page_ok size) ps ->
  flba_index_pages false size limit ps =
  index_pages (zeros size) (flba_tmin limit) (flba_tmax limit) order_of_bytes ps.
Proof.
  intros Hs F. rewrite index_pages_maps.
  unfold flba_index_pages, flba_column_index. rewrite fold_flba_index_page.
  cbn [flba_empty fx_null_pages fx_null_counts fx_mins fx_maxs app].
  rewrite !split_fixed_concat; try exact Hs.
  - unfold entry_min, entry_max, flba_tmin, flba_tmax.
    destruct (0 <? limit)%nat; rewrite ?map_map; reflexivity.
  - rewrite Forall_map. eapply Forall_impl; [|exact F]. intros p Hp. unfold flba_page_ok in Hp. unfold bytes in *.
    destruct (pi_bounds p) as [[mn mx]|]; [destruct Hp; assumption|]. apply repeat_length.
  - rewrite Forall_map. eapply Forall_impl; [|exact F]. intros p Hp. unfold flba_page_ok in Hp. unfold bytes in *.
    destruct (pi_bounds p) as [[mn mx]|]; [destruct Hp; assumption|]. apply repeat_length.
Qed.

Lemma flba_tmin_lower limit v : cmp_bytes (flba_tmin limit v) v <= 0.
Proof.
  unfold flba_tmin. destruct (0 <? limit)%nat; [apply truncate_min_lower|].
  rewrite cmp_bytes_refl. lia.
Qed.
Lemma flba_tmax_upper limit v : wf_bytes v -> cmp_bytes v (flba_tmax limit v) <= 0.
Proof.
  intros W. unfold flba_tmax. destruct (0 <? limit)%nat; [apply truncate_max_upper; exact W|].
  rewrite cmp_bytes_refl. lia.
Qed.

Fixpoint count_nulls {V} (l : list (option V)) : nat :=
  match l with
  | [] => O
  | None :: r => S (count_nulls r)
  | Some _ :: r => count_nulls r
  end.

Lemma non_nulls_length V (l : list (option V)) :
  length l = (length (non_nulls l) + count_nulls l)%nat.
Proof. induction l as [|[x|] r IH]; cbn; lia. Qed.

Lemma page_of_values_counts V cmp nan sw (l : list (option V)) :
  let p := page_of_values cmp nan sw l in
  pi_num_values p = Z.of_nat (length l) /\
  pi_num_nulls p = Z.of_nat (count_nulls l) /\
  ((pi_num_values p =? pi_num_nulls p) = true <-> Forall (fun o => o = None) l).
Proof.
  cbn. pose proof (non_nulls_length V l) as E. repeat split.
  - f_equal. lia.
  - intros H. apply Z.eqb_eq in H. assert (L : length (non_nulls l) = O) by lia.
    clear -L. induction l as [|[x|] r IH]; cbn in *; try discriminate; constructor; auto.
  - intros F. apply Z.eqb_eq. f_equal.
    assert (L : length (non_nulls l) = O).
    { clear -F. induction F as [|o r Ho F IH]; cbn; [reflexivity|]. subst. exact IH. }
    lia.
Qed.

Lemma incr_at_length k h : length (incr_at k h) = length h.
Proof.
  revert k. induction h as [|x r IH]; intros [|k]; cbn; auto.
Qed.

Lemma incr_at_nth k h : forall j,
  nth j (incr_at k h) 0 = if (j =? k)%nat && (k <? length h)%nat then nth j h 0 + 1 else nth j h 0.
Proof.
  revert k. induction h as [|x r IH]; intros k j.
  - destruct k; cbn; destruct j; cbn; rewrite ?andb_false_r; reflexivity.
  - destruct k as [|k]; destruct j as [|j]; cbn [incr_at nth length]; try reflexivity.
    rewrite IH. change (S j =? S k)%nat with (j =? k)%nat.
    change (S k <? S (length r))%nat with (k <? length r)%nat. reflexivity.
Qed.

Theorem level_histograms_exact max_level column levels :
  length column = S max_level -> Forall (fun l => (l <= max_level)%nat) levels ->
  let (col, pg) := level_histograms max_level column levels in
  forall k, nth k col 0 = nth k column 0 + Z.of_nat (count_occ Nat.eq_dec levels k) /\
            nth k pg 0 = Z.of_nat (count_occ Nat.eq_dec levels k).
Proof.
  intros Hc F. unfold level_histograms.
  assert (G : forall levels col pg, length col = S max_level -> length pg = S max_level ->
            Forall (fun l => (l <= max_level)%nat) levels ->
            let (col', pg') := fold_left (fun '(col, pg) l => (incr_at l col, incr_at l pg)) levels (col, pg) in
            forall k, nth k col' 0 = nth k col 0 + Z.of_nat (count_occ Nat.eq_dec levels k) /\
                      nth k pg' 0 = nth k pg 0 + Z.of_nat (count_occ Nat.eq_dec levels k)).
  { clear. induction levels as [|l levels IH]; intros col pg Lc Lp F; cbn [fold_left count_occ].
    - intros k. lia.
    - inversion F; subst.
      specialize (IH (incr_at l col) (incr_at l pg) ltac:(rewrite incr_at_length; exact Lc)
                     ltac:(rewrite incr_at_length; exact Lp) H2).
      destruct (fold_left _ levels _) as [col' pg']. intros k. destruct (IH k) as [I1 I2].
      rewrite I1, I2, !incr_at_nth, Lc, Lp.
      assert (Hl : (l <? S max_level)%nat = true) by (apply Nat.ltb_lt; lia). rewrite Hl, andb_true_r.
      destruct (Nat.eq_dec l k) as [->|Hne].
      + rewrite Nat.eqb_refl. lia.
      + destruct (Nat.eqb_spec k l); [lia|]. lia. }
  specialize (G levels column (repeat 0 (S max_level)) Hc (repeat_length _ _) F).
  destruct (fold_left _ levels _) as [col pg]. intros k. destruct (G k) as [G1 G2].
  split; [exact G1|]. rewrite G2.
  assert (nth k (repeat 0 (S max_level)) 0 = 0).
  { clear. generalize (S max_level). intros n. revert k. induction n; intros [|k]; cbn; auto. }
  lia.
Qed.
