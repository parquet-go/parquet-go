(** Assembly inverts shredding: for every schema and every well-formed value,
    [asm] applied to the columns produced by [shred] (followed by any columns
    of later rows) returns the value and leaves the rest untouched. *)
From Coq Require Import List Arith Bool Lia.
From PQ Require Import Base.ListExtra Dremel.Model Dremel.Batch.
Import ListNotations.

Combined Scheme schema_fields_ind from schema_mut, fields_mut.

Section Proofs.
  Variable V : Type.
  Notation value := (value V).
  Notation entry := (entry V).
  Notation column := (column V).

  Fixpoint wfn (n : nat) (s : schema) (v : value) {struct s} : Prop :=
    match s, v with
    | Leaf, VLeaf _ => True
    | Group fs, VGroup vs => wfn_fields n fs vs
    | _, _ => False
    end
  with wfn_fields (n : nat) (fs : fields) (vs : list value) {struct fs} : Prop :=
    match fs, vs with
    | FNil, [] => True
    | FCons Req s fs', v :: vs' => wfn n s v /\ wfn_fields n fs' vs'
    | FCons Opt s fs', VOpt None :: vs' => wfn_fields n fs' vs'
    | FCons Opt s fs', VOpt (Some v) :: vs' => wfn n s v /\ wfn_fields n fs' vs'
    | FCons Rpt s fs', VList l :: vs' => (length l <= n /\ Forall (wfn n s) l) /\ wfn_fields n fs' vs'
    | _, _ => False
    end.

  Definition starts (r d : nat) (cols : list column) : Prop :=
    Forall (fun c => exists e rest, c = e :: rest /\ e_r V e = r /\ d <= e_d V e) cols.

  Definition heads_le (k : nat) (cols : list column) : Prop :=
    Forall (fun c => match c with [] => True | e :: _ => e_r V e <= k end) cols.

  Lemma zipapp_length (a b : list column) : length a = length b -> length (zipapp a b) = length a.
  Proof.
    revert b. induction a as [|x a IH]; intros [|y b] H; cbn in *; try lia. now rewrite IH by lia.
  Qed.

  Lemma zipapp_app (a b t1 t2 : list column) :
    length a = length t1 -> zipapp (a ++ b) (t1 ++ t2) = zipapp a t1 ++ zipapp b t2.
  Proof.
    revert t1. induction a as [|x a IH]; intros [|y t1] H; cbn in *; try lia; [reflexivity|].
    now rewrite IH by lia.
  Qed.

  Lemma zipapp_assoc (a b c : list column) :
    zipapp (zipapp a b) c = zipapp a (zipapp b c).
  Proof.
    revert b c. induction a as [|x a IH]; intros [|y b] [|z c]; cbn; try reflexivity.
    now rewrite IH, app_assoc.
  Qed.

  Lemma zipapp_nil_cols n (a : list column) : length a = n -> zipapp a (repeat [] n) = a.
  Proof.
    revert n. induction a as [|x a IH]; intros [|n] H; cbn in *; try lia; [reflexivity|].
    now rewrite app_nil_r, IH by lia.
  Qed.

  Lemma zipapp_nil_cols_l n (a : list column) : length a = n -> zipapp (repeat [] n) a = a.
  Proof.
    revert n. induction a as [|x a IH]; intros [|n] H; cbn in *; try lia; [reflexivity|].
    now rewrite IH by lia.
  Qed.

  Lemma zipapp_app_split n (a b t1 t2 : list column) : length a = n -> length t1 = n ->
    firstn n (zipapp (a ++ b) (t1 ++ t2)) = zipapp a t1 /\
    skipn n (zipapp (a ++ b) (t1 ++ t2)) = zipapp b t2.
  Proof.
    intros La Lt. rewrite zipapp_app by lia.
    assert (LZ : length (zipapp a t1) = n) by (rewrite zipapp_length; lia).
    split; [now apply firstn_app_len|now apply skipn_app_len].
  Qed.

  Lemma fold_zipapp_length (ms : list (list column)) : forall a n,
    length a = n -> Forall (fun m => length m = n) ms -> length (fold_left zipapp ms a) = n.
  Proof.
    induction ms as [|m ms IH]; intros a n Ha Hm; cbn [fold_left]; [exact Ha|].
    inversion Hm; subst. apply IH; [|assumption]. rewrite zipapp_length; lia.
  Qed.

  Lemma zipapp_Forall (P Q : column -> Prop) (a b : list column) :
    (forall x y, P x -> Q y -> P (x ++ y)) -> Forall P a -> Forall Q b -> Forall P (zipapp a b).
  Proof.
    intros HPQ Ha. revert b. induction Ha as [|x a Hx _ IH]; intros [|y b] Hb; cbn [zipapp]; constructor.
    - apply HPQ; [exact Hx|exact (Forall_inv Hb)].
    - exact (IH b (Forall_inv_tail Hb)).
  Qed.

  Lemma fold_zipapp_Forall (P Q : column -> Prop) (ms : list (list column)) :
    (forall x y, P x -> Q y -> P (x ++ y)) ->
    forall a, Forall P a -> Forall (Forall Q) ms -> Forall P (fold_left zipapp ms a).
  Proof.
    intros HPQ. induction ms as [|m ms IH]; intros a Ha Hm; cbn [fold_left]; [exact Ha|].
    apply IH; [|exact (Forall_inv_tail Hm)]. exact (zipapp_Forall P Q a m HPQ Ha (Forall_inv Hm)).
  Qed.

  Lemma zipapp_Forall2 {B} (R : column -> B -> Prop) (a b : list column) xs :
    (forall x y m, R x m -> R y m -> R (x ++ y) m) ->
    Forall2 R a xs -> Forall2 R b xs -> Forall2 R (zipapp a b) xs.
  Proof.
    intros HR Ha. revert b. induction Ha as [|x m a xs Hx _ IH]; intros b Hb;
      inversion Hb; subst; cbn [zipapp]; constructor; auto.
  Qed.

  Lemma fold_zipapp_Forall2 {B} (R : column -> B -> Prop) (ms : list (list column)) xs :
    (forall x y m, R x m -> R y m -> R (x ++ y) m) ->
    forall a, Forall2 R a xs -> Forall (fun m => Forall2 R m xs) ms -> Forall2 R (fold_left zipapp ms a) xs.
  Proof.
    intros HR. induction ms as [|m ms IH]; intros a Ha Hm; cbn [fold_left]; [exact Ha|].
    apply IH; [|exact (Forall_inv_tail Hm)]. exact (zipapp_Forall2 R a m xs HR Ha (Forall_inv Hm)).
  Qed.

  Lemma fold_right_zipapp_length n (t : list column) ms :
    length t = n -> Forall (fun m => length m = n) ms -> length (fold_right zipapp t ms) = n.
  Proof.
    intros Ht. induction 1 as [|m ms Hm _ IH]; cbn [fold_right]; [exact Ht|].
    rewrite zipapp_length; lia.
  Qed.

  Lemma cat_cols_length n (l : list (list column)) :
    Forall (fun m => length m = n) l -> length (cat_cols n l) = n.
  Proof. apply fold_right_zipapp_length, repeat_length. Qed.

  Lemma fold_left_zipapp_r (ms : list (list column)) : forall a t,
    zipapp (fold_left zipapp ms a) t = zipapp a (fold_right zipapp t ms).
  Proof.
    induction ms as [|m ms IH]; intros a t; cbn [fold_left fold_right]; [reflexivity|].
    now rewrite IH, zipapp_assoc.
  Qed.

  Lemma fold_left_cat_cols n (l : list (list column)) a :
    length a = n -> Forall (fun m => length m = n) l ->
    fold_left zipapp l a = zipapp a (cat_cols n l).
  Proof.
    intros Ha Hl. unfold cat_cols. rewrite <- fold_left_zipapp_r.
    symmetry. apply zipapp_nil_cols. now apply fold_zipapp_length.
  Qed.

  (* mutual fixpoints do not refold under [cbn] *)
  Lemma shred_group fs (vs : list value) r d k : shred (Group fs) (VGroup vs) r d k = shred_fields fs vs r d k.
  Proof. reflexivity. Qed.
  Lemma shred_fields_req s fs (v : value) vs r d k :
    shred_fields (FCons Req s fs) (v :: vs) r d k = shred s v r d k ++ shred_fields fs vs r d k.
  Proof. reflexivity. Qed.
  Lemma shred_fields_none s fs (vs : list value) r d k :
    shred_fields (FCons Opt s fs) (VOpt None :: vs) r d k = @nulls V s r d ++ shred_fields fs vs r d k.
  Proof. reflexivity. Qed.
  Lemma shred_fields_some s fs (v : value) vs r d k :
    shred_fields (FCons Opt s fs) (VOpt (Some v) :: vs) r d k = shred s v r (S d) k ++ shred_fields fs vs r d k.
  Proof. reflexivity. Qed.
  Lemma shred_fields_nil s fs (vs : list value) r d k :
    shred_fields (FCons Rpt s fs) (VList [] :: vs) r d k = @nulls V s r d ++ shred_fields fs vs r d k.
  Proof. reflexivity. Qed.
  Lemma shred_fields_cons s fs (x : value) l vs r d k :
    shred_fields (FCons Rpt s fs) (VList (x :: l) :: vs) r d k =
    fold_left zipapp (map (fun y => shred s y (S k) (S d) (S k)) l) (shred s x r (S d) (S k))
      ++ shred_fields fs vs r d k.
  Proof. reflexivity. Qed.

  (** the graph of [shred] on well-formed values, as an induction principle *)
  Lemma shred_wf_ind
    (P : schema -> nat -> nat -> nat -> list column -> Prop)
    (Q : fields -> nat -> nat -> nat -> list column -> Prop) :
    (forall x r d k, P Leaf r d k [[(Some x, r, d)]]) ->
    (forall fs r d k c, Q fs r d k c -> P (Group fs) r d k c) ->
    (forall r d k, Q FNil r d k []) ->
    (forall s fs r d k c1 c2, P s r d k c1 -> Q fs r d k c2 -> Q (FCons Req s fs) r d k (c1 ++ c2)) ->
    (forall s fs r d k c1 c2, P s r (S d) k c1 -> Q fs r d k c2 -> Q (FCons Opt s fs) r d k (c1 ++ c2)) ->
    (forall rp s fs r d k c2, rp <> Req -> Q fs r d k c2 -> Q (FCons rp s fs) r d k (@nulls V s r d ++ c2)) ->
    (forall s fs r d k c0 ms c2, P s r (S d) (S k) c0 -> Forall (P s (S k) (S d) (S k)) ms ->
        Q fs r d k c2 -> Q (FCons Rpt s fs) r d k (fold_left zipapp ms c0 ++ c2)) ->
    (forall s (v : value) r d k, wf s v -> P s r d k (shred s v r d k)) /\
    (forall fs (vs : list value) r d k, wf_fields fs vs -> Q fs r d k (shred_fields fs vs r d k)).
  Proof.
    intros HL HG HN HR HO HZ HP. apply schema_fields_ind.
    - intros [x| | |] r d k H; cbn in H; try contradiction. apply HL.
    - intros fs IH [|vs| |] r d k H; cbn in H; try contradiction. apply HG, IH, H.
    - intros [|v vs] r d k H; cbn in H; try contradiction. apply HN.
    - intros rp s IHs fs IHf vs r d k H.
      destruct rp; destruct vs as [|fv vs']; cbn in H; try contradiction.
      + destruct H as [Hv Hvs]. apply HR; auto.
      + destruct fv as [| |[v|]|]; try contradiction.
        * destruct H as [Hv Hvs]. apply HO; auto.
        * apply HZ; [discriminate|auto].
      + destruct fv as [| | |[|x l]]; try contradiction; destruct H as [Hl Hvs].
        * apply HZ; [discriminate|auto].
        * apply Forall_cons_iff in Hl as [Hx Hl].
          apply (HP s fs r d k _ (map (fun y => shred s y (S k) (S d) (S k)) l)); auto.
          apply Forall_map. eapply Forall_impl; [|exact Hl]. auto.
  Qed.

  Lemma nulls_length s r d : length (@nulls V s r d) = nleaves s.
  Proof. unfold nulls. apply repeat_length. Qed.

  Lemma shred_len_both :
    (forall s (v : value) r d k, wf s v -> length (shred s v r d k) = nleaves s) /\
    (forall fs (vs : list value) r d k, wf_fields fs vs -> length (shred_fields fs vs r d k) = nleaves_fields fs).
  Proof.
    apply (shred_wf_ind (fun s _ _ _ c => length c = nleaves s)
                        (fun fs _ _ _ c => length c = nleaves_fields fs));
      intros; cbn [nleaves nleaves_fields]; rewrite ?app_length, ?nulls_length;
      try f_equal; auto using fold_zipapp_length.
  Qed.

  Lemma shred_len s (v : value) r d k : wf s v -> length (shred s v r d k) = nleaves s.
  Proof. apply (proj1 shred_len_both). Qed.

  Lemma shreds_len s (l : list value) r d k :
    Forall (wf s) l -> Forall (fun m => length m = nleaves s) (map (fun y => shred s y r d k) l).
  Proof. intros H. apply Forall_map. eapply Forall_impl; [|exact H]. intros y. apply shred_len. Qed.

  Lemma starts_zipapp r d (a b : list column) : starts r d a -> starts r d (zipapp a b).
  Proof.
    intros H. revert b. induction H as [|x a (e & rest & -> & Hr & Hd) _ IH]; intros [|y b];
      cbn [zipapp]; constructor.
    - exists e, (rest ++ y). auto.
    - apply IH.
  Qed.

  Lemma starts_app r d (a b : list column) : starts r d a -> starts r d b -> starts r d (a ++ b).
  Proof. intros Ha Hb. apply Forall_app. split; assumption. Qed.

  Lemma starts_weaken r d d' (a : list column) : d' <= d -> starts r d a -> starts r d' a.
  Proof.
    intros Hd H. eapply Forall_impl; [|exact H]. intros c (e & rest & -> & Hr & He).
    exists e, rest. repeat split; auto. lia.
  Qed.

  Lemma starts_single (x : option V) r d : starts r d [[(x, r, d)]].
  Proof. constructor; [|constructor]. exists (x, r, d), []. cbn. auto. Qed.

  Lemma nulls_starts s r d : starts r d (@nulls V s r d).
  Proof.
    unfold nulls, starts. apply Forall_forall. intros c Hc. apply repeat_spec in Hc. subst c.
    apply (Forall_inv (starts_single None r d)).
  Qed.

  Lemma fold_zipapp_starts r d (ms : list (list column)) : forall a,
    starts r d a -> starts r d (fold_left zipapp ms a).
  Proof.
    induction ms as [|m ms IH]; intros a Hs; cbn [fold_left]; [exact Hs|]. now apply IH, starts_zipapp.
  Qed.

  Lemma shred_starts s (v : value) r d k : wf s v -> starts r d (shred s v r d k).
  Proof.
    revert s v r d k.
    apply (shred_wf_ind (fun _ r d _ c => starts r d c) (fun _ r d _ c => starts r d c)); intros;
      try apply starts_app; auto using starts_single, nulls_starts.
    - constructor.
    - apply (starts_weaken r (S d)); [lia|assumption].
    - apply (starts_weaken r (S d)); [lia|]. now apply fold_zipapp_starts.
  Qed.

  Lemma shred_shape :
    forall s, wf_schema s -> forall v r d k, wf s v ->
      length (shred s v r d k) = nleaves s /\ starts r d (shred s v r d k).
  Proof. intros s _ v r d k H. split; [now apply shred_len|now apply shred_starts]. Qed.

  Lemma heads_le_mono k k' cols : k <= k' -> heads_le k cols -> heads_le k' cols.
  Proof.
    intros Hk H. eapply Forall_impl; [|exact H]. intros [|e c]; [auto|]. lia.
  Qed.

  Lemma starts_heads_le r d k cols : r <= k -> starts r d cols -> heads_le k cols.
  Proof.
    intros Hr H. eapply Forall_impl; [|exact H]. intros c (e & rest & -> & He & _). lia.
  Qed.

  Lemma cat_heads_le r d k (tails : list column) ms :
    r <= k -> heads_le k tails -> Forall (starts r d) ms -> heads_le k (fold_right zipapp tails ms).
  Proof.
    intros Hr Ht [|m ms' Hm _]; cbn [fold_right]; [exact Ht|].
    eapply starts_heads_le; [exact Hr|]. apply starts_zipapp, Hm.
  Qed.

  Lemma head_entry_zipapp_starts r d (a b : list column) :
    0 < length a -> length a = length b -> starts r d a ->
    exists e, head_entry V (zipapp a b) = Some e /\ e_r V e = r /\ d <= e_d V e.
  Proof.
    destruct a as [|x a]; destruct b as [|y b]; cbn; intros Hp Hl H; try lia.
    inversion H as [|? ? (e & rest & -> & Hr & Hd) _]; subst. exists e. cbn. auto.
  Qed.

  Lemma head_entry_nulls s r d (tails : list column) :
    0 < nleaves s -> length tails = nleaves s ->
    head_entry V (zipapp (@nulls V s r d) tails) = Some (None, r, d).
  Proof.
    unfold nulls. destruct (nleaves s) as [|n]; [lia|]. destruct tails as [|t tails]; cbn; [lia|reflexivity].
  Qed.

  Lemma drop_heads_nulls s r d (tails : list column) :
    length tails = nleaves s -> drop_heads V (zipapp (@nulls V s r d) tails) = Some tails.
  Proof.
    unfold nulls. revert tails. induction (nleaves s) as [|n IH]; intros [|t tails] H; cbn in *; try lia; [reflexivity|].
    now rewrite IH by lia.
  Qed.

  Lemma head_entry_heads_le k (cols : list column) :
    heads_le k cols ->
    match head_entry V cols with Some e => e_r V e <= k | None => True end.
  Proof.
    destruct cols as [|[|e c] cols]; cbn; auto. intros H. now inversion H.
  Qed.

  Lemma nleaves_pos : forall s, wf_schema s -> 0 < nleaves s.
  Proof. destruct s; cbn; [lia|tauto]. Qed.

  Lemma wfn_wf n : forall s v, wfn n s v -> wf s v.
  Proof.
    intros s. induction s as [|fs IH| |rp s IHs fs IHf] using schema_mut
      with (P0 := fun fs => forall vs, wfn_fields n fs vs -> wf_fields fs vs).
    - intros [x| | |] H; simpl in *; auto.
    - intros [|vs| |] H; simpl in *; auto.
    - intros [|v vs] H; simpl in *; auto.
    - intros [|fv vs] H; destruct rp; simpl in *; try contradiction.
      + destruct H. split; auto.
      + destruct fv as [| |[v|]|]; try contradiction; [destruct H; split; auto|auto].
      + destruct fv as [| | |l]; try contradiction. destruct H as [[_ Hl] Hvs]. split; [|auto].
        eapply Forall_impl; [|exact Hl]. auto.
  Qed.

  Lemma asm_group fs d k fuel (cols : list column) :
    asm (Group fs) d k fuel cols =
    match asm_fields fs d k fuel cols with
    | Some (vs, rest) => Some (VGroup vs, rest)
    | None => None
    end.
  Proof. reflexivity. Qed.
  Lemma asm_fields_cons rp s fs' d k fuel (cols : list column) :
    asm_fields (FCons rp s fs') d k fuel cols =
        let c1 := firstn (nleaves s) cols in
        let c2 := skipn (nleaves s) cols in
        let field :=
          match rp with
          | Req => asm s d k fuel c1
          | Opt =>
              match head_entry V c1 with
              | None => None
              | Some e =>
                  if d <? e_d V e then
                    match asm s (S d) k fuel c1 with
                    | Some (v, r1) => Some (VOpt (Some v), r1)
                    | None => None
                    end
                  else
                    match drop_heads V c1 with
                    | Some r1 => Some (VOpt None, r1)
                    | None => None
                    end
              end
          | Rpt =>
              match head_entry V c1 with
              | None => None
              | Some e =>
                  if d <? e_d V e then
                    match asm_list V fuel (asm s (S d) (S k) fuel) k c1 with
                    | Some (l, r1) => Some (VList l, r1)
                    | None => None
                    end
                  else
                    match drop_heads V c1 with
                    | Some r1 => Some (VList [], r1)
                    | None => None
                    end
              end
          end in
        match field with
        | None => None
        | Some (v, r1) =>
            match asm_fields fs' d k fuel c2 with
            | Some (vs, r2) => Some (v :: vs, r1 ++ r2)
            | None => None
            end
        end.
  Proof. reflexivity. Qed.

  (* the repeated-field loop: each later element is recognised by its repetition level [S k] *)
  Lemma asm_list_ok s (Hs : wf_schema s) d k n
    (IHs : forall v r tails, wfn n s v -> length tails = nleaves s -> heads_le (S k) tails ->
           asm s (S d) (S k) (S n) (zipapp (shred s v r (S d) (S k)) tails) = Some (v, tails)) :
    forall l x r0 tails fuel,
      length l < fuel -> wfn n s x -> Forall (wfn n s) l ->
      length tails = nleaves s -> heads_le k tails ->
      asm_list V fuel (asm s (S d) (S k) (S n)) k
        (zipapp (shred s x r0 (S d) (S k))
                (fold_right zipapp tails (map (fun y => shred s y (S k) (S d) (S k)) l)))
      = Some (x :: l, tails).
  Proof.
    induction l as [|y l IH]; intros x r0 tails fuel Hf Hx Hl Ht Hh;
      (destruct fuel as [|f]; [lia|]); cbn [asm_list map fold_right].
    - rewrite IHs; auto; [|eapply heads_le_mono; [|exact Hh]; lia].
      pose proof (head_entry_heads_le k tails Hh) as Hhe.
      destruct (head_entry V tails) as [e|]; [|reflexivity].
      destruct (Nat.eqb_spec (e_r V e) (S k)); [lia|reflexivity].
    - apply Forall_cons_iff in Hl as [Hy Hl].
      assert (Hlw : Forall (wf s) l) by (eapply Forall_impl; [|exact Hl]; apply wfn_wf).
      destruct (shred_shape s Hs y (S k) (S d) (S k) (wfn_wf n s y Hy)) as [L S1].
      set (rest := fold_right zipapp tails (map (fun y => shred s y (S k) (S d) (S k)) l)).
      assert (Lr : length rest = nleaves s).
      { apply fold_right_zipapp_length; [exact Ht|now apply shreds_len]. }
      rewrite IHs; auto.
      2:{ rewrite zipapp_length; lia. }
      2:{ eapply starts_heads_le; [reflexivity|]. apply starts_zipapp, S1. }
      destruct (head_entry_zipapp_starts (S k) (S d) (shred s y (S k) (S d) (S k)) rest)
        as (e & He & Her & _); [rewrite L; now apply nleaves_pos|lia|exact S1|].
      rewrite He, Her, Nat.eqb_refl. subst rest.
      rewrite (IH y (S k) tails f); auto. cbn [length] in Hf. lia.
  Qed.

  Lemma asm_fields_nulls rp s fs d k fuel r (R t1 t2 : list column) vs :
    rp <> Req -> wf_schema s -> length t1 = nleaves s ->
    asm_fields fs d k fuel (zipapp R t2) = Some (vs, t2) ->
    asm_fields (FCons rp s fs) d k fuel (zipapp (@nulls V s r d ++ R) (t1 ++ t2)) =
    Some ((match rp with Opt => VOpt None | _ => VList [] end) :: vs, t1 ++ t2).
  Proof.
    intros Hrp Hs Lt E. rewrite asm_fields_cons. cbv zeta.
    destruct (zipapp_app_split (nleaves s) (@nulls V s r d) R t1 t2 (nulls_length s r d) Lt) as [-> ->].
    rewrite head_entry_nulls by (auto using nleaves_pos).
    change (e_d V (None, r, d)) with d. rewrite Nat.ltb_irrefl, drop_heads_nulls, E by exact Lt.
    destruct rp; [contradiction|reflexivity|reflexivity].
  Qed.

  Theorem asm_shred :
    forall s, wf_schema s -> forall v r d k n tails,
      wfn n s v -> length tails = nleaves s -> heads_le k tails ->
      asm s d k (S n) (zipapp (shred s v r d k) tails) = Some (v, tails).
  Proof.
    intros s. induction s as [|fs IH| |rp s IHs fs IHf] using schema_mut with
      (P0 := fun fs => wf_schema_fields fs -> forall vs r d k n tails,
         wfn_fields n fs vs -> length tails = nleaves_fields fs -> heads_le k tails ->
         asm_fields fs d k (S n) (zipapp (shred_fields fs vs r d k) tails) = Some (vs, tails)).
    - intros _ [x| | |] r d k n tails H Ht Hh; cbn in H; try contradiction.
      destruct tails as [|t [|? ?]]; cbn in Ht; try lia. reflexivity.
    - intros [_ Hs] [|vs| |] r d k n tails H Ht Hh; cbn in H; try contradiction.
      rewrite shred_group, asm_group. now rewrite IH.
    - intros _ [|v vs] r d k n tails H Ht Hh; cbn in H; try contradiction.
      destruct tails; [reflexivity|cbn in Ht; lia].
    - (* a field: [t1] are the tails of its columns, [t2] those of the later fields *)
      intros [Hs Hfs] vs r d k n tails H Ht Hh.
      cbn [nleaves_fields] in Ht.
      assert (Lt1 : length (firstn (nleaves s) tails) = nleaves s) by (rewrite firstn_length; lia).
      assert (Lt2 : length (skipn (nleaves s) tails) = nleaves_fields fs) by (rewrite skipn_length; lia).
      rewrite <- (firstn_skipn (nleaves s) tails) in Hh |- *.
      revert Lt1 Lt2 Hh. generalize (firstn (nleaves s) tails), (skipn (nleaves s) tails).
      intros t1 t2 Lt1 Lt2 Hh. apply Forall_app in Hh as [Hh1 Hh2].
      destruct rp; destruct vs as [|fv vs']; cbn in H; try contradiction.
      + destruct H as [Hv Hvs]. rewrite shred_fields_req, asm_fields_cons. cbv zeta.
        pose proof (shred_len s fv r d k (wfn_wf n s fv Hv)) as L1.
        destruct (zipapp_app_split _ _ (shred_fields fs vs' r d k) t1 t2 L1 Lt1) as [-> ->].
        now rewrite IHs, IHf by auto.
      + destruct fv as [| |[v|]|]; try contradiction.
        * destruct H as [Hv Hvs]. rewrite shred_fields_some, asm_fields_cons. cbv zeta.
          destruct (shred_shape s Hs v r (S d) k (wfn_wf n s v Hv)) as [L1 S1].
          destruct (zipapp_app_split _ _ (shred_fields fs vs' r d k) t1 t2 L1 Lt1) as [-> ->].
          destruct (head_entry_zipapp_starts r (S d) (shred s v r (S d) k) t1) as (e & -> & _ & Hed);
            [rewrite L1; now apply nleaves_pos|lia|exact S1|].
          destruct (Nat.ltb_spec d (e_d V e)); [|lia].
          now rewrite IHs, IHf by auto.
        * rewrite shred_fields_none. apply asm_fields_nulls; auto. discriminate.
      + destruct fv as [| | |l]; try contradiction. destruct H as [[Hn Hl] Hvs].
        destruct l as [|x l].
        * rewrite shred_fields_nil. apply asm_fields_nulls; auto. discriminate.
        * apply Forall_cons_iff in Hl as [Hx Hl]. rewrite shred_fields_cons, asm_fields_cons. cbv zeta.
          assert (Hms : Forall (fun m => length m = nleaves s) (map (fun y => shred s y (S k) (S d) (S k)) l))
            by (apply shreds_len; eapply Forall_impl; [|exact Hl]; apply wfn_wf).
          destruct (shred_shape s Hs x r (S d) (S k) (wfn_wf n s x Hx)) as [L1 S1].
          pose proof (fold_zipapp_length _ _ _ L1 Hms) as LF.
          destruct (zipapp_app_split _ _ (shred_fields fs vs' r d k) t1 t2 LF Lt1) as [-> ->].
          rewrite fold_left_zipapp_r.
          destruct (head_entry_zipapp_starts r (S d) (shred s x r (S d) (S k))
                      (fold_right zipapp t1 (map (fun y => shred s y (S k) (S d) (S k)) l)))
            as (e & -> & _ & Hed);
            [rewrite L1; now apply nleaves_pos|rewrite L1; symmetry; now apply fold_right_zipapp_length|exact S1|].
          destruct (Nat.ltb_spec d (e_d V e)); [|lia].
          rewrite (asm_list_ok s Hs d k n (fun v0 r0 tl => IHs Hs v0 r0 (S d) (S k) n tl) l x r t1 (S n)
                     ltac:(cbn [length] in Hn; lia) Hx Hl Lt1 Hh1).
          now rewrite IHf by auto.
  Qed.

  Definition row_ok (n : nat) (s : schema) (v : value) : Prop := wfn n s v.

  Fixpoint rows_cols (s : schema) (rows : list value) : list column :=
    match rows with
    | [] => repeat [] (nleaves s)
    | v :: rest => zipapp (shred_row s v) (rows_cols s rest)
    end.

  Lemma rows_cols_cat s rows : rows_cols s rows = cat_cols (nleaves s) (map (shred_row s) rows).
  Proof. induction rows as [|v rows IH]; cbn [rows_cols map]; [reflexivity|]. now rewrite IH. Qed.

  Lemma shred_rows_cat s (rows : list value) :
    Forall (wf s) rows -> shred_rows s rows = cat_cols (nleaves s) (map (shred_row s) rows).
  Proof.
    intros Hr. pose proof (shreds_len s rows 0 0 0 Hr) as Hl. unfold shred_rows.
    rewrite (fold_left_cat_cols (nleaves s)); [|apply repeat_length|exact Hl].
    apply zipapp_nil_cols_l. now apply cat_cols_length.
  Qed.

  Lemma rows_cols_length s rows :
    Forall (wf s) rows -> length (rows_cols s rows) = nleaves s.
  Proof. intros Hr. rewrite rows_cols_cat. apply cat_cols_length. exact (shreds_len s rows 0 0 0 Hr). Qed.

  Lemma shred_rows_eq s (Hs : wf_schema s) rows :
    Forall (wf s) rows -> shred_rows s rows = rows_cols s rows.
  Proof. intros Hr. rewrite rows_cols_cat. now apply shred_rows_cat. Qed.

  Lemma rows_cols_heads s (Hs : wf_schema s) rows :
    Forall (wf s) rows -> heads_le 0 (rows_cols s rows).
  Proof.
    intros Hr. rewrite rows_cols_cat. apply (cat_heads_le 0 0); [reflexivity| |].
    - apply Forall_forall. intros c Hc. apply repeat_spec in Hc. now subst c.
    - apply Forall_map. eapply Forall_impl; [|exact Hr]. intros v. apply shred_starts.
  Qed.

  Theorem asm_rows_shred_rows s (Hs : wf_schema s) n rows :
    Forall (wfn n s) rows ->
    asm_rows (length rows) s (S n) (shred_rows s rows) = Some rows.
  Proof.
    intros Hr.
    assert (Hw : Forall (wf s) rows) by (eapply Forall_impl; [|exact Hr]; apply wfn_wf).
    rewrite shred_rows_eq by assumption.
    induction Hr as [|v rows Hv Hr IH]; cbn [length asm_rows rows_cols]; [reflexivity|].
    inversion Hw; subst. unfold shred_row.
    rewrite asm_shred; auto.
    - now rewrite IH.
    - now apply rows_cols_length.
    - now apply rows_cols_heads.
  Qed.
End Proofs.
