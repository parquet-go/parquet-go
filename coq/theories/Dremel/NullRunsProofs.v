(** The run scanner of writeRowsFuncOfOptional (model: NullRuns.v) cuts the rows
    of every well-formed bitmap into consecutive, non-empty, uniform, maximal
    runs; with the mask (1<<y)-1 of the code before 697c643 it does not. *)
From Coq Require Import List NArith Bool Lia.
From PQ Require Import Dremel.NullRuns.
Import ListNotations.
Local Open Scope N_scope.

Lemma mask64_ones : mask64 = N.ones 64.
Proof. reflexivity. Qed.

Lemma mask_fixed_ones : forall y, mask_fixed y = N.ones (64 - y).
Proof. intros y. unfold mask_fixed, N.ones. now rewrite N.pred_sub. Qed.

Lemma tz_pos_spec : forall p,
  N.testbit (Npos p) (tz_pos p) = true /\
  forall k, k < tz_pos p -> N.testbit (Npos p) k = false.
Proof.
  induction p as [p IH|p IH|]; simpl tz_pos.
  - split; [reflexivity | intros k Hk; lia].
  - destruct IH as [IH1 IH2]. split.
    + change (N.pos p~0) with (2 * N.pos p). now rewrite N.testbit_even_succ by lia.
    + intros k Hk. change (N.pos p~0) with (2 * N.pos p).
      destruct (N.eq_dec k 0) as [->|Hk0].
      * apply N.testbit_even_0.
      * replace k with (N.succ (N.pred k)) by lia.
        rewrite N.testbit_even_succ by lia. apply IH2. lia.
  - split; [reflexivity | intros k Hk; lia].
Qed.

Lemma tz64_spec : forall w, w <> 0 -> N.testbit w (tz64 w) = true.
Proof. intros [|p] H; [congruence|]. apply tz_pos_spec. Qed.

Lemma tz64_below : forall w k, k < tz64 w -> N.testbit w k = false.
Proof. intros [|p] k H; [apply N.bits_0|now apply tz_pos_spec]. Qed.

Lemma testbit_high : forall w k, w < 2 ^ 64 -> 64 <= k -> N.testbit w k = false.
Proof.
  intros w k Hw Hk. destruct (N.eq_dec w 0) as [->|Hw0]; [apply N.bits_0|].
  apply N.bits_above_log2.
  assert (N.log2 w < 64) by (apply N.log2_lt_pow2; lia). lia.
Qed.

Lemma not64_spec_low : forall w k, k < 64 -> N.testbit (not64 w) k = negb (N.testbit w k).
Proof.
  intros w k Hk. unfold not64. rewrite N.lxor_spec, mask64_ones, N.ones_spec_low by lia.
  now rewrite xorb_true_r.
Qed.

Lemma word_zero_bits : forall k, N.testbit 0 k = false.
Proof. apply N.bits_0. Qed.

(** With [v] the bit of the rows being skipped, both phases look for the first
    set bit of [flip v b] and compare the shifted word with the word whose
    remaining [64 - y] bits are all [v]. *)
Definition flip (v : bool) (w : N) : N := if v then not64 w else w.
Definition rest_mask (v : bool) (y : N) : N := if v then mask_fixed y else 0.

Lemma flip_spec_low : forall v w k, k < 64 -> N.testbit (flip v w) k = xorb v (N.testbit w k).
Proof. intros [|] w k Hk; cbn [flip]; [rewrite xorb_true_l; now apply not64_spec_low|now rewrite xorb_false_l]. Qed.

Lemma rest_mask_bits : forall v y k, N.testbit (rest_mask v y) k = v && (k <? 64 - y).
Proof.
  intros [|] y k; cbn [rest_mask andb]; [|apply N.bits_0]. rewrite mask_fixed_ones.
  destruct (N.ltb_spec k (64 - y)); [now apply N.ones_spec_low|now apply N.ones_spec_high].
Qed.

(** [if b := nulls.bits[x] >> uint(y); b == 0] resp. [b == (1<<uint(64-y))-1],
    then [y += bits.TrailingZeros64(b)] resp. [(^b)] *)
Lemma inword : forall v w y, w < 2 ^ 64 -> y < 64 ->
  (N.shiftr w y = rest_mask v y -> forall k, y <= k < 64 -> N.testbit w k = v) /\
  (N.shiftr w y <> rest_mask v y ->
     y + tz64 (flip v (N.shiftr w y)) < 64 /\
     N.testbit w (y + tz64 (flip v (N.shiftr w y))) = negb v /\
     forall k, y <= k < y + tz64 (flip v (N.shiftr w y)) -> N.testbit w k = v).
Proof.
  intros v w y Hw Hy. set (b := N.shiftr w y).
  assert (Hb : forall k, N.testbit w (k + y) = N.testbit b k)
    by (intros k; unfold b; now rewrite N.shiftr_spec by lia).
  split.
  - intros H0 k Hk. replace k with ((k - y) + y) by lia. rewrite Hb, H0, rest_mask_bits.
    rewrite (proj2 (N.ltb_lt _ _)) by lia. apply andb_true_r.
  - intros Hn. set (c := flip v b).
    assert (Hc : forall k, k < tz64 c -> k < 64 -> N.testbit b k = v).
    { intros k Hk Hk'. pose proof (tz64_below c k Hk) as H. unfold c in H.
      rewrite flip_spec_low in H by assumption. now destruct v, (N.testbit b k). }
    (* otherwise the shifted word would be the mask *)
    assert (Ht : tz64 c < 64 - y).
    { destruct (N.lt_ge_cases (tz64 c) (64 - y)) as [|Hge]; [assumption|].
      exfalso. apply Hn. apply N.bits_inj. intros k. rewrite rest_mask_bits.
      destruct (N.ltb_spec k (64 - y)) as [Hk|Hk].
      - rewrite andb_true_r. apply Hc; lia.
      - rewrite andb_false_r, <- Hb. apply testbit_high; lia. }
    split; [lia|]. split; [|intros k Hk; replace k with ((k - y) + y) by lia; rewrite Hb; apply Hc; lia].
    assert (Hc0 : c <> 0) by (intros E; rewrite E in Ht; change (tz64 0) with 64 in Ht; lia).
    pose proof (tz64_spec c Hc0) as H1. unfold c in *. rewrite flip_spec_low in H1 by lia.
    rewrite N.add_comm, Hb. revert H1. now destruct (N.testbit b (tz64 (flip v b))), v.
Qed.

(** [y = bits.TrailingZeros64(nulls.bits[x]) % 64] resp. [(^nulls.bits[x])], for a
    word that is not 0 resp. ^0: the case y = 0 of the above *)
Lemma word0 : forall (v : bool) w, w < 2 ^ 64 -> w <> (if v then mask64 else 0) ->
  tz64 (flip v w) mod 64 < 64 /\
  N.testbit w (tz64 (flip v w) mod 64) = negb v /\
  forall k, k < tz64 (flip v w) mod 64 -> N.testbit w k = v.
Proof.
  intros v w Hw Hn. destruct (inword v w 0 Hw ltac:(lia)) as [_ H].
  rewrite N.shiftr_0_r in H. destruct H as (T1 & T2 & T3); [now destruct v|].
  rewrite N.add_0_l in T1, T2. rewrite N.mod_small by assumption.
  split; [assumption|]. split; [assumption|]. intros k Hk. apply T3. lia.
Qed.

Lemma word_lt : forall bits x,
  Forall (fun w => w < 2 ^ 64) bits -> word bits x < 2 ^ 64.
Proof.
  intros bits x HF. unfold word.
  destruct (nth_in_or_default (N.to_nat x) bits 0) as [Hin| ->].
  - rewrite Forall_forall in HF. now apply HF.
  - change (2 ^ 64) with 18446744073709551616. lia.
Qed.

Lemma skip_words_spec : forall fuel bits v x,
  x <= nwords bits -> (N.to_nat (nwords bits - x) < fuel)%nat ->
  x <= skip_words fuel bits v x <= nwords bits /\
  (forall z, x <= z < skip_words fuel bits v x -> word bits z = v) /\
  (skip_words fuel bits v x < nwords bits -> word bits (skip_words fuel bits v x) <> v).
Proof.
  induction fuel as [|f IH]; intros bits v x Hx Hf; [lia|].
  simpl skip_words.
  destruct (N.ltb_spec x (nwords bits)) as [Hlt|Hge]; simpl andb.
  - destruct (N.eqb_spec (word bits x) v) as [He|Hne].
    + destruct (IH bits v (x + 1)) as (A & B & C); [lia|lia|].
      split; [lia|]. split; [|assumption].
      intros z Hz. destruct (N.eq_dec z x) as [->|]; [assumption|]. apply B. lia.
    + split; [lia|]. split; [intros z Hz; lia|auto].
  - split; [lia|]. split; [intros z Hz; lia|lia].
Qed.

Lemma bit_at_pos : forall bits x y, y < 64 ->
  bit_at bits (x * 64 + y) = N.testbit (word bits x) y.
Proof.
  intros bits x y Hy. unfold bit_at.
  rewrite N.div_add_l, N.div_small, N.add_0_r by lia.
  rewrite N.add_comm, N.mod_add, N.mod_small by lia. reflexivity.
Qed.

Lemma pos_split : forall k, exists z r, k = z * 64 + r /\ r < 64.
Proof.
  intros k. exists (k / 64), (k mod 64). split.
  - rewrite N.mul_comm. apply N.div_mod'.
  - apply N.mod_lt. lia.
Qed.

(** What one phase of the scan guarantees: starting at (x, y) it stops at
    (x', y'), every row in between has bit [v], and the row it stops at, if
    inside the bitmap, has the other bit. *)
Definition phase_post (v : bool) (bits : list N) (x y x' y' : N) : Prop :=
  y' < 64 /\
  x * 64 + y <= x' * 64 + y' <= 64 * nwords bits /\
  (forall k, x * 64 + y <= k < x' * 64 + y' -> bit_at bits k = v) /\
  (x' * 64 + y' < 64 * nwords bits -> bit_at bits (x' * 64 + y') = negb v).

Lemma words_post : forall v bits x0 x' y',
  x0 <= x' <= nwords bits -> y' < 64 ->
  (forall z, x0 <= z < x' -> forall r, r < 64 -> N.testbit (word bits z) r = v) ->
  (x' < nwords bits ->
     (forall r, r < y' -> N.testbit (word bits x') r = v) /\
     N.testbit (word bits x') y' = negb v) ->
  (~ x' < nwords bits -> y' = 0) ->
  phase_post v bits x0 0 x' y'.
Proof.
  intros v bits x0 x' y' Hx Hy Hw Hl He.
  assert (Hcase : x' < nwords bits \/ (x' = nwords bits /\ y' = 0)).
  { destruct (N.lt_ge_cases x' (nwords bits)) as [|Hge]; [now left|right]. split; [lia|].
    apply He. lia. }
  split; [assumption|]. split; [lia|]. split.
  - intros k Hk. destruct (pos_split k) as (z & r & -> & Hr). rewrite bit_at_pos by assumption.
    destruct (N.lt_ge_cases z x') as [Hz|Hz].
    + apply Hw; lia.
    + assert (z = x') by lia. subst z.
      destruct Hcase as [Hlt|[_ ->]]; [|lia]. apply Hl; [assumption|lia].
  - intros Hlt. rewrite bit_at_pos by assumption.
    destruct Hcase as [Hlt'|[-> ->]]; [|lia]. now apply Hl.
Qed.

Lemma phase_extend : forall v bits x y x' y',
  y < 64 ->
  (forall r, y <= r < 64 -> N.testbit (word bits x) r = v) ->
  phase_post v bits (x + 1) 0 x' y' -> phase_post v bits x y x' y'.
Proof.
  intros v bits x y x' y' Hy Hw (P1 & P2 & P3 & P4).
  split; [assumption|]. split; [lia|]. split; [|assumption].
  intros k Hk. destruct (N.lt_ge_cases k ((x + 1) * 64 + 0)) as [Hlt|Hge].
  - destruct (pos_split k) as (z & r & -> & Hr). rewrite bit_at_pos by assumption.
    assert (z = x) by lia. subst z. apply Hw. lia.
  - apply P3. lia.
Qed.

Lemma phase_inword : forall v bits x y t,
  x < nwords bits -> y + t < 64 ->
  (forall r, y <= r < y + t -> N.testbit (word bits x) r = v) ->
  N.testbit (word bits x) (y + t) = negb v ->
  phase_post v bits x y x (y + t).
Proof.
  intros v bits x y t Hx Hy Hw Hs.
  split; [assumption|]. split; [lia|]. split.
  - intros k Hk. destruct (pos_split k) as (z & r & -> & Hr). rewrite bit_at_pos by assumption.
    assert (z = x) by lia. subst z. apply Hw. lia.
  - intros _. now rewrite bit_at_pos.
Qed.

Definition scan_from (v : bool) (bits : list N) (x : N) : N * N :=
  let x' := skip_words (S (length bits)) bits (if v then mask64 else 0) x in
  if x' <? nwords bits then (x', tz64 (flip v (word bits x')) mod 64) else (x', 0).

Definition phase (v : bool) (bits : list N) (x y : N) : N * N :=
  if negb (y =? 0) then
    if N.shiftr (word bits x) y =? rest_mask v y then scan_from v bits (x + 1)
    else (x, y + tz64 (flip v (N.shiftr (word bits x) y)))
  else scan_from v bits x.

Lemma null_phase_eq : forall bits x y, null_phase bits x y = phase false bits x y.
Proof. reflexivity. Qed.

Lemma nonnull_phase_eq : forall bits x y, nonnull_phase mask_fixed bits x y = phase true bits x y.
Proof. reflexivity. Qed.

Lemma scan_from_ok : forall v bits x,
  Forall (fun w => w < 2 ^ 64) bits -> x <= nwords bits ->
  phase_post v bits x 0 (fst (scan_from v bits x)) (snd (scan_from v bits x)).
Proof.
  intros v bits x HF Hx. unfold scan_from.
  destruct (skip_words_spec (S (length bits)) bits (if v then mask64 else 0) x Hx) as (A & B & C);
    [unfold nwords; lia|].
  set (x' := skip_words (S (length bits)) bits (if v then mask64 else 0) x) in *.
  assert (Hw : forall z, x <= z < x' -> forall r, r < 64 -> N.testbit (word bits z) r = v).
  { intros z Hz r Hr. rewrite (B z Hz). destruct v; [|apply N.bits_0].
    rewrite mask64_ones. now apply N.ones_spec_low. }
  destruct (N.ltb_spec x' (nwords bits)) as [Hlt|Hge]; cbn [fst snd].
  - destruct (word0 v (word bits x') (word_lt _ _ HF) (C Hlt)) as (T1 & T2 & T3).
    apply words_post; try assumption; [now split|contradiction].
  - apply words_post; try assumption; lia.
Qed.

Lemma phase_ok : forall v bits x y,
  Forall (fun w => w < 2 ^ 64) bits -> y < 64 -> x * 64 + y <= 64 * nwords bits ->
  phase_post v bits x y (fst (phase v bits x y)) (snd (phase v bits x y)).
Proof.
  intros v bits x y HF Hy Hp. unfold phase.
  destruct (N.eqb_spec y 0) as [->|Hy0]; cbn [negb].
  - apply scan_from_ok; [assumption|lia].
  - assert (Hx : x < nwords bits) by lia.
    destruct (inword v (word bits x) y (word_lt _ _ HF) Hy) as [Z NZ].
    destruct (N.eqb_spec (N.shiftr (word bits x) y) (rest_mask v y)) as [Hb|Hb].
    + apply phase_extend; [assumption|auto|]. apply scan_from_ok; [assumption|lia].
    + destruct (NZ Hb) as (T1 & T2 & T3). cbn [fst snd]. now apply phase_inword.
Qed.

Lemma scan_loop_S : forall f maskf bits n i,
  scan_loop (S f) maskf bits n i =
  if i <? n then
    let x := i / 64 in
    let y := i mod 64 in
    let '(x1, y1) := null_phase bits x y in
    let j1 := clamp (x1 * 64 + y1) n in
    let '(out1, i1) := if i <? j1 then ([(true, i, j1)], j1) else ([], i) in
    let '(x2, y2) := nonnull_phase maskf bits x1 y1 in
    let j2 := clamp (x2 * 64 + y2) n in
    let '(out2, i2) := if i1 <? j2 then ([(false, i1, j2)], j2) else ([], i1) in
    out1 ++ out2 ++ scan_loop f maskf bits n i2
  else [].
Proof. reflexivity. Qed.

Lemma scan_loop_end : forall f maskf bits n, scan_loop f maskf bits n n = [].
Proof. intros [|f] maskf bits n; [reflexivity|]. now rewrite scan_loop_S, N.ltb_irrefl. Qed.

Lemma phase_clamp : forall v bits n x y x' y',
  n <= 64 * nwords bits -> phase_post v bits x y x' y' ->
  clamp (x * 64 + y) n <= clamp (x' * 64 + y') n <= n /\
  (forall k, clamp (x * 64 + y) n <= k < clamp (x' * 64 + y') n -> bit_at bits k = v) /\
  (clamp (x' * 64 + y') n < n -> bit_at bits (clamp (x' * 64 + y') n) = negb v).
Proof.
  intros v bits n x y x' y' Hn (A1 & A2 & A3 & A4). unfold clamp.
  destruct (N.ltb_spec n (x * 64 + y)), (N.ltb_spec n (x' * 64 + y')).
  all: split; [lia|]. all: split; [intros k Hk; apply A3; lia|intros Hlt; try lia; apply A4; lia].
Qed.

Lemma iteration_bounds : forall bits n i,
  wf_bitmap bits n -> i < n ->
  forall x1 y1 x2 y2,
  null_phase bits (i / 64) (i mod 64) = (x1, y1) ->
  nonnull_phase mask_fixed bits x1 y1 = (x2, y2) ->
  let j1 := clamp (x1 * 64 + y1) n in
  let j2 := clamp (x2 * 64 + y2) n in
  i <= j1 /\ j1 <= j2 /\ j2 <= n /\ i < j2 /\
  (forall k, i <= k < j1 -> bit_at bits k = false) /\
  (j1 < n -> bit_at bits j1 = true) /\
  (forall k, j1 <= k < j2 -> bit_at bits k = true) /\
  (j2 < n -> bit_at bits j2 = false).
Proof.
  intros bits n i [HF Hn] Hi x1 y1 x2 y2 E1 E2 j1 j2.
  assert (Hy : i mod 64 < 64) by (apply N.mod_lt; lia).
  assert (Hpos : i / 64 * 64 + i mod 64 = i) by (rewrite N.mul_comm; symmetry; apply N.div_mod').
  pose proof (phase_ok false bits (i / 64) (i mod 64) HF Hy ltac:(lia)) as P1.
  rewrite <- null_phase_eq, E1 in P1. cbn [fst snd] in P1.
  assert (P2 : phase_post true bits x1 y1 x2 y2).
  { destruct P1 as (A1 & A2 & _).
    generalize (phase_ok true bits x1 y1 HF A1 ltac:(lia)). now rewrite <- nonnull_phase_eq, E2. }
  destruct (phase_clamp _ _ n _ _ _ _ Hn P1) as (L1 & C1 & C2).
  destruct (phase_clamp _ _ n _ _ _ _ Hn P2) as (L2 & C3 & C4).
  rewrite Hpos in L1, C1.
  replace (clamp i n) with i in L1, C1 by (unfold clamp; destruct (N.ltb_spec n i); lia).
  fold j1 in L1, C1, C2, L2, C3. fold j2 in L2, C3, C4. clearbody j1 j2.
  repeat split; try assumption; try lia.
  (* progress: the two phases cannot both stop at row i < n *)
  destruct (N.lt_ge_cases i j2) as [|Hge]; [assumption|exfalso].
  assert (j2 = i) by lia. assert (j1 = i) by lia. subst j1 j2.
  rewrite C2 in C4 by lia. specialize (C4 Hi). discriminate.
Qed.

Lemma chain_le : forall bits rs a n,
  chain a n rs -> Forall (run_ok bits) rs -> a <= n.
Proof.
  intros bits rs. induction rs as [|[[b s] e] rest IH]; intros a n Hc HF.
  - cbn in Hc. lia.
  - destruct Hc as [-> Hc]. inversion HF as [|? ? Hr HF']; subst. destruct Hr as [Hse _].
    specialize (IH e n Hc HF'). lia.
Qed.

Definition emit (b : bool) (i j : N) : list run := if i <? j then [(b, i, j)] else [].

Lemma emit_if : forall b i j, i <= j ->
  (if i <? j then ([(b, i, j)], j) else ([], i)) = (emit b i j, j).
Proof. intros b i j H. unfold emit. destruct (N.ltb_spec i j); [reflexivity|]. f_equal. lia. Qed.

(** maximal to the right: the row after the run, if any, has the other bit *)
Definition run_good (bits : list N) (n : N) (r : run) : Prop :=
  run_ok bits r /\ let '(isnull, _, e) := r in e < n -> bit_at bits e = isnull.

Lemma emit_good : forall bits n b i j rest, i <= j ->
  (forall k, i <= k < j -> bit_at bits k = negb b) -> (j < n -> bit_at bits j = b) ->
  chain j n rest /\ Forall (run_good bits n) rest ->
  chain i n (emit b i j ++ rest) /\ Forall (run_good bits n) (emit b i j ++ rest).
Proof.
  intros bits n b i j rest Hij Hu Hm [Hc HF]. unfold emit.
  destruct (N.ltb_spec i j); cbn [app].
  - split; [now split|]. constructor; [|exact HF]. split; [now split|exact Hm].
  - assert (i = j) by lia. subst i. now split.
Qed.

Lemma scan_loop_spec : forall bits n, wf_bitmap bits n ->
  forall fuel i, i <= n -> (N.to_nat (n - i) < fuel)%nat ->
  chain i n (scan_loop fuel mask_fixed bits n i) /\
  Forall (run_good bits n) (scan_loop fuel mask_fixed bits n i).
Proof.
  intros bits n Hwf. induction fuel as [|f IH]; intros i Hi Hf; [lia|].
  rewrite scan_loop_S. destruct (N.ltb_spec i n) as [Hlt|Hge].
  2:{ split; [cbn; lia|constructor]. }
  cbv zeta.
  destruct (null_phase bits (i / 64) (i mod 64)) as [x1 y1] eqn:E1.
  destruct (nonnull_phase mask_fixed bits x1 y1) as [x2 y2] eqn:E2.
  destruct (iteration_bounds bits n i Hwf Hlt x1 y1 x2 y2 E1 E2)
    as (L1 & L2 & L3 & L4 & C1 & C2 & C3 & C4).
  rewrite (emit_if true _ _ L1), (emit_if false _ _ L2).
  apply emit_good; try assumption. apply emit_good; try assumption.
  apply IH; lia.
Qed.

Theorem null_runs_partition : forall bits n,
  wf_bitmap bits n -> runs_partition bits n (scan bits n).
Proof.
  intros bits n Hwf. unfold scan.
  destruct (scan_loop_spec bits n Hwf (S (N.to_nat n)) 0) as [A B]; [lia|lia|].
  split; [assumption|]. eapply Forall_impl; [|exact B]. now intros r [H _].
Qed.

Lemma good_adjacent : forall bits n l1 a r1 r2 l2,
  chain a n (l1 ++ r1 :: r2 :: l2) -> Forall (run_good bits n) (l1 ++ r1 :: r2 :: l2) ->
  fst (fst r1) <> fst (fst r2).
Proof.
  intros bits n. induction l1 as [|[[b s] e] l1 IH]; intros a r1 r2 l2 Hc HF; cbn [app] in *.
  - destruct r1 as [[b1 s1] e1], r2 as [[b2 s2] e2]. destruct Hc as (_ & -> & Hc).
    apply Forall_cons_iff in HF as [[_ Hm] HF]. apply Forall_cons_iff in HF as [[[Hlt Hu] _] HF].
    assert (Hn : e2 <= n).
    { apply (chain_le bits l2); [exact Hc|]. eapply Forall_impl; [|exact HF]. now intros r [H _]. }
    cbn [fst]. rewrite (Hu e1) in Hm by lia. specialize (Hm ltac:(lia)). now destruct b1, b2.
  - destruct Hc as [_ Hc]. apply Forall_cons_iff in HF as [_ HF]. exact (IH _ _ _ _ Hc HF).
Qed.

(** adjacent runs have different flags: the runs are the maximal ones *)
Theorem null_runs_alternate : forall bits n, wf_bitmap bits n ->
  forall r1 r2 l1 l2, scan bits n = l1 ++ r1 :: r2 :: l2 ->
  fst (fst r1) <> fst (fst r2).
Proof.
  intros bits n Hwf r1 r2 l1 l2 E. unfold scan in E.
  destruct (scan_loop_spec bits n Hwf (S (N.to_nat n)) 0) as [A B]; [lia|lia|].
  rewrite E in A, B. exact (good_adjacent _ _ _ _ _ _ _ A B).
Qed.

Lemma map_seq_const : forall (f : nat -> bool) b len start,
  (forall i, (start <= i < start + len)%nat -> f i = b) ->
  map f (seq start len) = repeat b len.
Proof.
  intros f b len. induction len as [|len IH]; intros start H; [reflexivity|].
  cbn [seq map repeat]. rewrite H by lia. f_equal. apply IH. intros i Hi. apply H. lia.
Qed.

Lemma expand_chain : forall bits rs a n,
  chain a n rs -> Forall (run_ok bits) rs ->
  expand rs =
  map (fun i => negb (bit_at bits (N.of_nat i))) (seq (N.to_nat a) (N.to_nat (n - a))).
Proof.
  intros bits rs. induction rs as [|[[b s] e] rest IH]; intros a n Hc HF.
  - cbn in Hc. subst a. now rewrite N.sub_diag.
  - pose proof (chain_le _ _ _ _ Hc HF) as Han.
    destruct Hc as [-> Hc]. inversion HF as [|? ? Hr HF']; subst. destruct Hr as [Hse Hu].
    pose proof (chain_le _ _ _ _ Hc HF') as Hen.
    change (expand ((b, a, e) :: rest)) with (repeat b (N.to_nat (e - a)) ++ expand rest).
    rewrite (IH e n Hc HF').
    replace (N.to_nat (n - a)) with (N.to_nat (e - a) + N.to_nat (n - e))%nat by lia.
    rewrite seq_app, map_app. f_equal.
    + symmetry. apply map_seq_const. intros i Hi. rewrite Hu by lia. apply negb_involutive.
    + do 2 f_equal. lia.
Qed.

Lemma runs_partition_expand : forall bits n rs,
  runs_partition bits n rs -> expand rs = null_flags bits n.
Proof.
  intros bits n rs [Hc HF]. rewrite (expand_chain bits rs 0 n Hc HF).
  unfold null_flags. now rewrite N.sub_0_r.
Qed.

Lemma chainb_sound : forall rs a n, chainb a n rs = true -> chain a n rs.
Proof.
  induction rs as [|[[b s] e] rest IH]; intros a n H; cbn in *.
  - now apply N.eqb_eq.
  - apply andb_true_iff in H. destruct H as [H1 H2].
    apply N.eqb_eq in H1. split; [assumption|now apply IH].
Qed.

Lemma run_okb_sound : forall bits r, run_okb bits r = true -> run_ok bits r.
Proof.
  intros bits [[b s] e] H. unfold run_okb in H. apply andb_true_iff in H.
  destruct H as [H1 H2]. apply N.ltb_lt in H1. split; [assumption|].
  intros i Hi. rewrite forallb_forall in H2.
  specialize (H2 (N.to_nat (i - s))). rewrite in_seq in H2.
  specialize (H2 ltac:(lia)). apply Bool.eqb_prop in H2.
  now replace (s + N.of_nat (N.to_nat (i - s))) with i in H2 by lia.
Qed.

Lemma runs_partitionb_sound : forall bits n rs,
  runs_partitionb bits n rs = true -> runs_partition bits n rs.
Proof.
  intros bits n rs H. unfold runs_partitionb in H. apply andb_true_iff in H.
  destruct H as [H1 H2]. split; [now apply chainb_sound|].
  rewrite forallb_forall in H2. apply Forall_forall. intros r Hr.
  now apply run_okb_sound, H2.
Qed.

(** * The mask used before 697c643, (1<<y)-1, is wrong *)

Lemma partition_bit : forall bits n rs b s e i,
  runs_partition bits n rs -> In (b, s, e) rs -> s <= i < e -> bit_at bits i = negb b.
Proof. intros bits n rs b s e i [_ HF] Hin Hi. rewrite Forall_forall in HF. exact (proj2 (HF _ Hin) i Hi). Qed.

(* 3 rows, only row 1 non-null: row 2 is put into the non-null run [1,3) *)
Theorem pinned_null_runs_refuted :
  exists bits n, wf_bitmap bits n /\ ~ runs_partition bits n (scan_pinned bits n).
Proof.
  exists [2], 3. split.
  - split; [repeat constructor|vm_compute; discriminate].
  - intros H.
    assert (Hin : In (false, 1, 3) (scan_pinned [2] 3)) by (vm_compute; auto).
    pose proof (partition_bit _ _ _ _ _ _ 2 H Hin ltac:(lia)) as Hb. vm_compute in Hb. discriminate.
Qed.

Theorem pinned_null_runs_refuted_130 :
  ~ runs_partition [2; 0; 0] 130 (scan_pinned [2; 0; 0] 130).
Proof.
  intros H.
  assert (Hin : In (false, 1, 64) (scan_pinned [2; 0; 0] 130)) by (vm_compute; auto).
  pose proof (partition_bit _ _ _ _ _ _ 2 H Hin ltac:(lia)) as Hb. vm_compute in Hb. discriminate.
Qed.

Lemma wf_bitmap_130 : wf_bitmap [2; 0; 0] 130.
Proof. split; [repeat constructor|vm_compute; discriminate]. Qed.

Print Assumptions null_runs_partition.
Print Assumptions null_runs_alternate.
Print Assumptions runs_partitionb_sound.
Print Assumptions pinned_null_runs_refuted.
Print Assumptions pinned_null_runs_refuted_130.
