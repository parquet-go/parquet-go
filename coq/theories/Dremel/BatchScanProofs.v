(** The typed path with the real run scanner (Dremel/BatchScan.v): the bitmap
    nullIndex builds from the values of an optional field is well formed and
    holds bit i = 1 iff row i is non-null; the sub-arrays the run scanner cuts
    the rows into are consecutive, non-empty and uniform ([scan_chunks_ok]),
    an admissible cutting ([chunks_ok] of Batch.v). *)
From Coq Require Import List NArith Bool Arith Lia.
From PQ Require Import Base.ListExtra Dremel.Model Dremel.Batch
  Dremel.NullRuns Dremel.NullRunsProofs Dremel.BatchScan.
Import ListNotations.

Lemma flag_bit (b : bool) p k : N.testbit (if b then N.shiftl 1 p else 0%N) k = b && (p =? k)%N.
Proof. destruct b; [|apply N.bits_0]. rewrite N.shiftl_1_l. apply N.pow2_bits_eqb. Qed.

Lemma pack_word_bit : forall flags pos k,
  N.testbit (pack_word flags pos) k =
  if (pos <=? k)%N && (k <? pos + N.of_nat (length flags))%N
  then nth (N.to_nat (k - pos)) flags false else false.
Proof.
  induction flags as [|b t IH]; intros pos k.
  - cbn [pack_word]. rewrite N.bits_0.
    destruct ((pos <=? k)%N && (k <? pos + N.of_nat (length (@nil bool)))%N); [|reflexivity].
    now destruct (N.to_nat (k - pos)).
  - cbn [pack_word length]. rewrite N.lor_spec, flag_bit, IH.
    destruct (N.lt_trichotomy k pos) as [Hlt|[->|Hgt]].
    + rewrite (proj2 (N.eqb_neq pos k)), (proj2 (N.leb_gt pos k)), (proj2 (N.leb_gt (pos + 1) k)) by lia.
      now rewrite andb_false_r.
    + rewrite N.eqb_refl, N.leb_refl.
      rewrite (proj2 (N.leb_gt (pos + 1) pos)), (proj2 (N.ltb_lt pos (pos + N.of_nat (S (length t))))) by lia.
      rewrite N.sub_diag. cbn. now rewrite andb_true_r, orb_false_r.
    + rewrite (proj2 (N.eqb_neq pos k)), (proj2 (N.leb_le pos k)), (proj2 (N.leb_le (pos + 1) k)) by lia.
      rewrite andb_false_r. cbn [orb andb].
      replace (pos + 1 + N.of_nat (length t))%N with (pos + N.of_nat (S (length t)))%N by lia.
      replace (N.to_nat (k - pos)) with (S (N.to_nat (k - (pos + 1)))) by lia.
      reflexivity.
Qed.

Lemma pack_word_lt : forall flags, length flags <= 64 -> (pack_word flags 0 < 2 ^ 64)%N.
Proof.
  intros flags Hlen.
  destruct (N.lt_ge_cases (pack_word flags 0) (2 ^ 64)) as [H|H]; [exact H|exfalso].
  set (w := pack_word flags 0) in *.
  assert (Hpos : (0 < 2 ^ 64)%N) by (apply N.neq_0_lt_0, N.pow_nonzero; discriminate).
  assert (Hw : (0 < w)%N) by lia.
  assert (Hlog : (64 <= N.log2 w)%N) by (apply N.log2_le_pow2; assumption).
  assert (Hbit : N.testbit w (N.log2 w) = true) by (apply N.bit_log2; lia).
  unfold w in Hbit. rewrite pack_word_bit in Hbit.
  assert (E : (N.log2 w <? 0 + N.of_nat (length flags))%N = false) by (apply N.ltb_ge; lia).
  fold w in Hbit. rewrite E, andb_false_r in Hbit. discriminate.
Qed.

Lemma pack_words_cons : forall f b t,
  pack_words (S f) (b :: t) = pack_word (firstn 64 (b :: t)) 0 :: pack_words f (skipn 64 (b :: t)).
Proof. reflexivity. Qed.

Lemma pack_words_nil : forall fuel, pack_words fuel [] = [].
Proof. now destruct fuel. Qed.

Lemma pack_words_lt : forall fuel flags, Forall (fun w => (w < 2 ^ 64)%N) (pack_words fuel flags).
Proof.
  induction fuel as [|f IH]; intros flags; [constructor|].
  destruct flags as [|b t]; [constructor|].
  rewrite pack_words_cons. constructor; [|apply IH].
  apply pack_word_lt, firstn_le_length.
Qed.

Lemma pack_words_length : forall fuel flags,
  length flags < fuel -> length flags <= 64 * length (pack_words fuel flags).
Proof.
  induction fuel as [|f IH]; intros flags Hf; [lia|].
  destruct flags as [|b t]; [cbn [length]; lia|].
  rewrite pack_words_cons. cbn [length] in Hf.
  assert (Hs : length (skipn 64 (b :: t)) = length (b :: t) - 64) by apply skipn_length.
  cbn [length] in Hs.
  specialize (IH (skipn 64 (b :: t))).
  change (length (pack_word (firstn 64 (b :: t)) 0 :: pack_words f (skipn 64 (b :: t))))
    with (S (length (pack_words f (skipn 64 (b :: t))))).
  change (length (b :: t)) with (S (length t)).
  lia.
Qed.

Lemma pack_words_nth : forall x fuel flags,
  length flags < fuel ->
  nth x (pack_words fuel flags) 0%N = pack_word (firstn 64 (skipn (64 * x) flags)) 0.
Proof.
  induction x as [|x IH]; intros fuel flags Hf.
  - change (64 * 0) with 0. rewrite skipn_O.
    destruct fuel as [|f]; [lia|].
    destruct flags as [|b t]; [reflexivity|].
    rewrite pack_words_cons. reflexivity.
  - destruct fuel as [|f]; [lia|].
    destruct flags as [|b t].
    + rewrite skipn_nil, firstn_nil. reflexivity.
    + rewrite pack_words_cons. cbn [nth].
      assert (Hs : length (skipn 64 (b :: t)) = length (b :: t) - 64) by apply skipn_length.
      cbn [length] in Hs, Hf.
      rewrite IH by lia.
      rewrite <- skipn_add.
      replace (64 + 64 * x) with (64 * S x) by lia. reflexivity.
Qed.

Section BatchScanProofs.
  Variable V : Type.
  Notation value := (value V).

  Lemma null_index_wf : forall col : list value,
    wf_bitmap (null_index col) (N.of_nat (length col)).
  Proof.
    intros col. unfold wf_bitmap, null_index, nwords. split.
    - apply pack_words_lt.
    - pose proof (pack_words_length (S (length col)) (map (fun v => negb (is_null v)) col)) as H.
      rewrite map_length in H. specialize (H (Nat.lt_succ_diag_r _)). lia.
  Qed.

  Lemma null_index_bit : forall (col : list value) i,
    i < length col ->
    bit_at (null_index col) (N.of_nat i) = negb (is_null (nth i col (VOpt None))).
  Proof.
    intros col i Hi. unfold null_index.
    set (flags := map (fun v : value => negb (is_null v)) col).
    assert (Hlen : length flags = length col) by apply map_length.
    pose proof (Nat.div_mod_eq i 64) as Hdm.
    assert (Hr : i mod 64 < 64) by (apply Nat.mod_upper_bound; discriminate).
    set (q := i / 64) in *. set (r := i mod 64) in *.
    replace (N.of_nat i) with (N.of_nat q * 64 + N.of_nat r)%N by lia.
    rewrite bit_at_pos by lia. unfold word. rewrite Nat2N.id.
    rewrite pack_words_nth, pack_word_bit, firstn_length, skipn_length by lia.
    rewrite (proj2 (N.leb_le 0 (N.of_nat r))), (proj2 (N.ltb_lt (N.of_nat r) _)) by lia. cbn [andb].
    rewrite N.sub_0_r, Nat2N.id, nth_firstn_lt, nth_skipn_add by assumption.
    replace (64 * q + r) with i by lia.
    exact (map_nth (fun v : value => negb (is_null v)) col (VOpt None) i).
  Qed.

  Section Cut.
    Variable bits : list N.
    Variable col : list value.
    Hypothesis Hbits : forall i, i < length col ->
      bit_at bits (N.of_nat i) = negb (is_null (nth i col (VOpt None))).

    Lemma cut_concat : forall rs a n,
      chain a n rs -> Forall (run_ok bits) rs ->
      concat (cut rs col) = firstn (N.to_nat (n - a)) (skipn (N.to_nat a) col).
    Proof.
      induction rs as [|[[b s] e] rest IH]; intros a n Hc HF.
      - cbn in Hc. subst a. replace (N.to_nat (n - n)) with 0 by lia. reflexivity.
      - destruct Hc as [-> Hc]. inversion HF as [|? ? Hr HF']; subst.
        destruct Hr as [Hse _].
        pose proof (chain_le bits rest e n Hc HF') as Hen.
        unfold cut. cbn [map concat]. fold (cut rest col).
        rewrite (IH e n Hc HF').
        replace (N.to_nat (n - a)) with (N.to_nat (e - a) + N.to_nat (n - e)) by lia.
        rewrite firstn_add, <- skipn_add.
        replace (N.to_nat a + N.to_nat (e - a)) with (N.to_nat e) by lia.
        reflexivity.
    Qed.

    Lemma chunk_ok : forall b s e,
      (e <= N.of_nat (length col))%N -> run_ok bits (b, s, e) ->
      let ch := firstn (N.to_nat (e - s)) (skipn (N.to_nat s) col) in
      ch <> [] /\ uniform ch.
    Proof.
      intros b s e Hen [Hse Hrun] ch.
      assert (Hlen : length ch = N.to_nat (e - s)).
      { unfold ch. rewrite firstn_length, skipn_length. lia. }
      split.
      - intros E. rewrite E in Hlen. cbn [length] in Hlen. lia.
      - assert (Hall : forall v, In v ch -> is_null v = b).
        { intros v Hin.
          destruct (In_nth ch v (VOpt None) Hin) as (k & Hk & Hnth).
          unfold ch in Hnth. rewrite nth_firstn_lt in Hnth by lia.
          rewrite nth_skipn_add in Hnth.
          assert (Hi : N.to_nat s + k < length col) by lia.
          pose proof (Hbits _ Hi) as Hb. rewrite Hnth in Hb.
          rewrite Hrun in Hb by lia.
          destruct b, (is_null v); cbn in Hb; congruence. }
        destruct b; [left|right]; exact Hall.
    Qed.

    Lemma cut_forall : forall rs a n,
      (n <= N.of_nat (length col))%N ->
      chain a n rs -> Forall (run_ok bits) rs ->
      Forall (fun ch => ch <> [] /\ uniform ch) (cut rs col).
    Proof.
      induction rs as [|[[b s] e] rest IH]; intros a n Hn Hc HF; [constructor|].
      destruct Hc as [-> Hc]. inversion HF as [|? ? Hr HF']; subst.
      pose proof (chain_le bits rest e n Hc HF') as Hen.
      unfold cut. cbn [map]. fold (cut rest col). constructor.
      - apply (chunk_ok b a e); [lia|exact Hr].
      - exact (IH e n Hn Hc HF').
    Qed.
  End Cut.

  Lemma cut_ok : forall bits (col : list value) rs,
    runs_partition bits (N.of_nat (length col)) rs ->
    (forall i, i < length col ->
       bit_at bits (N.of_nat i) = negb (is_null (nth i col (VOpt None)))) ->
    chunks_ok (cut rs col) col.
  Proof.
    intros bits col rs [Hc HF] Hbits. split.
    - rewrite (cut_concat bits col rs 0%N _ Hc HF).
      rewrite N.sub_0_r, Nat2N.id. change (N.to_nat 0) with 0. rewrite skipn_O.
      apply firstn_all.
    - apply (cut_forall bits col Hbits rs 0%N (N.of_nat (length col))); [lia|exact Hc|exact HF].
  Qed.

  Theorem scan_chunks_ok : forall col : list value, chunks_ok (scan_chunks col) col.
  Proof.
    intros col. unfold scan_chunks. apply (cut_ok (null_index col)).
    - apply null_runs_partition, null_index_wf.
    - intros i Hi. apply null_index_bit, Hi.
  Qed.

End BatchScanProofs.

Print Assumptions scan_chunks_ok.
