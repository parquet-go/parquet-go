(** Level bounds of the shredded columns: every entry of a leaf column has a
    definition level between the level reached so far and the leaf's maximum,
    a repetition level bounded by the leaf's maximum, and is null exactly when
    its definition level is below the maximum; every column of a record starts
    at the requested repetition level and continues strictly above the
    repetition depth. *)
From Coq Require Import List Arith Lia.
From PQ Require Import Base.ListExtra Dremel.Model Dremel.Proofs.
Import ListNotations.

Section Levels.
  Variable V : Type.
  Notation value := (value V).
  Notation entry := (entry V).
  Notation column := (column V).

  Definition entry_ok (r d : nat) (ml : nat * nat) (e : entry) : Prop :=
    let '(x, r', d') := e in
    d <= d' /\ d' <= snd ml /\ r' <= Nat.max r (fst ml) /\ (x = None <-> d' < snd ml).

  Local Notation cols_ok r d := (Forall2 (fun col ml => Forall (entry_ok r d ml) col)).

  Lemma ml_group fs r d : max_levels (Group fs) r d = max_levels_fields fs r d.
  Proof. reflexivity. Qed.
  Lemma ml_req s fs r d :
    max_levels_fields (FCons Req s fs) r d = max_levels s r d ++ max_levels_fields fs r d.
  Proof. reflexivity. Qed.
  Lemma ml_opt s fs r d :
    max_levels_fields (FCons Opt s fs) r d = max_levels s r (S d) ++ max_levels_fields fs r d.
  Proof. reflexivity. Qed.
  Lemma ml_rpt s fs r d :
    max_levels_fields (FCons Rpt s fs) r d = max_levels s (S r) (S d) ++ max_levels_fields fs r d.
  Proof. reflexivity. Qed.

  Ltac unf := rewrite ?ml_group, ?ml_req, ?ml_opt, ?ml_rpt.

  Lemma max_levels_length : forall s r d, length (max_levels s r d) = nleaves s.
  Proof.
    intros s. induction s as [|fs IH| |rp s IHs fs IHf] using schema_mut
      with (P0 := fun fs => forall r d, length (max_levels_fields fs r d) = nleaves_fields fs).
    - reflexivity.
    - intros r d. unf. apply IH.
    - reflexivity.
    - intros r d. destruct rp; unf; now rewrite app_length, IHs, IHf.
  Qed.

  Lemma max_levels_shift : forall s k d,
    max_levels s k d = map (fun p => (k + fst p, d + snd p)) (max_levels s 0 0).
  Proof.
    intros s. induction s as [|fs IH| |rp s IHs fs IHf] using schema_mut with
      (P0 := fun fs => forall k d,
         max_levels_fields fs k d = map (fun p => (k + fst p, d + snd p)) (max_levels_fields fs 0 0)).
    - intros k d. cbn. now rewrite !Nat.add_0_r.
    - intros k d. unf. apply IH.
    - reflexivity.
    - intros k d. destruct rp; unf; rewrite map_app, <- IHf; f_equal.
      + apply IHs.
      + rewrite (IHs k (S d)), (IHs 0 1), map_map. apply map_ext. intros [a b]. cbn [fst snd]. f_equal; lia.
      + rewrite (IHs (S k) (S d)), (IHs 1 1), map_map. apply map_ext. intros [a b]. cbn [fst snd]. f_equal; lia.
  Qed.

  Lemma max_levels_ge : forall s k d,
    Forall (fun p => k <= fst p /\ d <= snd p) (max_levels s k d).
  Proof.
    intros s k d. rewrite max_levels_shift. apply Forall_map, Forall_forall. intros p _. cbn. lia.
  Qed.

  Lemma cols_ok_impl r d r2 d2 (cols : list column) mls :
    (forall ml e, In ml mls -> entry_ok r d ml e -> entry_ok r2 d2 ml e) ->
    cols_ok r d cols mls -> cols_ok r2 d2 cols mls.
  Proof.
    intros HI H. induction H as [|col ml cols mls Hc H IH]; constructor.
    - eapply Forall_impl; [|exact Hc]. intros e. apply HI. now left.
    - apply IH. intros ml' e Hin. apply HI. now right.
  Qed.

  Lemma cols_ok_down r d (cols : list column) mls :
    cols_ok r (S d) cols mls -> cols_ok r d cols mls.
  Proof.
    apply cols_ok_impl. intros ml [[x r'] d'] _. unfold entry_ok. intuition lia.
  Qed.

  Lemma nulls_ok_gen r d : forall mls, Forall (fun p => d < snd p) mls ->
    cols_ok r d (repeat [(@None V, r, d)] (length mls)) mls.
  Proof.
    induction 1 as [|p mls Hp _ IH]; cbn [length repeat]; constructor; [|exact IH].
    constructor; [|constructor]. unfold entry_ok. repeat split; intros; try lia.
  Qed.

  Lemma nulls_ok s r d k : cols_ok r d (@nulls V s r d) (max_levels s k (S d)).
  Proof.
    unfold nulls. rewrite <- (max_levels_length s k (S d)). apply nulls_ok_gen.
    eapply Forall_impl; [|apply max_levels_ge]. cbn. intros; lia.
  Qed.

  Theorem shred_levels : forall s v r d k, wf s v ->
    Forall2 (fun col ml => Forall (entry_ok r d ml) col) (shred s v r d k) (max_levels s k d).
  Proof.
    apply (shred_wf_ind V
      (fun s r d k c => cols_ok r d c (max_levels s k d))
      (fun fs r d k c => cols_ok r d c (max_levels_fields fs k d))).
    - intros x r d k. repeat constructor; cbn; try lia; discriminate.
    - auto.
    - constructor.
    - intros. unf. now apply Forall2_app.
    - intros. unf. apply Forall2_app; [now apply cols_ok_down|assumption].
    - intros rp s fs r d k c2 Hrp H.
      destruct rp; [contradiction| |]; unf; (apply Forall2_app; [apply nulls_ok|exact H]).
    - intros s fs r d k c0 ms c2 H0 Hms H2. unf. apply Forall2_app; [|exact H2].
      apply cols_ok_down, fold_zipapp_Forall2; [intros; now apply Forall_app|exact H0|].
      (* the later elements start at repetition level S k, within the bound of every leaf below *)
      eapply Forall_impl; [|exact Hms]. intros m. apply cols_ok_impl. intros ml [[x r'] d'] Hin.
      pose proof (max_levels_ge s (S k) (S d)) as G. rewrite Forall_forall in G.
      specialize (G ml Hin). unfold entry_ok. intuition lia.
  Qed.

  Theorem shred_levels_nth : forall s (v : value) r d k j x r' d', wf s v ->
    In (x, r', d') (nth j (shred s v r d k) []) ->
    d <= d' /\ d' <= d + snd (nth j (max_levels s 0 0) (0, 0)) /\
    r' <= Nat.max r (k + fst (nth j (max_levels s 0 0) (0, 0))) /\
    (x = None <-> d' < d + snd (nth j (max_levels s 0 0) (0, 0))).
  Proof.
    intros s v r d k j x r' d' Hw Hin.
    destruct (lt_dec j (length (shred s v r d k))) as [Hj|Hj].
    - pose proof (shred_levels s v r d k Hw) as HF.
      rewrite max_levels_shift in HF.
      set (f := fun p : nat * nat => (k + fst p, d + snd p)) in HF.
      pose proof (Forall2_nth _ _ _ j [] (f (0, 0)) HF Hj) as Hn. cbv beta in Hn.
      rewrite map_nth in Hn. rewrite Forall_forall in Hn. specialize (Hn _ Hin).
      unfold entry_ok, f in Hn. cbn [fst snd] in Hn. exact Hn.
    - rewrite nth_overflow in Hin by lia. contradiction.
  Qed.

  Definition first_rep (r k : nat) (col : column) : Prop :=
    exists e rest, col = e :: rest /\ e_r V e = r /\ Forall (fun e' => k < e_r V e') rest.

  Lemma fr_app r k (x y : column) :
    first_rep r k x -> Forall (fun e' => k < e_r V e') y -> first_rep r k (x ++ y).
  Proof.
    intros (e & rest & -> & He & Hr) Hy. exists e, (rest ++ y). split; [reflexivity|].
    split; [exact He|]. apply Forall_app. split; assumption.
  Qed.

  Lemma fr_weaken r k (a : list column) : Forall (first_rep r (S k)) a -> Forall (first_rep r k) a.
  Proof.
    apply Forall_impl. intros c (e & rest & -> & He & Hr). exists e, rest.
    split; [reflexivity|]. split; [exact He|]. eapply Forall_impl; [|exact Hr]. cbn. intros; lia.
  Qed.

  Lemma fr_all k (a : list column) :
    Forall (first_rep (S k) (S k)) a -> Forall (Forall (fun e' => k < e_r V e')) a.
  Proof.
    apply Forall_impl. intros c (e & rest & -> & He & Hr). constructor; [lia|].
    eapply Forall_impl; [|exact Hr]. cbn. intros; lia.
  Qed.

  Lemma fr_nulls s r d k : Forall (first_rep r k) (@nulls V s r d).
  Proof.
    unfold nulls. apply Forall_forall. intros c Hc. apply repeat_spec in Hc. subst c.
    exists (None, r, d), []. split; [reflexivity|]. split; [reflexivity|constructor].
  Qed.

  Theorem shred_first_rep : forall s v r d k, wf s v ->
    Forall (fun col => exists e rest, col = e :: rest /\ e_r V e = r /\ Forall (fun e' => k < e_r V e') rest)
           (shred s v r d k).
  Proof.
    apply (shred_wf_ind V (fun _ r _ k c => Forall (first_rep r k) c)
                          (fun _ r _ k c => Forall (first_rep r k) c)); intros;
      rewrite ?Forall_app; auto using fr_nulls.
    - repeat constructor. exists (Some x, r, d), []. repeat split; constructor.
    - split; [|assumption]. apply (fold_zipapp_Forall V _ _ _ (fr_app r k)); [now apply fr_weaken|].
      eapply Forall_impl; [|eassumption]. apply fr_all.
  Qed.

  Lemma shred_ncols : forall s (v : value) r d k, wf s v -> length (shred s v r d k) = nleaves s.
  Proof. exact (shred_len V). Qed.
End Levels.

Arguments entry_ok {V}.
Arguments first_rep {V}.

Print Assumptions shred_levels.
Print Assumptions max_levels_shift.
Print Assumptions shred_levels_nth.
Print Assumptions shred_first_rep.
Print Assumptions shred_ncols.
Print Assumptions max_levels_length.
