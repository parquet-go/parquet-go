(** The run scanner of writeRowsFuncOfOptional (column_buffer_write.go:331-470).

    An `optional`-tagged field that is neither a pointer nor a slice is
    written by the typed path in runs: nullIndex fills a bitmap with one bit
    per row (1 = the row holds a non-zero value, 0 = null; null.go, the nullIndex functions),
    and the loop below cuts the rows [0,n) into maximal runs of nulls and of
    non-nulls, 64 rows at a time; each run is handed to the child writer in a
    single call with one definition level.

    The bitmap is a list of 64-bit words (each < 2^64).  acquireBitmap
    (bitmap.go) returns at least ceil(n/64) words (n words when freshly
    allocated), all zero before nullIndex runs.  The bits at positions >= n
    are not determined by the rows: the present kernels leave them zero (until
    commit f2cbf09 nullIndexFuncOfStruct set every bit of every word).  The theorems
    do not depend on it: they quantify over arbitrary bits beyond n and any
    number of words >= ceil(n/64).

    No proofs here (NullRunsProofs.v). *)
From Coq Require Import List NArith Bool Arith.
Import ListNotations.
Local Open Scope N_scope.

(** a run: (is_null, start, end) = rows [start, end) *)
Definition run := (bool * N * N)%type.

Definition mask64 : N := 18446744073709551615.        (* ^uint64(0) *)
Definition not64 (w : N) : N := N.lxor w mask64.       (* ^w, for w < 2^64 *)

(** bits.TrailingZeros64 *)
Fixpoint tz_pos (p : positive) : N :=
  match p with
  | xO q => N.succ (tz_pos q)
  | _ => 0
  end.
Definition tz64 (w : N) : N :=
  match w with
  | N0 => 64
  | Npos p => tz_pos p
  end.

Definition word (bits : list N) (x : N) : N := nth (N.to_nat x) bits 0.   (* nulls.bits[x] *)
Definition nwords (bits : list N) : N := N.of_nat (length bits).           (* len(nulls.bits) *)

(** for x < len(nulls.bits) && nulls.bits[x] == v { x++ }      (lines 422, 450) *)
Fixpoint skip_words (fuel : nat) (bits : list N) (v : N) (x : N) : N :=
  match fuel with
  | O => x
  | S f =>
      if (x <? nwords bits) && (word bits x =? v)
      then skip_words f bits v (x + 1)
      else x
  end.

(** lines 412-428: from position (x, y) to the label writeNulls; returns (x, y) *)
Definition null_phase (bits : list N) (x y : N) : N * N :=
  let scan_from (x : N) :=                       (* here y = 0 *)
    let x' := skip_words (S (length bits)) bits 0 x in
    if x' <? nwords bits then (x', tz64 (word bits x') mod 64) else (x', 0) in
  if negb (y =? 0) then
    let b := N.shiftr (word bits x) y in
    if b =? 0 then scan_from (x + 1)             (* x++; y = 0 *)
    else (x, y + tz64 b)                         (* y += TrailingZeros64(b); goto writeNulls *)
  else scan_from x.

(** lines 440-456: from (x, y) to the label writeNonNulls.  [maskf y] is the
    constant the shifted word is compared with. *)
Definition nonnull_phase (maskf : N -> N) (bits : list N) (x y : N) : N * N :=
  let scan_from (x : N) :=
    let x' := skip_words (S (length bits)) bits mask64 x in
    if x' <? nwords bits then (x', tz64 (not64 (word bits x')) mod 64) else (x', 0) in
  if negb (y =? 0) then
    let b := N.shiftr (word bits x) y in
    if b =? maskf y then scan_from (x + 1)
    else (x, y + tz64 (not64 b))                 (* ^b is the 64-bit complement: its top y bits are set *)
  else scan_from x.

Definition mask_fixed (y : N) : N := N.shiftl 1 (64 - y) - 1.    (* (1<<uint(64-y))-1   current code *)
Definition mask_pinned (y : N) : N := N.shiftl 1 y - 1.          (* (1<<uint64(y))-1    before 697c643 *)

(** if j = x*64 + y; j > rows.Len() { j = rows.Len() } *)
Definition clamp (j n : N) : N := if n <? j then n else j.

(** for i := 0; i < rows.Len(); { ... }     (lines 407-467) *)
Fixpoint scan_loop (fuel : nat) (maskf : N -> N) (bits : list N) (n i : N) : list run :=
  match fuel with
  | O => []
  | S f =>
      if i <? n then
        let x := i / 64 in
        let y := i mod 64 in
        let '(x1, y1) := null_phase bits x y in
        let j1 := clamp (x1 * 64 + y1) n in
        let '(out1, i1) := if i <? j1 then ([(true, i, j1)], j1) else ([], i) in
        let '(x2, y2) := nonnull_phase maskf bits x1 y1 in
        let j2 := clamp (x2 * 64 + y2) n in
        let '(out2, i2) := if i1 <? j2 then ([(false, i1, j2)], j2) else ([], i1) in
        out1 ++ out2 ++ scan_loop f maskf bits n i2
      else []
  end.

(** every iteration of the outer loop advances i, so n+1 iterations suffice *)
Definition scan (bits : list N) (n : N) : list run :=
  scan_loop (S (N.to_nat n)) mask_fixed bits n 0.

Definition scan_pinned (bits : list N) (n : N) : list run :=
  scan_loop (S (N.to_nat n)) mask_pinned bits n 0.

(** * Specification vocabulary *)

(** bit i of the bitmap: true = row i is non-null *)
Definition bit_at (bits : list N) (i : N) : bool := N.testbit (word bits (i / 64)) (i mod 64).

(** what acquireBitmap + nullIndex guarantee: 64-bit words, enough of them *)
Definition wf_bitmap (bits : list N) (n : N) : Prop :=
  Forall (fun w => w < 2 ^ 64) bits /\ n <= 64 * nwords bits.

(** the runs are consecutive from [a] and end at [n] *)
Fixpoint chain (a n : N) (rs : list run) : Prop :=
  match rs with
  | [] => a = n
  | (_, s, e) :: rest => s = a /\ chain e n rest
  end.

(** non-empty and uniform: every row of a null run has bit 0, of a non-null run bit 1 *)
Definition run_ok (bits : list N) (r : run) : Prop :=
  let '(isnull, s, e) := r in
  s < e /\ forall i, s <= i < e -> bit_at bits i = negb isnull.

Definition runs_partition (bits : list N) (n : N) (rs : list run) : Prop :=
  chain 0 n rs /\ Forall (run_ok bits) rs.

(** the null flags of the rows a list of runs stands for *)
Definition expand (rs : list run) : list bool :=
  concat (map (fun '(isnull, s, e) => repeat isnull (N.to_nat (e - s))) rs).

(** the null flags of rows 0..n-1 read off the bitmap *)
Definition null_flags (bits : list N) (n : N) : list bool :=
  map (fun i => negb (bit_at bits (N.of_nat i))) (seq 0 (N.to_nat n)).

(* executable check of [runs_partition], used by Examples and by the harness tie *)
Definition run_okb (bits : list N) (r : run) : bool :=
  let '(isnull, s, e) := r in
  (s <? e) && forallb (fun k => Bool.eqb (bit_at bits (s + N.of_nat k)) (negb isnull)) (seq 0 (N.to_nat (e - s))).

Fixpoint chainb (a n : N) (rs : list run) : bool :=
  match rs with
  | [] => a =? n
  | (_, s, e) :: rest => (s =? a) && chainb e n rest
  end.

Definition runs_partitionb (bits : list N) (n : N) (rs : list run) : bool :=
  chainb 0 n rs && forallb (run_okb bits) rs.
