(** Column-at-a-time shredding of a batch (Dremel/Batch.v, the typed path)
    produces exactly the streams of row-at-a-time shredding (Dremel/Model.v
    [shred_rows], the Deconstruct path), for every schema, every batch of
    well-formed rows and every admissible way of cutting optional fields into
    calls. *)
From Coq Require Import List Arith Bool.
From PQ Require Import Dremel.Model Dremel.Proofs Dremel.Batch.
Import ListNotations.

Section BatchProofs.
  Variable V : Type.
  Notation value := (value V).
  Notation entry := (entry V).
  Notation column := (column V).

  Lemma shred_fields_len fs (vs : list value) r d k :
    wf_fields fs vs -> length (shred_fields fs vs r d k) = nleaves_fields fs.
  Proof. apply (proj2 (shred_len_both V)). Qed.

  Lemma cat_cols_cons n m (l : list (list column)) : cat_cols n (m :: l) = zipapp m (cat_cols n l).
  Proof. reflexivity. Qed.

  Lemma cat_cols_nil n : @cat_cols V n [] = repeat [] n.
  Proof. reflexivity. Qed.

  Lemma cat_cols_app n (l1 l2 : list (list column)) :
    Forall (fun m => length m = n) l1 -> Forall (fun m => length m = n) l2 ->
    cat_cols n (l1 ++ l2) = zipapp (cat_cols n l1) (cat_cols n l2).
  Proof.
    intros H1 H2. induction H1 as [|m l1 Hm _ IH]; cbn [app].
    - rewrite cat_cols_nil. symmetry. apply zipapp_nil_cols_l. now apply cat_cols_length.
    - rewrite !cat_cols_cons, IH. symmetry. apply zipapp_assoc.
  Qed.

  Lemma cat_cols_single n (m : list column) : length m = n -> cat_cols n [m] = m.
  Proof. intros H. rewrite cat_cols_cons, cat_cols_nil. now apply zipapp_nil_cols. Qed.

  Lemma cat_cols_split {X} n1 n2 (A B : X -> list column) (xs : list X) :
    Forall (fun x => length (A x) = n1) xs ->
    cat_cols (n1 + n2) (map (fun x => A x ++ B x) xs) = cat_cols n1 (map A xs) ++ cat_cols n2 (map B xs).
  Proof.
    induction 1 as [|x xs Hx HA IH]; cbn [map].
    - rewrite !cat_cols_nil. apply repeat_app.
    - rewrite !cat_cols_cons, IH. apply zipapp_app.
      rewrite cat_cols_length; [exact Hx|now apply Forall_map].
  Qed.

  Lemma cat_cols_concat {X} n (f : X -> list column) (chs : list (list X)) :
    Forall (fun x => length (f x) = n) (concat chs) ->
    cat_cols n (map f (concat chs)) = cat_cols n (map (fun ch => cat_cols n (map f ch)) chs).
  Proof.
    induction chs as [|ch chs IH]; cbn [concat map]; [reflexivity|].
    intros Hf. apply Forall_app in Hf as [H1 H2].
    now rewrite map_app, cat_cols_app, cat_cols_cons, IH by (try apply Forall_map; assumption).
  Qed.

  Lemma zipapp_repeat (a b : column) n : zipapp (repeat a n) (repeat b n) = repeat (a ++ b) n.
  Proof. induction n as [|n IH]; cbn; [reflexivity|now rewrite IH]. Qed.

  Lemma null_run_eq {X} s r d (ch : list X) :
    null_run s r d (length ch) = cat_cols (nleaves s) (map (fun _ => @nulls V s r d) ch).
  Proof.
    unfold null_run. induction ch as [|c ch IH]; cbn [length map repeat]; [reflexivity|].
    rewrite cat_cols_cons, <- IH. unfold nulls. now rewrite zipapp_repeat.
  Qed.

  Lemma cat_cols_leaf r d (vs : list value) :
    cat_cols 1 (map (fun v => [[leaf_entry V r d v]]) vs) = [map (leaf_entry V r d) vs].
  Proof.
    induction vs as [|v vs IH]; cbn [map]; [reflexivity|]. now rewrite cat_cols_cons, IH.
  Qed.

  Definition field_wf (rp : rep) (s : schema) (fv : value) : Prop :=
    match rp, fv with
    | Req, _ => wf s fv
    | Opt, VOpt None => True
    | Opt, VOpt (Some v) => wf s v
    | Rpt, VList l => Forall (wf s) l
    | _, _ => False
    end.

  Definition field_shred (rp : rep) (s : schema) (fv : value) (r d k : nat) : list column :=
    match rp, fv with
    | Req, _ => shred s fv r d k
    | Opt, VOpt None => nulls s r d
    | Opt, VOpt (Some v) => shred s v r (S d) k
    | Rpt, VList [] => nulls s r d
    | Rpt, VList (x :: l) =>
        fold_left zipapp (map (fun y => shred s y (S k) (S d) (S k)) l) (shred s x r (S d) (S k))
    | _, _ => []
    end.

  Lemma wf_fields_cons_inv rp s fs (row : list value) :
    wf_fields (FCons rp s fs) row ->
    exists fv vs', row = fv :: vs' /\ field_wf rp s fv /\ wf_fields fs vs'.
  Proof.
    intros H. destruct row as [|fv vs']; [destruct rp; contradiction|].
    exists fv, vs'. split; [reflexivity|].
    destruct rp; cbn in H |- *.
    - exact H.
    - destruct fv as [| |[v|]|]; try contradiction; [exact H|split; [exact I|exact H]].
    - destruct fv as [| | |l]; try contradiction. exact H.
  Qed.

  Lemma shred_fields_field rp s fs (fv : value) vs' r d k :
    field_wf rp s fv ->
    shred_fields (FCons rp s fs) (fv :: vs') r d k = field_shred rp s fv r d k ++ shred_fields fs vs' r d k.
  Proof.
    intros H. destruct rp; cbn in H.
    - reflexivity.
    - destruct fv as [| |[v|]|]; try contradiction; reflexivity.
    - destruct fv as [| | |[|x l]]; try contradiction; reflexivity.
  Qed.

  Lemma field_shred_len rp s (fv : value) r d k :
    field_wf rp s fv -> length (field_shred rp s fv r d k) = nleaves s.
  Proof.
    intros H. destruct rp; cbn in H |- *.
    - now apply shred_len.
    - destruct fv as [| |[v|]|]; try contradiction; [now apply shred_len|apply nulls_length].
    - destruct fv as [| | |[|x l]]; try contradiction; [apply nulls_length|].
      inversion H as [|? ? Hx Hl]; subst.
      apply fold_zipapp_length; [now apply shred_len|now apply shreds_len].
  Qed.

  Variable chunks : list nat -> list value -> list (list value).
  Hypothesis chunks_good : forall p col, chunks_ok (chunks p col) col.

  Notation wr := (wr chunks).
  Notation wr_fields := (wr_fields chunks).

  Lemma wr_nil s p r d k : wr s p [] r d k = nulls s r d.
  Proof. destruct s; reflexivity. Qed.
  Lemma wr_leaf p (v : value) vs r d k : wr Leaf p (v :: vs) r d k = [map (leaf_entry V r d) (v :: vs)].
  Proof. reflexivity. Qed.
  Lemma wr_group fs p (v : value) vs r d k :
    wr (Group fs) p (v :: vs) r d k = wr_fields fs p 0 (map (row_fields V) (v :: vs)) r d k.
  Proof. reflexivity. Qed.
  Lemma wr_fields_nil p i rows r d k : wr_fields FNil p i rows r d k = [].
  Proof. reflexivity. Qed.
  Lemma wr_fields_cons rp s fs' p i (rows : list (list value)) r d k :
    wr_fields (FCons rp s fs') p i rows r d k =
        let col := map (hd (dummy V)) rows in
        let q := i :: p in
        (match rp with
         | Req => wr s q col r d k
         | Opt =>
             cat_cols (nleaves s)
               (map (fun ch =>
                       match ch with
                       | [] => repeat [] (nleaves s)
                       | c :: _ =>
                           if is_null c then null_run s r d (length ch)
                           else wr s q (map unopt ch) r (S d) k
                       end) (chunks q col))
         | Rpt =>
             cat_cols (nleaves s)
               (map (fun v =>
                       match elems V v with
                       | [] => wr s q [] r d (S k)
                       | [x] => wr s q [x] r (S d) (S k)
                       | x :: l => zipapp (wr s q [x] r (S d) (S k)) (wr s q l (S k) (S d) (S k))
                       end) col)
         end) ++ wr_fields fs' p (S i) (map (@tl value) rows) r d k.
  Proof. reflexivity. Qed.

  Definition wr_ok (s : schema) : Prop :=
    forall p (vs : list value) r d k, vs <> [] -> Forall (wf s) vs ->
      wr s p vs r d k = cat_cols (nleaves s) (map (fun v => shred s v r d k) vs).

  Definition wr_fields_ok (fs : fields) : Prop :=
    forall p i (rows : list (list value)) r d k, rows <> [] -> Forall (wf_fields fs) rows ->
      wr_fields fs p i rows r d k = cat_cols (nleaves_fields fs) (map (fun vs => shred_fields fs vs r d k) rows).

  Lemma field_col rp s fs (rows : list (list value)) :
    Forall (wf_fields (FCons rp s fs)) rows ->
    Forall (field_wf rp s) (map (hd (dummy V)) rows) /\ Forall (wf_fields fs) (map (@tl value) rows) /\
    forall r d k, map (fun vs => shred_fields (FCons rp s fs) vs r d k) rows =
                  map (fun row => field_shred rp s (hd (dummy V) row) r d k ++ shred_fields fs (tl row) r d k) rows.
  Proof.
    induction 1 as [|row rows Hrow _ IH]; cbn [map]; [repeat split; constructor|].
    destruct IH as (I1 & I2 & I3).
    destruct (wf_fields_cons_inv _ _ _ _ Hrow) as (fv & vs' & -> & Hfv & Hvs'). cbn [hd tl].
    repeat split; try (constructor; assumption).
    intros r d k. now rewrite I3, shred_fields_field.
  Qed.

  Lemma wr_rpt s (IHs : wr_ok s) q (v : value) r d k :
    field_wf Rpt s v ->
    match elems V v with
    | [] => wr s q [] r d (S k)
    | [x] => wr s q [x] r (S d) (S k)
    | x :: l => zipapp (wr s q [x] r (S d) (S k)) (wr s q l (S k) (S d) (S k))
    end = field_shred Rpt s v r d k.
  Proof.
    intros H. destruct v as [| | |l]; cbn in H; try contradiction. cbn [elems field_shred].
    destruct l as [|x l]; [apply wr_nil|].
    inversion H as [|? ? Hx Hl]; subst.
    assert (E1 : wr s q [x] r (S d) (S k) = shred s x r (S d) (S k)).
    { rewrite IHs by (try discriminate; repeat constructor; assumption).
      cbn [map]. apply cat_cols_single. now apply shred_len. }
    destruct l as [|y l]; [exact E1|].
    rewrite E1, IHs by (try discriminate; assumption).
    symmetry. apply fold_left_cat_cols; [now apply shred_len|now apply shreds_len].
  Qed.

  Lemma field_shred_opt s (v : value) r d k : field_wf Opt s v ->
    if is_null v then field_shred Opt s v r d k = nulls s r d
    else wf s (unopt v) /\ field_shred Opt s v r d k = shred s (unopt v) r (S d) k.
  Proof. destruct v as [| |[x|]|]; cbn; try contradiction; auto. Qed.

  Lemma uniform_cons (c : value) ch v : uniform (c :: ch) -> In v (c :: ch) -> is_null v = is_null c.
  Proof. intros [H|H] Hv; rewrite (H v Hv), (H c); auto; now left. Qed.

  Lemma wr_opt_chunk s (IHs : wr_ok s) q (ch : list value) r d k :
    uniform ch -> Forall (field_wf Opt s) ch ->
    match ch with
    | [] => repeat [] (nleaves s)
    | c :: _ =>
        if is_null c then null_run s r d (length ch)
        else wr s q (map unopt ch) r (S d) k
    end = cat_cols (nleaves s) (map (fun v => field_shred Opt s v r d k) ch).
  Proof.
    intros Hu Hwf. destruct ch as [|c ch']; [reflexivity|].
    set (ch := c :: ch') in *.
    (* every row of the chunk is as its first row *)
    assert (HF : Forall (fun v => if is_null c then field_shred Opt s v r d k = nulls s r d
                                  else wf s (unopt v) /\
                                       field_shred Opt s v r d k = shred s (unopt v) r (S d) k) ch).
    { rewrite Forall_forall in *. intros v Hv. rewrite <- (uniform_cons c ch' v Hu Hv).
      now apply field_shred_opt, Hwf. }
    destruct (is_null c).
    - rewrite null_run_eq. f_equal. apply map_ext_Forall.
      eapply Forall_impl; [|exact HF]. now intros v ->.
    - rewrite IHs.
      + rewrite map_map. f_equal. apply map_ext_Forall.
        eapply Forall_impl; [|exact HF]. now intros v [_ ->].
      + discriminate.
      + apply Forall_map. eapply Forall_impl; [|exact HF]. now intros v [H _].
  Qed.

  Theorem wr_spec :
    (forall s, wr_ok s) /\ (forall fs, wr_fields_ok fs).
  Proof.
    apply schema_fields_ind.
    - intros p vs r d k Hne Hwf. destruct vs as [|v vs]; [contradiction|].
      rewrite wr_leaf. cbn [nleaves]. rewrite <- cat_cols_leaf. f_equal.
      apply map_ext_Forall. eapply Forall_impl; [|exact Hwf].
      intros [] Hu; cbn in Hu; try contradiction. reflexivity.
    - intros fs IH p vs r d k Hne Hwf. destruct vs as [|v vs]; [contradiction|].
      rewrite wr_group, IH.
      + cbn [nleaves]. rewrite map_map. f_equal.
        apply map_ext_Forall. eapply Forall_impl; [|exact Hwf].
        intros [] Hu; cbn in Hu; try contradiction. reflexivity.
      + discriminate.
      + apply Forall_map. eapply Forall_impl; [|exact Hwf].
        intros [] Hu; cbn in Hu; try contradiction. exact Hu.
    - intros p i rows r d k Hne Hwf. rewrite wr_fields_nil. cbn [nleaves_fields].
      destruct rows as [|row rows]; [contradiction|]. cbn [map]. rewrite cat_cols_cons.
      inversion Hwf as [|? ? Hrow _]; subst. destruct row; cbn in Hrow; try contradiction. reflexivity.
    - intros rp s IHs fs IHf p i rows r d k Hne Hwf.
      destruct (field_col rp s fs rows Hwf) as (Hcol & Hrest & Heq).
      rewrite wr_fields_cons. cbv zeta.
      rewrite Heq. cbn [nleaves_fields].
      rewrite (cat_cols_split (nleaves s) (nleaves_fields fs)
                 (fun row => field_shred rp s (hd (dummy V) row) r d k)
                 (fun row => shred_fields fs (tl row) r d k))
        by (eapply Forall_impl; [|exact (proj1 (Forall_map _ _ _) Hcol)]; intros row; apply field_shred_len).
      rewrite IHf; [|destruct rows; [contradiction|discriminate]|exact Hrest].
      rewrite (map_map (@tl value)). f_equal.
      rewrite <- (map_map (hd (dummy V)) (fun fv => field_shred rp s fv r d k)).
      set (col := map (hd (dummy V)) rows) in *.
      assert (Hcne : col <> []) by (subst col; destruct rows; [contradiction|discriminate]).
      destruct rp.
      + apply IHs; assumption.
      + (* optional: any admissible cutting *)
        destruct (chunks_good (i :: p) col) as [Hcat Hchs].
        rewrite <- Hcat in Hcol |- * at 2.
        rewrite cat_cols_concat by (eapply Forall_impl; [|exact Hcol]; intros fv; apply field_shred_len).
        f_equal. apply map_ext_Forall.
        apply Forall_concat in Hcol. eapply Forall_impl; [|exact (Forall_and Hchs Hcol)].
        intros ch [[_ Hu] Hch]. now apply wr_opt_chunk.
      + f_equal. apply map_ext_Forall. eapply Forall_impl; [|exact Hcol].
        intros v. now apply wr_rpt.
  Qed.

  Theorem shred_batch_rows s (rows : list value) :
    Forall (wf s) rows -> shred_batch chunks s rows = shred_rows s rows.
  Proof.
    intros Hr. rewrite shred_rows_cat by assumption.
    destruct rows as [|v rows]; [reflexivity|].
    unfold shred_batch. rewrite (proj1 wr_spec) by (try discriminate; assumption). reflexivity.
  Qed.
End BatchProofs.

Section CuttingsOk.
  Variable V : Type.
  Notation value := (value V).

  Lemma uniform_single (v : value) : uniform [v].
  Proof. destruct (is_null v) eqn:E; [left|right]; intros u [<-|[]]; exact E. Qed.

  Lemma singletons_ok (col : list value) : chunks_ok (singletons col) col.
  Proof.
    unfold singletons. split.
    - induction col as [|v col IH]; cbn; [reflexivity|now rewrite IH].
    - apply Forall_map, Forall_forall. intros v _. split; [discriminate|apply uniform_single].
  Qed.

  Lemma max_runs_ok (col : list value) : chunks_ok (max_runs col) col.
  Proof.
    induction col as [|v col [Hc Hf]]; [split; [reflexivity|constructor]|].
    cbn [max_runs].
    (* starting a new run is always admissible *)
    assert (S1 : chunks_ok ([v] :: max_runs col) (v :: col)).
    { split; [cbn; now rewrite Hc|]. constructor; [|exact Hf]. split; [discriminate|apply uniform_single]. }
    destruct (max_runs col) as [|[|w ch] chs] eqn:Em.
    - cbn in Hc. subst col. exact S1.
    - inversion Hf as [|? ? [Hne _] _]; subst. contradiction.
    - destruct (Bool.eqb (is_null v) (is_null w)) eqn:E; [|exact S1].
      apply Bool.eqb_prop in E.
      split; [cbn in Hc |- *; now rewrite Hc|].
      inversion Hf as [|? ? [_ Hu] Hf']; subst. constructor; [|exact Hf'].
      split; [discriminate|].
      destruct Hu as [Hu|Hu]; [left|right]; intros u [<-|Hu']; auto; rewrite E; apply Hu; now left.
  Qed.
End CuttingsOk.
