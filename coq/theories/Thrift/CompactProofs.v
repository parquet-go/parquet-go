(** The specification decoder of the thrift compact protocol inverts the
    encoder on every well-formed value tree (any nesting, any field ids, long
    and short field / list headers, booleans in headers and in lists). *)
From Coq Require Import List NArith ZArith Bool Arith Lia.
From Coq Require Import ZifyN ZifyNat ZifyBool.
From PQ Require Import Base.Bytes Base.Varint Base.ListExtra Thrift.Compact.
Import ListNotations.
Open Scope N_scope.

Fixpoint enc_fields (last : Z) (fs : list (Z * tval)) : bytes :=
  match fs with
  | [] => [0]
  | (id, TBool b) :: r => enc_field_header last id (if b then T_TRUE else T_FALSE) ++ enc_fields id r
  | (id, x) :: r => enc_field_header last id (type_code x) ++ encode x ++ enc_fields id r
  end.

Lemma encode_struct fs : encode (TStruct fs) = enc_fields 0 fs.
Proof.
  simpl. generalize 0%Z as last. induction fs as [|[id x] r IH]; intros last; [reflexivity|].
  destruct x; cbn [enc_fields]; repeat f_equal; apply IH.
Qed.

Lemma encode_list elem l : encode (TList elem l) = enc_list_header elem (length l) ++ concat (map encode l).
Proof. reflexivity. Qed.

Notation dec_elems f := (dec_elems_with (dec_val f)).
Notation dec_fields f := (dec_fields_with (dec_val f)).

Lemma dec_val_struct f b :
  dec_val (S f) T_STRUCT b =
  match dec_fields f f 0%Z b with Some (fs, r) => Some (TStruct fs, r) | None => None end.
Proof. reflexivity. Qed.

Lemma dec_val_list f b :
  dec_val (S f) T_LIST b =
  match b with
  | [] => None
  | h :: r =>
      let elem := h mod 16 in
      let short := h / 16 in
      let hdr := if short =? 15 then uvarint_dec r else Some (short, r) in
      match hdr with
      | None => None
      | Some (n, r1) =>
          match dec_elems f elem (N.to_nat n) r1 with
          | Some (xs, r2) => Some (TList elem xs, r2)
          | None => None
          end
      end
  end.
Proof. reflexivity. Qed.

Definition code_ok (ty : N) (v : tval) : Prop :=
  match v with
  | TBool _ => ty = T_TRUE \/ ty = T_FALSE
  | _ => ty = type_code v
  end.

Fixpoint wf (v : tval) : Prop :=
  match v with
  | TBool _ => True
  | TI8 n => n < 256
  | TInt c z => (c = T_I16 \/ c = T_I32 \/ c = T_I64) /\ in_sint 64 z
  | TDouble bits => bits < 2 ^ 64
  | TBin b => N.of_nat (length b) < 2 ^ 64
  | TList elem l =>
      (1 <= elem <= 12 /\ elem <> T_MAP) /\ N.of_nat (length l) < 2 ^ 64 /\
      (fix all (l : list tval) : Prop :=
         match l with [] => True | x :: r => (code_ok elem x /\ wf x) /\ all r end) l
  | TStruct fs =>
      (fix all (fs : list (Z * tval)) : Prop :=
         match fs with [] => True | (id, x) :: r => (in_sint 64 id /\ wf x) /\ all r end) fs
  end.

Fixpoint sz (v : tval) : nat :=
  match v with
  | TList _ l => S (fold_right (fun x a => sz x + a)%nat 0%nat l)
  | TStruct fs => S (S (fold_right (fun p a => sz (snd p) + a)%nat 0%nat fs))
  | _ => 1%nat
  end.

Lemma wf_list elem l :
  wf (TList elem l) <->
  (1 <= elem <= 12 /\ elem <> T_MAP) /\ N.of_nat (length l) < 2 ^ 64 /\ Forall (fun x => code_ok elem x /\ wf x) l.
Proof.
  cbn [wf]. split; intros (H1 & H2 & H3); repeat split; try tauto.
  - induction l as [|x r IH]; [constructor|]. destruct H3 as [Hx Hr]. constructor; [exact Hx|]. apply IH; [cbn in H2|exact Hr].
    cbn [length] in H2. lia.
  - induction H3 as [|x r Hx Hr IH]; [exact I|]. split; [exact Hx|]. apply IH. cbn [length] in H2. lia.
Qed.

Lemma wf_struct fs : wf (TStruct fs) <-> Forall (fun p => in_sint 64 (fst p) /\ wf (snd p)) fs.
Proof.
  cbn [wf]. split.
  - induction fs as [|[id x] r IH]; intros H; [constructor|]. destruct H as [Hx Hr]. constructor; [exact Hx|auto].
  - induction 1 as [|[id x] r Hx Hr IH]; [exact I|]. split; [exact Hx|exact IH].
Qed.

(** induction principle with the nested lists *)
Section Ind.
  Variable P : tval -> Prop.
  Hypothesis HBool : forall b, P (TBool b).
  Hypothesis HI8 : forall n, P (TI8 n).
  Hypothesis HInt : forall c z, P (TInt c z).
  Hypothesis HDouble : forall b, P (TDouble b).
  Hypothesis HBin : forall b, P (TBin b).
  Hypothesis HList : forall e l, Forall P l -> P (TList e l).
  Hypothesis HStruct : forall fs, Forall (fun p => P (snd p)) fs -> P (TStruct fs).

  Fixpoint tval_ind' (v : tval) : P v :=
    match v with
    | TBool b => HBool b
    | TI8 n => HI8 n
    | TInt c z => HInt c z
    | TDouble b => HDouble b
    | TBin b => HBin b
    | TList e l =>
        HList e l ((fix go (l : list tval) : Forall P l :=
                      match l with
                      | [] => Forall_nil P
                      | x :: r => Forall_cons x (tval_ind' x) (go r)
                      end) l)
    | TStruct fs =>
        HStruct fs ((fix go (fs : list (Z * tval)) : Forall (fun p => P (snd p)) fs :=
                       match fs with
                       | [] => Forall_nil _
                       | p :: r => Forall_cons p (tval_ind' (snd p)) (go r)
                       end) fs)
    end.
End Ind.

Lemma take_app n (a b : bytes) : length a = n -> take n (a ++ b) = Some (a, b).
Proof. apply leb_cut_app. Qed.

Lemma type_code_range v : wf v -> 1 <= type_code v <= 12.
Proof.
  destruct v as [[|]| |c z| | | |]; cbn [type_code wf]; unfold T_TRUE, T_FALSE, T_I8, T_DOUBLE, T_BINARY, T_LIST, T_STRUCT; try lia.
  intros [[->|[->| ->]] _]; unfold T_I16, T_I32, T_I64; lia.
Qed.

Definition roundtrip_at (v : tval) : Prop :=
  wf v -> forall fuel ty rest, (sz v <= fuel)%nat -> code_ok ty v ->
  (match v with TInt c _ => True | _ => True end) ->
  dec_val fuel ty (encode v ++ rest) = Some (v, rest).

Lemma int_code_cases c : c = T_I16 \/ c = T_I32 \/ c = T_I64 ->
  (c =? T_TRUE) = false /\ (c =? T_FALSE) = false /\ (c =? T_I8) = false /\
  ((c =? T_I16) || (c =? T_I32) || (c =? T_I64)) = true.
Proof. intros [->|[->| ->]]; repeat split; reflexivity. Qed.

Lemma dec_elems_all f elem : forall l rest,
  Forall (fun x => forall rest, dec_val f elem (encode x ++ rest) = Some (x, rest)) l ->
  dec_elems f elem (length l) (concat (map encode l) ++ rest) = Some (l, rest).
Proof.
  induction l as [|x l IH]; intros rest Hl; [reflexivity|].
  inversion Hl as [|? ? Hx Hl']; subst.
  cbn [length dec_elems_with map concat]. rewrite <- app_assoc, Hx, IH by exact Hl'. reflexivity.
Qed.

Lemma nibbles d t : t < 16 -> (d * 16 + t) / 16 = d /\ (d * 16 + t) mod 16 = t.
Proof.
  intros Ht. rewrite N.add_comm, N.div_add, N.mod_add by discriminate.
  now rewrite N.div_small, N.mod_small by exact Ht.
Qed.

Lemma field_header_dec last id ty rest :
  1 <= ty <= 12 -> in_sint 64 id ->
  exists h r, enc_field_header last id ty ++ rest = h :: r /\ (h =? 0) = false /\
    h mod 16 = ty /\
    (if h / 16 =? 0 then match varint_dec r with Some (i, r') => Some (i, r') | None => None end
     else Some ((last + Z.of_N (h / 16))%Z, r)) = Some (id, rest).
Proof.
  intros Hty Hid. unfold enc_field_header.
  destruct ((0 <? id - last)%Z && (id - last <=? 15)%Z) eqn:E.
  - apply andb_true_iff in E. destruct E as [E1 E2].
    apply Z.ltb_lt in E1. apply Z.leb_le in E2.
    set (delta := Z.to_N (id - last)).
    assert (Hd : 1 <= delta <= 15) by (subst delta; lia).
    exists (delta * 16 + ty), rest. cbn [app].
    destruct (nibbles delta ty) as [Hdiv Hmod]; [lia|]. rewrite Hdiv, Hmod.
    repeat split.
    + apply N.eqb_neq. lia.
    + destruct (N.eqb_spec delta 0); [lia|]. f_equal. f_equal. subst delta. lia.
  - exists ty, (varint64 id ++ rest). cbn [app].
    destruct (nibbles 0 ty) as [Hdiv Hmod]; [lia|]. rewrite N.add_0_l in Hdiv, Hmod. rewrite Hdiv, Hmod.
    repeat split.
    + apply N.eqb_neq. lia.
    + cbn [N.eqb]. now rewrite varint64_roundtrip.
Qed.

(** a boolean field has its value in the header *)
Definition is_bool (v : tval) : bool := match v with TBool _ => true | _ => false end.

Lemma enc_fields_cons last id x r : is_bool x = false ->
  enc_fields last ((id, x) :: r) = enc_field_header last id (type_code x) ++ encode x ++ enc_fields id r.
Proof. destruct x; [discriminate|..]; reflexivity. Qed.

Lemma type_code_not_bool x : is_bool x = false -> wf x ->
  (type_code x =? T_TRUE) = false /\ (type_code x =? T_FALSE) = false.
Proof.
  destruct x as [b|n|c z|bits|bs|e l|gs]; intros Hb Hw; try discriminate Hb; try (split; reflexivity).
  destruct Hw as [Hc _]. destruct (int_code_cases c Hc) as (E1 & E2 & _). now split.
Qed.

Lemma code_ok_type_code v : code_ok (type_code v) v.
Proof. destruct v as [[|]| | | | | |]; cbn; auto. Qed.

Lemma dec_fields_all f : forall fs last rest k,
  Forall (fun p => in_sint 64 (fst p) /\ wf (snd p) /\
                   forall rest, dec_val f (type_code (snd p)) (encode (snd p) ++ rest) = Some (snd p, rest)) fs ->
  (length fs < k)%nat ->
  dec_fields f k last (enc_fields last fs ++ rest) = Some (fs, rest).
Proof.
  induction fs as [|[id x] fs IH]; intros last rest k Hfs Hk;
    (destruct k as [|k]; [cbn in Hk; lia|]); [reflexivity|].
  inversion Hfs as [|? ? (Hid & Hw & Hx) Hfs']; subst. cbn [fst snd length] in *.
  assert (Hrest : dec_fields f k id (enc_fields id fs ++ rest) = Some (fs, rest)) by (apply IH; [exact Hfs'|lia]).
  destruct (is_bool x) eqn:Ex.
  - destruct x as [b| | | | | |]; try discriminate Ex.
    cbn [enc_fields]. rewrite <- app_assoc.
    destruct (field_header_dec last id (if b then T_TRUE else T_FALSE) (enc_fields id fs ++ rest))
      as (h & r & Eh & Hnz & Hm & Hidr); [destruct b; unfold T_TRUE, T_FALSE; lia|exact Hid|].
    rewrite Eh. cbn [dec_fields_with]. rewrite Hnz. cbv zeta. rewrite Hidr, Hm.
    destruct b; cbn [N.eqb T_TRUE T_FALSE Pos.eqb]; rewrite Hrest; reflexivity.
  - destruct (type_code_not_bool x Ex Hw) as [Hn1 Hn2].
    rewrite enc_fields_cons, <- !app_assoc by exact Ex.
    destruct (field_header_dec last id (type_code x) (encode x ++ enc_fields id fs ++ rest))
      as (h & r & Eh & Hnz & Hm & Hidr); [apply type_code_range; exact Hw|exact Hid|].
    rewrite Eh. cbn [dec_fields_with]. rewrite Hnz. cbv zeta. rewrite Hidr, Hm, Hn1, Hn2, Hx, Hrest.
    reflexivity.
Qed.

Lemma list_header_dec elem n rest :
  1 <= elem <= 12 -> N.of_nat n < 2 ^ 64 ->
  exists h r, enc_list_header elem n ++ rest = h :: r /\ h mod 16 = elem /\
    (if h / 16 =? 15 then uvarint_dec r else Some (h / 16, r)) = Some (N.of_nat n, rest).
Proof.
  intros He Hn. unfold enc_list_header.
  destruct (Nat.leb_spec n 14) as [Hs|Hl].
  - exists (N.of_nat n * 16 + elem), rest. cbn [app].
    destruct (nibbles (N.of_nat n) elem) as [Hdiv Hmod]; [lia|]. rewrite Hdiv, Hmod.
    split; [reflexivity|]. split; [reflexivity|].
    destruct (N.eqb_spec (N.of_nat n) 15); [lia|reflexivity].
  - exists (240 + elem), (uvarint64 (N.of_nat n) ++ rest). cbn [app].
    destruct (nibbles 15 elem) as [Hdiv Hmod]; [lia|]. change (15 * 16) with 240 in Hdiv, Hmod.
    rewrite Hdiv, Hmod. split; [reflexivity|]. split; [reflexivity|].
    cbn [N.eqb Pos.eqb]. now rewrite uvarint64_roundtrip.
Qed.

(** [m_fields]: the field loop of a struct takes one round per field and one
    for the stop byte *)
Section Measure.
  Variable m : tval -> nat.
  Hypothesis m_pos : forall v, (1 <= m v)%nat.
  Hypothesis m_list : forall e l x, In x l -> (m x < m (TList e l))%nat.
  Hypothesis m_struct : forall fs p, In p fs -> (m (snd p) < m (TStruct fs))%nat.
  Hypothesis m_fields : forall fs, (length fs + 2 <= m (TStruct fs))%nat.

  Theorem dec_val_encode_m : forall v, wf v ->
    forall fuel ty rest, (m v <= fuel)%nat -> code_ok ty v ->
    dec_val fuel ty (encode v ++ rest) = Some (v, rest).
  Proof.
    induction v as [b|n|c z|bits|bs|e l IH|fs IH] using tval_ind';
      intros Hw fuel ty rest Hf Hc;
      (destruct fuel as [|f]; [exfalso; exact (proj2 (Nat.nle_gt _ _) (m_pos _) Hf)|]).
    - (* bool as a list element *)
      destruct Hc as [-> | ->]; destruct b; reflexivity.
    - cbn in Hc. subst ty. reflexivity.
    - cbn in Hc. subst ty. destruct Hw as [Hcode Hz].
      destruct (int_code_cases c Hcode) as (E1 & E2 & E3 & E4).
      cbn [dec_val encode]. rewrite E1, E2, E3, E4.
      now rewrite varint64_roundtrip.
    - cbn in Hc. subst ty. cbn [dec_val encode type_code N.eqb T_TRUE T_FALSE T_I8 T_I16 T_I32 T_I64 T_DOUBLE Pos.eqb orb].
      rewrite take_app by apply to_le_length.
      rewrite of_le_to_le; [reflexivity|]. cbn in Hw. exact Hw.
    - cbn in Hc. subst ty.
      cbn [dec_val encode type_code N.eqb T_TRUE T_FALSE T_I8 T_I16 T_I32 T_I64 T_DOUBLE T_BINARY Pos.eqb orb].
      rewrite <- app_assoc, uvarint64_roundtrip by exact Hw.
      rewrite Nat2N.id, take_app by reflexivity. reflexivity.
    - cbn in Hc. subst ty. apply wf_list in Hw. destruct Hw as ((He & Hm) & Hn & Hl).
      change (type_code (TList e l)) with T_LIST. rewrite dec_val_list, encode_list, <- app_assoc.
      destruct (list_header_dec e (length l) (concat (map encode l) ++ rest) He Hn)
        as (h & r & Eh & Hmod & Hhdr).
      rewrite Eh. cbv zeta. rewrite Hhdr, Hmod, Nat2N.id.
      rewrite dec_elems_all; [reflexivity|].
      rewrite Forall_forall in *. intros x Hx rest'. destruct (Hl x Hx) as [Hcx Hwx].
      apply IH; [exact Hx|exact Hwx| |exact Hcx].
      pose proof (m_list e l x Hx). lia.
    - cbn in Hc. subst ty. apply wf_struct in Hw.
      change (type_code (TStruct fs)) with T_STRUCT. rewrite dec_val_struct, encode_struct.
      pose proof (m_fields fs) as Hlen.
      rewrite dec_fields_all; [reflexivity| |lia].
      rewrite Forall_forall in *. intros p Hp. destruct (Hw p Hp) as [Hid Hwp].
      split; [exact Hid|]. split; [exact Hwp|]. intros rest'.
      apply IH; [exact Hp|exact Hwp| |apply code_ok_type_code].
      pose proof (m_struct fs p Hp). lia.
  Qed.
End Measure.

Lemma sum_ge {A} (f : A -> nat) l x : In x l -> (f x <= fold_right (fun y a => f y + a) 0 l)%nat.
Proof.
  induction l as [|y l IH]; intros Hx; [destruct Hx|]. cbn [fold_right].
  destruct Hx as [->|Hx]; [lia|]. specialize (IH Hx). lia.
Qed.

Lemma sz_pos v : (1 <= sz v)%nat.
Proof. destruct v; cbn; lia. Qed.

Theorem dec_val_encode : forall v, wf v ->
  forall fuel ty rest, (sz v <= fuel)%nat -> code_ok ty v ->
  dec_val fuel ty (encode v ++ rest) = Some (v, rest).
Proof.
  apply dec_val_encode_m.
  - exact sz_pos.
  - intros e l x Hx. cbn [sz]. pose proof (sum_ge sz l x Hx). lia.
  - intros fs p Hp. cbn [sz]. pose proof (sum_ge (fun p => sz (snd p)) fs p Hp) as H. cbn beta in H. lia.
  - intros fs. cbn [sz]. induction fs as [|q fs IH]; cbn [length fold_right]; [lia|].
    pose proof (sz_pos (snd q)). lia.
Qed.

Theorem decode_struct_encode fs rest : wf (TStruct fs) ->
  dec_val (sz (TStruct fs)) T_STRUCT (encode (TStruct fs) ++ rest) = Some (TStruct fs, rest).
Proof. intros H. apply dec_val_encode; [exact H|lia|reflexivity]. Qed.
