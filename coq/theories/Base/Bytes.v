(** Bytes, little-endian fixed-width integers, two's-complement wrap-around.
    A byte is an [N] below 256; byte strings are lists.  Shared by the
    encoding, bloom, CRC and file-layout models. *)
From Coq Require Import List NArith ZArith Lia Bool Arith.
From Coq Require Import ZifyN ZifyNat ZifyBool.
Import ListNotations.
Open Scope N_scope.

Definition bytes := list N.
Definition wf_bytes (l : bytes) : Prop := Forall (fun b => b < 256) l.

(** [to_le n x]: the [n] low bytes of [x], least significant first. *)
Fixpoint to_le (n : nat) (x : N) : bytes :=
  match n with
  | O => []
  | S m => (x mod 256) :: to_le m (x / 256)
  end.

Fixpoint of_le (l : bytes) : N :=
  match l with
  | [] => 0
  | b :: r => b + 256 * of_le r
  end.

Lemma to_le_length n : forall x, length (to_le n x) = n.
Proof. induction n as [|n IH]; intros x; cbn [to_le length]; [reflexivity|]. now rewrite IH. Qed.

Lemma to_le_wf n : forall x, wf_bytes (to_le n x).
Proof.
  induction n as [|n IH]; intros x; cbn [to_le]; constructor.
  - apply N.mod_lt. discriminate.
  - apply IH.
Qed.

Lemma of_le_to_le n : forall x, x < 256 ^ N.of_nat n -> of_le (to_le n x) = x.
Proof.
  induction n as [|n IH]; intros x Hx; cbn [to_le of_le].
  - cbn in Hx. lia.
  - rewrite IH.
    + pose proof (N.div_mod x 256 ltac:(discriminate)). lia.
    + rewrite Nat2N.inj_succ, N.pow_succ_r' in Hx.
      apply N.div_lt_upper_bound; [discriminate|exact Hx].
Qed.

Lemma of_le_bound l : wf_bytes l -> of_le l < 256 ^ N.of_nat (length l).
Proof.
  induction 1 as [|b r Hb Hr IH]; cbn [of_le length].
  - cbn. lia.
  - rewrite Nat2N.inj_succ, N.pow_succ_r'. nia.
Qed.

Lemma digit_split B v x : v < B -> (v + B * x) mod B = v /\ (v + B * x) / B = x.
Proof.
  intros Hv. assert (HB : B <> 0) by lia.
  rewrite (N.mul_comm B), N.mod_add, N.div_add by exact HB.
  now rewrite N.mod_small, N.div_small by exact Hv.
Qed.

Lemma to_le_of_le l : wf_bytes l -> to_le (length l) (of_le l) = l.
Proof.
  induction 1 as [|b r Hb Hr IH]; cbn [of_le length to_le]; [reflexivity|].
  destruct (digit_split 256 b (of_le r) Hb) as [-> ->]. now rewrite IH.
Qed.

Lemma of_le_app a b : of_le (a ++ b) = of_le a + 256 ^ N.of_nat (length a) * of_le b.
Proof.
  induction a as [|x a IH]; cbn [app of_le length].
  - change (N.of_nat 0) with 0. rewrite N.pow_0_r. lia.
  - rewrite IH, Nat2N.inj_succ, N.pow_succ_r'. lia.
Qed.

Lemma of_le_snoc l x : of_le (l ++ [x]) = of_le l + 256 ^ N.of_nat (length l) * x.
Proof. rewrite of_le_app. cbn [of_le]. lia. Qed.

Lemma pow256 n : 256 ^ n = 2 ^ (8 * n).
Proof. change 256 with (2 ^ 8). now rewrite <- N.pow_mul_r. Qed.

Lemma of_le_lt l : wf_bytes l -> of_le l < 2 ^ (8 * N.of_nat (length l)).
Proof. intros H. rewrite <- pow256. now apply of_le_bound. Qed.

Lemma of_le_repeat0 k : of_le (repeat 0 k) = 0.
Proof. induction k as [|k IH]; cbn [repeat of_le]; [reflexivity|]. rewrite IH. reflexivity. Qed.

Lemma of_le_repeat255 k : of_le (repeat 255 k) + 1 = 256 ^ N.of_nat k.
Proof.
  induction k as [|k IH]; cbn [repeat of_le]; [reflexivity|].
  rewrite Nat2N.inj_succ, N.pow_succ_r'. lia.
Qed.

Lemma wf_bytes_app a b : wf_bytes (a ++ b) <-> wf_bytes a /\ wf_bytes b.
Proof. unfold wf_bytes. apply Forall_app. Qed.

(** Two's complement: [wrapZ k z] is the [k]-bit pattern of [z]; [sintZ k n]
    the signed value of a [k]-bit pattern. *)
Definition wrapZ (k : N) (z : Z) : N := Z.to_N (z mod 2 ^ Z.of_N k)%Z.

Definition sintZ (k : N) (n : N) : Z :=
  if n <? 2 ^ (k - 1) then Z.of_N n else (Z.of_N n - 2 ^ Z.of_N k)%Z.

Definition in_sint (k : N) (z : Z) : Prop :=
  (- 2 ^ (Z.of_N k - 1) <= z < 2 ^ (Z.of_N k - 1))%Z.

Lemma wrapZ_lt k z : wrapZ k z < 2 ^ k.
Proof.
  unfold wrapZ.
  assert (H : (0 < 2 ^ Z.of_N k)%Z) by (apply Z.pow_pos_nonneg; lia).
  pose proof (Z.mod_pos_bound z _ H) as Hb.
  apply N2Z.inj_lt. rewrite Z2N.id by lia. rewrite N2Z.inj_pow. cbn. lia.
Qed.

Lemma pow2_split (k : Z) : (0 < k)%Z -> (2 ^ k = 2 * 2 ^ (k - 1))%Z.
Proof. intros H. rewrite <- Z.pow_succ_r by lia. f_equal. lia. Qed.

Lemma sintZ_wrapZ k z : 0 < k -> in_sint k z -> sintZ k (wrapZ k z) = z.
Proof.
  intros Hk [Hlo Hhi]. unfold sintZ, wrapZ.
  assert (Hp : (2 ^ Z.of_N k = 2 * 2 ^ (Z.of_N k - 1))%Z) by (apply pow2_split; lia).
  assert (Hpos : (0 < 2 ^ (Z.of_N k - 1))%Z) by (apply Z.pow_pos_nonneg; lia).
  assert (Hk1 : Z.of_N (2 ^ (k - 1)) = (2 ^ (Z.of_N k - 1))%Z).
  { rewrite N2Z.inj_pow, N2Z.inj_sub by lia. reflexivity. }
  destruct (Z.neg_nonneg_cases z) as [Hneg|Hnn].
  - (* negative: pattern is z + 2^k *)
    assert (E : (z mod 2 ^ Z.of_N k = z + 2 ^ Z.of_N k)%Z).
    { symmetry. apply Z.mod_unique with (q := (-1)%Z); lia. }
    rewrite E. rewrite Z2N.id by lia.
    destruct (N.ltb_spec (Z.to_N (z + 2 ^ Z.of_N k)) (2 ^ (k - 1))) as [H|H].
    + exfalso. apply N2Z.inj_lt in H. rewrite Z2N.id in H by lia. lia.
    + lia.
  - assert (E : (z mod 2 ^ Z.of_N k = z)%Z) by (apply Z.mod_small; lia).
    rewrite E. rewrite Z2N.id by lia.
    destruct (N.ltb_spec (Z.to_N z) (2 ^ (k - 1))) as [H|H].
    + reflexivity.
    + exfalso. apply N2Z.inj_le in H. rewrite Z2N.id in H by lia. lia.
Qed.

Lemma wrapZ_add_mod k a b :
  wrapZ k (Z.of_N (wrapZ k a) + b) = wrapZ k (a + b).
Proof.
  unfold wrapZ. f_equal.
  assert (H : (0 < 2 ^ Z.of_N k)%Z) by (apply Z.pow_pos_nonneg; lia).
  rewrite Z2N.id by (apply Z.mod_pos_bound; exact H).
  rewrite Zplus_mod_idemp_l. reflexivity.
Qed.

Lemma wrapZ_sintZ k n : 0 < k -> n < 2 ^ k -> wrapZ k (sintZ k n) = n.
Proof.
  intros Hk Hn. unfold sintZ, wrapZ.
  assert (Hpz : Z.of_N (2 ^ k) = (2 ^ Z.of_N k)%Z) by (rewrite N2Z.inj_pow; reflexivity).
  assert (Hnz : (0 <= Z.of_N n < 2 ^ Z.of_N k)%Z) by lia.
  destruct (N.ltb_spec n (2 ^ (k - 1))) as [H|H].
  - rewrite Z.mod_small by lia. lia.
  - assert (E : ((Z.of_N n - 2 ^ Z.of_N k) mod 2 ^ Z.of_N k = Z.of_N n)%Z).
    { symmetry. apply Z.mod_unique with (q := (-1)%Z); lia. }
    rewrite E. lia.
Qed.

Lemma sintZ_in_range k n : 0 < k -> n < 2 ^ k -> in_sint k (sintZ k n).
Proof.
  intros Hk Hn. unfold sintZ, in_sint.
  assert (Hp : (2 ^ Z.of_N k = 2 * 2 ^ (Z.of_N k - 1))%Z) by (apply pow2_split; lia).
  assert (Hk1 : Z.of_N (2 ^ (k - 1)) = (2 ^ (Z.of_N k - 1))%Z).
  { rewrite N2Z.inj_pow, N2Z.inj_sub by lia. reflexivity. }
  assert (Hpz : Z.of_N (2 ^ k) = (2 ^ Z.of_N k)%Z) by (rewrite N2Z.inj_pow; reflexivity).
  destruct (N.ltb_spec n (2 ^ (k - 1))) as [H|H]; lia.
Qed.

(** xor of byte strings of equal length (used by CRC / corruption models) *)
Fixpoint xor_bytes (a b : bytes) : bytes :=
  match a, b with
  | x :: a', y :: b' => N.lxor x y :: xor_bytes a' b'
  | _, _ => []
  end.
