(** ULEB128 varints and zig-zag (encoding/binary PutUvarint / PutVarint and the
    decoders used by the DELTA and RLE encodings and by thrift compact). *)
From Coq Require Import List NArith ZArith Lia Bool Arith.
From Coq Require Import ZifyN ZifyNat ZifyBool.
From PQ Require Import Base.Bytes.
Import ListNotations.
Open Scope N_scope.

(** binary.PutUvarint: 7 bits per byte, least significant group first,
    continuation bit 0x80.  at most [fuel + 1] bytes (fuel 9 for uint64: 10 bytes). *)
Fixpoint uvarint_enc (fuel : nat) (x : N) : bytes :=
  match fuel with
  | O => [x mod 128]
  | S f => if x <? 128 then [x] else (x mod 128 + 128) :: uvarint_enc f (x / 128)
  end.

Definition uvarint64 (x : N) : bytes := uvarint_enc 9 x.

(** Decoder written from the format: accumulate 7-bit groups until a byte
    below 0x80.  Returns the value and the remaining bytes. *)
Fixpoint uvarint_dec_aux (l : bytes) (shift acc : N) : option (N * bytes) :=
  match l with
  | [] => None
  | b :: r =>
      if b <? 128 then Some (acc + b * 2 ^ shift, r)
      else uvarint_dec_aux r (shift + 7) (acc + (b - 128) * 2 ^ shift)
  end.

Definition uvarint_dec (l : bytes) : option (N * bytes) := uvarint_dec_aux l 0 0.

(** zig-zag (binary.PutVarint): (z << 1) ^ (z >> 63) *)
Definition zigzag (z : Z) : N :=
  if (0 <=? z)%Z then Z.to_N (2 * z) else Z.to_N (- 2 * z - 1).

Definition unzigzag (n : N) : Z :=
  if N.even n then Z.of_N (n / 2) else (- Z.of_N (n / 2) - 1)%Z.

Definition varint64 (z : Z) : bytes := uvarint64 (zigzag z).

Definition varint_dec (l : bytes) : option (Z * bytes) :=
  match uvarint_dec l with
  | Some (n, r) => Some (unzigzag n, r)
  | None => None
  end.

(** * Proofs *)

Lemma uvarint_dec_aux_enc fuel : forall x rest shift acc,
  x < 2 ^ (7 * N.of_nat (S fuel)) ->
  uvarint_dec_aux (uvarint_enc fuel x ++ rest) shift acc = Some (acc + x * 2 ^ shift, rest).
Proof.
  induction fuel as [|f IH]; intros x rest shift acc Hx.
  - cbn [uvarint_enc app uvarint_dec_aux].
    change (7 * N.of_nat 1) with 7 in Hx. change (2 ^ 7) with 128 in Hx.
    rewrite N.mod_small by exact Hx.
    destruct (N.ltb_spec x 128); [reflexivity|lia].
  - cbn [uvarint_enc].
    destruct (N.ltb_spec x 128) as [Hs|Hb].
    + cbn [app uvarint_dec_aux]. destruct (N.ltb_spec x 128); [reflexivity|lia].
    + cbn [app uvarint_dec_aux].
      assert (Hm : x mod 128 < 128) by (apply N.mod_lt; discriminate).
      destruct (N.ltb_spec (x mod 128 + 128) 128) as [H|_]; [lia|].
      rewrite IH.
      * f_equal. f_equal.
        replace (x mod 128 + 128 - 128) with (x mod 128) by lia.
        rewrite N.pow_add_r. change (2 ^ 7) with 128.
        pose proof (N.div_mod x 128 ltac:(discriminate)). nia.
      * apply N.div_lt_upper_bound; [discriminate|].
        replace (7 * N.of_nat (S (S f))) with (7 + 7 * N.of_nat (S f)) in Hx by lia.
        rewrite N.pow_add_r in Hx. change (2 ^ 7) with 128 in Hx. exact Hx.
Qed.

Lemma uvarint_dec_enc fuel x rest :
  x < 2 ^ (7 * N.of_nat (S fuel)) ->
  uvarint_dec (uvarint_enc fuel x ++ rest) = Some (x, rest).
Proof.
  intros Hx. unfold uvarint_dec. rewrite uvarint_dec_aux_enc by exact Hx.
  f_equal. f_equal. rewrite N.pow_0_r. lia.
Qed.

Lemma uvarint64_roundtrip x rest :
  x < 2 ^ 64 -> uvarint_dec (uvarint64 x ++ rest) = Some (x, rest).
Proof.
  intros Hx. apply uvarint_dec_enc.
  eapply N.lt_trans; [exact Hx|]. change (7 * N.of_nat 10) with 70.
  apply N.pow_lt_mono_r; lia.
Qed.

Lemma uvarint_enc_wf fuel : forall x, wf_bytes (uvarint_enc fuel x).
Proof.
  induction fuel as [|f IH]; intros x; cbn [uvarint_enc].
  - constructor; [|constructor]. pose proof (N.mod_lt x 128 ltac:(discriminate)). lia.
  - destruct (N.ltb_spec x 128).
    + constructor; [lia|constructor].
    + constructor; [|apply IH]. pose proof (N.mod_lt x 128 ltac:(discriminate)). lia.
Qed.

Lemma unzigzag_zigzag z : unzigzag (zigzag z) = z.
Proof.
  unfold zigzag, unzigzag.
  destruct (Z.leb_spec 0 z) as [Hz|Hz].
  - assert (E : Z.to_N (2 * z) = 2 * Z.to_N z) by lia.
    rewrite E. rewrite N.even_mul. cbn [N.even orb].
    rewrite N.mul_comm, N.div_mul by discriminate. lia.
  - assert (E : Z.to_N (-2 * z - 1) = 1 + 2 * Z.to_N (- z - 1)) by lia.
    rewrite E. rewrite N.even_add_mul_2. cbn [N.even].
    rewrite (N.mul_comm 2), N.div_add by discriminate. cbn. lia.
Qed.

Lemma zigzag_lt (k : N) z : 0 < k -> in_sint k z -> zigzag z < 2 ^ k.
Proof.
  intros Hk [Hlo Hhi]. unfold zigzag.
  assert (Hp : (2 ^ Z.of_N k = 2 * 2 ^ (Z.of_N k - 1))%Z) by (apply pow2_split; lia).
  assert (Hpz : Z.of_N (2 ^ k) = (2 ^ Z.of_N k)%Z) by (rewrite N2Z.inj_pow; reflexivity).
  destruct (Z.leb_spec 0 z); lia.
Qed.

Lemma varint64_roundtrip z rest :
  in_sint 64 z -> varint_dec (varint64 z ++ rest) = Some (z, rest).
Proof.
  intros Hz. unfold varint_dec, varint64.
  rewrite uvarint64_roundtrip by (apply zigzag_lt; [lia|exact Hz]).
  now rewrite unzigzag_zigzag.
Qed.

Lemma uvarint_enc_nonempty fuel x : uvarint_enc fuel x <> [].
Proof. destruct fuel; cbn [uvarint_enc]; [discriminate|]. destruct (x <? 128); discriminate. Qed.

Lemma uvarint64_app_nonempty h p : uvarint64 h ++ p <> [].
Proof. intros E. apply app_eq_nil in E. exact (uvarint_enc_nonempty 9 _ (proj1 E)). Qed.

Lemma uvarint64_length_pos x : (0 < length (uvarint64 x))%nat.
Proof.
  pose proof (uvarint_enc_nonempty 9 x) as H. unfold uvarint64.
  destruct (uvarint_enc 9 x); [contradiction|cbn; lia].
Qed.

Lemma uvarint64_length_le x : (length (uvarint64 x) <= 10)%nat.
Proof.
  unfold uvarint64.
  assert (G : forall fuel y, (length (uvarint_enc fuel y) <= S fuel)%nat).
  { induction fuel as [|f IHf]; intros y; cbn [uvarint_enc]; [cbn; lia|].
    destruct (y <? 128); cbn [length]; [lia|]. specialize (IHf (y / 128)). lia. }
  apply (G 9%nat x).
Qed.
