(** List lemmas missing from the 8.16 standard library. *)
From Coq Require Import List Arith Lia.
Import ListNotations.

Lemma firstn_app_exact {A} (a b : list A) : firstn (length a) (a ++ b) = a.
Proof.
  rewrite firstn_app, Nat.sub_diag, firstn_all. cbn [firstn]. apply app_nil_r.
Qed.

Lemma skipn_app_exact {A} (a b : list A) : skipn (length a) (a ++ b) = b.
Proof.
  rewrite skipn_app, Nat.sub_diag, skipn_all. reflexivity.
Qed.

Lemma Forall_firstn {A} (P : A -> Prop) n (l : list A) : Forall P l -> Forall P (firstn n l).
Proof.
  intros H. apply Forall_forall. intros x Hx. rewrite Forall_forall in H. apply H.
  rewrite <- (firstn_skipn n l). apply in_or_app. now left.
Qed.

Lemma Forall_skipn {A} (P : A -> Prop) n (l : list A) : Forall P l -> Forall P (skipn n l).
Proof.
  intros H. apply Forall_forall. intros x Hx. rewrite Forall_forall in H. apply H.
  rewrite <- (firstn_skipn n l). apply in_or_app. now right.
Qed.

Lemma last_nonempty_default {A} (l : list A) d1 d2 : l <> [] -> last l d1 = last l d2.
Proof.
  induction l as [|x l IH]; intros H; [contradiction|].
  destruct l as [|y l']; [reflexivity|].
  change (last (x :: y :: l') d1) with (last (y :: l') d1).
  change (last (x :: y :: l') d2) with (last (y :: l') d2).
  apply IH. discriminate.
Qed.

Lemma last_app_default {A} (a b : list A) d : last (a ++ b) d = last b (last a d).
Proof.
  induction a as [|x a IH]; cbn [app]; [reflexivity|].
  destruct a as [|y a'].
  - cbn [app]. destruct b as [|z b']; [reflexivity|].
    change (last (x :: z :: b') d) with (last (z :: b') d).
    apply last_nonempty_default. discriminate.
  - change (last (x :: (y :: a') ++ b) d) with (last ((y :: a') ++ b) d).
    change (last (x :: y :: a') d) with (last (y :: a') d).
    exact IH.
Qed.

Lemma last_cons {A} (v : A) (a : list A) d : last (v :: a) d = last a v.
Proof.
  destruct a as [|n a']; [reflexivity|].
  change (last (v :: n :: a') d) with (last (n :: a') d).
  apply last_nonempty_default. discriminate.
Qed.

Lemma firstn_app_len {A} n (a b : list A) : length a = n -> firstn n (a ++ b) = a.
Proof. intros <-. apply firstn_app_exact. Qed.

Lemma skipn_app_len {A} n (a b : list A) : length a = n -> skipn n (a ++ b) = b.
Proof. intros <-. apply skipn_app_exact. Qed.

Lemma nth_map' {A B} (f : A -> B) l i d d' : i < length l -> nth i (map f l) d = f (nth i l d').
Proof.
  intros H. rewrite (nth_indep _ d (f d')) by (rewrite map_length; exact H). apply map_nth.
Qed.

Lemma nth_map_seq {A} (f : nat -> A) n i d : i < n -> nth i (map f (seq 0 n)) d = f i.
Proof.
  intros H. rewrite (nth_map' f (seq 0 n) i d 0) by (rewrite seq_length; exact H).
  now rewrite seq_nth.
Qed.

Lemma nth_firstn_lt {A} (d : A) n : forall (l : list A) i, (i < n)%nat -> nth i (firstn n l) d = nth i l d.
Proof.
  induction n as [|n IH]; intros l i Hi; [lia|].
  destruct l as [|x l]; [reflexivity|]. destruct i as [|i]; [reflexivity|].
  cbn [firstn nth]. apply IH. lia.
Qed.

Lemma nth_skipn_add {A} (d : A) a : forall (l : list A) i, nth i (skipn a l) d = nth (a + i) l d.
Proof.
  induction a as [|a IH]; intros l i; [reflexivity|].
  destruct l as [|x l]; [cbn [skipn]; now destruct i|]. cbn [skipn Nat.add nth]. apply IH.
Qed.

Lemma firstn_add {A} a c (l : list A) : firstn (a + c) l = firstn a l ++ firstn c (skipn a l).
Proof.
  revert l. induction a as [|a IH]; intros l; [reflexivity|].
  destruct l as [|x l]; [cbn; now rewrite firstn_nil|].
  cbn [Nat.add firstn skipn app]. now rewrite IH.
Qed.

Lemma skipn_add {A} a c (l : list A) : skipn (a + c) l = skipn c (skipn a l).
Proof.
  revert l. induction a as [|a IH]; intros l; [reflexivity|].
  destruct l as [|x l]; [cbn; now rewrite skipn_nil|]. cbn [Nat.add skipn]. apply IH.
Qed.

Lemma skipn_nth_cons {A} (l : list A) p d : p < length l -> skipn p l = nth p l d :: skipn (S p) l.
Proof.
  revert p; induction l as [|x l IH]; intros [|p] H; cbn in *; try lia; auto. apply IH. lia.
Qed.

Lemma Forall2_len {A B} (R : A -> B -> Prop) l1 l2 : Forall2 R l1 l2 -> length l1 = length l2.
Proof. induction 1; cbn [length]; congruence. Qed.

Lemma Forall2_nth {A B} (P : A -> B -> Prop) l1 l2 i d1 d2 :
  Forall2 P l1 l2 -> i < length l1 -> P (nth i l1 d1) (nth i l2 d2).
Proof.
  intros H; revert i; induction H; intros [|i] Hi; simpl in *; try lia; auto.
  apply IHForall2. lia.
Qed.

Lemma Forall_nth_error : forall (A : Type) (Q : A -> Prop) l i x,
  Forall Q l -> nth_error l i = Some x -> Q x.
Proof. intros A Q l i x H Hn. rewrite Forall_forall in H. exact (H x (nth_error_In l i Hn)). Qed.

Lemma map_map_id {A B} (f : A -> B) (g : B -> A) (P : A -> Prop) l :
  (forall x, P x -> g (f x) = x) -> Forall P l -> map g (map f l) = l.
Proof.
  intros Hgf H. induction H as [|x l Hx _ IH]; [reflexivity|].
  cbn [map]. now rewrite Hgf, IH.
Qed.

Lemma concat_length_uniform {A} n (ls : list (list A)) :
  Forall (fun l => length l = n) ls -> length (concat ls) = length ls * n.
Proof.
  induction 1 as [|l ls Hl _ IH]; cbn [length concat]; [reflexivity|].
  rewrite app_length, IH, Hl. reflexivity.
Qed.

(** the body of the decoders' [take] functions *)
Lemma leb_cut_app {A} n (a b : list A) : length a = n ->
  (if n <=? length (a ++ b) then Some (firstn n (a ++ b), skipn n (a ++ b)) else None) = Some (a, b).
Proof.
  intros <-. rewrite app_length, firstn_app_exact, skipn_app_exact.
  destruct (Nat.leb_spec (length a) (length a + length b)); [reflexivity|lia].
Qed.

Lemma leb_cut_some {A} n (b x y : list A) :
  (if n <=? length b then Some (firstn n b, skipn n b) else None) = Some (x, y) ->
  n <= length b /\ x = firstn n b /\ y = skipn n b.
Proof.
  destruct (Nat.leb_spec n (length b)); [|discriminate]. intros Hx. inversion Hx. auto.
Qed.

Lemma firstn_min_length {A} n (l : list A) : firstn (Nat.min (length l) n) l = firstn n l.
Proof.
  destruct (Nat.le_ge_cases n (length l)) as [H|H].
  - now rewrite Nat.min_r.
  - now rewrite Nat.min_l, firstn_all, firstn_all2.
Qed.

Lemma firstn_repeat {A} (x : A) n m : firstn n (repeat x m) = repeat x (Nat.min n m).
Proof.
  revert m. induction n as [|n IH]; intros m; [reflexivity|].
  destruct m as [|m]; [reflexivity|]. cbn [repeat firstn Nat.min]. now rewrite IH.
Qed.
