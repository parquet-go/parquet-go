(** Insertion sort, about any [ins] that satisfies the two equations of
    insertion: the models' own insertion functions are instances. *)
From Coq Require Import List Sorted Permutation.
Import ListNotations.

Section Insertion.
  Context {A : Type} (leb : A -> A -> bool) (ins : A -> list A -> list A).
  Hypothesis ins_nil : forall x, ins x [] = [x].
  Hypothesis ins_cons : forall x y t,
    ins x (y :: t) = if leb x y then x :: y :: t else y :: ins x t.

  Lemma ins_perm x l : Permutation (x :: l) (ins x l).
  Proof.
    induction l as [|y t IH]; [now rewrite ins_nil|].
    rewrite ins_cons. destruct (leb x y); [reflexivity|].
    rewrite perm_swap. now constructor.
  Qed.

  Lemma ins_length x l : length (ins x l) = S (length l).
  Proof. symmetry. exact (Permutation_length (ins_perm x l)). Qed.

  Lemma isort_perm l : Permutation l (fold_right ins [] l).
  Proof.
    induction l as [|x l IH]; cbn [fold_right]; [reflexivity|].
    rewrite <- ins_perm. now constructor.
  Qed.

  Lemma isort_length l : length (fold_right ins [] l) = length l.
  Proof. symmetry. exact (Permutation_length (isort_perm l)). Qed.

  Variable R : A -> A -> Prop.
  Hypothesis leb_R : forall x y, leb x y = true -> R x y.
  Hypothesis nleb_R : forall x y, leb x y = false -> R y x.
  Hypothesis R_trans : forall x y z, R x y -> R y z -> R x z.

  Lemma ins_sorted x l : StronglySorted R l -> StronglySorted R (ins x l).
  Proof.
    induction 1 as [|y t Hs IH Hf]; [rewrite ins_nil; repeat constructor|].
    rewrite ins_cons. destruct (leb x y) eqn:E.
    - constructor; [now constructor|]. constructor; [now apply leb_R|].
      eapply Forall_impl; [|exact Hf]. intros z. apply R_trans. now apply leb_R.
    - constructor; [exact IH|].
      apply (Permutation_Forall (ins_perm x t)). constructor; [now apply nleb_R|exact Hf].
  Qed.

  Lemma isort_sorted l : StronglySorted R (fold_right ins [] l).
  Proof. induction l as [|x l IH]; cbn [fold_right]; [constructor|now apply ins_sorted]. Qed.
End Insertion.
