(** Bit packing, LSB first (the parquet "RLE/bit-packed hybrid" order, also
    used by the DELTA mini-blocks): value [i] of width [w] occupies bits
    [i*w .. i*w+w-1] of the little-endian bit stream.  Packing is phrased
    arithmetically: [pack w vs = sum v_i * 2^(i*w)]. *)
From Coq Require Import List NArith ZArith Lia Bool Arith.
From Coq Require Import ZifyN ZifyNat ZifyBool.
From PQ Require Import Base.Bytes.
Import ListNotations.
Open Scope N_scope.

Fixpoint pack (w : N) (vs : list N) : N :=
  match vs with
  | [] => 0
  | v :: r => v + 2 ^ w * pack w r
  end.

Fixpoint unpack (w : N) (n : nat) (x : N) : list N :=
  match n with
  | O => []
  | S m => (x mod 2 ^ w) :: unpack w m (x / 2 ^ w)
  end.

(** bytes of [n] values of width [w] when [n*w] is a multiple of 8 *)
Definition pack_bytes (w : N) (vs : list N) : bytes :=
  to_le (N.to_nat (w * N.of_nat (length vs) / 8)) (pack w vs).

Definition unpack_bytes (w : N) (n : nat) (b : bytes) : list N :=
  unpack w n (of_le b).

Definition fits (w : N) (vs : list N) : Prop := Forall (fun v => v < 2 ^ w) vs.

Lemma pow2_pos w : 0 < 2 ^ w.
Proof. apply N.neq_0_lt_0, N.pow_nonzero. discriminate. Qed.

Lemma unpack_length w n : forall x, length (unpack w n x) = n.
Proof. induction n as [|n IH]; intros x; cbn [unpack length]; [reflexivity|]. now rewrite IH. Qed.

Lemma unpack_zero w n : unpack w n 0 = repeat 0 n.
Proof.
  induction n as [|n IH]; [reflexivity|]. cbn [unpack repeat].
  now rewrite N.mod_0_l, N.div_0_l, IH by (apply N.pow_nonzero; discriminate).
Qed.

Lemma unpack_pack_short w (vs : list N) n :
  fits w vs -> (length vs <= n)%nat ->
  unpack w n (pack w vs) = vs ++ repeat 0 (n - length vs).
Proof.
  revert n. induction vs as [|v r IH]; intros n Hf Hn.
  - cbn [pack length app]. rewrite Nat.sub_0_r. apply unpack_zero.
  - inversion Hf as [|? ? Hv Hr]; subst. destruct n as [|n]; [cbn in Hn; lia|].
    cbn [pack unpack length app]. destruct (digit_split (2 ^ w) v (pack w r) Hv) as [-> ->].
    now rewrite IH by (auto; cbn in Hn; lia).
Qed.

Lemma unpack_pack w vs : fits w vs -> unpack w (length vs) (pack w vs) = vs.
Proof.
  intros H. rewrite unpack_pack_short, Nat.sub_diag by (exact H || apply le_n). apply app_nil_r.
Qed.

Lemma pack_bound w vs : fits w vs -> pack w vs < 2 ^ (w * N.of_nat (length vs)).
Proof.
  induction 1 as [|v r Hv Hr IH]; cbn [pack length].
  - rewrite N.mul_0_r. cbn. lia.
  - rewrite Nat2N.inj_succ, N.mul_succ_r, N.pow_add_r.
    pose proof (pow2_pos w). nia.
Qed.

Lemma unpack_fits w n : forall x, fits w (unpack w n x).
Proof.
  induction n as [|n IH]; intros x; cbn [unpack]; constructor.
  - apply N.mod_lt. pose proof (pow2_pos w). lia.
  - apply IH.
Qed.

Lemma pack_unpack w n : forall x, x < 2 ^ (w * N.of_nat n) -> pack w (unpack w n x) = x.
Proof.
  induction n as [|n IH]; intros x Hx; cbn [unpack pack].
  - rewrite N.mul_0_r in Hx. cbn in Hx. lia.
  - pose proof (pow2_pos w) as Hp.
    rewrite IH.
    + pose proof (N.div_mod x (2 ^ w) ltac:(lia)). lia.
    + rewrite Nat2N.inj_succ, N.mul_succ_r, N.pow_add_r in Hx.
      apply N.div_lt_upper_bound; [lia|]. rewrite N.mul_comm. exact Hx.
Qed.

Lemma unpack_bytes_pack_bytes w vs :
  fits w vs -> (w * N.of_nat (length vs)) mod 8 = 0 ->
  unpack_bytes w (length vs) (pack_bytes w vs) = vs.
Proof.
  intros Hf Hm. unfold unpack_bytes, pack_bytes.
  rewrite of_le_to_le.
  - now apply unpack_pack.
  - eapply N.lt_le_trans; [apply pack_bound; exact Hf|].
    rewrite N2Nat.id.
    rewrite pow256.
    apply N.pow_le_mono_r; [discriminate|].
    pose proof (N.div_mod (w * N.of_nat (length vs)) 8 ltac:(discriminate)). lia.
Qed.

Lemma pack_bytes_length w vs :
  length (pack_bytes w vs) = N.to_nat (w * N.of_nat (length vs) / 8).
Proof. unfold pack_bytes. apply to_le_length. Qed.

Lemma pack_app w a b : pack w (a ++ b) = pack w a + 2 ^ (w * N.of_nat (length a)) * pack w b.
Proof.
  induction a as [|x a IH]; cbn [app pack length].
  - change (N.of_nat 0) with 0. rewrite N.mul_0_r, N.pow_0_r. lia.
  - rewrite IH, Nat2N.inj_succ, N.mul_succ_r, N.pow_add_r. lia.
Qed.

(** number of significant bits (math/bits.Len) *)
Definition bitlen (x : N) : N := match x with 0 => 0 | _ => N.log2 x + 1 end.

Lemma bitlen_bound x : x < 2 ^ bitlen x.
Proof.
  unfold bitlen. destruct x as [|p]; [cbn; lia|].
  rewrite N.add_1_r. apply N.log2_spec. lia.
Qed.

Lemma bitlen_le_lt x w : bitlen x <= w -> x < 2 ^ w.
Proof.
  intros H. eapply N.lt_le_trans; [apply bitlen_bound|].
  apply N.pow_le_mono_r; [discriminate|exact H].
Qed.

Lemma bitlen_mono_bound x k : x < 2 ^ k -> bitlen x <= k.
Proof.
  intros H. unfold bitlen. destruct x as [|p]; [lia|].
  assert (N.log2 (N.pos p) < k) by (apply N.log2_lt_pow2; lia). lia.
Qed.

Lemma fold_max_init l : forall a, a <= fold_left N.max l a.
Proof. induction l as [|y l IH]; intros a; cbn [fold_left]; [lia|]. etransitivity; [|apply IH]. lia. Qed.

Lemma fold_max_ge l : forall a x, In x l -> x <= fold_left N.max l a.
Proof.
  induction l as [|y l IH]; intros a x Hin; [destruct Hin|].
  cbn [fold_left]. destruct Hin as [->|Hin].
  - etransitivity; [|apply fold_max_init]. lia.
  - apply IH. exact Hin.
Qed.

Lemma fold_max_le (l : list N) (bnd : N) :
  Forall (fun x => x <= bnd) l -> forall a, a <= bnd -> fold_left N.max l a <= bnd.
Proof. induction 1 as [|x l Hx Hl IH]; intros a Ha; cbn [fold_left]; [exact Ha|]. apply IH. lia. Qed.

Lemma fits_max_bitlen g : fits (fold_left N.max (map bitlen g) 0) g.
Proof.
  apply Forall_forall. intros v Hv. apply bitlen_le_lt, fold_max_ge. now apply in_map.
Qed.

Lemma max_bitlen_le k g : fits k g -> fold_left N.max (map bitlen g) 0 <= k.
Proof.
  intros H. apply fold_max_le; [|lia]. apply Forall_forall. intros x Hx.
  apply in_map_iff in Hx. destruct Hx as (v & <- & Hv).
  apply bitlen_mono_bound. unfold fits in H. rewrite Forall_forall in H. now apply H.
Qed.
