(** Three-way comparisons [c : A -> A -> Z] whose sign is the order, as Go's
    Compare functions: what follows from [c a b < 0 <-> c b a > 0] and the
    transitivity of [c . . <= 0], over variables. *)
From Coq Require Import ZArith Bool Arith Lia.
Local Open Scope Z_scope.

Definition lexz (x r : Z) : Z := if x =? 0 then r else x.

Lemma lexz_0_r x : lexz x 0 = x.
Proof. unfold lexz. destruct (Z.eqb_spec x 0); congruence. Qed.

Lemma lexz_ltb x y r : (y < 0 <-> x > 0) ->
  (if x <? 0 then true else if y <? 0 then false else r <? 0) = (lexz x r <? 0).
Proof.
  intros Hy. unfold lexz.
  destruct (Z.eqb_spec x 0), (Z.ltb_spec x 0), (Z.ltb_spec y 0); try reflexivity; lia.
Qed.

Section Comparison.
  Variable A : Type.
  Variable c : A -> A -> Z.
  Hypothesis c_opp : forall a b, c a b < 0 <-> c b a > 0.

  Lemma cmp_refl a : c a a = 0.
  Proof. pose proof (c_opp a a). lia. Qed.

  Lemma cmp_refl_le a : c a a <= 0.
  Proof. rewrite cmp_refl. reflexivity. Qed.

  Lemma cmp_eq_sym a b : c a b = 0 -> c b a = 0.
  Proof. pose proof (c_opp a b). pose proof (c_opp b a). lia. Qed.

  Lemma cmp_nlt_le a b : ~ c a b < 0 -> c b a <= 0.
  Proof. pose proof (c_opp a b). lia. Qed.

  Lemma cmp_ltb_flip a b : (c b a <? 0) = (- c a b <? 0).
  Proof.
    pose proof (c_opp a b). pose proof (c_opp b a).
    destruct (Z.ltb_spec (c b a) 0), (Z.ltb_spec (- c a b) 0); lia.
  Qed.

  Lemma cmp_gtb_ltb a b : (c a b >? 0) = (c b a <? 0).
  Proof.
    pose proof (c_opp b a). destruct (Z.gtb_spec (c a b) 0), (Z.ltb_spec (c b a) 0); try reflexivity; lia.
  Qed.

  Lemma lexz_opp a b r r' :
    (r < 0 <-> r' > 0) -> (lexz (c a b) r < 0 <-> lexz (c b a) r' > 0).
  Proof.
    intros H. unfold lexz. pose proof (c_opp a b). pose proof (c_opp b a).
    destruct (Z.eqb_spec (c a b) 0), (Z.eqb_spec (c b a) 0); lia.
  Qed.

  Variable P : A -> Prop.
  Hypothesis c_trans : forall a b d, P a -> P b -> P d -> c a b <= 0 -> c b d <= 0 -> c a d <= 0.

  Lemma cmp_lt_le_trans a b d : P a -> P b -> P d -> c a b < 0 -> c b d <= 0 -> c a d < 0.
  Proof.
    intros Pa Pb Pd H1 H2. destruct (Z.lt_ge_cases (c a d) 0) as [H|H]; [exact H|].
    pose proof (c_trans b d a Pb Pd Pa H2 (cmp_nlt_le a d ltac:(lia))). apply c_opp in H1. lia.
  Qed.

  Lemma cmp_le_lt_trans a b d : P a -> P b -> P d -> c a b <= 0 -> c b d < 0 -> c a d < 0.
  Proof.
    intros Pa Pb Pd H1 H2. destruct (Z.lt_ge_cases (c a d) 0) as [H|H]; [exact H|].
    pose proof (c_trans d a b Pd Pa Pb (cmp_nlt_le a d ltac:(lia)) H1). apply c_opp in H2. lia.
  Qed.

  Lemma cmp_eq_trans a b d : P a -> P b -> P d -> c a b = 0 -> c b d = 0 -> c a d = 0.
  Proof.
    intros Pa Pb Pd H1 H2.
    pose proof (c_trans a b d Pa Pb Pd). pose proof (c_trans d b a Pd Pb Pa).
    pose proof (cmp_eq_sym _ _ H1). pose proof (cmp_eq_sym _ _ H2). pose proof (c_opp a d). lia.
  Qed.

  Lemma lexz_trans a b d r1 r2 r3 : P a -> P b -> P d -> (r1 <= 0 -> r2 <= 0 -> r3 <= 0) ->
    lexz (c a b) r1 <= 0 -> lexz (c b d) r2 <= 0 -> lexz (c a d) r3 <= 0.
  Proof.
    intros Pa Pb Pd Hr. unfold lexz.
    destruct (Z.eqb_spec (c a b) 0) as [E1|E1], (Z.eqb_spec (c b d) 0) as [E2|E2]; intros H1 H2.
    - rewrite (cmp_eq_trans a b d Pa Pb Pd E1 E2). apply Hr; assumption.
    - pose proof (cmp_le_lt_trans a b d Pa Pb Pd ltac:(lia) ltac:(lia)).
      destruct (Z.eqb_spec (c a d) 0); lia.
    - pose proof (cmp_lt_le_trans a b d Pa Pb Pd ltac:(lia) ltac:(lia)).
      destruct (Z.eqb_spec (c a d) 0); lia.
    - pose proof (cmp_lt_le_trans a b d Pa Pb Pd ltac:(lia) ltac:(lia)).
      destruct (Z.eqb_spec (c a d) 0); lia.
  Qed.

  Variable less : nat -> nat -> bool.
  Variable r : nat -> A.
  Variable n : nat.
  Hypothesis less_c : forall i j, (i < n)%nat -> (j < n)%nat -> less i j = (c (r i) (r j) <? 0).
  Hypothesis r_P : forall i, (i < n)%nat -> P (r i).

  (* what sort.Sort needs of Less on the positions below [n] *)
  Definition swo_n : Prop :=
    (forall i, (i < n)%nat -> less i i = false) /\
    (forall i j k, (i < n)%nat -> (j < n)%nat -> (k < n)%nat ->
       less i j = true -> less j k = true -> less i k = true) /\
    (forall i j k, (i < n)%nat -> (j < n)%nat -> (k < n)%nat ->
       less i j = false -> less j i = false ->
       less j k = false -> less k j = false ->
       less i k = false /\ less k i = false).

  Lemma swo_of_cmp : swo_n.
  Proof.
    assert (Hle : forall i j, (i < n)%nat -> (j < n)%nat -> (less i j = false <-> c (r j) (r i) <= 0)).
    { intros i j Hi Hj. rewrite less_c, Z.ltb_ge by assumption.
      pose proof (c_opp (r i) (r j)). pose proof (c_opp (r j) (r i)). lia. }
    assert (Hlt : forall i j, (i < n)%nat -> (j < n)%nat -> (less i j = true <-> c (r i) (r j) < 0)).
    { intros i j Hi Hj. rewrite less_c by assumption. apply Z.ltb_lt. }
    split; [|split].
    - intros i Hi. apply Hle; [assumption..|]. rewrite cmp_refl. lia.
    - intros i j k Hi Hj Hk. rewrite !Hlt by assumption. intros H1 H2.
      apply (cmp_lt_le_trans _ (r j)); auto. lia.
    - intros i j k Hi Hj Hk. rewrite !Hle by assumption. intros H1 H2 H3 H4.
      split; [apply (c_trans _ (r j))|apply (c_trans _ (r j))]; auto.
  Qed.

  Lemma ordered_of_adjacent :
    (forall i, (S i < n)%nat -> less (S i) i = false) ->
    forall i j, (i <= j)%nat -> (j < n)%nat -> c (r i) (r j) <= 0.
  Proof.
    intros Hs i j Hij. induction Hij as [|j Hij IH]; intros Hj.
    - rewrite cmp_refl. lia.
    - apply (c_trans _ (r j)); try (apply r_P; lia); [apply IH; lia|].
      apply cmp_nlt_le. apply Z.nlt_ge, Z.ltb_ge. rewrite <- less_c by lia. apply Hs. exact Hj.
  Qed.
End Comparison.

Section Reverse.
  Variable A : Type.
  Variable c : A -> A -> Z.
  Variable P : A -> Prop.
  Hypothesis c_opp : forall a b, c a b < 0 <-> c b a > 0.
  Hypothesis c_trans : forall a b d, P a -> P b -> P d -> c a b <= 0 -> c b d <= 0 -> c a d <= 0.

  Lemma neg_opp a b : - c a b < 0 <-> - c b a > 0.
  Proof. pose proof (c_opp a b). pose proof (c_opp b a). lia. Qed.

  Lemma neg_trans a b d : P a -> P b -> P d -> - c a b <= 0 -> - c b d <= 0 -> - c a d <= 0.
  Proof.
    intros Pa Pb Pd H1 H2.
    pose proof (c_trans d b a Pd Pb Pa (cmp_nlt_le A c c_opp b d ltac:(lia))
                        (cmp_nlt_le A c c_opp a b ltac:(lia))).
    pose proof (c_opp a d). lia.
  Qed.
End Reverse.
