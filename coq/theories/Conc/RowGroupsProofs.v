(** Proofs about P4: writes to distinct row groups commute, and for every
    interleaving the committed file is the serial one. *)
From Coq Require Import List Arith Bool Lia.
From PQ Require Import Conc.Sem Conc.SemProofs Conc.RowGroups.
Import ListNotations.

Section Proofs.
  Variables Row B : Type.
  Variable enc : nat -> list Row -> list B.

  Notation rgstate := (rgstate Row B).
  Notation gstep := (gstep enc).
  Notation commit_all := (commit_all enc).

  Theorem writers_commute : forall (c c1 c12 : rgstate) t1 t2,
    t1 <> t2 ->
    gstep c (LW t1) = Some c1 -> gstep c1 (LW t2) = Some c12 ->
    exists c2, gstep c (LW t2) = Some c2 /\ gstep c2 (LW t1) = Some c12.
  Proof.
    intros [rg wp td fl] c1 c12 t1 t2 Hne H1 H2. simpl in *.
    destruct (nth_error wp t1) as [[|b1 rest1]|] eqn:E1; try discriminate.
    inversion H1; subst c1; clear H1. simpl in H2.
    rewrite nth_error_set_nth_neq in H2 by auto.
    destruct (nth_error wp t2) as [[|b2 rest2]|] eqn:E2; try discriminate.
    inversion H2; subst c12; clear H2.
    eexists; split; [reflexivity|]. simpl.
    rewrite nth_error_set_nth_neq by auto. rewrite E1.
    rewrite !nth_set_nth_neq by auto.
    f_equal. f_equal; apply set_nth_comm; auto.
  Qed.

  Theorem writer_touches_own : forall (c c' : rgstate) t g,
    gstep c (LW t) = Some c' -> g <> t ->
    nth g (rgs c') [] = nth g (rgs c) [] /\ nth g (wprogs c') [] = nth g (wprogs c) [].
  Proof.
    intros [rg wp td fl] c' t g H Hne. simpl in *.
    destruct (nth_error wp t) as [[|b rest]|]; try discriminate.
    inversion H; subst c'; simpl. split; apply nth_set_nth_neq; auto.
  Qed.

  Variable batches : list (list (list Row)).
  Variable order : list nat.
  Hypothesis order_nodup : NoDup order.
  Hypothesis order_range : forall g, In g order -> g < length batches.

  Definition GInv (c : rgstate) : Prop :=
    exists committed,
      committed ++ todo c = order /\
      file c = commit_all batches committed [] /\
      length (rgs c) = length batches /\ length (wprogs c) = length batches /\
      (committed <> [] -> forallb is_nil (wprogs c) = true) /\
      forall t, t < length batches -> ~ In t committed ->
        nth t (rgs c) [] ++ concat (nth t (wprogs c) []) = concat (nth t batches []).

  Lemma all_nil_nth : forall (wp : list (list (list Row))) t,
    forallb is_nil wp = true -> nth t wp [] = [].
  Proof.
    induction wp as [|x r IH]; intros [|t] H; simpl in *; auto.
    - apply andb_true_iff in H. destruct H as [H _]. destruct x; [reflexivity|discriminate].
    - apply andb_true_iff in H. destruct H as [_ H]. apply IH; auto.
  Qed.

  Lemma ginit_inv : GInv (ginit batches order).
  Proof.
    exists []. simpl. repeat apply conj; auto.
    - apply repeat_length.
    - intros t Ht _. rewrite nth_repeat. reflexivity.
  Qed.

  Lemma commit_all_snoc : forall l g f0,
    commit_all batches (l ++ [g]) f0 =
    commit_all batches l f0 ++ enc (length (commit_all batches l f0)) (concat (nth g batches [])).
  Proof. intros l g f0. unfold RowGroups.commit_all. rewrite fold_left_app. reflexivity. Qed.

  Lemma write_inv : forall c t c', GInv c -> gstep c (LW t) = Some c' -> GInv c'.
  Proof.
    intros [rg wp td fl] t c' [committed [Ho [Hf [Hlr [Hlw [Hnil Hrows]]]]]] Hstep; simpl in *.
    destruct (nth_error wp t) as [[|b rest]|] eqn:E; try discriminate.
    inversion Hstep; subst c'; clear Hstep.
    assert (Ht : t < length wp) by (apply nth_error_Some; congruence).
    assert (Hc : committed = []).
    { destruct committed as [|g0 r0]; [reflexivity|].
      assert (Hn : forallb is_nil wp = true) by (apply Hnil; discriminate).
      pose proof (all_nil_nth wp t Hn) as Hz. rewrite (nth_error_nth wp t [] E) in Hz. discriminate. }
    subst committed. exists []. simpl. repeat apply conj; auto.
    - rewrite set_nth_length; auto.
    - rewrite set_nth_length; auto.
    - intros t' Ht' _. destruct (Nat.eq_dec t t') as [<-|Hne].
      + rewrite !nth_set_nth_eq by lia. specialize (Hrows t Ht' (fun x => x)).
        rewrite (nth_error_nth wp t [] E) in Hrows. simpl in Hrows.
        rewrite <- app_assoc. exact Hrows.
      + rewrite !nth_set_nth_neq by auto. apply Hrows; auto.
  Qed.

  Lemma commit_inv : forall c c', GInv c -> gstep c LCommit = Some c' -> GInv c'.
  Proof.
    intros [rg wp td fl] c' [committed [Ho [Hf [Hlr [Hlw [Hnil Hrows]]]]]] Hstep; simpl in *.
    destruct (forallb is_nil wp) eqn:Enil; [|discriminate].
    destruct td as [|g r]; [discriminate|].
    inversion Hstep; subst c'; clear Hstep.
    assert (Hin : In g order) by (rewrite <- Ho; apply in_or_app; right; left; reflexivity).
    assert (Hnc : ~ In g committed).
    { intros Hc. rewrite <- Ho in order_nodup. apply NoDup_remove_2 in order_nodup.
      apply order_nodup. apply in_or_app; left; exact Hc. }
    exists (committed ++ [g]). simpl. repeat apply conj; auto.
    - rewrite <- app_assoc. exact Ho.
    - rewrite commit_all_snoc, <- Hf. f_equal. f_equal.
      specialize (Hrows g (order_range g Hin) Hnc). rewrite all_nil_nth in Hrows by auto.
      simpl in Hrows. rewrite app_nil_r in Hrows. exact Hrows.
    - rewrite set_nth_length; auto.
    - intros t Ht Hnt. assert (Hne : g <> t).
      { intros ->. apply Hnt. apply in_or_app; right; left; reflexivity. }
      rewrite nth_set_nth_neq by auto. apply Hrows; auto.
      intros Hc; apply Hnt; apply in_or_app; left; exact Hc.
  Qed.

  Theorem gstep_inv : forall c l c', GInv c -> gstep c l = Some c' -> GInv c'.
  Proof. intros c [t|] c'; [apply write_inv|apply commit_inv]. Qed.

  Lemma reach_ginv : always gstep (ginit batches order) GInv.
  Proof. exact (invariant_always _ _ gstep GInv _ ginit_inv gstep_inv). Qed.

  (** P4, all interleavings: once every row group has been committed the file
      is the serial one; it depends on the batches and the commit order only,
      not on how the writers were interleaved. *)
  Theorem rowgroups_commute : forall sched c,
    run gstep (ginit batches order) sched = Some c -> todo c = [] ->
    file c = commit_all batches order [].
  Proof.
    intros sched c Hrun Htodo.
    destruct (reach_ginv _ _ Hrun) as [committed [Ho [Hf _]]]. rewrite Htodo, app_nil_r in Ho. subst committed. exact Hf.
  Qed.

  (** before the join each row group holds exactly the rows its own writer
      has written so far, whatever the others did *)
  Theorem rowgroups_state_per_writer : forall sched c t,
    run gstep (ginit batches order) sched = Some c -> todo c = order -> t < length batches ->
    nth t (rgs c) [] ++ concat (nth t (wprogs c) []) = concat (nth t batches []).
  Proof.
    intros sched c t Hrun Htodo Ht.
    destruct (reach_ginv _ _ Hrun) as [committed [Ho [_ [_ [_ [_ Hrows]]]]]].
    assert (committed = []).
    { rewrite Htodo in Ho. destruct committed; [reflexivity|].
      apply (f_equal (@length nat)) in Ho. rewrite app_length in Ho. simpl in Ho. lia. }
    subst. apply Hrows; auto.
  Qed.
End Proofs.
