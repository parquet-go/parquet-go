(** Runs of a transition system: the invariant rule; [set_nth] and sums over
    the thread list; the invariant rule for thread systems. *)
From Coq Require Import List Arith Lia.
From PQ Require Import Conc.Sem.
Import ListNotations.

Section LTS.
  Variables C L : Type.
  Variable step : C -> L -> option C.

  Lemma run_app : forall l1 l2 c,
    run step c (l1 ++ l2) =
    match run step c l1 with Some c' => run step c' l2 | None => None end.
  Proof.
    induction l1 as [|l r IH]; intros l2 c; simpl; [reflexivity|].
    destruct (step c l); [apply IH|reflexivity].
  Qed.

  Lemma run_snoc : forall ls l c c',
    run step c (ls ++ [l]) = Some c' <->
    exists c1, run step c ls = Some c1 /\ step c1 l = Some c'.
  Proof.
    intros ls l c c'. rewrite run_app. split.
    - destruct (run step c ls) as [c1|]; [|discriminate]. simpl.
      destruct (step c1 l) eqn:E; [|discriminate]. intros H; inversion H; subst.
      exists c1; auto.
    - intros [c1 [H1 H2]]. rewrite H1. simpl. rewrite H2. reflexivity.
  Qed.

  Theorem invariant_run : forall (I : C -> Prop),
    (forall c l c', I c -> step c l = Some c' -> I c') ->
    forall ls c c', I c -> run step c ls = Some c' -> I c'.
  Proof.
    intros I Hstep. induction ls as [|l r IH]; intros c c' Hc Hr; simpl in Hr.
    - inversion Hr; subst; exact Hc.
    - destruct (step c l) as [c1|] eqn:E; [|discriminate].
      eapply IH; [|exact Hr]. eapply Hstep; eauto.
  Qed.

  Corollary invariant_always : forall (I : C -> Prop) c0,
    I c0 -> (forall c l c', I c -> step c l = Some c' -> I c') -> always step c0 I.
  Proof. intros I c0 H0 Hs ls c Hr. eapply invariant_run; eauto. Qed.

  Lemma always_weaken : forall c0 (P Q : C -> Prop),
    (forall c, P c -> Q c) -> always step c0 P -> always step c0 Q.
  Proof. intros c0 P Q HPQ HP ls c Hr. apply HPQ. eapply HP; eauto. Qed.

  Lemma reachable_refl : forall c, reachable step c c.
  Proof. intros c; exists []; reflexivity. Qed.

  Lemma reachable_step : forall c0 c l c',
    reachable step c0 c -> step c l = Some c' -> reachable step c0 c'.
  Proof.
    intros c0 c l c' [ls H] Hs. exists (ls ++ [l]). apply run_snoc. eauto.
  Qed.

  Theorem invariant_steps : forall (I : C -> Prop) (Q : C -> L -> C -> Prop),
    (forall c l c', I c -> step c l = Some c' -> I c' /\ Q c l c') ->
    forall ls1 c0 c l c', I c0 -> run step c0 ls1 = Some c -> step c l = Some c' -> Q c l c'.
  Proof.
    intros I Q H ls1 c0 c l c' H0 Hr Hs.
    assert (Ic : I c).
    { eapply invariant_run; [|exact H0|exact Hr]. intros a b d Ia Hd. apply (H a b d Ia Hd). }
    apply (H c l c' Ic Hs).
  Qed.
End LTS.

Lemma set_nth_length : forall {A} n (x : A) l, length (set_nth n x l) = length l.
Proof.
  intros A n x l; revert n; induction l as [|y r IH]; intros [|n]; simpl; auto.
Qed.

Lemma nth_error_set_nth_eq : forall {A} n (x : A) l,
  n < length l -> nth_error (set_nth n x l) n = Some x.
Proof.
  intros A n x l; revert n; induction l as [|y r IH]; intros [|n] H; simpl in *; try lia; auto.
  apply IH; lia.
Qed.

Lemma nth_error_set_nth_neq : forall {A} n m (x : A) l,
  n <> m -> nth_error (set_nth n x l) m = nth_error l m.
Proof.
  intros A n m x l; revert n m; induction l as [|y r IH]; intros [|n] [|m] H; simpl; auto; try congruence.
Qed.

Lemma nth_error_set_nth : forall {A} n m (x : A) l,
  nth_error (set_nth n x l) m =
  if Nat.eqb n m then (if Nat.ltb n (length l) then Some x else None) else nth_error l m.
Proof.
  intros A n m x l. destruct (Nat.eqb_spec n m) as [->|Hne].
  - destruct (Nat.ltb_spec m (length l)) as [Hlt|Hge].
    + apply nth_error_set_nth_eq; auto.
    + apply nth_error_None. rewrite set_nth_length. lia.
  - apply nth_error_set_nth_neq; auto.
Qed.

Lemma set_nth_all : forall {A} (Q : nat -> A -> Prop) t x l,
  Q t x -> (forall t' y, t' <> t -> nth_error l t' = Some y -> Q t' y) ->
  forall t' y, nth_error (set_nth t x l) t' = Some y -> Q t' y.
Proof.
  intros A Q t x l Hx Hl t' y H. rewrite nth_error_set_nth in H.
  destruct (Nat.eqb_spec t t') as [<-|Hne].
  - destruct (Nat.ltb t (length l)); [inversion H; subst; exact Hx|discriminate].
  - apply Hl; auto.
Qed.

Lemma nth_set_nth_eq : forall {A} t (x d : A) l, t < length l -> nth t (set_nth t x l) d = x.
Proof.
  intros A t x d l; revert t; induction l as [|y r IH]; intros [|t] H; simpl in *; try lia; auto.
  apply IH; lia.
Qed.

Lemma nth_set_nth_neq : forall {A} t m (x d : A) l, t <> m -> nth m (set_nth t x l) d = nth m l d.
Proof.
  intros A t m x d l; revert t m; induction l as [|y r IH]; intros [|t] [|m] H; simpl; auto; try congruence.
Qed.

Lemma set_nth_same : forall {A} n (x : A) l, nth_error l n = Some x -> set_nth n x l = l.
Proof.
  intros A n x l; revert n; induction l as [|y r IH]; intros [|n] H; simpl in *; try discriminate; auto.
  - inversion H; reflexivity.
  - f_equal; auto.
Qed.

Lemma set_nth_comm : forall {A} n m (x y : A) l,
  n <> m -> set_nth n x (set_nth m y l) = set_nth m y (set_nth n x l).
Proof.
  intros A n m x y l; revert n m; induction l as [|z r IH]; intros [|n] [|m] H; simpl; auto; try congruence.
  f_equal; apply IH; congruence.
Qed.

Fixpoint sum_map {A} (f : A -> nat) (l : list A) : nat :=
  match l with [] => 0 | x :: r => f x + sum_map f r end.

Lemma sum_map_set_nth : forall {A} (f : A -> nat) n x y l,
  nth_error l n = Some y -> sum_map f (set_nth n x l) + f y = sum_map f l + f x.
Proof.
  intros A f n x y l; revert n; induction l as [|z r IH]; intros [|n] H; simpl in *; try discriminate.
  - inversion H; subst; lia.
  - specialize (IH n H). lia.
Qed.

Lemma sum_map_zero : forall {A} (f : A -> nat) l,
  sum_map f l = 0 <-> forall x, In x l -> f x = 0.
Proof.
  intros A f l; induction l as [|z r IH]; simpl; split; intros H.
  - intros x [].
  - reflexivity.
  - intros x [<-|Hin]; [lia|]. apply IH; [lia|auto].
  - assert (f z = 0) by (apply H; auto). assert (sum_map f r = 0) by (apply IH; intros; apply H; auto). lia.
Qed.

Lemma sum_map_ge : forall {A} (f : A -> nat) l n x,
  nth_error l n = Some x -> f x <= sum_map f l.
Proof.
  intros A f l; induction l as [|z r IH]; intros [|n] x H; simpl in *; try discriminate.
  - inversion H; subst; lia.
  - specialize (IH n x H). lia.
Qed.

Lemma sum_map_ge2 : forall {A} (f : A -> nat) l n m x y,
  n <> m -> nth_error l n = Some x -> nth_error l m = Some y -> f x + f y <= sum_map f l.
Proof.
  intros A f l; induction l as [|z r IH]; intros [|n] [|m] x y Hne Hx Hy; simpl in *;
    try discriminate; try congruence.
  - inversion Hx; subst. pose proof (sum_map_ge f r m y Hy). lia.
  - inversion Hy; subst. pose proof (sum_map_ge f r n x Hx). lia.
  - assert (n <> m) by congruence. specialize (IH n m x y H Hx Hy). lia.
Qed.

Section Threads.
  Variables Sh Loc Act : Type.
  Variable exec : Sh -> Loc -> Act -> option (Sh * Loc).

  Lemma tstep_some : forall c t c', tstep exec c t = Some c' ->
    exists l a rest s' l',
      nth_error (snd c) t = Some (l, a :: rest) /\ exec (fst c) l a = Some (s', l') /\
      c' = (s', set_nth t (l', rest) (snd c)).
  Proof.
    intros c t c' H. unfold tstep in H.
    destruct (nth_error (snd c) t) as [[l [|a rest]]|]; try discriminate.
    destruct (exec (fst c) l a) as [[s' l']|] eqn:He; [|discriminate].
    inversion H. exists l, a, rest, s', l'. auto.
  Qed.

  (* [G]: the shared state; [T]: one thread, given the shared state and its index *)
  Theorem threads_invariant : forall (G : Sh -> Prop) (T : Sh -> nat -> thread Loc Act -> Prop),
    (forall s t l a rest s' l', G s -> T s t (l, a :: rest) -> exec s l a = Some (s', l') ->
       G s' /\ T s' t (l', rest) /\ forall t' th, t' <> t -> T s t' th -> T s' t' th) ->
    forall c t c',
      G (fst c) -> (forall t th, nth_error (snd c) t = Some th -> T (fst c) t th) ->
      tstep exec c t = Some c' ->
      G (fst c') /\ forall t th, nth_error (snd c') t = Some th -> T (fst c') t th.
  Proof.
    intros G T Hex c t c' HG HT Hs.
    destruct (tstep_some _ _ _ Hs) as (l & a & rest & s' & l' & Hn & He & ->).
    destruct (Hex _ t _ _ _ _ _ HG (HT _ _ Hn) He) as (HG' & Ht & Ho).
    split; [exact HG'|]. simpl. apply set_nth_all; [exact Ht|].
    intros t' th Hne Hn'. apply Ho; auto.
  Qed.
End Threads.
