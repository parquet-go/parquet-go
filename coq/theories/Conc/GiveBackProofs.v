(** Proofs about Conc/GiveBack.v: with [forget = true], for every interleaving
    of any histories of Open / Read / Close calls (any number of Close calls
    per reader), a pooled thing has at most one owner: it is in the pool at
    most once, or held by exactly one reader and then not in the pool. *)
From Coq Require Import List Arith Bool Lia.
From PQ Require Import Conc.Sem Conc.SemProofs Conc.GiveBack.
Import ListNotations.

Notation kthread := (thread klocal kact).

Definition holds (i : nat) (th : kthread) : nat :=
  match krbuf (fst th) with
  | Some j => if Nat.eqb i j then 1 else 0
  | None => 0
  end.

Definition owners (i : nat) (c : kconfig) : nat :=
  count_occ Nat.eq_dec (kpool (fst c)) i + sum_map (holds i) (snd c).

Definition KInv (c : kconfig) : Prop :=
  (forall i, owners i c <= 1) /\ (forall i, knext (fst c) <= i -> owners i c = 0).

Lemma count_remove_nth : forall (l : list nat) k j i,
  nth_error l k = Some j ->
  count_occ Nat.eq_dec (remove_nth k l) i + (if Nat.eqb i j then 1 else 0) =
  count_occ Nat.eq_dec l i.
Proof.
  induction l as [|x r IH]; intros [|k] j i H; simpl in *; try discriminate.
  - inversion H; subst. destruct (Nat.eq_dec j i) as [->|Hne].
    + rewrite Nat.eqb_refl. lia.
    + destruct (Nat.eqb_spec i j); [congruence|lia].
  - specialize (IH k j i H). destruct (Nat.eq_dec x i); lia.
Qed.

Lemma kinit_inv : forall progs, KInv (kinit progs).
Proof.
  intros progs. unfold KInv, owners, kinit; simpl.
  assert (Z : forall i, sum_map (holds i) (map (fun p => (mkKL None false, p)) progs) = 0).
  { intros i. induction progs as [|p r IH]; simpl; auto. }
  split; intros i; [|intros _]; rewrite Z; lia.
Qed.

Lemma holds_eq : forall i (l : klocal) (p : list kact),
  holds i (l, p) = match krbuf l with Some j => if Nat.eqb i j then 1 else 0 | None => 0 end.
Proof. reflexivity. Qed.

Lemma kexec_owners : forall s l a s' l' (p p' : list kact),
  kexec true s l a = Some (s', l') ->
  exists fresh : bool,
    knext s' = (if fresh then S (knext s) else knext s) /\
    forall i, count_occ Nat.eq_dec (kpool s') i + holds i (l', p') <=
              count_occ Nat.eq_dec (kpool s) i + holds i (l, p) +
              (if fresh && Nat.eqb i (knext s) then 1 else 0).
Proof.
  intros s l a s' l' p p' He. destruct a as [k| |]; simpl in He.
  - destruct (kopened l).
    + inversion He; subst. exists false. split; [reflexivity|]. intros i. rewrite !holds_eq. lia.
    + destruct (nth_error (kpool s) k) as [j|] eqn:Ek; inversion He; subst; clear He.
      * exists false. split; [reflexivity|]. intros i. rewrite !holds_eq. simpl.
        pose proof (count_remove_nth (kpool s) k j i Ek). lia.
      * exists true. split; [reflexivity|]. intros i. rewrite !holds_eq. simpl.
        destruct (i =? knext s); lia.
  - inversion He; subst. exists false. split; [reflexivity|]. intros i. rewrite !holds_eq. lia.
  - inversion He; subst; clear He. exists false. split; [destruct (krbuf l); reflexivity|].
    intros i. rewrite !holds_eq. simpl. destruct (krbuf l) as [j|]; simpl; [|lia].
    destruct (Nat.eq_dec j i) as [->|Hne]; [rewrite Nat.eqb_refl; lia|].
    destruct (Nat.eqb_spec i j); [congruence|lia].
Qed.

Lemma owners_step : forall s (ts : list kthread) t l a rest s' l',
  nth_error ts t = Some (l, a :: rest) -> kexec true s l a = Some (s', l') ->
  exists fresh : bool,
    knext s' = (if fresh then S (knext s) else knext s) /\
    forall i, owners i (s', set_nth t (l', rest) ts) <=
              owners i (s, ts) + (if fresh && Nat.eqb i (knext s) then 1 else 0).
Proof.
  intros s ts t l a rest s' l' Hn He.
  destruct (kexec_owners _ _ _ _ _ (a :: rest) rest He) as (fresh & Hk & Hc).
  exists fresh. split; [exact Hk|]. intros i. unfold owners; simpl.
  pose proof (sum_map_set_nth (holds i) t (l', rest) _ ts Hn). specialize (Hc i). unfold thread in *. lia.
Qed.

Theorem kstep_inv : forall c t c', KInv c -> kstep true c t = Some c' -> KInv c'.
Proof.
  intros [s ts] t c' [H1 H2] Hs.
  destruct (tstep_some _ _ _ _ _ _ _ Hs) as (l & a & rest & s' & l' & Hn & He & ->).
  destruct (owners_step _ _ _ _ _ _ _ _ Hn He) as (fresh & Hk & Ho). simpl in *.
  (* the fresh thing had no owner at all ([H2] at [knext]), so it gets its first *)
  split; intros i; [|simpl; intros Hi]; specialize (Ho i); specialize (H1 i); pose proof (H2 i) as H2i;
    pose proof (H2 (knext s) (le_n _)) as Hnew;
    destruct fresh; simpl in Ho, Hk; try (destruct (Nat.eqb_spec i (knext s)); [subst i|]); lia.
Qed.

Lemma kinv_safe : forall c, KInv c ->
  NoDup (kpool (fst c)) /\
  (forall t l p i, nth_error (snd c) t = Some (l, p) -> krbuf l = Some i -> ~ In i (kpool (fst c))) /\
  (forall t1 t2 i, ~ shared_by c t1 t2 i).
Proof.
  intros c [H1 _]. unfold owners in H1. repeat split.
  - apply (NoDup_count_occ Nat.eq_dec). intros i. specialize (H1 i). lia.
  - intros t l p i Ht Hr Hin.
    apply (count_occ_In Nat.eq_dec) in Hin.
    pose proof (sum_map_ge (holds i) (snd c) t (l, p) Ht) as G.
    rewrite holds_eq in G. rewrite Hr, Nat.eqb_refl in G. unfold thread in *.
    specialize (H1 i). lia.
  - intros t1 t2 i [Hne [l1 [p1 [l2 [p2 [E1 [E2 [_ [_ [R1 R2]]]]]]]]]].
    pose proof (sum_map_ge2 (holds i) (snd c) t1 t2 _ _ Hne E1 E2) as G.
    rewrite !holds_eq in G. rewrite R1, R2, Nat.eqb_refl in G. unfold thread in *.
    specialize (H1 i). lia.
Qed.
