(** Proofs about the ownership layer (C16): in every reachable state every
    value the caller is entitled to references memory that nobody may
    overwrite, and holds the content it had when it was handed out. *)
From Coq Require Import List Arith Bool Lia.
From PQ Require Import Conc.Sem Conc.SemProofs Conc.Refcount Conc.Ownership.
Import ListNotations.

Definition cell_ok (x : cell) : Prop :=
  match ctag x with
  | TLive n => 1 <= n /\ n = (match cowner x with Some _ => 1 | None => 0 end) + ccaller x /\
               (cowner x <> None -> ccaller x = 0)
  | _ => cowner x = None /\ ccaller x = 0
  end.

(* the referenced cell holds the content of the hand-out and is caller
   memory, detached, or a live buffer retained for exactly this window *)
Definition value_inv (h : list cell) (rds : list reader) (w : window) (v : value) : Prop :=
  forall c, vcell v = Some c ->
    exists x, nth_error h c = Some x /\ cval x = vsnap v /\
      (ctag x = TCaller \/ ctag x = TDetached \/
       (exists n r rd, ctag x = TLive n /\ w = WUntilNext r /\ cowner x = Some r /\
                       nth_error rds r = Some rd /\ rbytes rd = true) \/
       (exists n, ctag x = TLive n /\ w = WWhileHeld c /\ 1 <= ccaller x)).

Record OInv (st : ostate) : Prop := mkOInv {
  o_cells : forall c x, nth_error (heap st) c = Some x -> cell_ok x;
  o_page : forall r rd c, nth_error (readers st) r = Some rd -> rpage rd = Some c ->
             exists x, nth_error (heap st) c = Some x /\ cowner x = Some r;
  o_owner : forall c x r, nth_error (heap st) c = Some x -> cowner x = Some r ->
             exists rd, nth_error (readers st) r = Some rd /\ rpage rd = Some c;
  o_flags : forall r rd, nth_error (readers st) r = Some rd -> rbytes rd = true -> rdetach rd = true;
  o_held : forall b v, In b (held st) -> In v (bvals b) -> value_inv (heap st) (readers st) (bwin b) v
}.

Definition upd_at {A} (l : list A) (i : nat) (x : A) (l' : list A) : Prop :=
  forall j, nth_error l' j = if Nat.eqb j i then Some x else nth_error l j.

Lemma set_nth_upd : forall {A} (l : list A) c x y,
  nth_error l c = Some y -> upd_at l c x (set_nth c x l).
Proof.
  intros A l c x y H c'. rewrite nth_error_set_nth. rewrite Nat.eqb_sym.
  destruct (Nat.eqb c' c); auto.
  assert (c < length l) by (apply nth_error_Some; congruence).
  destruct (Nat.ltb_spec c (length l)); [auto|lia].
Qed.

Lemma upd_at_all : forall {A} (P : A -> Prop) l i x l',
  upd_at l i x l' -> P x -> (forall j y, nth_error l j = Some y -> P y) ->
  forall j y, nth_error l' j = Some y -> P y.
Proof.
  intros A P l i x l' Hu Hx Hl j y Hy. rewrite (Hu j) in Hy.
  destruct (Nat.eqb j i); [inversion Hy; subst; exact Hx|eauto].
Qed.

Definition look {A B} (f : A -> option B) (l : list A) (i : nat) : option B :=
  match nth_error l i with Some x => f x | None => None end.

Lemma look_some : forall {A B} (f : A -> option B) l i x, nth_error l i = Some x -> look f l i = f x.
Proof. intros A B f l i x H. unfold look. rewrite H. reflexivity. Qed.

Lemma look_upd : forall {A B} (f : A -> option B) l i x l',
  upd_at l i x l' -> forall j, look f l' j = if Nat.eqb j i then f x else look f l j.
Proof. intros A B f l i x l' Hu j. unfold look. rewrite (Hu j). destruct (Nat.eqb j i); reflexivity. Qed.

Lemma look_upd_same : forall {A B} (f : A -> option B) l i x l',
  upd_at l i x l' -> f x = look f l i -> forall j, look f l' j = look f l j.
Proof.
  intros A B f l i x l' Hu Hx j. rewrite (look_upd f _ _ _ _ Hu).
  destruct (Nat.eqb_spec j i) as [->|]; auto.
Qed.

Lemma pooled_or_fresh_spec : forall h c, is_pooled_or_fresh h c = true ->
  (exists x, nth_error h c = Some x /\ ctag x = TPooled) \/ (nth_error h c = None /\ c = length h).
Proof.
  intros h c H. unfold is_pooled_or_fresh in H. destruct (nth_error h c) as [x|] eqn:E.
  - left. exists x. split; auto. destruct (ctag x); try discriminate; reflexivity.
  - right. split; auto. apply Nat.eqb_eq; auto.
Qed.

Lemma put_cell_upd : forall h c x, is_pooled_or_fresh h c = true -> upd_at h c x (put_cell h c x).
Proof.
  intros h c x H c'. unfold put_cell.
  destruct (pooled_or_fresh_spec h c H) as [[y [Hy _]]|[Hn ->]].
  - assert (Hlt : c < length h) by (apply nth_error_Some; congruence).
    destruct (Nat.ltb_spec c (length h)); [exact (set_nth_upd h c x y Hy c')|lia].
  - rewrite Nat.ltb_irrefl. destruct (Nat.eqb_spec c' (length h)) as [->|Hne].
    + rewrite nth_error_app2 by lia. rewrite Nat.sub_diag. reflexivity.
    + destruct (Nat.lt_ge_cases c' (length h)); [apply nth_error_app1; auto|].
      rewrite (proj2 (nth_error_None h c')) by lia. apply nth_error_None. rewrite app_length; simpl; lia.
Qed.

Lemma win_eqb_eq : forall a b, win_eqb a b = true <-> a = b.
Proof.
  intros [|a|a] [|b|b]; simpl; split; intros H; try discriminate; try reflexivity;
    try (apply Nat.eqb_eq in H; subst; reflexivity);
    try (inversion H; subst; apply Nat.eqb_refl).
Qed.

Lemma in_drop_win : forall w l b, In b (drop_win w l) -> In b l /\ bwin b <> w.
Proof.
  intros w l b H. unfold drop_win in H. apply filter_In in H. destruct H as [H1 H2].
  split; auto. intros Heq. apply negb_true_iff in H2. apply win_eqb_eq in Heq. congruence.
Qed.

Lemma in_drop_id : forall i l b, In b (drop_id i l) -> In b l.
Proof. intros i l b H. unfold drop_id in H. apply filter_In in H. tauto. Qed.

Lemma in_add_value : forall i w v l b v',
  In b (add_value i w v l) -> In v' (bvals b) ->
  (In b l) \/
  (bwin b = w /\ (v' = v \/ exists b0, In b0 l /\ bwin b0 = w /\ In v' (bvals b0))).
Proof.
  intros i w v l; induction l as [|b0 r IH]; intros b v' Hb Hv; simpl in *.
  - destruct Hb as [<-|[]]. simpl in *. destruct Hv as [<-|[]]. right; auto.
  - destruct (Nat.eqb (bid b0) i && win_eqb (bwin b0) w) eqn:E.
    + destruct Hb as [<-|Hb]; [|left; auto]. simpl in *.
      apply andb_true_iff in E. destruct E as [_ E]. apply win_eqb_eq in E.
      right. split; auto. apply in_app_or in Hv. destruct Hv as [Hv|[<-|[]]]; auto.
      right. exists b0. auto.
    + destruct Hb as [<-|Hb]; [left; auto|].
      destruct (IH b v' Hb Hv) as [H|[H1 [H2|[b1 [H3 H4]]]]]; auto.
      right. split; auto. right. exists b1. auto.
Qed.

Definition links (h : list cell) (rds : list reader) : Prop :=
  forall c r, look cowner h c = Some r <-> look rpage rds r = Some c.

Lemma links_of_inv : forall st, OInv st -> links (heap st) (readers st).
Proof.
  intros st HI c r. unfold look. split.
  - destruct (nth_error (heap st) c) as [x|] eqn:Ex; [|discriminate]. intros Ho.
    destruct (o_owner st HI c x r Ex Ho) as [rd [-> Hp]]. exact Hp.
  - destruct (nth_error (readers st) r) as [rd|] eqn:Er; [|discriminate]. intros Hp.
    destruct (o_page st HI r rd c Er Hp) as [x [-> Ho]]. exact Ho.
Qed.

Lemma inv_of_links : forall h rds hl,
  (forall c x, nth_error h c = Some x -> cell_ok x) -> links h rds ->
  (forall r rd, nth_error rds r = Some rd -> rbytes rd = true -> rdetach rd = true) ->
  (forall b v, In b hl -> In v (bvals b) -> value_inv h rds (bwin b) v) ->
  OInv (mkO h rds hl).
Proof.
  intros h rds hl Hc Hl Hf Hh. constructor; simpl; auto.
  - intros r rd c Hr Hp. assert (H : look cowner h c = Some r) by (apply Hl; unfold look; rewrite Hr; exact Hp).
    unfold look in H. destruct (nth_error h c) as [x|]; [eauto|discriminate].
  - intros c x r Hx Ho. assert (H : look rpage rds r = Some c) by (apply Hl; unfold look; rewrite Hx; exact Ho).
    unfold look in H. destruct (nth_error rds r) as [rd|]; [eauto|discriminate].
Qed.

Lemma links_upd : forall h rds c0 x' h' r0 rd' rds',
  links h rds -> upd_at h c0 x' h' -> upd_at rds r0 rd' rds' ->
  (forall r, look cowner h c0 = Some r -> r = r0) ->
  (forall c, look rpage rds r0 = Some c -> c = c0) ->
  (cowner x' = Some r0 /\ rpage rd' = Some c0 \/ cowner x' = None /\ rpage rd' = None) ->
  links h' rds'.
Proof.
  intros h rds c0 x' h' r0 rd' rds' Hl Hh Hr Hc0 Hr0 Hnew c r.
  rewrite (look_upd cowner _ _ _ _ Hh), (look_upd rpage _ _ _ _ Hr).
  destruct (Nat.eqb_spec c c0) as [->|Hc], (Nat.eqb_spec r r0) as [->|Hr'].
  - destruct Hnew as [[-> ->]|[-> ->]]; split; auto; discriminate.
  - split; intros H.
    + destruct Hnew as [[Ho _]|[Ho _]]; congruence.
    + apply Hl in H. apply Hc0 in H. contradiction.
  - split; intros H.
    + apply Hl in H. apply Hr0 in H. contradiction.
    + destruct Hnew as [[_ Hp]|[_ Hp]]; congruence.
  - apply Hl.
Qed.

Lemma links_same : forall h rds h' rds',
  links h rds -> (forall c, look cowner h' c = look cowner h c) ->
  (forall r, look rpage rds' r = look rpage rds r) -> links h' rds'.
Proof. intros h rds h' rds' Hl Hh Hr c r. rewrite Hh, Hr. apply Hl. Qed.

Definition keeps_rbytes (rds rds' : list reader) : Prop :=
  forall r rd, nth_error rds r = Some rd -> exists rd', nth_error rds' r = Some rd' /\ rbytes rd' = rbytes rd.

Lemma keeps_refl : forall rds, keeps_rbytes rds rds.
Proof. intros rds r rd H; eauto. Qed.

Lemma keeps_upd : forall rds r0 rd0 rd0' rds',
  upd_at rds r0 rd0' rds' -> nth_error rds r0 = Some rd0 -> rbytes rd0' = rbytes rd0 ->
  keeps_rbytes rds rds'.
Proof.
  intros rds r0 rd0 rd0' rds' Hu H0 Hb r rd H. rewrite (Hu r).
  destruct (Nat.eqb_spec r r0) as [->|Hne]; [|eauto].
  exists rd0'. split; auto. congruence.
Qed.

Lemma value_inv_frame : forall h rds h' rds' w v,
  value_inv h rds w v ->
  (forall c x, vcell v = Some c -> nth_error h c = Some x -> nth_error h' c = Some x) ->
  keeps_rbytes rds rds' ->
  value_inv h' rds' w v.
Proof.
  intros h rds h' rds' w v Hv Hh Hr c Hc. destruct (Hv c Hc) as [x [Hx [Hval Htag]]].
  exists x. split; [apply Hh; auto|]. split; auto.
  destruct Htag as [H|[H|[[n [r [rd [H1 [H2 [H3 [H4 H5]]]]]]]|H]]]; auto.
  right; right; left. destruct (Hr r rd H4) as [rd' [H6 H7]].
  exists n, r, rd'. repeat split; auto. congruence.
Qed.

Definition unreferenced (h : list cell) (c : nat) : Prop :=
  (exists x, nth_error h c = Some x /\ ctag x = TPooled) \/ nth_error h c = None.

Lemma pooled_or_fresh_unreferenced : forall h c, is_pooled_or_fresh h c = true -> unreferenced h c.
Proof. intros h c H. destruct (pooled_or_fresh_spec h c H) as [H1|[H1 _]]; [left|right]; auto. Qed.

Lemma value_not_pooled : forall h rds w v c,
  value_inv h rds w v -> vcell v = Some c -> unreferenced h c -> False.
Proof.
  intros h rds w v c Hv Hc H. destruct (Hv c Hc) as [x [Hx [_ Htag]]].
  destruct H as [[y [Hy Hp]]|Hn]; [|congruence].
  rewrite Hx in Hy; inversion Hy; subst y.
  destruct Htag as [H|[H|[[n [r [rd [H1 _]]]]|[n [H1 _]]]]]; congruence.
Qed.

Lemma value_inv_upd : forall h rds c x' h' rds' w v,
  upd_at h c x' h' -> unreferenced h c -> keeps_rbytes rds rds' ->
  value_inv h rds w v -> value_inv h' rds' w v.
Proof.
  intros h rds c x' h' rds' w v Hu Hc Hr Hv. apply (value_inv_frame h rds); auto.
  intros c' y Hc' Hy. rewrite (Hu c'). destruct (Nat.eqb_spec c' c) as [->|]; auto.
  exfalso. exact (value_not_pooled _ _ _ _ _ Hv Hc' Hc).
Qed.

Lemma unreferenced_no_owner : forall h c,
  (forall c x, nth_error h c = Some x -> cell_ok x) -> unreferenced h c -> look cowner h c = None.
Proof.
  intros h c Hcells [[x [Hx Ht]]|Hn]; unfold look; [rewrite Hx|rewrite Hn; reflexivity].
  pose proof (Hcells c x Hx) as Hok. unfold cell_ok in Hok. rewrite Ht in Hok. tauto.
Qed.

Lemma cell_ok_owned : forall x r, cell_ok x -> cowner x = Some r -> ctag x = TLive 1 /\ ccaller x = 0.
Proof.
  intros x r H Ho. unfold cell_ok in H. rewrite Ho in H.
  destruct (ctag x); try (destruct H; discriminate).
  destruct H as (_ & Hn & Hc). specialize (Hc ltac:(discriminate)). split; [f_equal; lia|exact Hc].
Qed.

Lemma cell_ok_caller : forall x, cell_ok x -> 1 <= ccaller x ->
  ctag x = TLive (ccaller x) /\ cowner x = None.
Proof.
  intros x H Hc. unfold cell_ok in H. destruct (ctag x); try (destruct H; lia).
  destruct H as (_ & Hn & Ho). destruct (cowner x); [specialize (Ho ltac:(discriminate)); lia|].
  split; [f_equal; lia|reflexivity].
Qed.

(** ** every primitive is one of these updates or a sequence of them *)

Lemma oinv_held : forall h rds hl hl',
  OInv (mkO h rds hl) ->
  (forall b v, In b hl' -> In v (bvals b) -> value_inv h rds (bwin b) v) ->
  OInv (mkO h rds hl').
Proof. intros h rds hl hl' [A B C D _] H. constructor; simpl in *; auto. Qed.

Lemma oinv_reader : forall h rds hl r rd rd',
  OInv (mkO h rds hl) -> nth_error rds r = Some rd ->
  rpage rd' = rpage rd -> rbytes rd' = rbytes rd -> rdetach rd' = rdetach rd ->
  OInv (mkO h (set_nth r rd' rds) hl).
Proof.
  intros h rds hl r rd rd' HI Er Hp Hb Hd. pose proof (links_of_inv _ HI) as Hl.
  destruct HI as [Hcells _ _ Hflags Hheld]; simpl in *.
  pose proof (set_nth_upd rds r rd' rd Er) as Hr.
  apply inv_of_links; [exact Hcells| | |].
  - apply (links_same _ _ _ _ Hl); [reflexivity|].
    apply (look_upd_same rpage _ _ _ _ Hr). rewrite (look_some _ _ _ _ Er). exact Hp.
  - apply (upd_at_all (fun rd => rbytes rd = true -> rdetach rd = true) _ _ _ _ Hr); [|exact Hflags].
    rewrite Hb, Hd. exact (Hflags r rd Er).
  - intros b v Hb' Hv. apply (value_inv_frame h rds h _ _ _ (Hheld b v Hb' Hv)); auto.
    exact (keeps_upd _ _ _ _ _ Hr Er Hb).
Qed.

Lemma oinv_overwrite : forall h rds hl c x' h',
  OInv (mkO h rds hl) -> upd_at h c x' h' ->
  look cowner h c = None -> cell_ok x' -> cowner x' = None ->
  (forall b v, In b hl -> In v (bvals b) -> vcell v <> Some c) ->
  OInv (mkO h' rds hl).
Proof.
  intros h rds hl c x' h' HI Hu Ho Hx' Hxo Hnv. pose proof (links_of_inv _ HI) as Hl.
  destruct HI as [Hcells _ _ Hflags Hheld]; simpl in *.
  apply inv_of_links; [| |exact Hflags|].
  - apply (upd_at_all cell_ok _ _ _ _ Hu); assumption.
  - apply (links_same _ _ _ _ Hl); [|reflexivity].
    apply (look_upd_same cowner _ _ _ _ Hu). congruence.
  - intros b v Hb Hv. apply (value_inv_frame h rds); [auto| |apply keeps_refl].
    intros c' y Hc' Hy. rewrite (Hu c'). destruct (Nat.eqb_spec c' c) as [->|]; [|exact Hy].
    destruct (Hnv b v Hb Hv Hc').
Qed.

Lemma oinv_overwrite_unref : forall h rds hl c x' h',
  OInv (mkO h rds hl) -> upd_at h c x' h' -> unreferenced h c -> cell_ok x' -> cowner x' = None ->
  OInv (mkO h' rds hl).
Proof.
  intros h rds hl c x' h' HI Hu Hun Hx' Hxo. apply (oinv_overwrite _ _ _ c x' _ HI Hu); auto.
  - apply (unreferenced_no_owner h c (o_cells _ HI) Hun).
  - intros b v Hb Hv Hc. exact (value_not_pooled _ _ _ _ _ (o_held _ HI b v Hb Hv) Hc Hun).
Qed.

Lemma oinv_caller : forall h rds hl c x x',
  OInv (mkO h rds hl) -> nth_error h c = Some x -> 1 <= ccaller x ->
  ctag x' = TLive (ccaller x') -> cowner x' = None -> cval x' = cval x -> 1 <= ccaller x' ->
  OInv (mkO (set_nth c x' h) rds hl).
Proof.
  intros h rds hl c x x' HI Ex Hcc Ht' Ho' Hv' Hc'. pose proof (links_of_inv _ HI) as Hl.
  destruct HI as [Hcells _ _ Hflags Hheld]; simpl in *.
  destruct (cell_ok_caller x (Hcells c x Ex) Hcc) as [Et Hno].
  pose proof (set_nth_upd h c x' x Ex) as Hu.
  apply inv_of_links; [| |exact Hflags|].
  - apply (upd_at_all cell_ok _ _ _ _ Hu); [|exact Hcells].
    unfold cell_ok. rewrite Ht', Ho'. repeat split; auto. intros H; congruence.
  - apply (links_same _ _ _ _ Hl); [|reflexivity].
    apply (look_upd_same cowner _ _ _ _ Hu). rewrite (look_some _ _ _ _ Ex). congruence.
  - intros b v Hb Hv c' Hc1. destruct (Hheld b v Hb Hv c' Hc1) as [y [Hy [Hval Htag]]].
    rewrite (Hu c'). destruct (Nat.eqb_spec c' c) as [->|Hne]; [|eauto].
    rewrite Ex in Hy; inversion Hy; subst y. exists x'. split; [reflexivity|]. split; [congruence|].
    destruct Htag as [H|[H|[[n0 [r0 [rd0 [H1 [H2 [H3 _]]]]]]|[n0 [H1 [H2 H3]]]]]]; try congruence.
    right; right; right. exists (ccaller x'). auto.
Qed.

Lemma oinv_extend : forall h rds hl ext,
  OInv (mkO h rds hl) ->
  (forall x, In x ext -> ctag x = TCaller /\ cowner x = None /\ ccaller x = 0) ->
  OInv (mkO (h ++ ext) rds hl).
Proof.
  intros h rds hl ext [Hcells Hpage Howner Hflags Hheld] Hall; simpl in *.
  assert (Hold : forall c x, nth_error h c = Some x -> nth_error (h ++ ext) c = Some x).
  { intros c x Hx. rewrite nth_error_app1; auto. apply nth_error_Some; congruence. }
  assert (Hnew : forall c x, nth_error (h ++ ext) c = Some x -> nth_error h c = Some x \/ In x ext).
  { intros c x Hx. destruct (Nat.lt_ge_cases c (length h)).
    - rewrite nth_error_app1 in Hx by auto. auto.
    - rewrite nth_error_app2 in Hx by auto. right. eapply nth_error_In; eauto. }
  constructor; simpl; auto.
  - intros c x Hx. destruct (Hnew c x Hx) as [H|H]; [eapply Hcells; eauto|].
    destruct (Hall x H) as [H1 [H2 H3]]. unfold cell_ok. rewrite H1. auto.
  - intros r rd c Hr Hp. destruct (Hpage r rd c Hr Hp) as [x [Hx Ho]]. eauto.
  - intros c x r Hx Ho. destruct (Hnew c x Hx) as [H|H]; [eapply Howner; eauto|].
    destruct (Hall x H) as [_ [H2 _]]. congruence.
  - intros b v Hb Hv. apply (value_inv_frame h rds); [auto| |apply keeps_refl].
    intros c x _ Hx. auto.
Qed.

Section Step.
  Variable pagefun : nat -> nat -> nat.
  Notation ostep := (ostep pagefun).

  Lemma copy_values_spec : forall vs h h' vs',
    copy_values h vs = (h', vs') ->
    (forall v c, In v vs -> vcell v = Some c -> exists x, nth_error h c = Some x /\ cval x = vsnap v) ->
    (exists ext, h' = h ++ ext /\ forall x, In x ext -> ctag x = TCaller /\ cowner x = None /\ ccaller x = 0) /\
    (forall v' c, In v' vs' -> vcell v' = Some c ->
       exists x, nth_error h' c = Some x /\ cval x = vsnap v' /\ ctag x = TCaller).
  Proof.
    induction vs as [|v r IH]; intros h h' vs' Hc Hsrc; simpl in Hc.
    - inversion Hc; subst. split; [exists []; rewrite app_nil_r; split; auto; intros x []|intros v' c []].
    - destruct (vcell v) as [c0|] eqn:Ev.
      + destruct (copy_values (h ++ [mkCell TCaller match nth_error h c0 with Some x => cval x | None => 0 end None 0]) r)
          as [h1 r1] eqn:E1.
        inversion Hc; subst h' vs'; clear Hc.
        destruct (Hsrc v c0 (or_introl eq_refl) Ev) as [x0 [Hx0 Hv0]]. rewrite Hx0 in E1.
        destruct (IH _ _ _ E1) as [[ext [Hext Hall]] Hnew].
        { intros v1 c1 Hin Hc1. destruct (Hsrc v1 c1 (or_intror Hin) Hc1) as [x1 [Hx1 Hv1]].
          exists x1. split; auto. rewrite nth_error_app1; auto. apply nth_error_Some; congruence. }
        split.
        * exists (mkCell TCaller (cval x0) None 0 :: ext). split.
          -- rewrite Hext, <- app_assoc. reflexivity.
          -- intros x [<-|Hin]; simpl; auto.
        * intros v' c [<-|Hin] Hc'; simpl in *.
          -- inversion Hc'; subst c. exists (mkCell TCaller (cval x0) None 0).
             rewrite Hext, <- app_assoc. rewrite nth_error_app2 by lia. rewrite Nat.sub_diag. simpl. auto.
          -- apply Hnew; auto.
      + destruct (copy_values h r) as [h1 r1] eqn:E1. inversion Hc; subst h' vs'; clear Hc.
        destruct (IH _ _ _ E1) as [Hext Hnew].
        { intros v1 c1 Hin Hc1. apply (Hsrc v1 c1 (or_intror Hin) Hc1). }
        split; auto. intros v' c [<-|Hin] Hc'; [congruence|]. apply Hnew; auto.
  Qed.

  Lemma find_batch_in : forall i l b, find_batch i l = Some b -> In b l.
  Proof. intros i l b H. unfold find_batch in H. apply find_some in H. tauto. Qed.

  Lemma release_inv : forall st r st', OInv st -> ostep st (PRelease r) = Some st' -> OInv st'.
  Proof.
    intros [h rds hl] r st' HI Hstep. pose proof (links_of_inv _ HI) as Hl.
    destruct HI as [Hcells Hpage Howner Hflags Hheld]; simpl in *.
    destruct (nth_error rds r) as [rd|] eqn:Er; [|discriminate].
    destruct (rpage rd) as [c|] eqn:Ep; [|discriminate].
    destruct (nth_error h c) as [x|] eqn:Ex; [|discriminate].
    inversion Hstep; subst st'; clear Hstep.
    destruct (Hpage r rd c Er Ep) as [x0 [Hx0 Hown]]. rewrite Ex in Hx0; inversion Hx0; subst x0; clear Hx0.
    destruct (cell_ok_owned x r (Hcells c x Ex) Hown) as [Et Hcc].
    set (x' := if rdetach rd then mkCell TDetached (cval x) None 0 else unref_cell x None (ccaller x)).
    assert (Hx' : (rdetach rd = true /\ x' = mkCell TDetached (cval x) None 0) \/
                  (rdetach rd = false /\ x' = mkCell TPooled poison None 0)).
    { unfold x'. destruct (rdetach rd); [left; auto|right]. split; auto.
      unfold unref_cell. rewrite Et. reflexivity. }
    pose proof (set_nth_upd h c x' x Ex) as Hu.
    pose proof (set_nth_upd rds r (mkReader None (rdetach rd) (rbytes rd) (rclosed rd) (rpos rd)) rd Er) as Hr.
    apply inv_of_links.
    - apply (upd_at_all cell_ok _ _ _ _ Hu); [|exact Hcells].
      destruct Hx' as [[_ ->]|[_ ->]]; unfold cell_ok; simpl; auto.
    - apply (links_upd _ _ _ _ _ _ _ _ Hl Hu Hr).
      + intros r0. rewrite (look_some _ _ _ _ Ex). congruence.
      + intros c0. rewrite (look_some _ _ _ _ Er). congruence.
      + right. destruct Hx' as [[_ ->]|[_ ->]]; auto.
    - apply (upd_at_all (fun rd => rbytes rd = true -> rdetach rd = true) _ _ _ _ Hr);
        [exact (Hflags r rd Er)|exact Hflags].
    - (* a value in the released page is a byte array value, so the page is detached *)
      intros b v Hb Hv c' Hc'. destruct (Hheld b v Hb Hv c' Hc') as [y [Hy [Hval Htag]]].
      rewrite (Hu c').
      destruct (Nat.eqb_spec c' c) as [->|Hne].
      + rewrite Ex in Hy; inversion Hy; subst y.
        destruct Htag as [H|[H|[[n [r0 [rd0 [H1 [H2 [H3 [H4 H5]]]]]]]|[n [H1 [H2 H3]]]]]]; try congruence; try lia.
        rewrite Hown in H3; inversion H3; subst r0. rewrite Er in H4; inversion H4; subst rd0.
        pose proof (Hflags r rd Er H5) as Hdet.
        destruct Hx' as [[_ ->]|[Hd _]]; [|congruence].
        exists (mkCell TDetached (cval x) None 0). simpl. auto.
      + apply (value_inv_frame h rds h _ _ _ (Hheld b v Hb Hv)); auto.
        exact (keeps_upd _ _ _ _ _ Hr Er eq_refl).
  Qed.

  Lemma load_inv : forall st r c st', OInv st -> ostep st (PLoad r c) = Some st' -> OInv st'.
  Proof.
    intros [h rds hl] r c st' HI Hstep. pose proof (links_of_inv _ HI) as Hl.
    destruct HI as [Hcells Hpage Howner Hflags Hheld]; simpl in *.
    destruct (nth_error rds r) as [rd|] eqn:Er; [|discriminate].
    destruct (rpage rd) as [c0|] eqn:Ep; [discriminate|].
    destruct (negb (rclosed rd) && is_pooled_or_fresh h c) eqn:Eg; [|discriminate].
    apply andb_true_iff in Eg. destruct Eg as [_ Epf].
    inversion Hstep; subst st'; clear Hstep.
    pose proof (pooled_or_fresh_unreferenced h c Epf) as Hun.
    pose proof (put_cell_upd h c (mkCell (TLive 1) (pagefun r (rpos rd)) (Some r) 0) Epf) as Hu.
    pose proof (set_nth_upd rds r (mkReader (Some c) (rdetach rd) (rbytes rd) (rclosed rd) (S (rpos rd))) rd Er) as Hr.
    apply inv_of_links.
    - apply (upd_at_all cell_ok _ _ _ _ Hu); [|exact Hcells]. unfold cell_ok; simpl. auto.
    - apply (links_upd _ _ _ _ _ _ _ _ Hl Hu Hr); [| |left; auto].
      + intros r0. rewrite (unreferenced_no_owner h c Hcells Hun). discriminate.
      + intros c0. rewrite (look_some _ _ _ _ Er), Ep. discriminate.
    - apply (upd_at_all (fun rd => rbytes rd = true -> rdetach rd = true) _ _ _ _ Hr);
        [exact (Hflags r rd Er)|exact Hflags].
    - intros b v Hb Hv.
      exact (value_inv_upd _ _ _ _ _ _ _ _ Hu Hun (keeps_upd _ _ _ _ _ Hr Er eq_refl) (Hheld b v Hb Hv)).
  Qed.

  Lemma collect_inv : forall st r b st', OInv st -> ostep st (PCollect r b) = Some st' -> OInv st'.
  Proof.
    intros [h rds hl] r b st' HI Hstep. pose proof HI as [Hcells Hpage _ _ Hheld]; simpl in *.
    destruct (nth_error rds r) as [rd|] eqn:Er; [|discriminate].
    destruct (rpage rd) as [c|] eqn:Ep; [|discriminate].
    destruct (nth_error h c) as [x|] eqn:Ex; [|discriminate].
    inversion Hstep; subst st'; clear Hstep.
    destruct (Hpage r rd c Er Ep) as [x0 [Hx0 Hown]]. rewrite Ex in Hx0; inversion Hx0; subst x0; clear Hx0.
    destruct (cell_ok_owned x r (Hcells c x Ex) Hown) as [Et _].
    apply (oinv_held _ _ _ _ HI). intros b0 v Hb Hv.
    destruct (in_add_value _ _ _ _ _ _ Hb Hv) as [Hold|[Hw [->|[b1 [Hb1 [Hw1 Hv1]]]]]].
    - apply Hheld; auto.
    - intros c' Hc'. simpl in Hc'. destruct (rbytes rd) eqn:Eb; [|discriminate].
      inversion Hc'; subst c'. exists x. simpl. repeat split; auto.
      right; right; left. exists 1, r, rd. rewrite Hw. repeat split; auto.
    - rewrite Hw, <- Hw1. apply Hheld; auto.
  Qed.

  Lemma copy_inv : forall st b b' st', OInv st -> ostep st (PCopy b b') = Some st' -> OInv st'.
  Proof.
    intros [h rds hl] b b' st' HI Hstep. pose proof (o_held _ HI) as Hheld; simpl in *.
    destruct (find_batch b hl) as [bt|] eqn:Ef; [|discriminate].
    destruct (copy_values h (bvals bt)) as [h' vs'] eqn:Ec.
    inversion Hstep; subst st'; clear Hstep.
    destruct (copy_values_spec _ _ _ _ Ec) as [[ext [-> Hall]] Hnew].
    { intros v c Hv Hc. destruct (Hheld bt v (find_batch_in _ _ _ Ef) Hv c Hc) as [x [Hx [Hval _]]]. eauto. }
    pose proof (oinv_extend _ _ _ ext HI Hall) as HI'.
    apply (oinv_held _ _ _ _ HI'). intros b0 v Hb Hv. apply in_app_or in Hb. destruct Hb as [Hb|[<-|[]]].
    - exact (o_held _ HI' b0 v Hb Hv).
    - intros c Hc. destruct (Hnew v c Hv Hc) as [x [Hx [Hval Htag]]]. exists x. auto.
  Qed.

  Lemma read_page_inv : forall st r c b st', OInv st -> ostep st (PReadPage r c b) = Some st' -> OInv st'.
  Proof.
    intros [h rds hl] r c b st' HI Hstep; simpl in *.
    destruct (nth_error rds r) as [rd|] eqn:Er; [|discriminate].
    destruct (negb (rclosed rd) && is_pooled_or_fresh h c) eqn:Eg; [|discriminate].
    apply andb_true_iff in Eg. destruct Eg as [_ Epf].
    inversion Hstep; subst st'; clear Hstep.
    pose proof (pooled_or_fresh_unreferenced h c Epf) as Hun.
    set (x' := mkCell (TLive 1) (pagefun r (rpos rd)) None 1).
    pose proof (put_cell_upd h c x' Epf) as Hu.
    (* reader, cell, batch: three updates in sequence *)
    set (rd' := mkReader (rpage rd) (rdetach rd) (rbytes rd) (rclosed rd) (S (rpos rd))).
    pose proof (oinv_reader _ _ _ r rd rd' HI Er eq_refl eq_refl eq_refl) as HI1.
    assert (HI2 : OInv (mkO (put_cell h c x') (set_nth r rd' rds) hl)).
    { apply (oinv_overwrite_unref _ _ _ c x' _ HI1 Hu Hun); [|reflexivity].
      unfold cell_ok; simpl. repeat split; auto. intros H; congruence. }
    apply (oinv_held _ _ _ _ HI2). intros b0 v Hb Hv. apply in_app_or in Hb. destruct Hb as [Hb|[<-|[]]].
    - exact (o_held _ HI2 b0 v Hb Hv).
    - simpl in *. destruct Hv as [<-|[]]. intros c' Hc'. simpl in Hc'. inversion Hc'; subst c'.
      exists x'. rewrite (Hu c), Nat.eqb_refl. simpl.
      repeat split; auto. right; right; right. exists 1. auto.
  Qed.

  Lemma release_caller_inv : forall st c st', OInv st -> ostep st (PReleaseC c) = Some st' -> OInv st'.
  Proof.
    intros [h rds hl] c st' HI Hstep. unfold Ownership.ostep in Hstep; cbn [heap readers held] in Hstep.
    destruct (nth_error h c) as [x|] eqn:Ex; [|discriminate].
    destruct (Nat.leb_spec 1 (ccaller x)) as [Hcc|]; [|discriminate].
    inversion Hstep; subst st'; clear Hstep.
    destruct (cell_ok_caller x (o_cells _ HI c x Ex) Hcc) as [Et Hno].
    unfold unref_cell. rewrite Et, Hno.
    destruct (ccaller x) as [|[|m]] eqn:Ecc; [lia| |]; simpl.
    - (* the last reference: the buffer is pooled, its window closes *)
      assert (HI1 : OInv (mkO h rds (drop_win (WWhileHeld c) hl))).
      { apply (oinv_held _ _ _ _ HI). intros b v Hb Hv. apply in_drop_win in Hb. apply (o_held _ HI); tauto. }
      apply (oinv_overwrite _ _ _ c _ _ HI1 (set_nth_upd h c _ x Ex)); [| |reflexivity|].
      + rewrite (look_some _ _ _ _ Ex). exact Hno.
      + unfold cell_ok; simpl; auto.
      + intros b v Hb Hv Hc. apply in_drop_win in Hb. destruct Hb as [Hb Hw].
        destruct (o_held _ HI b v Hb Hv c Hc) as [y [Hy [_ Htag]]]. simpl in Hy.
        rewrite Ex in Hy; inversion Hy; subst y.
        destruct Htag as [H|[H|[[n0 [r0 [rd0 [H1 [H2 [H3 _]]]]]]|[n0 [H1 [H2 H3]]]]]]; congruence.
    - apply (oinv_caller _ _ _ c x _ HI Ex); simpl; auto; lia.
  Qed.

  Theorem ostep_inv : forall st l st', OInv st -> ostep st l = Some st' -> OInv st'.
  Proof.
    intros st l st' HI Hstep. destruct l as [r|r|r c|r b|r closed pos|b b'|b|r c b|c|c|c v|src c].
    - (* PEnd *)
      destruct st as [h rds hl]. inversion Hstep; subst st'. apply (oinv_held _ _ _ _ HI).
      intros b v Hb Hv. apply in_drop_win in Hb. apply (o_held _ HI); tauto.
    - exact (release_inv _ _ _ HI Hstep).
    - exact (load_inv _ _ _ _ HI Hstep).
    - exact (collect_inv _ _ _ _ HI Hstep).
    - (* PSetReader *)
      destruct st as [h rds hl]. simpl in Hstep.
      destruct (nth_error rds r) as [rd|] eqn:Er; [|discriminate].
      destruct (rpage rd) as [c0|] eqn:Ep; [discriminate|].
      inversion Hstep; subst st'. apply (oinv_reader _ _ _ r rd _ HI Er); auto.
    - exact (copy_inv _ _ _ _ HI Hstep).
    - (* PDrop *)
      destruct st as [h rds hl]. inversion Hstep; subst st'. apply (oinv_held _ _ _ _ HI).
      intros b0 v Hb Hv. apply in_drop_id in Hb. apply (o_held _ HI); auto.
    - exact (read_page_inv _ _ _ _ _ HI Hstep).
    - (* PRetain *)
      destruct st as [h rds hl]. unfold Ownership.ostep in Hstep; cbn [heap readers held] in Hstep.
      destruct (nth_error h c) as [x|] eqn:Ex; [|discriminate].
      destruct (ctag x) as [n| | |] eqn:Et; try discriminate.
      destruct (Nat.leb_spec 1 (ccaller x)) as [Hcc|]; [|discriminate].
      inversion Hstep; subst st'.
      destruct (cell_ok_caller x (o_cells _ HI c x Ex) Hcc) as [Et' Hno].
      apply (oinv_caller _ _ _ c x _ HI Ex Hcc); simpl; auto. congruence.
    - exact (release_caller_inv _ _ _ HI Hstep).
    - (* PChurn *)
      destruct st as [h rds hl]. simpl in Hstep.
      destruct (nth_error h c) as [x|] eqn:Ex; [|discriminate].
      destruct (ctag x) eqn:Et; try discriminate.
      inversion Hstep; subst st'.
      apply (oinv_overwrite_unref _ _ _ c _ _ HI (set_nth_upd h c _ x Ex)); [left; eauto| |reflexivity].
      unfold cell_ok; simpl; auto.
    - (* PWrite *)
      destruct st as [h rds hl]. simpl in Hstep.
      destruct (nth_error h src) as [xs|]; [|discriminate].
      destruct (ctag xs); try discriminate.
      destruct (is_pooled_or_fresh h c) eqn:Epf; [|discriminate].
      inversion Hstep; subst st'.
      apply (oinv_overwrite_unref _ _ _ c _ _ HI (put_cell_upd h c _ Epf));
        [exact (pooled_or_fresh_unreferenced h c Epf)| |reflexivity].
      unfold cell_ok; simpl; auto.
  Qed.

  Definition readers_ok (rds : list reader) : Prop :=
    forall r rd, nth_error rds r = Some rd -> rpage rd = None /\ (rbytes rd = true -> rdetach rd = true).

  Lemma init_oinv : forall rds, readers_ok rds -> OInv (mkO [] rds []).
  Proof.
    intros rds H. constructor; simpl.
    - intros c x Hx. destruct c; discriminate.
    - intros r rd c Hr Hp. destruct (H r rd Hr) as [H1 _]. congruence.
    - intros c x r Hx. destruct c; discriminate.
    - intros r rd Hr. apply (H r rd Hr).
    - intros b v [].
  Qed.

  Lemma oinit_ok : forall n, readers_ok (readers (oinit n true)).
  Proof.
    intros n r rd Hr. simpl in Hr. apply nth_error_In in Hr. apply repeat_spec in Hr. subst rd. simpl. auto.
  Qed.

  Definition not_dangling (st : ostate) (v : value) : Prop :=
    forall c, vcell v = Some c ->
      exists x, nth_error (heap st) c = Some x /\ cval x = vsnap v /\
                (ctag x = TCaller \/ ctag x = TDetached \/ exists n, ctag x = TLive n /\ 1 <= n).

  Lemma oinv_not_dangling : forall st b v,
    OInv st -> In b (held st) -> In v (bvals b) -> not_dangling st v.
  Proof.
    intros st b v HI Hb Hv c Hc. destruct (o_held st HI b v Hb Hv c Hc) as [x [Hx [Hval Htag]]].
    exists x. split; auto. split; auto.
    pose proof (o_cells st HI c x Hx) as Hok. unfold cell_ok in Hok.
    destruct Htag as [H|[H|[[n [r [rd [H1 _]]]]|[n [H1 _]]]]]; auto;
      right; right; exists n; rewrite H1 in Hok; split; auto; tauto.
  Qed.

  (** C16, every history of primitives (hence every history of API calls,
      seeks, closes, clones, typed reads and any amount of pool churn): each
      value of each batch the caller is still entitled to references a cell
      that is caller memory, detached, or a live retained buffer, and that cell
      holds the content the value had when it was handed out. *)
  Theorem no_dangling : forall rds ps st b v,
    readers_ok rds ->
    run ostep (mkO [] rds []) ps = Some st ->
    In b (held st) -> In v (bvals b) -> not_dangling st v.
  Proof.
    intros rds ps st b v Hr Hrun Hb Hv.
    apply (oinv_not_dangling st b v); auto.
    exact (invariant_always _ _ ostep OInv _ (init_oinv rds Hr) ostep_inv _ _ Hrun).
  Qed.

  (** pool churn cannot change what an entitled value reads *)
  Theorem churn_preserves_values : forall st c w st' b v c0 x,
    OInv st -> ostep st (PChurn c w) = Some st' ->
    In b (held st) -> In v (bvals b) -> vcell v = Some c0 ->
    nth_error (heap st) c0 = Some x -> nth_error (heap st') c0 = Some x.
  Proof.
    intros [h rds hl] c w st' b v c0 x HI Hs Hb Hv Hc Hx; simpl in *.
    destruct (nth_error h c) as [y|] eqn:Ey; [|discriminate].
    destruct (ctag y) eqn:Et; try discriminate.
    inversion Hs; subst st'; simpl.
    rewrite (set_nth_upd h c _ y Ey c0).
    destruct (Nat.eqb_spec c0 c) as [->|Hne]; auto.
    exfalso. apply (value_not_pooled h rds (bwin b) v c (o_held _ HI b v Hb Hv) Hc). left; eauto.
  Qed.

  (** no primitive — in particular no write path — changes a cell of the caller *)
  Theorem caller_cells_untouched : forall st l st' c x,
    OInv st -> ostep st l = Some st' ->
    nth_error (heap st) c = Some x -> ctag x = TCaller ->
    nth_error (heap st') c = Some x.
  Proof.
    intros [h rds hl] l st' c x HI Hstep Hx Ht.
    destruct HI as [Hcells Hpage Howner Hflags Hheld]; simpl in *.
    assert (Hput : forall c' x', is_pooled_or_fresh h c' = true -> nth_error (put_cell h c' x') c = Some x).
    { intros c' x' Hpf. rewrite (put_cell_upd h c' x' Hpf c).
      destruct (Nat.eqb_spec c c') as [->|Hne]; auto.
      destruct (pooled_or_fresh_spec h c' Hpf) as [[z [Hz Hzt]]|[Hn _]]; congruence. }
    assert (Hset : forall c' y x', nth_error h c' = Some y -> ctag y <> TCaller -> nth_error (set_nth c' x' h) c = Some x).
    { intros c' y x' Hy Hyt. rewrite (set_nth_upd h c' x' y Hy c).
      destruct (Nat.eqb_spec c c') as [->|Hne]; auto. congruence. }
    destruct l as [r|r|r c1|r b|r closed pos|b b'|b|r c1 b|c1|c1|c1 v|src c1];
      unfold Ownership.ostep in Hstep; cbn [heap readers held] in Hstep.
    - (* PEnd *)
      inversion Hstep; subst; auto.
    - (* PRelease *)
      destruct (nth_error rds r) as [rd|] eqn:Er; [|discriminate].
      destruct (rpage rd) as [c1|] eqn:Ep; [|discriminate].
      destruct (nth_error h c1) as [y|] eqn:Ey; [|discriminate].
      inversion Hstep; subst st'; simpl. eapply Hset; eauto.
      destruct (Hpage r rd c1 Er Ep) as [y0 [Hy0 Ho]]. rewrite Ey in Hy0; inversion Hy0; subst y0.
      destruct (cell_ok_owned y r (Hcells c1 y Ey) Ho); congruence.
    - (* PLoad *)
      destruct (nth_error rds r) as [rd|]; [|discriminate]. destruct (rpage rd); [discriminate|].
      destruct (negb (rclosed rd) && is_pooled_or_fresh h c1) eqn:Eg; [|discriminate].
      apply andb_true_iff in Eg. destruct Eg as [_ Epf]. inversion Hstep; subst st'; simpl. auto.
    - (* PCollect *)
      destruct (nth_error rds r) as [rd|]; [|discriminate]. destruct (rpage rd) as [c1|]; [|discriminate].
      destruct (nth_error h c1); [|discriminate]. inversion Hstep; subst; auto.
    - (* PSetReader *)
      destruct (nth_error rds r) as [rd|]; [|discriminate]. destruct (rpage rd); [discriminate|].
      inversion Hstep; subst; auto.
    - (* PCopy *)
      destruct (find_batch b hl) as [bt|] eqn:Ef; [|discriminate].
      destruct (copy_values h (bvals bt)) as [h' vs'] eqn:Ec.
      inversion Hstep; subst st'; simpl.
      destruct (copy_values_spec _ _ _ _ Ec) as [[ext [Hext _]] _].
      { intros v c0 Hv Hc. destruct (Hheld bt v (find_batch_in _ _ _ Ef) Hv c0 Hc) as [y [Hy [Hval _]]]. eauto. }
      rewrite Hext. rewrite nth_error_app1; auto. apply nth_error_Some; congruence.
    - (* PDrop *)
      inversion Hstep; subst; auto.
    - (* PReadPage *)
      destruct (nth_error rds r) as [rd|]; [|discriminate].
      destruct (negb (rclosed rd) && is_pooled_or_fresh h c1) eqn:Eg; [|discriminate].
      apply andb_true_iff in Eg. destruct Eg as [_ Epf]. inversion Hstep; subst st'; simpl. auto.
    - (* PRetain *)
      destruct (nth_error h c1) as [y|] eqn:Ey; [|discriminate].
      destruct (ctag y) eqn:Et; try discriminate. destruct (Nat.leb 1 (ccaller y)); [|discriminate].
      inversion Hstep; subst st'; simpl. eapply Hset; eauto. congruence.
    - (* PReleaseC *)
      destruct (nth_error h c1) as [y|] eqn:Ey; [|discriminate].
      destruct (Nat.leb_spec 1 (ccaller y)) as [Hcc|]; [|discriminate].
      inversion Hstep; subst st'; simpl. eapply Hset; eauto.
      destruct (cell_ok_caller y (Hcells c1 y Ey) Hcc); congruence.
    - (* PChurn *)
      destruct (nth_error h c1) as [y|] eqn:Ey; [|discriminate].
      destruct (ctag y) eqn:Et; try discriminate.
      inversion Hstep; subst st'; simpl. eapply Hset; eauto. congruence.
    - (* PWrite *)
      destruct (nth_error h src) as [y|]; [|discriminate]. destruct (ctag y); try discriminate.
      destruct (is_pooled_or_fresh h c1) eqn:Epf; [|discriminate].
      inversion Hstep; subst st'; simpl. auto.
  Qed.

  (** ** the replay used by the oracle stays inside the invariant *)
  Lemma run_prims_inv : forall ps st, OInv st -> OInv (run_prims pagefun st ps).
  Proof.
    induction ps as [|p r IH]; intros st HI; simpl; auto.
    destruct (Ownership.ostep pagefun st p) as [st'|] eqn:E; [|auto].
    apply IH. eapply ostep_inv; eauto.
  Qed.

  Local Opaque run_prims.

  Lemma read_move_inv : forall cross st r b, OInv st -> OInv (read_move pagefun st r b cross).
  Proof.
    induction cross as [|n IH]; intros st r b HI; simpl; auto.
    apply IH. apply run_prims_inv. apply run_prims_inv. exact HI.
  Qed.

  Lemma read_rows_inv : forall st r b cross, OInv st -> OInv (read_rows pagefun st r b cross).
  Proof.
    intros st r b cross HI. unfold read_rows. apply read_move_inv.
    destruct (has_page (run_prims pagefun st [PEnd r]) r); apply run_prims_inv; apply run_prims_inv; exact HI.
  Qed.

  Lemma churn_all_inv : forall i st v, OInv st -> OInv (churn_all pagefun st v i).
  Proof.
    induction i as [|n IH]; intros st v HI; simpl; auto. apply IH. apply run_prims_inv. exact HI.
  Qed.

  Lemma do_op_inv : forall st i o, OInv st -> OInv (do_op pagefun st i o).
  Proof.
    intros st i o HI. destruct o; simpl.
    - apply read_rows_inv; auto.
    - apply run_prims_inv. apply read_rows_inv; auto.
    - destruct (find _ (held st)); [apply run_prims_inv|]; auto.
    - apply run_prims_inv; auto.
    - apply run_prims_inv; auto.
    - apply churn_all_inv; auto.
    - auto.
  Qed.

  Lemma oinv_state_ok : forall st, OInv st -> state_ok st = true.
  Proof.
    intros st HI. unfold state_ok. apply forallb_forall. intros b Hb.
    apply forallb_forall. intros v Hv. unfold value_ok.
    destruct (vcell v) as [c|] eqn:Ec; [|reflexivity].
    destruct (o_held st HI b v Hb Hv c Ec) as [x [Hx [Hval Htag]]]. rewrite Hx.
    rewrite Hval, Nat.eqb_refl. simpl.
    destruct Htag as [H|[H|[[n [r [rd [H1 _]]]]|[n [H1 _]]]]]; rewrite ?H, ?H1; reflexivity.
  Qed.

  Local Transparent run_prims.

  Theorem replay_all_ok : forall ops st i,
    OInv st -> Forall (fun p => snd p = true) (replay pagefun st i ops).
  Proof.
    induction ops as [|o r IH]; intros st i HI; simpl; constructor.
    - simpl. apply oinv_state_ok. apply do_op_inv; auto.
    - apply IH. apply do_op_inv; auto.
  Qed.
End Step.

(** ** the tags refine the states of the refcount protocol P1: a cell's unref
    is the automaton's unref (followed, at zero, by its put) *)
Definition tag_of_bstate (s : bstate) : option tag :=
  match s with
  | BLive true n => Some (TLive n)
  | BNew | BPooled | BZero => Some TPooled
  | _ => None
  end.

Lemma unref_refines_P1 : forall x n o k,
  ctag x = TLive (S n) ->
  exists s', buf_step (BLive true (S n)) EUnref = Some s' /\
             tag_of_bstate s' = Some (ctag (unref_cell x o k)) /\
             (n = 0 -> buf_step s' EPut = Some BPooled).
Proof.
  intros x n o k Ht. unfold unref_cell. rewrite Ht. destruct n as [|m]; simpl.
  - exists BZero. auto.
  - exists (BLive true (S m)). repeat split; auto. intros H; discriminate.
Qed.
