(** Proofs about P1: the trace checker decides its specification, and for
    ALL interleavings of any number of well-bracketed threads the refcount
    protocol is safe. *)
From Coq Require Import List Arith NArith Lia.
From PQ Require Import Conc.Sem Conc.SemProofs Conc.Refcount.
Import ListNotations.

Lemma check_buf_app : forall l1 l2 s,
  check_buf s (l1 ++ l2) =
  match check_buf s l1 with Some s' => check_buf s' l2 | None => None end.
Proof.
  induction l1 as [|e r IH]; intros l2 s; simpl; [reflexivity|].
  destruct (buf_step s e); [apply IH|reflexivity].
Qed.

Section Trace.
  Variable Id : Type.
  Variable eqb : Id -> Id -> bool.
  Hypothesis eqb_spec : forall a b, eqb a b = true <-> a = b.

  Lemma id_eqb_refl : forall a, eqb a a = true.
  Proof. intros a; apply eqb_spec; reflexivity. Qed.

  Lemma aget_adel_eq : forall m b, aget eqb (adel eqb m b) b = BNew.
  Proof.
    induction m as [|[k s] r IH]; intros b; simpl; [reflexivity|].
    destruct (eqb k b) eqn:E; [apply IH|]. simpl. rewrite E. apply IH.
  Qed.

  Lemma aget_adel_neq : forall m b b', b <> b' -> aget eqb (adel eqb m b) b' = aget eqb m b'.
  Proof.
    induction m as [|[k s] r IH]; intros b b' Hne; simpl; [reflexivity|].
    destruct (eqb k b) eqn:E.
    - apply eqb_spec in E; subst k. destruct (eqb b b') eqn:E2.
      + apply eqb_spec in E2; contradiction.
      + apply IH; auto.
    - simpl. destruct (eqb k b'); [reflexivity|apply IH; auto].
  Qed.

  Lemma aget_aset : forall m b s b',
    aget eqb (aset eqb m b s) b' = if eqb b b' then s else aget eqb m b'.
  Proof.
    intros m b s b'; unfold aset; simpl. destruct (eqb b b') eqn:E; [reflexivity|].
    apply aget_adel_neq. intros ->. rewrite id_eqb_refl in E; discriminate.
  Qed.

  Lemma proj_app : forall b l1 l2, proj eqb b (l1 ++ l2) = proj eqb b l1 ++ proj eqb b l2.
  Proof.
    intros b; induction l1 as [|[e k] r IH]; intros l2; simpl; [reflexivity|].
    destruct (eqb k b); simpl; rewrite IH; reflexivity.
  Qed.

  Lemma check_from_accept : forall tr m i m',
    check_from eqb m i tr = inl m' ->
    forall b, check_buf (aget eqb m b) (proj eqb b tr) = Some (aget eqb m' b).
  Proof.
    induction tr as [|[e k] r IH]; intros m i m' H b; simpl in *.
    - inversion H; reflexivity.
    - destruct (buf_step (aget eqb m k) e) as [s'|] eqn:E; [|discriminate].
      specialize (IH _ _ _ H b). rewrite aget_aset in IH.
      destruct (eqb k b) eqn:Ekb.
      + apply eqb_spec in Ekb; subst k. simpl. rewrite E. exact IH.
      + exact IH.
  Qed.

  Lemma check_from_reject : forall tr m i j s,
    check_from eqb m i tr = inr (j, s) ->
    exists b, check_buf (aget eqb m b) (proj eqb b tr) = None.
  Proof.
    induction tr as [|[e k] r IH]; intros m i j s H; simpl in *; [discriminate|].
    destruct (buf_step (aget eqb m k) e) as [s'|] eqn:E.
    - destruct (IH _ _ _ _ H) as [b Hb]. exists b. rewrite aget_aset in Hb.
      destruct (eqb k b) eqn:Ekb.
      + apply eqb_spec in Ekb; subst k. simpl. rewrite E. exact Hb.
      + exact Hb.
    - exists k. rewrite id_eqb_refl. simpl. rewrite E. reflexivity.
  Qed.

  (** the checker accepts exactly the traces whose per-buffer sequences are
      runs of the automaton *)
  Theorem check_trace_sound : forall tr m, check_trace eqb tr = inl m -> trace_ok eqb tr.
  Proof.
    intros tr m H b. exists (aget eqb m b).
    apply (check_from_accept tr [] 0%N m H b).
  Qed.

  Theorem check_trace_complete : forall tr, trace_ok eqb tr -> exists m, check_trace eqb tr = inl m.
  Proof.
    intros tr Hok. unfold check_trace. destruct (check_from eqb [] 0%N tr) as [m|[j s]] eqn:E.
    - exists m; reflexivity.
    - destruct (check_from_reject _ _ _ _ _ E) as [b Hb]. destruct (Hok b) as [s' Hs'].
      simpl in Hb. congruence.
  Qed.

  (* the index reported on rejection is the position of an event that the
     automaton of its buffer refuses after the events before it *)
  Lemma check_from_reject_index : forall tr m i j s,
    check_from eqb m i tr = inr (j, s) ->
    exists pre e b post, tr = pre ++ (e, b) :: post /\ j = (i + N.of_nat (length pre))%N /\
      (exists m', check_from eqb m i pre = inl m' /\ aget eqb m' b = s /\ buf_step s e = None).
  Proof.
    induction tr as [|[e k] r IH]; intros m i j s H; simpl in *; [discriminate|].
    destruct (buf_step (aget eqb m k) e) as [s'|] eqn:E.
    - destruct (IH _ _ _ _ H) as [pre [e' [b [post [Htr [Hj [m' [Hpre [Hs Hstep]]]]]]]]].
      exists ((e, k) :: pre), e', b, post. split; [simpl; rewrite Htr; reflexivity|].
      split; [simpl length; lia|]. exists m'. simpl. rewrite E. auto.
    - inversion H; subst. exists [], e, k, r. split; [reflexivity|]. split; [simpl; lia|].
      exists m. simpl. auto.
  Qed.
End Trace.

Definition nz (n : nat) : nat := match n with 0 => 0 | _ => 1 end.

Lemma nz_spec : forall n, (n = 0 /\ nz n = 0) \/ (1 <= n /\ nz n = 1).
Proof. intros [|n]; simpl; [left|right]; split; lia. Qed.

Definition npend_l (b : nat) (l : local) : nat :=
  match after_unref l with
  | Some (b', true) => if Nat.eqb b' b then 1 else 0
  | _ => 0
  end.

Definition rthread : Type := thread local act.
Definition npend (b : nat) (ts : list rthread) : nat := sum_map (fun th => npend_l b (fst th)) ts.
Definition theld (b : nat) (ts : list rthread) : nat := sum_map (fun th => held (fst th) b) ts.

(* a thread between the two halves of unref has the Release as next action *)
Definition twb (th : rthread) : Prop :=
  match after_unref (fst th) with
  | Some (b, _) => exists r, snd th = Release b :: r /\ wb (held (fst th)) r
  | None => wb (held (fst th)) (snd th)
  end.

Definition matches (c : rconfig) (b : nat) (s : bstate) : Prop :=
  match s with
  | BNew | BPooled => pool (fst c) b = 1
  | BLive true n => pool (fst c) b = 0 /\ rc (fst c) b = n /\ 1 <= n /\ npend b (snd c) = 0
  | BZero => pool (fst c) b = 0 /\ rc (fst c) b = 0 /\ npend b (snd c) = 1
  | _ => False
  end.

Definition invD (c : rconfig) (b : nat) : Prop :=
  exists st, check_buf BNew (proj Nat.eqb b (trace (fst c))) = Some st /\ matches c b st.

Record Inv (c : rconfig) : Prop := mkInv {
  inv_A : forall b, pool (fst c) b + npend b (snd c) + nz (rc (fst c) b) = 1;
  inv_B : forall b, rc (fst c) b = theld b (snd c) + inflight (fst c) b;
  inv_C : forall t th, nth_error (snd c) t = Some th -> twb th;
  inv_D : forall b, invD c b
}.

Lemma upd_eq : forall f b v, upd f b v b = v.
Proof. intros; unfold upd; rewrite Nat.eqb_refl; reflexivity. Qed.

Lemma upd_neq : forall f b v b', b' <> b -> upd f b v b' = f b'.
Proof. intros; unfold upd. destruct (Nat.eqb_spec b' b); [contradiction|reflexivity]. Qed.

Lemma set_facts : forall (ts : list rthread) t l p l' p' b,
  nth_error ts t = Some (l, p) ->
  theld b (set_nth t (l', p') ts) + held l b = theld b ts + held l' b /\
  npend b (set_nth t (l', p') ts) + npend_l b l = npend b ts + npend_l b l'.
Proof.
  intros ts t l p l' p' b H. split.
  - apply (sum_map_set_nth (fun th : rthread => held (fst th) b) t (l', p') (l, p) ts H).
  - apply (sum_map_set_nth (fun th : rthread => npend_l b (fst th)) t (l', p') (l, p) ts H).
Qed.

Lemma held_le_theld : forall (ts : list rthread) t l p b,
  nth_error ts t = Some (l, p) -> held l b <= theld b ts.
Proof.
  intros ts t l p b H.
  apply (sum_map_ge (fun th : rthread => held (fst th) b) ts t (l, p) H).
Qed.

Lemma npend_l_le : forall (ts : list rthread) t l p b,
  nth_error ts t = Some (l, p) -> npend_l b l <= npend b ts.
Proof.
  intros ts t l p b H.
  apply (sum_map_ge (fun th : rthread => npend_l b (fst th)) ts t (l, p) H).
Qed.

Lemma twb_head : forall l a rest, twb (l, a :: rest) -> (forall b, a <> Release b) ->
  after_unref l = None /\ wb (held l) (a :: rest).
Proof.
  intros l a rest H Ha. unfold twb in H; simpl in H.
  destruct (after_unref l) as [[b z]|]; [|auto].
  destruct H as [r [Hr _]]. inversion Hr; subst. destruct (Ha b); reflexivity.
Qed.

Lemma npend_set : forall (ts : list rthread) t l p l' p' b,
  nth_error ts t = Some (l, p) -> npend_l b l' = npend_l b l ->
  npend b (set_nth t (l', p') ts) = npend b ts.
Proof. intros ts t l p l' p' b H E. destruct (set_facts ts t l p l' p' b H) as [_ H2]. lia. Qed.

Lemma matches_frame : forall s ts s' ts' b st,
  pool s' b = pool s b -> rc s' b = rc s b -> npend b ts' = npend b ts ->
  matches (s, ts) b st -> matches (s', ts') b st.
Proof.
  intros s ts s' ts' b st Hp Hr Hn. unfold matches; simpl.
  destruct st as [| |[|] n| |]; rewrite ?Hp, ?Hr, ?Hn; auto.
Qed.

Lemma proj_snoc_neq : forall b b' e tr, b <> b' ->
  proj Nat.eqb b' (tr ++ [(e, b)]) = proj Nat.eqb b' tr.
Proof.
  intros b b' e tr Hne. rewrite proj_app. simpl.
  destruct (Nat.eqb_spec b b'); [contradiction|]. apply app_nil_r.
Qed.

Lemma proj_snoc_eq : forall b e tr,
  proj Nat.eqb b (tr ++ [(e, b)]) = proj Nat.eqb b tr ++ [e].
Proof. intros b e tr. rewrite proj_app. simpl. rewrite Nat.eqb_refl. reflexivity. Qed.

Lemma invD_frame : forall s (ts : list rthread) s' (ts' : list rthread) b,
  invD (s, ts) b -> proj Nat.eqb b (trace s') = proj Nat.eqb b (trace s) ->
  pool s' b = pool s b -> rc s' b = rc s b -> npend b ts' = npend b ts ->
  invD (s', ts') b.
Proof.
  intros s ts s' ts' b [st [Hc Hm]] Ht Hp Hr Hn. exists st. simpl in *. split.
  - rewrite Ht. exact Hc.
  - eapply matches_frame; eauto.
Qed.

Lemma invD_event : forall s s' (ts' : list rthread) b e st st',
  check_buf BNew (proj Nat.eqb b (trace s)) = Some st -> buf_step st e = Some st' ->
  trace s' = trace s ++ [(e, b)] -> matches (s', ts') b st' -> invD (s', ts') b.
Proof.
  intros s s' ts' b e st st' Hc Hs Ht Hm. exists st'. split; [|exact Hm]. simpl.
  rewrite Ht, proj_snoc_eq, check_buf_app, Hc. simpl. rewrite Hs. reflexivity.
Qed.

Lemma inv_at : forall s (ts : list rthread) t l p l' p' b,
  Inv (s, ts) -> nth_error ts t = Some (l, p) ->
  theld b (set_nth t (l', p') ts) + held l b = theld b ts + held l' b /\
  npend b (set_nth t (l', p') ts) + npend_l b l = npend b ts + npend_l b l' /\
  held l b <= theld b ts /\
  pool s b + npend b ts + nz (rc s b) = 1 /\ rc s b = theld b ts + inflight s b /\
  ((rc s b = 0 /\ nz (rc s b) = 0) \/ (1 <= rc s b /\ nz (rc s b) = 1)).
Proof.
  intros s ts t l p l' p' b HI Hn. destruct (set_facts ts t l p l' p' b Hn) as [H1 H2].
  repeat split; auto; [exact (held_le_theld ts t l p b Hn)|exact (inv_A _ HI b)|exact (inv_B _ HI b)|apply nz_spec].
Qed.

(* for the buffers other than [b] everything the invariant reads is unchanged *)
Lemma inv_act : forall s (ts : list rthread) t l p l' p' s' b,
  Inv (s, ts) -> nth_error ts t = Some (l, p) -> twb (l', p') ->
  (forall b', b' <> b ->
     pool s' b' = pool s b' /\ rc s' b' = rc s b' /\ inflight s' b' = inflight s b' /\
     held l' b' = held l b' /\ npend_l b' l' = npend_l b' l /\
     proj Nat.eqb b' (trace s') = proj Nat.eqb b' (trace s)) ->
  pool s' b + npend b (set_nth t (l', p') ts) + nz (rc s' b) = 1 ->
  rc s' b = theld b (set_nth t (l', p') ts) + inflight s' b ->
  invD (s', set_nth t (l', p') ts) b ->
  Inv (s', set_nth t (l', p') ts).
Proof.
  intros s ts t l p l' p' s' b [HA HB HC HD] Hn Hw Ho HAb HBb HDb. constructor; simpl in *.
  - intros b'. destruct (Nat.eq_dec b' b) as [->|Hne]; [exact HAb|].
    destruct (Ho b' Hne) as (Hp & Hr & _ & _ & Hnl & _).
    rewrite Hp, Hr, (npend_set ts t l p l' p' b' Hn Hnl). apply HA.
  - intros b'. destruct (Nat.eq_dec b' b) as [->|Hne]; [exact HBb|].
    destruct (Ho b' Hne) as (_ & Hr & Hf & Hh & _).
    destruct (set_facts ts t l p l' p' b' Hn) as [H1 _]. specialize (HB b'). lia.
  - apply (set_nth_all (fun _ => twb)); [exact Hw|]. intros t' y _. apply HC.
  - intros b'. destruct (Nat.eq_dec b' b) as [->|Hne]; [exact HDb|].
    destruct (Ho b' Hne) as (Hp & Hr & _ & _ & Hnl & Ht).
    apply (invD_frame s ts); auto. apply (npend_set ts t l p l' p' b' Hn Hnl).
Qed.

(* what the frame premise of [inv_act] comes to for the actions of [exec]:
   they touch the counters, the held references and the trace at [b] only *)
Ltac frame_at b :=
  let b' := fresh "b'" in let Hne := fresh "Hne" in
  intros b' Hne; simpl; unfold npend_l; simpl; rewrite ?upd_neq by exact Hne;
  repeat split; auto using proj_snoc_neq.

Section Actions.
  Variables (s : shared) (ts : list rthread) (t : nat) (l : local) (rest : list act) (b : nat).
  Variables (s' : shared) (l' : local).
  Hypothesis HI : Inv (s, ts).
  Let ts' := set_nth t (l', rest) ts.

  Lemma get_inv : nth_error ts t = Some (l, Get b :: rest) -> exec s l (Get b) = Some (s', l') -> Inv (s', ts').
  Proof.
    intros Hn He. subst ts'. unfold exec in He.
    destruct (inv_at s ts t l _ l' rest b HI Hn) as (Hth & Hnp & Hle & HAb & HBb & Hnz).
    destruct (twb_head _ _ _ (inv_C _ HI t _ Hn) ltac:(discriminate)) as [Hau Hw]. simpl in Hw.
    destruct (Nat.leb_spec 1 (pool s b)) as [Hpool|]; [|discriminate]. injection He as <- <-.
    unfold npend_l in Hnp; simpl in Hth, Hnp. rewrite upd_eq in Hth.
    apply (inv_act s ts t l _ _ _ _ b HI Hn); [| frame_at b | | |]; simpl; rewrite ?upd_eq; simpl.
    - unfold twb; simpl. rewrite Hau. exact Hw.
    - lia.
    - lia.
    - destruct (inv_D _ HI b) as [st [Hc Hm]].
      apply (invD_event s _ _ b EGet st (BLive true 1) Hc); [|reflexivity|].
      + unfold matches in Hm; simpl in Hm.
        destruct st as [| |[|] n| |]; simpl; try reflexivity; try lia; try contradiction.
      + unfold matches; simpl. rewrite !upd_eq. lia.
  Qed.

  Lemma ref_inv : nth_error ts t = Some (l, Ref b :: rest) -> exec s l (Ref b) = Some (s', l') -> Inv (s', ts').
  Proof.
    intros Hn He. subst ts'.
    destruct (inv_at s ts t l _ l' rest b HI Hn) as (Hth & Hnp & Hle & HAb & HBb & Hnz).
    destruct (twb_head _ _ _ (inv_C _ HI t _ Hn) ltac:(discriminate)) as [Hau [Hh Hw]].
    injection He as <- <-. unfold npend_l in Hnp; simpl in Hth, Hnp. rewrite upd_eq in Hth.
    apply (inv_act s ts t l _ _ _ _ b HI Hn); [| frame_at b | | |]; simpl; rewrite ?upd_eq; simpl.
    - unfold twb; simpl. rewrite Hau. exact Hw.
    - lia.
    - lia.
    - destruct (inv_D _ HI b) as [st [Hc Hm]]. unfold matches in Hm; simpl in Hm.
      destruct st as [| |[|] n| |]; try lia; try contradiction.
      apply (invD_event s _ _ b ERef _ (BLive true (S n)) Hc); [reflexivity|reflexivity|].
      unfold matches; simpl. rewrite !upd_eq. lia.
  Qed.

  Lemma unref_inv : nth_error ts t = Some (l, Unref b :: rest) -> exec s l (Unref b) = Some (s', l') -> Inv (s', ts').
  Proof.
    intros Hn He. subst ts'.
    destruct (inv_at s ts t l _ l' rest b HI Hn) as (Hth & Hnp & Hle & HAb & HBb & Hnz).
    destruct (twb_head _ _ _ (inv_C _ HI t _ Hn) ltac:(discriminate)) as [Hau Hw].
    destruct rest as [|[b1|b1|b1|b1|b1|b1|b1] rest']; simpl in Hw; try contradiction.
    destruct Hw as [<- [Hh Hw]].
    injection He as <- <-. unfold npend_l in Hnp; simpl in Hth, Hnp. rewrite upd_eq in Hth.
    rewrite Hau, Nat.eqb_refl in Hnp.
    apply (inv_act s ts t l _ _ _ _ b HI Hn); [| | | |]; simpl; rewrite ?upd_eq.
    - unfold twb; simpl. exists rest'. split; [reflexivity|exact Hw].
    - intros b' Hne. simpl. unfold npend_l; simpl. rewrite Hau, ?upd_neq by exact Hne.
      repeat split; auto using proj_snoc_neq.
      destruct (Nat.eqb (rc s b - 1) 0); [|reflexivity]. destruct (Nat.eqb_spec b b'); [congruence|reflexivity].
    - destruct (Nat.eqb_spec (rc s b - 1) 0) as [E|E]; pose proof (nz_spec (rc s b - 1)); lia.
    - lia.
    - destruct (inv_D _ HI b) as [st [Hc Hm]]. unfold matches in Hm; simpl in Hm.
      destruct st as [| |[|] n| |]; try lia; try contradiction.
      destruct Hm as [Hp0 [Hrc [Hn1 Hnp0]]]. rewrite Hrc in Hnp.
      destruct n as [|[|m]]; [lia| |].
      + apply (invD_event s _ _ b EUnref _ BZero Hc); [reflexivity|reflexivity|].
        unfold matches; simpl. rewrite !upd_eq, Hrc. simpl in *. lia.
      + apply (invD_event s _ _ b EUnref _ (BLive true (S m)) Hc); [reflexivity|reflexivity|].
        unfold matches; simpl. rewrite !upd_eq, Hrc. simpl in *. lia.
  Qed.

  Lemma release_inv : nth_error ts t = Some (l, Release b :: rest) -> exec s l (Release b) = Some (s', l') -> Inv (s', ts').
  Proof.
    intros Hn He. subst ts'. unfold exec in He.
    destruct (inv_at s ts t l _ l' rest b HI Hn) as (Hth & Hnp & Hle & HAb & HBb & Hnz).
    pose proof (inv_C _ HI t _ Hn) as Hwb. unfold twb in Hwb; simpl in Hwb.
    destruct (after_unref l) as [[b0 z]|] eqn:Hau; [|contradiction].
    destruct Hwb as [r [Hr Hw]]. inversion Hr; subst b0 r; clear Hr.
    unfold npend_l in Hnp. rewrite Hau, Nat.eqb_refl in Hnp.
    assert (Hfr : forall b', b' <> b -> npend_l b' (mkLocal (held l) None) = npend_l b' l).
    { intros b' Hne. unfold npend_l; simpl. rewrite Hau. destruct z; [|reflexivity].
      destruct (Nat.eqb_spec b b'); [congruence|reflexivity]. }
    destruct z.
    - (* the thread saw 0: put *)
      rewrite Nat.eqb_refl in He. injection He as <- <-. simpl in Hth, Hnp.
      apply (inv_act s ts t l _ _ _ _ b HI Hn); [exact Hw| | | |]; simpl; rewrite ?upd_eq.
      + intros b' Hne. simpl. rewrite ?upd_neq by exact Hne. repeat split; auto using proj_snoc_neq.
      + lia.
      + lia.
      + destruct (inv_D _ HI b) as [st [Hc Hm]]. unfold matches in Hm; simpl in Hm.
        destruct st as [| |[|] n| |]; try lia; try contradiction.
        apply (invD_event s _ _ b EPut _ BPooled Hc); [reflexivity|reflexivity|].
        unfold matches; simpl. rewrite upd_eq. lia.
    - (* it did not: nothing to do *)
      injection He as <- <-. simpl in Hth, Hnp.
      apply (inv_act s ts t l _ _ _ _ b HI Hn); [exact Hw| | | |]; simpl.
      + intros b' Hne. repeat split; auto.
      + lia.
      + lia.
      + apply (invD_frame s ts); auto; [apply (inv_D _ HI)|simpl; lia].
  Qed.

  Lemma use_inv : nth_error ts t = Some (l, Use b :: rest) -> exec s l (Use b) = Some (s', l') -> Inv (s', ts').
  Proof.
    intros Hn He. subst ts'.
    destruct (inv_at s ts t l _ l' rest b HI Hn) as (Hth & Hnp & Hle & HAb & HBb & Hnz).
    destruct (twb_head _ _ _ (inv_C _ HI t _ Hn) ltac:(discriminate)) as [Hau [Hh Hw]].
    injection He as <- <-.
    apply (inv_act s ts t l _ _ _ _ b HI Hn); simpl.
    - unfold twb; simpl. rewrite Hau. exact Hw.
    - intros b' Hne. repeat split; auto.
    - lia.
    - lia.
    - apply (invD_frame s ts); auto; [apply (inv_D _ HI)|simpl; lia].
  Qed.

  Lemma send_inv : nth_error ts t = Some (l, Send b :: rest) -> exec s l (Send b) = Some (s', l') -> Inv (s', ts').
  Proof.
    intros Hn He. subst ts'.
    destruct (inv_at s ts t l _ l' rest b HI Hn) as (Hth & Hnp & Hle & HAb & HBb & Hnz).
    destruct (twb_head _ _ _ (inv_C _ HI t _ Hn) ltac:(discriminate)) as [Hau [Hh Hw]].
    injection He as <- <-. unfold npend_l in Hnp; simpl in Hth, Hnp. rewrite upd_eq in Hth.
    apply (inv_act s ts t l _ _ _ _ b HI Hn); [| frame_at b | | |]; simpl; rewrite ?upd_eq.
    - unfold twb; simpl. rewrite Hau. exact Hw.
    - lia.
    - lia.
    - apply (invD_frame s ts); auto; [apply (inv_D _ HI)|simpl; lia].
  Qed.

  Lemma recv_inv : nth_error ts t = Some (l, Recv b :: rest) -> exec s l (Recv b) = Some (s', l') -> Inv (s', ts').
  Proof.
    intros Hn He. subst ts'. unfold exec in He.
    destruct (inv_at s ts t l _ l' rest b HI Hn) as (Hth & Hnp & Hle & HAb & HBb & Hnz).
    destruct (twb_head _ _ _ (inv_C _ HI t _ Hn) ltac:(discriminate)) as [Hau Hw]. simpl in Hw.
    destruct (Nat.leb_spec 1 (inflight s b)) as [Hfl|]; [|discriminate]. injection He as <- <-.
    unfold npend_l in Hnp; simpl in Hth, Hnp. rewrite upd_eq in Hth.
    apply (inv_act s ts t l _ _ _ _ b HI Hn); [| frame_at b | | |]; simpl; rewrite ?upd_eq.
    - unfold twb; simpl. rewrite Hau. exact Hw.
    - lia.
    - lia.
    - apply (invD_frame s ts); auto; [apply (inv_D _ HI)|simpl; lia].
  Qed.
End Actions.

Theorem step_inv : forall c t c', Inv c -> rstep c t = Some c' -> Inv c'.
Proof.
  intros [s ts] t c' HI Hstep.
  destruct (tstep_some _ _ _ _ _ _ _ Hstep) as (l & a & rest & s' & l' & Hn & He & ->); simpl in *.
  destruct a as [b|b|b|b|b|b|b].
  - exact (get_inv _ _ _ _ _ _ _ _ HI Hn He).
  - exact (ref_inv _ _ _ _ _ _ _ _ HI Hn He).
  - exact (unref_inv _ _ _ _ _ _ _ _ HI Hn He).
  - exact (release_inv _ _ _ _ _ _ _ _ HI Hn He).
  - exact (use_inv _ _ _ _ _ _ _ _ HI Hn He).
  - exact (send_inv _ _ _ _ _ _ _ _ HI Hn He).
  - exact (recv_inv _ _ _ _ _ _ _ _ HI Hn He).
Qed.

Lemma init_inv : forall progs,
  Forall (wb (fun _ => 0)) progs -> Inv (init progs).
Proof.
  intros progs Hwb. unfold init.
  assert (Hz : forall (f : rthread -> nat), (forall p, f (local0, p) = 0) ->
               sum_map f (map (fun p => (local0, p)) progs) = 0).
  { intros f Hf. apply sum_map_zero. intros x Hin. apply in_map_iff in Hin.
    destruct Hin as [p [<- _]]. apply Hf. }
  constructor; simpl.
  - intros b. unfold npend. rewrite Hz; [reflexivity|]. intros p; reflexivity.
  - intros b. unfold theld. rewrite Hz; [reflexivity|]. intros p; reflexivity.
  - intros t th Hn. apply nth_error_In in Hn. apply in_map_iff in Hn.
    destruct Hn as [p [<- Hin]]. unfold twb; simpl.
    rewrite Forall_forall in Hwb. apply Hwb; exact Hin.
  - intros b. exists BNew. split; reflexivity.
Qed.

Definition next_ok (c : rconfig) (l : local) (a : act) : Prop :=
  match a with
  | Use b | Ref b | Unref b | Send b =>
      (* the acting thread holds a reference to a live buffer that is not in the pool *)
      pool (fst c) b = 0 /\ 1 <= rc (fst c) b /\ 1 <= held l b
  | Release b =>
      (* the buffer is put only when its count is 0 and nobody holds or carries a reference *)
      after_unref l = Some (b, true) ->
      rc (fst c) b = 0 /\ pool (fst c) b = 0 /\ theld b (snd c) = 0 /\ inflight (fst c) b = 0
  | Get _ | Recv _ => True
  end.

Definition safe (c : rconfig) : Prop :=
  (forall b, pool (fst c) b <= 1) /\
  (forall b, pool (fst c) b = 1 ->
     rc (fst c) b = 0 /\ theld b (snd c) = 0 /\ inflight (fst c) b = 0 /\ npend b (snd c) = 0) /\
  (forall t l a rest, nth_error (snd c) t = Some (l, a :: rest) -> next_ok c l a) /\
  trace_ok Nat.eqb (trace (fst c)).

Lemma inv_safe : forall c, Inv c -> safe c.
Proof.
  intros [s ts] [HA HB HC HD]; simpl in *. unfold safe; simpl.
  split; [|split; [|split]].
  - intros b. specialize (HA b). lia.
  - intros b Hp. specialize (HA b). specialize (HB b). pose proof (nz_spec (rc s b)). lia.
  - intros t l a rest Hn. pose proof (HC t _ Hn) as Hwb.
    assert (Hlive : forall b, 1 <= held l b -> pool s b = 0 /\ 1 <= rc s b /\ 1 <= held l b).
    { intros b Hh. pose proof (held_le_theld ts t l (a :: rest) b Hn). specialize (HA b). specialize (HB b).
      pose proof (nz_spec (rc s b)). lia. }
    destruct a as [b|b|b|b|b|b|b]; simpl; auto.
    + destruct (twb_head _ _ _ Hwb ltac:(discriminate)) as [_ [Hh _]]. auto.
    + destruct (twb_head _ _ _ Hwb ltac:(discriminate)) as [_ Hw].
      destruct rest as [|[b1|b1|b1|b1|b1|b1|b1] rest']; simpl in Hw; try contradiction.
      destruct Hw as [_ [Hh _]]. auto.
    + intros Hau. pose proof (npend_l_le ts t l _ b Hn) as Hnle. unfold npend_l in Hnle.
      rewrite Hau, Nat.eqb_refl in Hnle.
      specialize (HA b). specialize (HB b). pose proof (nz_spec (rc s b)). lia.
    + destruct (twb_head _ _ _ Hwb ltac:(discriminate)) as [_ [Hh _]]. auto.
    + destruct (twb_head _ _ _ Hwb ltac:(discriminate)) as [_ [Hh _]]. auto.
  - intros b. destruct (HD b) as [st [Hc _]]. exists st; exact Hc.
Qed.

(** P1, all interleavings: every configuration of every run of any number of
    well-bracketed threads is safe. *)
Theorem refcount_safe : forall progs sched c,
  Forall (wb (fun _ => 0)) progs ->
  run rstep (init progs) sched = Some c -> safe c.
Proof.
  intros progs sched c Hwb Hrun. apply inv_safe.
  exact (invariant_always _ _ rstep Inv _ (init_inv progs Hwb) step_inv _ _ Hrun).
Qed.

(** facts about the automaton the checker runs: a put is accepted only in the
    state reached by the unref that took a pooled buffer from one reference
    to none, and after it only a get is accepted *)
Lemma put_only_at_zero : forall s s', buf_step s EPut = Some s' -> s = BZero /\ s' = BPooled.
Proof. intros [| |p n| |] s' H; simpl in H; try discriminate. inversion H; auto. Qed.

Lemma zero_only_by_last_unref : forall s e, buf_step s e = Some BZero -> s = BLive true 1 /\ e = EUnref.
Proof.
  intros [| |p n| |] [| | |] H; simpl in H; try discriminate.
  destruct n as [|[|m]]; try discriminate. destruct p; inversion H. auto.
Qed.

Lemma pooled_only_get : forall e s', buf_step BPooled e = Some s' -> e = EGet /\ s' = BLive true 1.
Proof. intros [| | |] s' H; simpl in H; try discriminate. inversion H; auto. Qed.

Lemma count_never_negative : forall p e s', buf_step (BLive p 0) e = Some s' -> e = ERef.
Proof. intros p [| | |] s' H; simpl in H; try discriminate; reflexivity. Qed.
