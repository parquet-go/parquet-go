(** Proofs about P3 (asyncPages) for all interleavings of consumer and
    producer: the version check keeps the delivered pages in the sequence of
    the latest seek, and no configuration in which the consumer still wants
    something is a deadlock. *)
From Coq Require Import List Arith Bool Lia.
From PQ Require Import Conc.Sem Conc.SemProofs Conc.Async.
Import ListNotations.

Fixpoint hist_end (o i : nat) (h : list cev) : nat * nat :=
  match h with
  | [] => (o, i)
  | EvSeek k :: r => hist_end k 0 r
  | EvPage _ _ :: r => hist_end o (S i) r
  end.

Lemma hist_snoc_seek : forall h o i k,
  hist_ok o i h -> hist_ok o i (h ++ [EvSeek k]) /\ hist_end o i (h ++ [EvSeek k]) = (k, 0).
Proof.
  induction h as [|[k'|o' i'] r IH]; intros o i k H; simpl in *.
  - auto.
  - apply IH; auto.
  - destruct H as [-> [-> H]]. destruct (IH o (S i) k H) as [H1 H2]. auto.
Qed.

Lemma hist_snoc_page : forall h o i o' i',
  hist_ok o i h -> hist_end o i h = (o', i') ->
  hist_ok o i (h ++ [EvPage o' i']) /\ hist_end o i (h ++ [EvPage o' i']) = (o', S i').
Proof.
  induction h as [|[k'|o1 i1] r IH]; intros o i o' i' H He; simpl in *.
  - inversion He; subst. auto.
  - apply IH; auto.
  - destruct H as [-> [-> H]]. destruct (IH o (S i) o' i' H He) as [H1 H2]. auto.
Qed.

Lemma hist_okb_spec : forall h o i, hist_okb o i h = true <-> hist_ok o i h.
Proof.
  induction h as [|[k|o' i'] r IH]; intros o i; simpl.
  - tauto.
  - apply IH.
  - rewrite !andb_true_iff, !Nat.eqb_eq, IH. tauto.
Qed.

(* a_v1-a_v3: the producer's version never exceeds the consumer's; a seek in
   the channel, or about to be sent, is for the consumer's current version
   and origin, and no page of it has been delivered.
   a_v4: at equal versions the producer stands in the underlying pages where
   the consumer expects it - what the version check in ReadPage relies on.
   a_v5: the observed history is as specified and ends at the expected place.
   a_v6, a_v7, a_d1-a_d4: which channels are closed at which program counters
   (deadlock freedom); a_p3: a producer holding a page has no seek to serve. *)
Record AInv (st : astate) : Prop := mkAInv {
  a_v1 : pv (pr st) <= vc (co st);
  a_v2 : forall k v, seekch (ch st) = Some (k, v) ->
           v = vc (co st) /\ pv (pr st) < vc (co st) /\ k = exp_origin (gh st) /\ exp_idx (gh st) = 0;
  a_v3 : forall k, cp (co st) = CS1 k ->
           seekch (ch st) = None /\ pv (pr st) < vc (co st) /\ k = exp_origin (gh st) /\ exp_idx (gh st) = 0;
  a_v4 : pv (pr st) = vc (co st) -> done_closed (ch st) = false ->
         match pp (pr st) with
         | P0 | P1 => u_origin (pr st) = exp_origin (gh st) /\ u_next (pr st) = exp_idx (gh st)
         | P2 => match seek_row (pr st) with
                 | Some k => k = exp_origin (gh st) /\ exp_idx (gh st) = 0
                 | None => u_origin (pr st) = exp_origin (gh st) /\ u_next (pr st) = exp_idx (gh st)
                 end
         | P3 o i => o = exp_origin (gh st) /\ i = exp_idx (gh st) /\
                     u_origin (pr st) = exp_origin (gh st) /\ u_next (pr st) = S (exp_idx (gh st))
         | _ => True
         end;
  a_v5 : hist_ok 0 0 (hist (gh st)) /\
         hist_end 0 0 (hist (gh st)) = (exp_origin (gh st), exp_idx (gh st));
  a_v6 : done_closed (ch st) = true -> pp (pr st) <> PDone -> cp (co st) = CC2;
  a_v7 : read_closed (ch st) = true -> pp (pr st) = PDone;
  a_d1 : cp (co st) = CR1 -> init_closed (ch st) = true;
  a_d2 : cp (co st) = CC2 -> init_closed (ch st) = true /\ done_closed (ch st) = true;
  a_d3 : cp (co st) = CC1 -> init_closed (ch st) = true;
  a_p3 : forall o i, pp (pr st) = P3 o i -> seek_row (pr st) = None;
  a_d4 : pp (pr st) = PDone -> read_closed (ch st) = true
}.

Lemma ainit_inv : forall calls, AInv (ainit calls).
Proof.
  intros calls. constructor; simpl; auto; try discriminate; try (intros; discriminate).
Qed.

(* most fields are untouched by a step: try the hypothesis itself first *)
Ltac fin := simpl; try assumption; try (intros; discriminate); simpl in *; intuition (try congruence; try lia).

Lemma take_seek_inv : forall st k v,
  AInv st -> seekch (ch st) = Some (k, v) ->
  (pp (pr st) = P1 \/ exists o i, pp (pr st) = P3 o i) ->
  AInv (mkA (co st) (set_seekch (ch st) None) (take_seek (pr st) k v) (gh st)).
Proof.
  intros [[prog cp vc sn] [ic dc sc rc] [pp sr pv uo un] [eo ei hi]] k v
         [V1 V2 V3 V4 [V5a V5b] V6 V7 D1 D2 D3 PP3 D4] Hsc Hpp; simpl in *. subst sc.
  destruct (V2 k v eq_refl) as [Hv [Hlt [Hk He]]].
  constructor; simpl; auto; try (intros; discriminate); try lia.
  - intros k1 Hk1. destruct (V3 k1 Hk1) as [H _]. discriminate.
  - intros Hd Hp. apply V6; auto. destruct Hpp as [->|(o & i & ->)]; discriminate.
  - intros Hr. specialize (V7 Hr). subst pp. destruct Hpp as [H|(o & i & H)]; discriminate.
Qed.

Lemma cstep_inv : forall st st', AInv st -> cstep st = Some st' -> AInv st'.
Proof.
  intros [[prog cp vc sn] [ic dc sc rc] [pp sr pv uo un] [eo ei hi]] st'
         [V1 V2 V3 V4 [V5a V5b] V6 V7 D1 D2 D3 PP3 D4] Hstep; simpl in *.
  unfold cstep in Hstep; simpl in Hstep.
  destruct cp as [| |k| | |].
  - (* CIdle *)
    destruct prog as [|[|k|] rest]; [discriminate| | |].
    + inversion Hstep; subst st'; clear Hstep. constructor; fin.
    + destruct sn.
      * inversion Hstep; subst st'; clear Hstep. constructor; fin.
      * destruct (hist_snoc_seek hi 0 0 k V5a) as [Hh1 Hh2].
        destruct sc as [[k0 v0]|].
        -- inversion Hstep; subst st'; clear Hstep.
           destruct (V2 k0 v0 eq_refl) as [Hv [Hlt _]].
           constructor; simpl; auto; try (intros; discriminate); try lia.
           ++ intros k1 Hk; inversion Hk; subst. repeat split; auto.
           ++ intros Hd Hp. specialize (V6 Hd Hp). discriminate.
        -- inversion Hstep; subst st'; clear Hstep.
           constructor; simpl; auto; try (intros; discriminate); try lia.
           ++ intros k1 Hk; inversion Hk; subst. repeat split; auto. lia.
           ++ intros Hd Hp. specialize (V6 Hd Hp). discriminate.
    + inversion Hstep; subst st'; clear Hstep. constructor; fin.
  - (* CR1 *)
    destruct rc; [|discriminate].
    inversion Hstep; subst st'; clear Hstep. constructor; fin.
  - (* CS1 *)
    destruct sc as [x|]; [discriminate|].
    inversion Hstep; subst st'; clear Hstep.
    destruct (V3 k eq_refl) as [_ [Hlt [Hk He]]].
    constructor; simpl; auto; try (intros; discriminate); try lia.
    + intros k1 v1 H; inversion H; subst. auto.
    + intros Hd Hp. specialize (V6 Hd Hp). discriminate.
  - (* CS2 *)
    inversion Hstep; subst st'; clear Hstep. constructor; fin.
  - (* CC1 *)
    inversion Hstep; subst st'; clear Hstep. constructor; fin.
  - (* CC2 *)
    destruct rc; [|discriminate].
    inversion Hstep; subst st'; clear Hstep. constructor; fin.
Qed.

Lemma pstep_inv : forall st choice st', AInv st -> pstep st choice = Some st' -> AInv st'.
Proof.
  intros st choice st' HI Hstep. pose proof HI as HI0. revert HI Hstep.
  destruct st as [[prog cp vc sn] [ic dc sc rc] [pp sr pv uo un] [eo ei hi]].
  intros [V1 V2 V3 V4 [V5a V5b] V6 V7 D1 D2 D3 PP3 D4] Hstep; simpl in *.
  assert (Hrc : rc = false).
  { destruct rc; [|reflexivity]. specialize (V7 eq_refl). subst pp. simpl in Hstep. discriminate. }
  subst rc. unfold pstep in Hstep; simpl in Hstep.
  destruct pp as [| | |o i| | |].
  - (* P0 *)
    destruct choice.
    + destruct ic; [|discriminate]. inversion Hstep; subst st'; clear Hstep. constructor; fin.
    + destruct dc; [|discriminate]. inversion Hstep; subst st'; clear Hstep. constructor; fin.
  - (* P1 *)
    destruct sc as [[k v]|].
    + inversion Hstep; subst st'. apply (take_seek_inv _ k v HI0); simpl; auto.
    + inversion Hstep; subst st'; clear Hstep. constructor; fin.
  - (* P2 *)
    destruct sr as [k|].
    + inversion Hstep; subst st'; clear Hstep. constructor; fin.
    + inversion Hstep; subst st'; clear Hstep. constructor; fin.
  - (* P3 *)
    destruct choice as [|[|c2]].
    + (* send on read *)
      unfold crecv in Hstep; simpl in Hstep.
      destruct cp as [| |k| | |]; try discriminate.
      * (* consumer in ReadPage *)
        destruct (Nat.eqb_spec pv vc) as [Heq|Hne].
        -- inversion Hstep; subst st'; clear Hstep.
           assert (Hdc : dc = false).
           { destruct dc; [|reflexivity]. assert (CR1 = CC2) by (apply V6; auto; discriminate). discriminate. }
           subst dc. destruct (V4 Heq eq_refl) as [Ho [Hi [Huo Hun]]]. subst o i.
           destruct (hist_snoc_page hi 0 0 eo ei V5a V5b) as [Hh1 Hh2].
           assert (Hsc : sc = None).
           { destruct sc as [[k v]|]; [|reflexivity]. destruct (V2 k v eq_refl) as [_ [Hlt _]]. lia. }
           subst sc. rewrite (PP3 _ _ eq_refl).
           constructor; simpl; auto; try (intros; discriminate); try lia.
        -- inversion Hstep; subst st'; clear Hstep.
           constructor; simpl; auto; try (intros; discriminate); try lia.
           intros Hd Hp. apply V6; auto. discriminate.
      * (* consumer draining in Close *)
        inversion Hstep; subst st'; clear Hstep.
        destruct (D2 eq_refl) as [_ Hdc]. subst dc.
        constructor; simpl; auto; try (intros; discriminate); try lia.
    + (* take a seek *)
      destruct sc as [[k v]|]; [|discriminate].
      inversion Hstep; subst st'. apply (take_seek_inv _ k v HI0); simpl; eauto.
    + destruct dc; [|discriminate]. inversion Hstep; subst st'; clear Hstep. constructor; fin.
  - (* PExit *)
    unfold crecv in Hstep; simpl in Hstep.
    destruct cp as [| |k| | |]; try discriminate;
      inversion Hstep; subst st'; clear Hstep; constructor; fin.
  - (* PClose *)
    inversion Hstep; subst st'; clear Hstep. constructor; fin.
  - discriminate.
Qed.

Theorem astep_inv : forall st l st', AInv st -> astep st l = Some st' -> AInv st'.
Proof. intros st [|choice] st'; [apply cstep_inv|apply pstep_inv]. Qed.

Lemma reach_inv : forall calls, always astep (ainit calls) AInv.
Proof. intros calls. exact (invariant_always _ _ astep AInv _ (ainit_inv calls) astep_inv). Qed.

(** P3 safety, all interleavings: what the consumer observes is, after each
    SeekToRow(k), the sequence of pages starting at k, in order and without
    gaps (stale pages produced before the seek are never delivered). *)
Theorem async_versioned : forall calls sched st,
  run astep (ainit calls) sched = Some st -> hist_ok 0 0 (hist (gh st)).
Proof. intros calls sched st Hrun. apply (a_v5 st (reach_inv _ _ _ Hrun)). Qed.

(* every wait of the producer is for [init] (closed by now) or for a receiver on the read channel *)
Lemma producer_enabled : forall st,
  init_closed (ch st) = true -> cp (co st) = CR1 \/ cp (co st) = CC2 -> pp (pr st) <> PDone ->
  exists st', pstep st 0 = Some st'.
Proof.
  intros [[prog cp vc sn] [ic dc sc rc] [pp sr pv uo un] g]; simpl. intros -> Hcp Hpp.
  unfold pstep, crecv; simpl.
  destruct pp as [| | |o i| | |]; [eauto|destruct sc as [[a b]|]; eauto|destruct sr; eauto| | |eauto|congruence].
  - destruct Hcp as [-> | ->]; [destruct (Nat.eqb pv vc)|]; eauto.
  - destruct Hcp as [-> | ->]; eauto.
Qed.

(** P3 deadlock freedom: in every reachable configuration in which the
    consumer still has a call to make or to finish, some step is enabled. *)
Theorem async_no_deadlock : forall calls sched st,
  run astep (ainit calls) sched = Some st -> wants st ->
  exists l st', astep st l = Some st'.
Proof.
  intros calls sched st Hrun Hw. pose proof (reach_inv _ _ _ Hrun) as HI.
  destruct st as [[prog cp vc sn] [ic dc sc rc] [pp sr pv uo un] [eo ei hi]].
  destruct HI as [V1 V2 V3 V4 V5 V6 V7 D1 D2 D3 PP3 D4]; simpl in *.
  unfold wants in Hw; simpl in Hw.
  destruct cp as [| |k| | |].
  - (* between calls, a call remains *)
    destruct prog as [|[|k|] rest]; [destruct Hw; congruence| | |];
      exists LC; simpl; unfold cstep; simpl; eauto.
    destruct sn; eauto. destruct sc; eauto.
  - (* blocked in ReadPage *)
    destruct rc eqn:Erc; [exists LC; simpl; unfold cstep; simpl; eauto|].
    exists (LP 0). apply producer_enabled; simpl; auto.
    intros ->. specialize (D4 eq_refl). discriminate.
  - (* SeekToRow about to send: the channel is empty *)
    destruct (V3 k eq_refl) as [Hsc _]. subst sc.
    exists LC; simpl; unfold cstep; simpl; eauto.
  - exists LC; simpl; unfold cstep; simpl; eauto.
  - exists LC; simpl; unfold cstep; simpl; eauto.
  - (* Close draining *)
    destruct rc eqn:Erc; [exists LC; simpl; unfold cstep; simpl; eauto|].
    exists (LP 0). apply producer_enabled; simpl; [apply D2; reflexivity|auto|].
    intros ->. specialize (D4 eq_refl). discriminate.
Qed.
