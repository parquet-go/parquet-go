(** Proofs about P2 (lazy publication), for all interleavings of any number
    of callers. *)
From Coq Require Import List.
From PQ Require Import Conc.Sem Conc.SemProofs Conc.LazyPublish.
Import ListNotations.

Section Proofs.
  Variable V : Type.
  Variable pure : V.

  Notation obj := (obj V).
  Definition lthread : Type := thread (llocal V) lact.

  Definition good (r : option obj) : Prop := exists t, r = Some (t, pure).

  (** ** compare-and-swap publication (file.go) *)
  Definition stage_ok (p : option obj) (th : lthread) : Prop :=
    let l := fst th in
    match snd th with
    | [Load; Compute; Cas; Reload; Return] => True
    | [Compute; Cas; Reload; Return] =>
        seen l = None \/ (seen l = p /\ result l = p /\ p <> None)
    | [Cas; Reload; Return] =>
        (seen l = None /\ mine l = Some (me l, pure)) \/ (seen l = p /\ result l = p /\ p <> None)
    | [Reload; Return] =>
        (seen l = None /\ casok l = true /\ result l = p /\ p <> None) \/
        (seen l = None /\ casok l = false /\ p <> None) \/
        (seen l <> None /\ result l = p /\ p <> None)
    | [Return] => result l = p /\ p <> None
    | [] => True
    | _ => False
    end.

  Record LInv (c : lconfig V) : Prop := mkLInv {
    li_ptr : ptr (fst c) = None \/ good (ptr (fst c));
    li_threads : forall t th, nth_error (snd c) t = Some th -> stage_ok (ptr (fst c)) th;
    li_uses : forall t r, In (t, r) (uses (fst c)) -> r = ptr (fst c) /\ r <> None
  }.

  (* one constructor at a time: the impossible programs go at once *)
  Lemma stage_shapes : forall p l a rest, stage_ok p (l, a :: rest) ->
    (a = Load /\ rest = [Compute; Cas; Reload; Return]) \/
    (a = Compute /\ rest = [Cas; Reload; Return]) \/
    (a = Cas /\ rest = [Reload; Return]) \/
    (a = Reload /\ rest = [Return]) \/
    (a = Return /\ rest = []).
  Proof.
    intros p l a rest H. unfold stage_ok in H; simpl in H.
    destruct a; try contradiction;
      repeat (destruct rest as [|[] rest]; try contradiction); auto 10.
  Qed.

  (* every clause that mentions the pointer says it is set *)
  Lemma stage_stable : forall p p' th,
    stage_ok p th -> (p <> None -> p' = p) -> stage_ok p' th.
  Proof.
    intros p p' [l [|a rest]] H Hst; [exact I|].
    destruct (stage_shapes _ _ _ _ H) as [[-> ->]|[[-> ->]|[[-> ->]|[[-> ->]|[-> ->]]]]];
      unfold stage_ok in *; simpl in *.
    - exact I.
    - destruct H as [H|(H1 & H2 & H3)]; [left; exact H|right]. rewrite (Hst H3). auto.
    - destruct H as [H|(H1 & H2 & H3)]; [left; exact H|right]. rewrite (Hst H3). auto.
    - destruct H as [(H1 & H2 & H3 & H4)|[(H1 & H2 & H3)|(H1 & H2 & H3)]];
        rewrite (Hst ltac:(assumption)); auto 10.
    - destruct H as [H1 H2]. rewrite (Hst H2). auto.
  Qed.

  Definition shared_ok (s : lshared V) : Prop :=
    (ptr s = None \/ good (ptr s)) /\
    (forall t r, In (t, r) (uses s) -> r = ptr s /\ r <> None).

  Lemma lexec_stage : forall s l a rest s' l',
    shared_ok s -> stage_ok (ptr s) (l, a :: rest) -> lexec V pure s l a = Some (s', l') ->
    shared_ok s' /\ stage_ok (ptr s') (l', rest) /\ (ptr s <> None -> ptr s' = ptr s).
  Proof.
    intros s l a rest s' l' Hs Hst He. pose proof Hs as [Hp Hu].
    destruct (stage_shapes _ _ _ _ Hst) as [[-> ->]|[[-> ->]|[[-> ->]|[[-> ->]|[-> ->]]]]];
      unfold stage_ok in Hst |- *; simpl in Hst, He.
    - (* Load *)
      inversion He; subst; clear He. split; [exact Hs|]. split; [simpl|auto].
      destruct (ptr s') as [o|]; [right|left]; auto. repeat split; discriminate.
    - (* Compute *)
      destruct (seen l) eqn:Es; inversion He; subst; clear He;
        (split; [exact Hs|]); (split; [simpl|auto]); [|left; split; reflexivity].
      destruct Hst as [H|H]; [congruence|]. right. rewrite Es. exact H.
    - (* Cas *)
      destruct (seen l) eqn:Es.
      + inversion He; subst; clear He. split; [exact Hs|]. split; [simpl|auto].
        destruct Hst as [[H _]|(H1 & H2 & H3)]; [congruence|]. right; right. rewrite Es.
        repeat split; auto. discriminate.
      + destruct Hst as [[_ Hm]|[H1 [_ H3]]]; [|congruence].
        destruct (ptr s) as [o|] eqn:Ep; inversion He; subst; clear He.
        * (* lost the race *)
          split; [exact Hs|]. split; [simpl|auto]. right; left. rewrite Ep. repeat split; discriminate.
        * (* won it: nobody has returned yet *)
          split; [|split; [simpl|intros H; contradiction]].
          -- split; simpl; [right; exists (me l); exact Hm|].
             intros t r Hin. destruct (Hu t r Hin) as [H1 H2]. contradiction.
          -- left. rewrite Hm. repeat split; discriminate.
    - (* Reload *)
      destruct (seen l) eqn:Es; [|destruct (casok l) eqn:Ec]; inversion He; subst; clear He;
        (split; [exact Hs|]); (split; [simpl|auto]).
      + destruct Hst as [[H _]|[[H _]|[_ H]]]; try congruence; exact H.
      + destruct Hst as [(_ & _ & H)|[(_ & H & _)|[H _]]]; try congruence; exact H.
      + destruct Hst as [(_ & H & _)|[(_ & _ & H)|[H _]]]; try congruence; auto.
    - (* Return *)
      inversion He; subst; clear He. split; [|split; [exact I|auto]].
      split; [exact Hp|]. simpl. intros t r Hin.
      apply in_app_or in Hin; destruct Hin as [Hin|[Heq|[]]]; [exact (Hu _ _ Hin)|].
      inversion Heq; subst. destruct Hst; split; congruence.
  Qed.

  Theorem lstep_inv : forall c t c', LInv c -> lstep pure c t = Some c' -> LInv c'.
  Proof.
    intros c t c' [Hp Ht Hu] Hstep.
    destruct (threads_invariant _ _ _ (lexec V pure) shared_ok (fun s _ => stage_ok (ptr s)))
      with (2 := conj Hp Hu) (3 := Ht) (4 := Hstep) as [[Hp' Hu'] Ht']; [|constructor; assumption].
    intros s t0 l a rest s' l' HG HT He.
    destruct (lexec_stage _ _ _ _ _ _ HG HT He) as (HG' & HT' & Hst).
    split; [exact HG'|]. split; [exact HT'|].
    intros t' th _ H. exact (stage_stable _ _ _ H Hst).
  Qed.

  Lemma linit_inv : forall n, LInv (linit cas_prog n).
  Proof.
    intros n. constructor; simpl; auto.
    - intros t th H. apply nth_error_In in H. apply in_map_iff in H.
      destruct H as [k [<- _]]. exact I.
    - intros t r [].
  Qed.

  (** P2, compare-and-swap, all interleavings of [n] callers: whatever has
      been published is an object holding the pure value, allocated by one of
      the callers; every call that returned got exactly that one object (the
      same pointer for everybody, never nil). *)
  Theorem lazy_publish_agree : forall n sched c,
    run (lstep pure) (linit cas_prog n) sched = Some c ->
    (ptr (fst c) = None \/ good (ptr (fst c))) /\
    (forall t r, In (t, r) (uses (fst c)) -> r = ptr (fst c) /\ good r).
  Proof.
    intros n sched c Hrun.
    destruct (invariant_always _ _ _ LInv _ (linit_inv n) lstep_inv _ _ Hrun) as [Hp _ Hu].
    split; [exact Hp|].
    intros t r Hin. destruct (Hu t r Hin) as [H1 H2]. split; [exact H1|].
    destruct Hp as [Hp|Hp]; [congruence|]. rewrite H1; exact Hp.
  Qed.

  (** ** plain Store of an equal value (schema.go cacheMap.load) *)
  Definition sstage_ok (th : lthread) : Prop :=
    let l := fst th in
    match snd th with
    | [Load; Compute; StoreA; Return] => True
    | [Compute; StoreA; Return] => seen l = None \/ good (result l)
    | [StoreA; Return] =>
        (seen l = None /\ mine l = Some (me l, pure)) \/ (seen l <> None /\ good (result l))
    | [Return] => good (result l)
    | [] => True
    | _ => False
    end.

  Definition sshared_ok (s : lshared V) : Prop :=
    (ptr s = None \/ good (ptr s)) /\ (forall t r, In (t, r) (uses s) -> good r).

  Lemma sstage_shapes : forall l a rest, sstage_ok (l, a :: rest) ->
    (a = Load /\ rest = [Compute; StoreA; Return]) \/
    (a = Compute /\ rest = [StoreA; Return]) \/
    (a = StoreA /\ rest = [Return]) \/
    (a = Return /\ rest = []).
  Proof.
    intros l a rest H. unfold sstage_ok in H; simpl in H.
    destruct a; try contradiction;
      repeat (destruct rest as [|[] rest]; try contradiction); auto 10.
  Qed.

  Lemma sexec_stage : forall s l a rest s' l',
    sshared_ok s -> sstage_ok (l, a :: rest) -> lexec V pure s l a = Some (s', l') ->
    sshared_ok s' /\ sstage_ok (l', rest).
  Proof.
    intros s l a rest s' l' Hs Hst He. pose proof Hs as [Hp Hu].
    destruct (sstage_shapes _ _ _ Hst) as [[-> ->]|[[-> ->]|[[-> ->]|[-> ->]]]];
      unfold sstage_ok in Hst |- *; simpl in Hst, He.
    - (* Load *)
      inversion He; subst; clear He. split; [exact Hs|simpl].
      destruct (ptr s') as [o|]; [right|left]; auto. destruct Hp as [Hp|Hp]; [discriminate|exact Hp].
    - (* Compute *)
      destruct (seen l) eqn:Es; inversion He; subst; clear He; (split; [exact Hs|simpl]).
      + right. rewrite Es. split; [discriminate|]. destruct Hst as [H|H]; [discriminate|exact H].
      + left. split; reflexivity.
    - (* StoreA *)
      destruct (seen l) eqn:Es.
      + inversion He; subst; clear He. split; [exact Hs|simpl].
        destruct Hst as [[H _]|[_ H]]; [congruence|exact H].
      + destruct Hst as [[_ Hm]|[H _]]; [|congruence].
        assert (Hg : good (mine l)) by (exists (me l); exact Hm).
        inversion He; subst; clear He. split; [|exact Hg]. split; [right; exact Hg|exact Hu].
    - (* Return *)
      inversion He; subst; clear He. split; [|exact I]. split; [exact Hp|]. simpl. intros t r Hin.
      apply in_app_or in Hin; destruct Hin as [Hin|[Heq|[]]]; [exact (Hu _ _ Hin)|].
      inversion Heq; subst. exact Hst.
  Qed.

  Definition SInv (c : lconfig V) : Prop :=
    sshared_ok (fst c) /\ forall t th, nth_error (snd c) t = Some th -> sstage_ok th.

  Theorem sstep_inv : forall c t c', SInv c -> lstep pure c t = Some c' -> SInv c'.
  Proof.
    intros c t c' [HG HT] Hs.
    apply (threads_invariant _ _ _ (lexec V pure) sshared_ok (fun _ _ => sstage_ok))
      with (2 := HG) (3 := HT) (4 := Hs).
    intros s t0 l a rest s' l' HG0 HT0 He.
    destruct (sexec_stage _ _ _ _ _ _ HG0 HT0 He) as [HG' HT']. auto.
  Qed.

  Lemma sinit_inv : forall n, SInv (linit store_prog n).
  Proof.
    intros n. split; [split; simpl; [auto|intros t r []]|].
    intros t th H. apply nth_error_In in H. apply in_map_iff in H.
    destruct H as [k [<- _]]. exact I.
  Qed.
End Proofs.
