(** C16 — OWNERSHIP layer on top of the refcount protocol (P1).

    Memory cells (value buffers of pages, Go values, caller slices) carry a tag

        TLive rc    a pooled buffer with [rc] >= 1 references (buffer.go)
        TPooled     in a pool (after unref reached 0, or after a slice was
                    returned to the memory pools): its bytes may be overwritten
                    at any time by whoever gets it next (and ARE overwritten by
                    the poison hook)
        TDetached   bufferedPage.ReleaseAndDetachValues: never returned to a
                    pool, left to the garbage collector
        TCaller     memory of the caller: Go values filled by Read, clones
                    (Row.Clone), slices passed to Write

    and an abstract content [cval].  Values handed to the caller are
    (cell reference, content at hand-out) pairs; scalar parquet Values carry
    their bits inline ([vcell = None]).  The caller's ENTITLEMENT is the list
    [held]: batches of values with the window they are valid for.

    The transition system has PRIMITIVE labels (each a small heap update); the
    API calls of the property are sequences of primitives ([expand]):

      ReadRows on reader r  = PEnd r ; [PCollect r] ; (PRelease r ; PLoad r c ; PCollect r)*
        rowGroupRows.ReadRows: the batch holds values of the current page and of
        every page crossed during the call; a crossed page is released by
        columnChunkValueReader.clear — ReleaseAndDetachValues when [rdetach]
        (set for ByteArray / FixedLenByteArray columns, row_group.go), Release
        otherwise
      Seek / Close on r     = PEnd r ; PRelease r ; PSetReader r ...
      Row.Clone             = PCopy (type_byte_array / value.go copy the bytes)
      Read[T] / GenericReader.Read = ReadRows into an internal batch ; PCopy ;
        PEnd r, which drops the internal batch  (byteArrayType.AssignValue: string(v) and
        copyBytes(v) COPY the bytes out of page memory)
      Pages().ReadPage      = PReadPage (the caller owns one reference),
      Retain / Release      = PRetain / PReleaseC
      pool churn by other readers / writers / the poison hook = PChurn
      Write(rows)           = PWrite (reads caller cells, writes library cells)

    Executable; proofs in Conc/OwnershipProofs.v. *)
From Coq Require Import List Arith Bool.
From PQ Require Import Conc.Sem.
Import ListNotations.

Inductive tag : Type := TLive (rc : nat) | TPooled | TDetached | TCaller.

(* cowner (ghost): the reader holding one reference; ccaller (ghost): the
   references the caller holds (ReadPage / Retain) *)
Record cell : Type := mkCell { ctag : tag; cval : nat; cowner : option nat; ccaller : nat }.

Record reader : Type := mkReader {
  rpage : option nat;   (* cell of the current page's value buffer *)
  rdetach : bool;       (* columnChunkValueReader.detach *)
  rbytes : bool;        (* values reference page memory (byte array column) *)
  rclosed : bool;
  rpos : nat            (* number of the next page to load *)
}.

Inductive window : Type := WForever | WUntilNext (r : nat) | WWhileHeld (c : nat).

Record value : Type := mkValue { vcell : option nat; vsnap : nat }.
Record batch : Type := mkBatch { bid : nat; bwin : window; bvals : list value }.

Record ostate : Type := mkO { heap : list cell; readers : list reader; held : list batch }.

Inductive prim : Type :=
  | PEnd (r : nat)                    (* a new call on reader r: earlier rows of r are no longer valid *)
  | PRelease (r : nat)                (* reader r lets go of its current page *)
  | PLoad (r c : nat)                 (* reader r reads its next page into cell c (from the pool, or fresh) *)
  | PCollect (r b : nat)              (* the value of r's current page joins batch b (rows of r) *)
  | PSetReader (r : nat) (closed : bool) (pos : nat)
  | PCopy (b b' : nat)                (* copy the values of batch b into fresh caller memory: batch b' *)
  | PDrop (b : nat)                   (* the caller (or Read[T]) forgets batch b *)
  | PReadPage (r c b : nat)           (* ReadPage hands a page (cell c) to the caller; its value is batch b *)
  | PRetain (c : nat) | PReleaseC (c : nat)
  | PChurn (c v : nat)                (* somebody else got pooled cell c, wrote v, returned it *)
  | PWrite (src c : nat).             (* a writer reads caller cell src into library cell c *)

Definition poison : nat := 165.  (* 0xA5 *)

(* page contents used by the replay: distinct per reader and page *)
Definition default_pagefun (r p : nat) : nat := (r + 1) * 100 + p.

Definition is_pooled_or_fresh (h : list cell) (c : nat) : bool :=
  match nth_error h c with
  | Some x => match ctag x with TPooled => true | _ => false end
  | None => Nat.eqb c (length h)
  end.

(* store cell x at index c, appending when c = length h *)
Definition put_cell (h : list cell) (c : nat) (x : cell) : list cell :=
  if Nat.ltb c (length h) then set_nth c x h else h ++ [x].

Definition win_eqb (w1 w2 : window) : bool :=
  match w1, w2 with
  | WForever, WForever => true
  | WUntilNext a, WUntilNext b => Nat.eqb a b
  | WWhileHeld a, WWhileHeld b => Nat.eqb a b
  | _, _ => false
  end.

Definition drop_win (w : window) (l : list batch) : list batch :=
  filter (fun b => negb (win_eqb (bwin b) w)) l.

Definition drop_id (i : nat) (l : list batch) : list batch :=
  filter (fun b => negb (Nat.eqb (bid b) i)) l.

Fixpoint add_value (i : nat) (w : window) (v : value) (l : list batch) : list batch :=
  match l with
  | [] => [mkBatch i w [v]]
  | b :: r => if Nat.eqb (bid b) i && win_eqb (bwin b) w
              then mkBatch i w (bvals b ++ [v]) :: r
              else b :: add_value i w v r
  end.

Definition find_batch (i : nat) (l : list batch) : option batch :=
  find (fun b => Nat.eqb (bid b) i) l.

(* the unref half: one reference less; at 0 the buffer is pooled (and poisoned) *)
Definition unref_cell (x : cell) (owner' : option nat) (caller' : nat) : cell :=
  match ctag x with
  | TLive (S n) => if Nat.eqb n 0 then mkCell TPooled poison None 0
                   else mkCell (TLive n) (cval x) owner' caller'
  | _ => x
  end.

Section Step.
  (* content of page number p of reader r: a pure function of the file *)
  Variable pagefun : nat -> nat -> nat.

  (* copy values into fresh caller cells *)
  Fixpoint copy_values (h : list cell) (vs : list value) : list cell * list value :=
    match vs with
    | [] => (h, [])
    | v :: r =>
        match vcell v with
        | None => let (h', r') := copy_values h r in (h', v :: r')
        | Some c =>
            let now := match nth_error h c with Some x => cval x | None => 0 end in
            let h1 := h ++ [mkCell TCaller now None 0] in
            let (h', r') := copy_values h1 r in
            (h', mkValue (Some (length h)) (vsnap v) :: r')
        end
    end.

  Definition ostep (st : ostate) (l : prim) : option ostate :=
    let h := heap st in
    match l with
    | PEnd r => Some (mkO h (readers st) (drop_win (WUntilNext r) (held st)))
    | PRelease r =>
        match nth_error (readers st) r with
        | Some rd =>
            match rpage rd with
            | Some c =>
                match nth_error h c with
                | Some x =>
                    let x' := if rdetach rd then mkCell TDetached (cval x) None 0
                              else unref_cell x None (ccaller x) in
                    Some (mkO (set_nth c x' h)
                              (set_nth r (mkReader None (rdetach rd) (rbytes rd) (rclosed rd) (rpos rd)) (readers st))
                              (held st))
                | None => None
                end
            | None => None
            end
        | None => None
        end
    | PLoad r c =>
        match nth_error (readers st) r with
        | Some rd =>
            match rpage rd with
            | None =>
                if negb (rclosed rd) && is_pooled_or_fresh h c then
                  Some (mkO (put_cell h c (mkCell (TLive 1) (pagefun r (rpos rd)) (Some r) 0))
                            (set_nth r (mkReader (Some c) (rdetach rd) (rbytes rd) (rclosed rd) (S (rpos rd))) (readers st))
                            (held st))
                else None
            | Some _ => None
            end
        | None => None
        end
    | PCollect r b =>
        match nth_error (readers st) r with
        | Some rd =>
            match rpage rd with
            | Some c =>
                match nth_error h c with
                | Some x =>
                    let v := mkValue (if rbytes rd then Some c else None) (cval x) in
                    Some (mkO h (readers st) (add_value b (WUntilNext r) v (held st)))
                | None => None
                end
            | None => None
            end
        | None => None
        end
    | PSetReader r closed pos =>
        match nth_error (readers st) r with
        | Some rd =>
            match rpage rd with
            | None => Some (mkO h (set_nth r (mkReader None (rdetach rd) (rbytes rd) (rclosed rd || closed) pos) (readers st)) (held st))
            | Some _ => None
            end
        | None => None
        end
    | PCopy b b' =>
        match find_batch b (held st) with
        | Some bt =>
            let (h', vs') := copy_values h (bvals bt) in
            Some (mkO h' (readers st) (held st ++ [mkBatch b' WForever vs']))
        | None => None
        end
    | PDrop b => Some (mkO h (readers st) (drop_id b (held st)))
    | PReadPage r c b =>
        match nth_error (readers st) r with
        | Some rd =>
            if negb (rclosed rd) && is_pooled_or_fresh h c then
              let content := pagefun r (rpos rd) in
              Some (mkO (put_cell h c (mkCell (TLive 1) content None 1))
                        (set_nth r (mkReader (rpage rd) (rdetach rd) (rbytes rd) (rclosed rd) (S (rpos rd))) (readers st))
                        (held st ++ [mkBatch b (WWhileHeld c) [mkValue (Some c) content]]))
            else None
        | None => None
        end
    | PRetain c =>
        match nth_error h c with
        | Some x =>
            match ctag x with
            | TLive n => if Nat.leb 1 (ccaller x)
                         then Some (mkO (set_nth c (mkCell (TLive (S n)) (cval x) (cowner x) (S (ccaller x))) h) (readers st) (held st))
                         else None
            | _ => None
            end
        | None => None
        end
    | PReleaseC c =>
        match nth_error h c with
        | Some x =>
            if Nat.leb 1 (ccaller x) then
              Some (mkO (set_nth c (unref_cell x (cowner x) (ccaller x - 1)) h) (readers st)
                        (if Nat.eqb (ccaller x) 1 then drop_win (WWhileHeld c) (held st) else held st))
            else None
        | None => None
        end
    | PChurn c v =>
        match nth_error h c with
        | Some x => match ctag x with
                    | TPooled => Some (mkO (set_nth c (mkCell TPooled v None 0) h) (readers st) (held st))
                    | _ => None
                    end
        | None => None
        end
    | PWrite src c =>
        match nth_error h src with
        | Some x =>
            match ctag x with
            | TCaller =>
                if is_pooled_or_fresh h c
                then Some (mkO (put_cell h c (mkCell TPooled (cval x) None 0)) (readers st) (held st))
                else None
            | _ => None
            end
        | None => None
        end
    end.

  (** ** the API calls as sequences of primitives (for the replay) *)
  Definition pick_cell (st : ostate) : nat :=
    (fix go (h : list cell) (i : nat) : nat :=
       match h with
       | [] => i
       | x :: r => match ctag x with TPooled => i | _ => go r (S i) end
       end) (heap st) 0.

  Inductive op : Type :=
    | OReadRows (r cross : nat)     (* ReadRows crossing [cross] page boundaries *)
    | OReadTyped (r cross : nat)    (* Read[T] / GenericReader.Read *)
    | OClone (r : nat)              (* Row.Clone of the rows last returned by reader r *)
    | OSeek (r pos : nat) | OClose (r : nat)
    | OChurn (v : nat)              (* every pooled cell is overwritten with v *)
    | OGC.

  (* run a list of primitives, skipping those not enabled *)
  Fixpoint run_prims (st : ostate) (ps : list prim) : ostate :=
    match ps with
    | [] => st
    | p :: r => match ostep st p with Some st' => run_prims st' r | None => run_prims st r end
    end.

  Definition has_page (st : ostate) (r : nat) : bool :=
    match nth_error (readers st) r with
    | Some rd => match rpage rd with Some _ => true | None => false end
    | None => false
    end.

  (* movement of ReadRows: values of the current page, then cross pages *)
  Fixpoint read_move (st : ostate) (r b cross : nat) : ostate :=
    match cross with
    | 0 => st
    | S n =>
        let st1 := run_prims st [PRelease r] in
        let st2 := run_prims st1 [PLoad r (pick_cell st1); PCollect r b] in
        read_move st2 r b n
    end.

  Definition read_rows (st : ostate) (r b cross : nat) : ostate :=
    let st0 := run_prims st [PEnd r] in
    let st1 := if has_page st0 r then run_prims st0 [PCollect r b]
               else run_prims st0 [PLoad r (pick_cell st0); PCollect r b] in
    read_move st1 r b cross.

  Fixpoint churn_all (st : ostate) (v : nat) (i : nat) : ostate :=
    match i with
    | 0 => st
    | S n => churn_all (run_prims st [PChurn n v]) v n
    end.

  (* [i] = number of the operation = id of the batch it hands out; internal
     batches of typed reads use ids >= 1000 *)
  Definition do_op (st : ostate) (i : nat) (o : op) : ostate :=
    match o with
    | OReadRows r cross => read_rows st r i cross
    | OReadTyped r cross =>
        let tmp := 1000 + i in
        let st1 := read_rows st r tmp cross in
        run_prims st1 [PCopy tmp i; PEnd r]
    | OClone r =>
        match find (fun b => win_eqb (bwin b) (WUntilNext r)) (held st) with
        | Some bt => run_prims st [PCopy (bid bt) i]
        | None => st
        end
    | OSeek r pos => run_prims st [PEnd r; PRelease r; PSetReader r false pos]
    | OClose r => run_prims st [PEnd r; PRelease r; PSetReader r true 0]
    | OChurn v => churn_all st v (length (heap st))
    | OGC => st
    end.

  (* after each operation: the ids of the batches the caller is entitled to,
     and whether every entitled value still has its content *)
  Definition value_ok (h : list cell) (v : value) : bool :=
    match vcell v with
    | None => true
    | Some c => match nth_error h c with
                | Some x => Nat.eqb (cval x) (vsnap v) &&
                            match ctag x with TPooled => false | _ => true end
                | None => false
                end
    end.

  Definition state_ok (st : ostate) : bool :=
    forallb (fun b => forallb (value_ok (heap st)) (bvals b)) (held st).

  Fixpoint replay (st : ostate) (i : nat) (ops : list op) : list (list nat * bool) :=
    match ops with
    | [] => []
    | o :: r =>
        let st' := do_op st i o in
        (map bid (held st'), state_ok st') :: replay st' (S i) r
    end.

  (* [n] readers of byte array columns (detach set, as row_group.go does) *)
  Definition oinit (n : nat) (detach : bool) : ostate :=
    mkO [] (repeat (mkReader None detach true false 0) n) [].
End Step.
