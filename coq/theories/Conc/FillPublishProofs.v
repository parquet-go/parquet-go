(** Proofs about Conc/FillPublish.v: with [fill_then_store], for any number of
    callers and every interleaving, every caller finds ALL the fields in the
    entry it uses (its own, or the one it loaded from the cache). *)
From Coq Require Import List Arith Lia.
From PQ Require Import Conc.Sem Conc.SemProofs Conc.FillPublish.
Import ListNotations.

Section Fill.
  Variable n : nat.

  Notation fthread := (flocal * list fact)%type.

  Definition complete (h : list nat) (e : nat) : Prop := nth_error h e = Some n.

  Definition loaded_ok (h : list nat) (l : flocal) : Prop :=
    forall e, fentry l = Some e -> complete h e.

  Definition tail_k (k : nat) : list fact := repeat FFill (n - k) ++ [FStore; FUse].

  Definition filled (h : list nat) (l : flocal) (k : nat) : Prop :=
    (fentry l = None /\ falloc l = true /\ nth_error h (fme l) = Some k)
    \/ (fentry l <> None /\ falloc l = false).

  Definition stage_ok (h : list nat) (th : fthread) : Prop :=
    let (l, p) := th in
    (p = fill_then_store n /\ falloc l = false /\ nth_error h (fme l) = Some 0)
    \/ (p = FAlloc :: tail_k 0 /\ falloc l = false /\ nth_error h (fme l) = Some 0 /\ loaded_ok h l)
    \/ (exists k, k <= n /\ p = tail_k k /\ loaded_ok h l /\ filled h l k)
    \/ (p = [FUse] /\ loaded_ok h l /\ (fentry l = None -> complete h (fme l)))
    \/ p = [].

  Definition fshared_ok (s : fshared) : Prop :=
    (forall e, fcache s = Some e -> complete (fheap s) e) /\
    (forall t k, In (t, k) (fseen s) -> k = n).

  Definition fthread_ok (s : fshared) (t : nat) (th : fthread) : Prop :=
    fme (fst th) = t /\ stage_ok (fheap s) th.

  Definition FInv (c : fconfig) : Prop :=
    fshared_ok (fst c) /\ forall t th, nth_error (snd c) t = Some th -> fthread_ok (fst c) t th.

  Lemma tail_k_n : tail_k n = [FStore; FUse].
  Proof. unfold tail_k. rewrite Nat.sub_diag. reflexivity. Qed.

  Lemma tail_k_lt : forall k, k < n -> tail_k k = FFill :: tail_k (S k).
  Proof.
    intros k H. unfold tail_k. replace (n - k) with (S (n - S k)) by lia. reflexivity.
  Qed.

  Lemma stage_head : forall h l a rest, stage_ok h (l, a :: rest) ->
    match a with
    | FLoad => rest = FAlloc :: tail_k 0 /\ falloc l = false /\ nth_error h (fme l) = Some 0
    | FAlloc => rest = tail_k 0 /\ falloc l = false /\ nth_error h (fme l) = Some 0 /\ loaded_ok h l
    | FFill => exists k, k < n /\ rest = tail_k (S k) /\ loaded_ok h l /\ filled h l k
    | FStore => rest = [FUse] /\ loaded_ok h l /\ filled h l n
    | FUse => rest = [] /\ loaded_ok h l /\ (fentry l = None -> complete h (fme l))
    end.
  Proof.
    intros h l a rest H.
    destruct H as [(Hp & Ha & H0)|[(Hp & Ha & H0 & Hl)|[(k & Hk & Hp & Hl & Hc)|[(Hp & Hl & Hc)|Hp]]]].
    - injection Hp as -> ->. unfold tail_k. rewrite Nat.sub_0_r. auto.
    - injection Hp as -> ->. auto.
    - destruct (Nat.eq_dec k n) as [->|Hne].
      + rewrite tail_k_n in Hp. injection Hp as -> ->. auto.
      + rewrite tail_k_lt in Hp by lia. injection Hp as -> ->. exists k. repeat split; auto. lia.
    - injection Hp as -> ->. auto.
    - discriminate.
  Qed.

  Lemma complete_set : forall h t v k e,
    nth_error h t = Some k -> k <> n \/ v = k -> complete h e -> complete (set_nth t v h) e.
  Proof.
    intros h t v k e Ht Hk He. unfold complete in *. destruct (Nat.eq_dec t e) as [->|Hte].
    - rewrite Ht in He. inversion He; subst. destruct Hk as [Hk| ->]; [congruence|].
      rewrite set_nth_same; auto.
    - rewrite nth_error_set_nth_neq; auto.
  Qed.

  Lemma stage_other : forall h t v k (th : fthread),
    nth_error h t = Some k -> (k <> n \/ v = k) -> fme (fst th) <> t ->
    stage_ok h th -> stage_ok (set_nth t v h) th.
  Proof.
    intros h t v k [l p] Ht Hk Hne H. simpl in Hne.
    assert (M : forall x, nth_error h (fme l) = Some x -> nth_error (set_nth t v h) (fme l) = Some x).
    { intros x Hx. rewrite nth_error_set_nth_neq; auto. }
    assert (L : loaded_ok h l -> loaded_ok (set_nth t v h) l).
    { intros Hl e He. apply (complete_set h t v k e Ht Hk). apply Hl. exact He. }
    unfold stage_ok in *.
    destruct H as [[Hp [Ha H0]]|[[Hp [Ha [H0 Hl]]]|[[k' [Hk' [Hp [Hl Hc]]]]|[[Hp [Hl Hc]]|Hp]]]].
    - left. auto.
    - right; left. auto.
    - right; right; left. exists k'. repeat split; auto.
      destruct Hc as [[He [Ha Hh]]|Hc]; [left|right]; auto.
    - right; right; right; left. repeat split; auto.
      intros He. apply (complete_set h t v k _ Ht Hk). auto.
    - right; right; right; right. exact Hp.
  Qed.

  Lemma fexec_stage : forall s t l a rest s' l',
    fshared_ok s -> fthread_ok s t (l, a :: rest) -> fexec s l a = Some (s', l') ->
    fshared_ok s' /\ fthread_ok s' t (l', rest) /\
    forall t' th, t' <> t -> fthread_ok s t' th -> fthread_ok s' t' th.
  Proof.
    intros s t l a rest s' l' Hs [Hme Hst] He. pose proof Hs as [HC HS]. simpl in Hme.
    apply stage_head in Hst. unfold fthread_ok, fshared_ok.
    destruct a; simpl in He.
    - (* FLoad *)
      destruct Hst as (-> & Ha & H0). inversion He; subst s' l'; clear He; simpl.
      split; [exact Hs|]. split; [|auto]. split; [exact Hme|]. right; left. auto.
    - (* FAlloc *)
      destruct Hst as (-> & Ha & H0 & Hl).
      assert (HH : set_nth (fme l) 0 (fheap s) = fheap s) by (apply set_nth_same; exact H0).
      destruct (fentry l) as [e|] eqn:Ee; inversion He; subst s' l'; clear He; simpl; rewrite ?HH;
        (split; [exact Hs|]); (split; [|auto]); (split; [exact Hme|]);
        right; right; left; exists 0; (split; [lia|]); (split; [reflexivity|]).
      + split; [exact Hl|]. right. split; [congruence|exact Ha].
      + split; [intros e He; discriminate|]. left. auto.
    - (* FFill *)
      destruct Hst as (k & Hk & -> & Hl & [(Hn & Ha & Hh)|(Hn & Ha)]); rewrite Ha in He;
        inversion He; subst s' l'; clear He; simpl.
      + (* one more field of the caller's own, unpublished entry *)
        rewrite (nth_error_nth _ _ 0 Hh).
        assert (Hk' : k <> n \/ S k = k) by (left; lia).
        split; [|split].
        * split; [|exact HS]. intros e He. apply (complete_set _ _ _ k e Hh Hk'). auto.
        * split; [exact Hme|]. right; right; left. exists (S k). split; [lia|]. split; [reflexivity|].
          split; [intros e He; congruence|]. left. repeat split; auto.
          apply nth_error_set_nth_eq. apply nth_error_Some. congruence.
        * intros t' th Hne [Hm Hst]. split; [exact Hm|].
          apply (stage_other _ _ _ k); auto. congruence.
      + split; [exact Hs|]. split; [|auto]. split; [exact Hme|].
        right; right; left. exists (S k). split; [lia|]. split; [reflexivity|]. split; [exact Hl|].
        right. auto.
    - (* FStore *)
      destruct Hst as (-> & Hl & [(Hn & Ha & Hh)|(Hn & Ha)]); rewrite Ha in He;
        inversion He; subst s' l'; clear He; simpl.
      + split; [|split; [|auto]].
        * split; [|exact HS]. intros e He. inversion He; subst. exact Hh.
        * split; [exact Hme|]. right; right; right; left. repeat split; auto.
      + split; [exact Hs|]. split; [|auto]. split; [exact Hme|].
        right; right; right; left. repeat split; auto. intros He; congruence.
    - (* FUse *)
      destruct Hst as (-> & Hl & Hc). inversion He; subst s' l'; clear He; simpl.
      split; [|split; [|auto]].
      + split; [exact HC|]. intros t' k' Hin. apply in_app_or in Hin. destruct Hin as [Hin|[Hin|[]]]; [eauto|].
        inversion Hin; subst. apply (nth_error_nth _ _ 0).
        destruct (fentry l) as [e|] eqn:Ee; [apply Hl; exact Ee|apply Hc; reflexivity].
      + split; [exact Hme|]. right; right; right; right. reflexivity.
  Qed.

  Theorem fstep_inv : forall c t c', FInv c -> fstep c t = Some c' -> FInv c'.
  Proof.
    intros c t c' [HG HT] Hs.
    exact (threads_invariant _ _ _ fexec fshared_ok fthread_ok fexec_stage c t c' HG HT Hs).
  Qed.

  Lemma finit_inv : forall w, FInv (finit (fill_then_store n) w).
  Proof.
    intros w. split; [split; simpl; [discriminate|intros t k []]|].
    intros t [l p] H. simpl in H.
    rewrite nth_error_map in H. destruct (nth_error (seq 0 w) t) as [x|] eqn:E; [|discriminate].
    inversion H; subst; clear H.
    assert (Hl : t < w).
    { rewrite <- (seq_length w 0). apply nth_error_Some. congruence. }
    rewrite (nth_error_nth' _ 0) in E by (rewrite seq_length; lia).
    rewrite seq_nth in E by lia. inversion E; subst x.
    split; [reflexivity|]. left. repeat split. simpl.
    rewrite (nth_error_nth' _ 0) by (rewrite repeat_length; lia).
    f_equal. apply nth_repeat.
  Qed.
End Fill.
