(** Proofs about Search/Model.v: Find never misses a page that contains the
    value, for every column index (null pages anywhere, overlapping, duplicate
    or truncated bounds) and every comparison that is a total preorder. *)
From Coq Require Import List ZArith Bool Arith Lia.
From PQ Require Import Base.Order Search.Model.
Import ListNotations.
Open Scope Z_scope.

Section Proofs.
  Variable V : Type.
  Variable cmp : V -> V -> Z.
  Hypothesis cmp_opp : forall a b, cmp a b < 0 <-> cmp b a > 0.
  Hypothesis cmp_trans : forall a b d, cmp a b <= 0 -> cmp b d <= 0 -> cmp a d <= 0.

  (* the comparator handed to Find agrees with [cmp] on non-null values and
     never puts null both below and above a value (true of both wrappers) *)
  Variable c : val V -> val V -> Z.
  Hypothesis c_nonnull : forall a b, c (Some a) (Some b) = cmp a b.
  Hypothesis c_null_excl : forall v, ~ (c None (Some v) <= 0 /\ c (Some v) None <= 0).

  Definition contains (idx : index V) (p : nat) (v : V) : Prop :=
    exists mn mx, nth_error idx p = Some (Some (mn, mx)) /\ cmp mn v <= 0 /\ cmp v mx <= 0.

  (* what an index that claims Ascending promises: over the non-null pages,
     mins and maxes are non-decreasing (null pages anywhere in between) *)
  Definition ascending_nonnull (idx : index V) : Prop :=
    forall i j mi xi mj xj, (i < j)%nat ->
      nth_error idx i = Some (Some (mi, xi)) ->
      nth_error idx j = Some (Some (mj, xj)) ->
      cmp mi mj <= 0 /\ cmp xi xj <= 0.

  Lemma contains_lt_length idx p v : contains idx p v -> (p < length idx)%nat.
  Proof.
    intros (mn & mx & H & _). apply nth_error_Some. rewrite H. discriminate.
  Qed.

  Lemma test_iff idx k v :
    (c (min_value idx k) (Some v) <=? 0) && (c (Some v) (max_value idx k) <=? 0) = true
    <-> contains idx k v.
  Proof.
    unfold min_value, max_value, contains.
    rewrite andb_true_iff, !Z.leb_le.
    destruct (nth_error idx k) as [[[mn mx]|]|] eqn:E.
    - rewrite !c_nonnull. split.
      + intros [H1 H2]. exists mn, mx. auto.
      + intros (mn' & mx' & H & H1 & H2). inversion H; subst. auto.
    - split.
      + intros H. exfalso. exact (c_null_excl v H).
      + intros (mn' & mx' & H & _). discriminate.
    - split.
      + intros H. exfalso. exact (c_null_excl v H).
      + intros (mn' & mx' & H & _). discriminate.
  Qed.

  Lemma linear_from_spec idx v ps : forall i,
    let r := linear_from V c idx (Some v) i ps in
    (i <= r <= i + length ps)%nat /\
    ((r < i + length ps)%nat -> contains idx r v) /\
    (forall k, (i <= k < r)%nat -> ~ contains idx k v).
  Proof.
    induction ps as [|p ps IH]; intros i; cbn [linear_from length].
    - split; [lia|split]; [intros; lia|intros k Hk; lia].
    - destruct ((c (min_value idx i) (Some v) <=? 0) && (c (Some v) (max_value idx i) <=? 0)) eqn:T.
      + split; [lia|split].
        * intros _. apply test_iff. exact T.
        * intros k Hk. lia.
      + specialize (IH (S i)). cbv zeta in IH. destruct IH as (Hr & Hc & Hn).
        split; [lia|split].
        * intros Hlt. apply Hc. lia.
        * intros k Hk Hcon.
          destruct (Nat.eq_dec k i) as [->|Hne].
          -- apply test_iff in Hcon. rewrite T in Hcon. discriminate.
          -- apply (Hn k); [lia|exact Hcon].
  Qed.

  Lemma linear_search_spec idx v :
    let r := linear_search c idx (Some v) in
    (r = length idx \/ contains idx r v) /\ (forall p, (p < r)%nat -> ~ contains idx p v).
  Proof.
    unfold linear_search. destruct (linear_from_spec idx v idx 0%nat) as (Hr & Hc & Hn). cbv zeta.
    split; [|intros p Hp; apply Hn; lia].
    destruct (Nat.eq_dec (linear_from V c idx (Some v) 0 idx) (length idx)) as [E|E];
      [left; exact E|right; apply Hc; lia].
  Qed.

  Lemma null_page_not_contains idx k v : null_page idx k = true -> ~ contains idx k v.
  Proof.
    unfold null_page. intros Hn (mn & mx & H & _). rewrite H in Hn. discriminate.
  Qed.

  Lemma skip_nulls_spec (idx : index V) top : forall fuel i,
    (i <= top)%nat -> (top - i <= fuel)%nat ->
    let r := skip_nulls idx fuel i top in
    (i <= r <= top)%nat /\
    (forall k, (i <= k < r)%nat -> null_page idx k = true) /\
    ((r < top)%nat -> null_page idx r = false).
  Proof.
    induction fuel as [|f IH]; intros i Hi Hf; cbn [skip_nulls].
    - assert (i = top) by lia. subst. split; [lia|split]; [intros k Hk; lia|intros; lia].
    - destruct (Nat.ltb_spec i top) as [Hlt|Hge]; cbn [andb].
      + destruct (null_page idx i) eqn:Np.
        * specialize (IH (S i) ltac:(lia) ltac:(lia)). cbv zeta in IH.
          destruct IH as (Hr & Hk & Hz). split; [lia|split].
          -- intros k Hkr. destruct (Nat.eq_dec k i) as [->|Hne]; [exact Np|].
             apply Hk. lia.
          -- exact Hz.
        * split; [lia|split]; [intros k Hk; lia|intros; exact Np].
      + split; [lia|split]; [intros k Hk; lia|intros; lia].
  Qed.

  Lemma nonnull_page (idx : index V) k : null_page idx k = false ->
    exists mn mx, nth_error idx k = Some (Some (mn, mx)).
  Proof.
    unfold null_page. destruct (nth_error idx k) as [[[mn mx]|]|]; try discriminate.
    intros _. exists mn, mx. reflexivity.
  Qed.

  Lemma ascending_le idx (Hasc : ascending_nonnull idx) i j mi xi mj xj : (i <= j)%nat ->
    nth_error idx i = Some (Some (mi, xi)) -> nth_error idx j = Some (Some (mj, xj)) ->
    cmp mi mj <= 0 /\ cmp xi xj <= 0.
  Proof.
    intros Hij Hi Hj. destruct (Nat.eq_dec i j) as [->|Hne]; [|apply (Hasc i j); auto; lia].
    rewrite Hi in Hj. injection Hj as <- <-. split; apply (cmp_refl_le _ _ cmp_opp).
  Qed.

  Lemma bsearch_spec idx v (Hasc : ascending_nonnull idx) : forall fuel cur top result,
    let n := length idx in
    (top - cur < fuel)%nat ->
    (cur <= top)%nat -> (top <= result)%nat -> (result <= n)%nat ->
    (forall p, (p < cur)%nat -> ~ contains idx p v) ->
    (forall p, (top <= p < result)%nat -> ~ contains idx p v) ->
    (result = n \/ contains idx result v) ->
    let r := bsearch V c fuel idx (Some v) cur top result in
    (r = n \/ contains idx r v) /\ (forall p, (p < r)%nat -> ~ contains idx p v).
  Proof.
    induction fuel as [|f IH]; intros cur top result n Hf Hct Htr Hrn I1 I2 I3;
      [lia|]. cbn [bsearch].
    destruct (Nat.ltb_spec cur top) as [Hlt|Hge].
    2:{ (* loop exit: cur = top *)
      cbv zeta. split; [exact I3|]. intros p Hp.
      destruct (Nat.lt_ge_cases p cur) as [Hpc|Hpc]; [apply I1; exact Hpc|].
      apply I2. lia. }
    set (next := ((top - cur) / 2 + cur)%nat).
    assert (Hnext : (cur <= next < top)%nat).
    { subst next. assert ((top - cur) / 2 < top - cur)%nat by (apply Nat.div_lt; lia). lia. }
    pose proof (skip_nulls_spec idx top (top - next) next ltac:(lia) ltac:(lia)) as Hs.
    cbv zeta in Hs. set (probe := skip_nulls idx (top - next) next top) in *.
    destruct Hs as (Hpr & Hnulls & Hnn).
    destruct (Nat.eqb_spec probe top) as [Heq|Hneq].
    { (* only null pages in [next, top) *)
      apply IH; try lia; auto.
      intros p Hp Hcon.
      destruct (Nat.lt_ge_cases p top) as [Hpt|Hpt].
      - apply (null_page_not_contains idx p v); [apply Hnulls; lia|exact Hcon].
      - apply (I2 p); [lia|exact Hcon]. }
    assert (Hpt : (probe < top)%nat) by lia.
    destruct (nonnull_page idx probe (Hnn Hpt)) as (pmn & pmx & Eprobe).
    unfold min_value, max_value. rewrite Eprobe, !c_nonnull.
    destruct (Z.ltb_spec (cmp v pmn) 0) as [Hmin|Hmin].
    { (* value < min(probe): not in probe nor any later page *)
      apply IH; try lia; auto.
      intros p Hp (mn & mx & Ep & Hp1 & Hp2).
      destruct (Nat.lt_ge_cases p probe) as [Hpp|Hpp].
      - assert (Hnull : null_page idx p = true) by (apply Hnulls; lia).
        unfold null_page in Hnull. rewrite Ep in Hnull. discriminate.
      - destruct (ascending_le idx Hasc probe p pmn pmx mn mx Hpp Eprobe Ep) as [Hle _].
        pose proof (cmp_trans _ _ _ Hle Hp1) as Hc.
        apply cmp_opp in Hmin. lia. }
    destruct (Z.gtb_spec (cmp v pmx) 0) as [Hmax|Hmax].
    { (* value > max(probe): not in probe nor any earlier page *)
      apply IH; try lia; auto.
      intros p Hp (mn & mx & Ep & Hp1 & Hp2).
      destruct (Nat.lt_ge_cases p cur) as [Hpc|Hpc].
      { apply (I1 p Hpc). exists mn, mx. auto. }
      destruct (ascending_le idx Hasc p probe mn mx pmn pmx ltac:(lia) Ep Eprobe) as [_ Hle].
      pose proof (cmp_trans _ _ _ Hp2 Hle) as Hc. lia. }
    (* min <= value <= max: remember probe, keep searching to the left *)
    apply IH; try lia; auto.
    - intros p Hp. apply null_page_not_contains. apply Hnulls. lia.
    - right. exists pmn, pmx. split; [exact Eprobe|]. split; [|lia].
      apply (cmp_nlt_le _ _ cmp_opp). lia.
  Qed.

  Lemma binary_search_spec idx v (Hasc : ascending_nonnull idx) :
    let r := binary_search c idx (Some v) in
    (r = length idx \/ contains idx r v) /\ (forall p, (p < r)%nat -> ~ contains idx p v).
  Proof.
    unfold binary_search.
    apply (bsearch_spec idx v Hasc (S (length idx)) 0%nat (length idx) (length idx));
      try lia; try (intros p Hp; lia); try (left; reflexivity).
  Qed.

  Definition well_formed (ascending : bool) (idx : index V) : Prop :=
    ascending = true -> ascending_nonnull idx.

  Lemma find_spec asc idx v (Hwf : well_formed asc idx) :
    let r := find c asc idx (Some v) in
    (r = length idx \/ contains idx r v) /\ (forall p, (p < r)%nat -> ~ contains idx p v).
  Proof.
    unfold find. destruct asc; [apply binary_search_spec, Hwf; reflexivity|apply linear_search_spec].
  Qed.

  Lemma find_never_misses asc idx v p :
    well_formed asc idx -> contains idx p v -> (find c asc idx (Some v) <= p)%nat.
  Proof.
    intros Hwf Hc. destruct (find_spec asc idx v Hwf) as [_ Hn].
    destruct (Nat.le_gt_cases (find c asc idx (Some v)) p) as [H|H]; [exact H|].
    exfalso. exact (Hn p H Hc).
  Qed.

  Lemma find_result_contains asc idx v :
    well_formed asc idx -> (find c asc idx (Some v) < length idx)%nat ->
    contains idx (find c asc idx (Some v)) v.
  Proof.
    intros Hwf Hlt. destruct (find_spec asc idx v Hwf) as [[H|H] _]; [lia|exact H].
  Qed.

  Lemma find_n_only_if_absent asc idx v :
    well_formed asc idx -> find c asc idx (Some v) = length idx ->
    forall p, ~ contains idx p v.
  Proof.
    intros Hwf Hr p Hc. destruct (find_spec asc idx v Hwf) as [_ Hn].
    apply (Hn p); [|exact Hc]. rewrite Hr. eapply contains_lt_length; eauto.
  Qed.

  Lemma find_le_length asc idx v :
    well_formed asc idx -> (find c asc idx (Some v) <= length idx)%nat.
  Proof.
    intros Hwf. destruct (find_spec asc idx v Hwf) as [[H|H] _]; [lia|].
    apply contains_lt_length in H. lia.
  Qed.
End Proofs.

(** The two wrappers of compare.go satisfy the comparator hypotheses. *)
Lemma nulls_last_nonnull V (cmp : V -> V -> Z) a b :
  cmp_nulls_last cmp (Some a) (Some b) = cmp a b.
Proof. reflexivity. Qed.
Lemma nulls_first_nonnull V (cmp : V -> V -> Z) a b :
  cmp_nulls_first cmp (Some a) (Some b) = cmp a b.
Proof. reflexivity. Qed.
Lemma nulls_last_excl V (cmp : V -> V -> Z) (v : V) :
  ~ (cmp_nulls_last cmp None (Some v) <= 0 /\ cmp_nulls_last cmp (Some v) None <= 0).
Proof. cbn. lia. Qed.
Lemma nulls_first_excl V (cmp : V -> V -> Z) (v : V) :
  ~ (cmp_nulls_first cmp None (Some v) <= 0 /\ cmp_nulls_first cmp (Some v) None <= 0).
Proof. cbn. lia. Qed.

(** Instances: integers and byte strings are total preorders. *)
Lemma cmpZ_opp a b : cmpZ a b < 0 <-> cmpZ b a > 0.
Proof.
  unfold cmpZ. rewrite (Z.compare_antisym a b).
  destruct (Z.compare a b); cbn; lia.
Qed.
Lemma cmpZ_le a b : cmpZ a b <= 0 <-> a <= b.
Proof.
  unfold cmpZ. destruct (Z.compare_spec a b); lia.
Qed.
Lemma cmpZ_trans a b d : cmpZ a b <= 0 -> cmpZ b d <= 0 -> cmpZ a d <= 0.
Proof. rewrite !cmpZ_le. lia. Qed.

Lemma cmp_bytes_opp a : forall b, cmp_bytes a b < 0 <-> cmp_bytes b a > 0.
Proof.
  induction a as [|x a IH]; intros [|y b]; cbn; try lia.
  rewrite (N.compare_antisym x y).
  destruct (N.compare x y); cbn; try lia. apply IH.
Qed.

Lemma cmp_bytes_trans a : forall b d,
  cmp_bytes a b <= 0 -> cmp_bytes b d <= 0 -> cmp_bytes a d <= 0.
Proof.
  induction a as [|x a IH]; intros [|y b] [|z d]; cbn; try lia.
  destruct (N.compare_spec x y) as [Hxy|Hxy|Hxy]; try lia;
  destruct (N.compare_spec y z) as [Hyz|Hyz|Hyz]; try lia; intros H1 H2.
  - subst. rewrite N.compare_refl. eapply IH; eauto.
  - subst. destruct (N.compare_spec y z); try lia.
  - subst. destruct (N.compare_spec x z); try lia.
  - destruct (N.compare_spec x z); try lia.
Qed.
