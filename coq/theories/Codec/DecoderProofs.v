(** C20 — facts about the format decoders of Codec/Snappy.v and Codec/Lz4.v
    that can be proved outright (no hypotheses): the decoders are total
    functions (Coq), what they return has the declared / permitted length, and
    they invert the literal-only encoders (what a compressor emits for
    incompressible input).  The round trip through the third-party ENCODERS is
    not claimed: the extracted decoders are run on Go's Encode output instead. *)
From Coq Require Import List NArith Bool Arith Lia.
From PQ Require Import Base.ListExtra Codec.Model Codec.Snappy Codec.Lz4.
Import ListNotations.
Local Open Scope N_scope.

Lemma rev'_length : forall (l : bytes), length (rev' l) = length l.
Proof. intros l. unfold rev'. rewrite rev_append_rev, app_nil_r. apply rev_length. Qed.

Lemma rev'_rev : forall (l : bytes), rev' (rev l) = l.
Proof. intros l. unfold rev'. rewrite rev_append_rev, app_nil_r. apply rev_involutive. Qed.

(** the output has exactly the length declared by the preamble, or the
    decoder reports corruption *)
Theorem snappy_decode_length : forall s x,
  snappy_decode s = Some x -> snappy_declared_len s = Some (N.of_nat (length x)).
Proof.
  intros s x. unfold snappy_decode, snappy_declared_len.
  destruct (uvarint 5 s 1 0) as [[dlen body]|]; [|discriminate].
  destruct (dlen <=? sn_max_len); [|discriminate].
  destruct (sn_elems (S (length body)) body []) as [o|]; [|discriminate].
  destruct (N.of_nat (length o) =? dlen) eqn:E; [|discriminate].
  intros H; inversion H; subst. rewrite rev'_length.
  apply N.eqb_eq in E. rewrite E. reflexivity.
Qed.

Lemma pow128_pos : forall f, 0 < 128 ^ N.of_nat f.
Proof. intros f. apply N.neq_0_lt_0. apply N.pow_nonzero. discriminate. Qed.

Lemma uvarint_cons : forall f b r mult acc,
  uvarint (S f) (b :: r) mult acc =
  if b <? 128 then Some (acc + (b mod 128) * mult, r)
  else uvarint f r (mult * 128) (acc + (b mod 128) * mult).
Proof. reflexivity. Qed.

Lemma uvarint_roundtrip : forall f n mult acc rest,
  n < 128 ^ N.of_nat (S f) ->
  uvarint (S f) (uvarint_enc f n ++ rest) mult acc = Some (acc + n * mult, rest).
Proof.
  induction f as [|f IH]; intros n mult acc rest Hn.
  - change (128 ^ N.of_nat 1) with 128 in Hn. simpl uvarint_enc. simpl app.
    rewrite uvarint_cons. rewrite N.mod_mod by discriminate.
    rewrite (N.mod_small n 128) by lia.
    assert (E : (n <? 128) = true) by (apply N.ltb_lt; lia). rewrite E. reflexivity.
  - simpl uvarint_enc. destruct (n <? 128) eqn:E.
    + apply N.ltb_lt in E. simpl app. rewrite uvarint_cons.
      rewrite (N.mod_small n 128) by lia.
      assert (E' : (n <? 128) = true) by (apply N.ltb_lt; lia). rewrite E'. reflexivity.
    + apply N.ltb_ge in E. simpl app. rewrite uvarint_cons.
      assert (Hm : (n mod 128 + 128) mod 128 = n mod 128).
      { replace (n mod 128 + 128) with (n mod 128 + 1 * 128) by lia.
        rewrite N.mod_add by discriminate. apply N.mod_mod. discriminate. }
      rewrite Hm.
      assert (E' : (n mod 128 + 128 <? 128) = false) by (apply N.ltb_ge; apply N.le_add_l). rewrite E'.
      rewrite IH.
      * f_equal. f_equal. pose proof (N.div_mod n 128 ltac:(discriminate)). nia.
      * rewrite Nat2N.inj_succ, N.pow_succ_r' in Hn.
        apply N.div_lt_upper_bound; [discriminate|]. lia.
Qed.

Definition lit_chunk_ok (c : bytes) : Prop := (1 <= length c <= 60)%nat.

Lemma sn_elems_literals : forall chunks f out_rev,
  Forall lit_chunk_ok chunks ->
  (length (concat (map sn_lit_elem chunks)) < f)%nat ->
  sn_elems f (concat (map sn_lit_elem chunks)) out_rev = Some (rev (concat chunks) ++ out_rev).
Proof.
  induction chunks as [|c chunks IH]; intros f out_rev HF Hf.
  - destruct f; [simpl in Hf; lia|]. reflexivity.
  - inversion HF as [|? ? Hc HF']; subst. unfold lit_chunk_ok in Hc.
    destruct f; [lia|].
    cbn [map concat]. unfold sn_lit_elem at 1. cbn [app].
    cbn [sn_elems].
    set (l := N.of_nat (length c)).
    assert (Hl : 1 <= l <= 60) by (unfold l; lia).
    assert (E1 : (4 * (l - 1)) mod 4 = 0).
    { rewrite N.mul_comm. apply N.mod_mul. discriminate. }
    assert (E2 : (4 * (l - 1)) / 4 = l - 1).
    { rewrite N.mul_comm. apply N.div_mul. discriminate. }
    rewrite E1, E2. simpl (0 =? 0).  cbv iota.
    assert (E3 : (l - 1 <? 60) = true) by (apply N.ltb_lt; lia). rewrite E3.
    replace (l - 1 + 1) with l by lia.
    assert (E4 : (l <=? sn_max_len) = true) by (apply N.leb_le; unfold sn_max_len; lia). rewrite E4.
    unfold l. rewrite Nat2N.id.
    rewrite firstn_app_exact, skipn_app_exact, Nat.eqb_refl.
    rewrite IH; auto.
    + rewrite rev_append_rev, rev_app_distr, <- app_assoc. reflexivity.
    + simpl in Hf. rewrite app_length in Hf. lia.
Qed.

Theorem snappy_literal_roundtrip : forall chunks,
  Forall lit_chunk_ok chunks ->
  N.of_nat (length (concat chunks)) < 4294967296 ->
  snappy_decode (sn_literal_stream chunks) = Some (concat chunks).
Proof.
  intros chunks HF Hn. unfold snappy_decode, sn_literal_stream.
  rewrite (uvarint_roundtrip 4); [|change (128 ^ N.of_nat 5) with 34359738368; lia].
  rewrite N.mul_1_r, N.add_0_l.
  assert (E : (N.of_nat (length (concat chunks)) <=? sn_max_len) = true)
    by (apply N.leb_le; unfold sn_max_len; lia).
  rewrite E.
  rewrite sn_elems_literals; auto.
  now rewrite app_nil_r, rev_length, N.eqb_refl, rev'_rev.
Qed.

(** a copy with offset 1 repeats the last byte (run-length) *)
Lemma copy_back_rle : forall len f b out,
  (len < f)%nat -> copy_back f 1 len (b :: out) = Some (repeat b len ++ b :: out).
Proof.
  induction len as [|len IH]; intros f b out Hf.
  - destruct f; [lia|]. reflexivity.
  - destruct f; [lia|]. cbn [copy_back].
    replace (Nat.min (S len) 1) with 1%nat by lia.
    simpl (1 - 1)%nat. simpl skipn. simpl firstn. simpl length. simpl.
    replace (len - 0)%nat with len by lia.
    rewrite IH by lia.
    f_equal. cbn [repeat]. rewrite app_comm_cons, (repeat_cons len b), <- app_assoc. reflexivity.
Qed.

Theorem lz4_decode_bounded : forall max_out s x,
  lz4_decode max_out s = Some x -> N.of_nat (length x) <= max_out.
Proof.
  intros max_out s x. unfold lz4_decode.
  destruct (lz4_seqs (S (length s)) s [] 0 max_out) as [o|]; [|discriminate].
  destruct (N.of_nat (length o) <=? max_out) eqn:E; [|discriminate].
  intros H; inversion H; subst. rewrite rev'_length. apply N.leb_le; auto.
Qed.

Lemma lz4_ext_roundtrip : forall f n acc rest g,
  n < 255 * N.of_nat (S f) -> (length (lz4_ext_enc f n) <= g)%nat ->
  lz4_ext g (lz4_ext_enc f n ++ rest) acc = Some (acc + n, rest).
Proof.
  induction f as [|f IH]; intros n acc rest g Hn Hg.
  - simpl in *. destruct g; [lia|]. simpl.
    assert (E : (n =? 255) = false) by (apply N.eqb_neq; lia). rewrite E. reflexivity.
  - cbn [lz4_ext_enc] in *. destruct (n <? 255) eqn:E.
    + apply N.ltb_lt in E. simpl in *. destruct g; [lia|]. simpl.
      assert (E' : (n =? 255) = false) by (apply N.eqb_neq; lia). rewrite E'. reflexivity.
    + apply N.ltb_ge in E. simpl in Hg. destruct g; [lia|]. simpl app. cbn [lz4_ext].
      simpl (255 =? 255). cbv iota.
      rewrite IH; [f_equal; f_equal; lia | lia | lia].
Qed.

Theorem lz4_literal_roundtrip : forall x max_out,
  N.of_nat (length x) <= max_out ->
  lz4_decode max_out (lz4_literal_block x) = Some x.
Proof.
  intros x max_out Hm.
  assert (Hfin : forall (o : bytes), o = rev_append x [] ->
            (if N.of_nat (length o) <=? max_out then Some (rev' o) else None) = Some x).
  { intros o Ho. subst o. rewrite rev_append_rev, app_nil_r, rev_length.
    assert (E : (N.of_nat (length x) <=? max_out) = true) by (apply N.leb_le; auto).
    now rewrite E, rev'_rev. }
  unfold lz4_decode, lz4_literal_block.
  set (l := N.of_nat (length x)) in *.
  destruct (l <? 15) eqn:E.
  - apply N.ltb_lt in E.
    cbn [lz4_seqs].
    assert (E1 : 16 * l / 16 = l) by (rewrite N.mul_comm; apply N.div_mul; discriminate).
    rewrite E1. unfold lz4_len.
    assert (E2 : (l =? 15) = false) by (apply N.eqb_neq; lia). rewrite E2.
    assert (E3 : (0 + l <=? max_out) = true) by (apply N.leb_le; lia). rewrite E3.
    unfold l. rewrite Nat2N.id, firstn_all, Nat.eqb_refl, skipn_all.
    apply Hfin. reflexivity.
  - apply N.ltb_ge in E.
    cbn [lz4_seqs].
    change (240 / 16) with 15. unfold lz4_len. simpl (15 =? 15). cbv iota.
    rewrite lz4_ext_roundtrip.
    + replace (15 + (l - 15)) with l by lia.
      assert (E3 : (0 + l <=? max_out) = true) by (apply N.leb_le; lia). rewrite E3.
      unfold l. rewrite Nat2N.id, firstn_all, Nat.eqb_refl, skipn_all.
      apply Hfin. reflexivity.
    + unfold l. lia.
    + rewrite app_length. lia.
Qed.
