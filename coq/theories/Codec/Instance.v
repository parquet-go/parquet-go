(** C20 — a concrete instance of the abstract streams of Codec/Model.v that
    satisfies every contract hypothesis of Codec/Proofs.v (non-vacuity): the
    "magic byte" codec.  A compressed stream is the byte 31 followed by the
    data; the reader parses the magic byte when it is constructed or reset and
    FAILS on anything else (like gzip on a bad header); Reset(nil) loads the
    empty stream; Read hands out the data in pieces of the requested size.
    A stream with header 30 ends in a Read error that leaves the reader broken
    although its Reset returns nil (like brotli); after a stream with header 29
    Reset(nil) FAILS and leaves the reader broken.  A broken reader would deliver
    garbage if it were re-used: the ghost predicate [mg_ok] = "not broken" is a
    non-trivial invariant, the wrapper must put neither back. *)
From Coq Require Import List NArith Bool Arith Lia.
From PQ Require Import Codec.Model Codec.Proofs.
Import ListNotations.
Local Open Scope N_scope.

(* remaining data, "the stream ends in a Read error", "Reset(nil) after this
   stream fails", "broken" (nothing is guaranteed any more) *)
Record mg_R : Type := mk_mg { mg_rem : bytes; mg_bad_end : bool; mg_sticky : bool; mg_broken : bool }.

(* header 31: good stream.
   header 30: the payload is delivered, then the last Read reports an error and
              the reader is broken from then on although its Reset returns nil
              (like brotli after "excessive input").
   header 29: the payload is delivered and the stream ends cleanly, but the
              Reset(nil) that follows FAILS and leaves the reader broken.
   anything else: the constructor / Reset(src) fails. *)
Definition mg_new (src : bytes) : mg_R * bool :=
  match src with
  | 31 :: r => (mk_mg r false false false, false)
  | 30 :: r => (mk_mg r true false false, false)
  | 29 :: r => (mk_mg r false true false, false)
  | _ => (mk_mg [] false false false, true)
  end.

(* a broken reader accepts every Reset but then delivers garbage ("BRK") *)
Definition mg_reset (s : mg_R) (o : option bytes) : mg_R * bool :=
  if mg_broken s then
    match o with
    | Some _ => (mk_mg [66; 82; 75] false false true, false)
    | None => (s, false)
    end
  else
    match o with
    | Some src => mg_new src
    | None => if mg_sticky s then (mk_mg [] false false true, true)
              else (mk_mg [] false false false, false)
    end.

Definition mg_read (s : mg_R) (n : nat) : (bytes * rstatus) * mg_R :=
  let c := firstn n (mg_rem s) in
  let rest := skipn n (mg_rem s) in
  let st := match rest with
            | [] => if mg_bad_end s then Err else Eof
            | _ => More
            end in
  ((c, st), mk_mg rest (mg_bad_end s) (mg_sticky s)
              (match st with Err => true | _ => mg_broken s end)).

Definition mg_ok (s : mg_R) : Prop := mg_broken s = false.

Definition mg_W : Type := unit.
Definition mg_wnew : mg_W * bool := (tt, false).
Definition mg_wreset (w : mg_W) (b : bool) : mg_W := tt.
Definition mg_write (w : mg_W) (src : bytes) : (bytes * bool) * mg_W := ((31 :: src, false), tt).
Definition mg_close (w : mg_W) : (bytes * bool) * mg_W := (([], false), tt).
Definition mg_enc (x : bytes) : bytes := 31 :: x.

Definition mg_step (fuel : nat) :=
  step mg_R mg_new mg_reset mg_read mg_W mg_wnew mg_wreset mg_write mg_close fuel.
Definition mg_outcomes (fuel : nat) :=
  outcomes mg_R mg_new mg_reset mg_read mg_W mg_wnew mg_wreset mg_write mg_close fuel
    (init mg_R mg_W).

Lemma mg_yields : forall k s e b, (length s < k)%nat -> yields mg_R mg_read k (mk_mg s false e b) s.
Proof.
  induction k as [|k IH]; intros s e0 b0 Hk; [lia|].
  simpl. intros n Hn. split; [apply firstn_le_length|].
  destruct (skipn n s) as [|b t] eqn:E.
  - assert (Hl : (length (skipn n s) = 0)%nat) by (rewrite E; reflexivity).
    rewrite skipn_length in Hl. apply firstn_all2. lia.
  - assert (Hl : (length (skipn n s) = S (length t))%nat) by (rewrite E; reflexivity).
    rewrite skipn_length in Hl.
    split.
    + destruct s; [simpl in Hl; lia|]. destruct n; [lia|]. discriminate.
    + exists (b :: t). split.
      * rewrite <- E. symmetry. apply firstn_skipn.
      * apply IH. simpl. lia.
Qed.

Lemma mg_new_ok : forall src, snd (mg_new src) = false -> mg_ok (fst (mg_new src)).
Proof. intros [|[|p] r]; try reflexivity. do 5 (destruct p; try reflexivity). Qed.

Lemma mg_reset_ok : forall s o, mg_ok s -> snd (mg_reset s o) = false -> mg_ok (fst (mg_reset s o)).
Proof.
  intros s o H. unfold mg_reset. unfold mg_ok in H. rewrite H.
  destruct o as [src|]; [apply mg_new_ok|].
  destruct (mg_sticky s); [discriminate|reflexivity].
Qed.

Lemma mg_read_ok : forall s n, mg_ok s -> snd (fst (mg_read s n)) <> Err -> mg_ok (snd (mg_read s n)).
Proof.
  intros s n H. unfold mg_read, mg_ok in *. simpl.
  destruct (skipn n (mg_rem s)); [destruct (mg_bad_end s)|]; simpl; congruence.
Qed.

Lemma mg_reset_fresh : forall s src, mg_ok s ->
  snd (mg_reset s (Some src)) = snd (mg_new src) /\
  (snd (mg_new src) = false -> obs_eq mg_R mg_read (fst (mg_reset s (Some src))) (fst (mg_new src))).
Proof.
  intros s src H. unfold mg_reset. unfold mg_ok in H. rewrite H.
  split; [reflexivity|]. intros _ ns. reflexivity.
Qed.

Lemma mg_wreset_fresh : forall (w : mg_W) out0 src, True -> snd mg_wnew = false ->
  fst (wrun mg_W mg_write mg_close (mg_wreset w true) out0 src) =
  fst (wrun mg_W mg_write mg_close (fst mg_wnew) out0 src).
Proof. intros. reflexivity. Qed.

Lemma mg_enc_spec : forall x, snd mg_wnew = false /\
  fst (wrun mg_W mg_write mg_close (fst mg_wnew) [] x) = (mg_enc x, false).
Proof. intros x. split; [reflexivity|]. unfold wrun. simpl. rewrite app_nil_r. reflexivity. Qed.

Lemma mg_dec_spec : forall x, snd (mg_new (mg_enc x)) = false /\
  yields mg_R mg_read (S (length x)) (fst (mg_new (mg_enc x))) x.
Proof. intros x. split; [reflexivity|]. apply mg_yields. lia. Qed.
