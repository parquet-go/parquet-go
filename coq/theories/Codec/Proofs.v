(** C20 — proofs about the pooled wrappers (Codec/Model.v).

    HYPOTHESES-AS-CONTRACT (Section variables / hypotheses of [Contract]; they
    describe the third-party stream objects and are NOT proved here, the
    differential runs of harness/c20 are their only validation):

      r_ok / w_ok           a ghost predicate "this stream object is usable"
      Hr_new_ok             a reader whose constructor succeeded is usable
      Hr_reset_ok           Reset (to an input or to nil) of a usable reader that
                            returns no error leaves it usable
                            (NOTHING is assumed about a reader whose Reset failed)
      Hr_read_ok            a Read that reports no error (data or EOF) keeps a reader
                            usable (NOTHING is assumed about a reader after a Read
                            that reported an error: brotli keeps unconsumed input of
                            the failed stream across Reset)
      Hr_reset_fresh        Reset(src) of a usable reader fails exactly when the
                            constructor fails on src and otherwise yields a reader
                            observationally equal to a freshly constructed one (same
                            answers to every sequence of Read sizes), WHATEVER the
                            reader processed before
      Hw_new_ok, Hw_reset_ok, Hw_write_ok, Hw_close_ok, Hw_reset_fresh
                            the same for writers (Reset has no error)
    and for the round trip ([Roundtrip]):
      Hw_enc                a fresh writer emits [enc x] without error
      Hr_dec                a fresh reader on [enc x] yields [x] ([yields]: every Read
                            with room returns at least one byte or ends)
      enc_nonempty          a compressed stream is never empty *)
From Coq Require Import List NArith Bool Arith Lia.
From PQ Require Import Codec.Model.
Import ListNotations.

Lemma remove_nth_Forall : forall A (P : A -> Prop) i l, Forall P l -> Forall P (remove_nth i l).
Proof.
  intros A P i l H. revert i. induction H; intros [|i]; simpl; auto.
Qed.

Lemma pool_get_Forall : forall A (P : A -> Prop) pool pick x rest,
  Forall P pool -> pool_get pool pick = Some (x, rest) -> P x /\ Forall P rest.
Proof.
  intros A P pool pick x rest HF HG. unfold pool_get in HG.
  destruct pick as [i|]; [|discriminate].
  destruct pool as [|a l]; [discriminate|].
  remember (a :: l) as p.
  destruct (nth_error p (i mod length p)) eqn:E; [|discriminate].
  inversion HG; subst x rest. split.
  - apply nth_error_In in E. rewrite Forall_forall in HF. auto.
  - apply remove_nth_Forall; auto.
Qed.

Lemma pool_get_nil : forall A pick, @pool_get A [] pick = None.
Proof. intros A [i|]; reflexivity. Qed.

Section Contract.
  Variable R : Type.
  Variable rd_new : bytes -> R * bool.
  Variable rd_reset : R -> option bytes -> R * bool.
  Variable rd_read : R -> nat -> (bytes * rstatus) * R.
  Variable W : Type.
  Variable wr_new : W * bool.
  Variable wr_reset : W -> bool -> W.
  Variable wr_write : W -> bytes -> (bytes * bool) * W.
  Variable wr_close : W -> (bytes * bool) * W.
  Variable fuel : nat.

  Notation grow_loop := (grow_loop R rd_read).
  Notation decode := (decode R rd_new rd_reset rd_read fuel).
  Notation encode := (encode W wr_new wr_reset wr_write wr_close).
  Notation wrun := (wrun W wr_write wr_close).
  Notation step := (step R rd_new rd_reset rd_read W wr_new wr_reset wr_write wr_close fuel).
  Notation run_history := (run_history R rd_new rd_reset rd_read W wr_new wr_reset wr_write wr_close fuel).
  Notation fresh_result := (fresh_result R rd_new rd_reset rd_read W wr_new wr_reset wr_write wr_close fuel).
  Notation init := (init R W).

  Fixpoint reads (s : R) (ns : list nat) : list (bytes * rstatus) :=
    match ns with
    | [] => []
    | n :: t => fst (rd_read s n) :: reads (snd (rd_read s n)) t
    end.

  Definition obs_eq (s1 s2 : R) : Prop := forall ns, reads s1 ns = reads s2 ns.

  Lemma obs_eq_step : forall s1 s2 n, obs_eq s1 s2 ->
    fst (rd_read s1 n) = fst (rd_read s2 n) /\ obs_eq (snd (rd_read s1 n)) (snd (rd_read s2 n)).
  Proof.
    intros s1 s2 n H. split.
    - specialize (H [n]). simpl in H. inversion H; auto.
    - intros ns. specialize (H (n :: ns)). simpl in H. inversion H; auto.
  Qed.

  (** the growth loop only observes the reader through its answers *)
  Lemma grow_loop_obs_eq : forall f s1 s2 dst cap, obs_eq s1 s2 ->
    fst (fst (grow_loop f s1 dst cap)) = fst (fst (grow_loop f s2 dst cap)) /\
    snd (grow_loop f s1 dst cap) = snd (grow_loop f s2 dst cap).
  Proof.
    induction f as [|f IH]; intros s1 s2 dst cap H; simpl; [auto|].
    destruct (obs_eq_step s1 s2 (cap - length dst) H) as [H1 H2].
    destruct (rd_read s1 (cap - length dst)) as [[c1 st1] s1'].
    destruct (rd_read s2 (cap - length dst)) as [[c2 st2] s2'].
    simpl in H1, H2. inversion H1; subst c2 st2.
    destruct st1; simpl; auto.
    specialize (IH s1' s2' (dst ++ c1)
                  (if Nat.eqb (length (dst ++ c1)) cap then 2 * length (dst ++ c1) else cap) H2).
    destruct (grow_loop f s1' _ _) as [[o1 r1] cs1].
    destruct (grow_loop f s2' _ _) as [[o2 r2] cs2].
    simpl in *. destruct IH as [Ha Hb]. subst. auto.
  Qed.

  Lemma grow_loop_chunks : forall f s dst cap out e,
    fst (fst (grow_loop f s dst cap)) = Done out e ->
    out = dst ++ concat (snd (grow_loop f s dst cap)).
  Proof.
    induction f as [|f IH]; intros s dst cap out e; simpl; [discriminate|].
    destruct (rd_read s (cap - length dst)) as [[c st] s1].
    destruct st; simpl.
    - specialize (IH s1 (dst ++ c)
                    (if Nat.eqb (length (dst ++ c)) cap then 2 * length (dst ++ c) else cap) out e).
      destruct (grow_loop f s1 _ _) as [[o r] cs]. simpl in *.
      intros H. rewrite (IH H). rewrite app_assoc. reflexivity.
    - intros H; inversion H. rewrite app_nil_r. reflexivity.
    - intros H; inversion H. rewrite app_nil_r. reflexivity.
  Qed.

  (** a reader that delivers [y]: every Read with room returns a non-empty
      piece of what is left, or the rest together with EOF; never an error.
      The index bounds the number of Read calls. *)
  Fixpoint yields (k : nat) (s : R) (y : bytes) : Prop :=
    match k with
    | O => False
    | S k' => forall n, (0 < n)%nat ->
        let '((c, st), s') := rd_read s n in
        (length c <= n)%nat /\
        match st with
        | More => c <> [] /\ exists y', y = c ++ y' /\ yields k' s' y'
        | Eof => c = y
        | Err => False
        end
    end.

  Lemma grow_loop_yields : forall k f s y dst cap,
    yields k s y -> (k <= f)%nat -> (length dst < cap)%nat ->
    fst (fst (grow_loop f s dst cap)) = Done (dst ++ y) false.
  Proof.
    induction k as [|k IH]; intros f s y dst cap HY Hf Hc; [destruct HY|].
    destruct f as [|f]; [lia|]. simpl.
    specialize (HY (cap - length dst) ltac:(lia)).
    destruct (rd_read s (cap - length dst)) as [[c st] s1].
    destruct HY as [Hlen HY]. destruct st.
    - destruct HY as [Hne [y' [Hy HY']]]. subst y.
      assert (Hpos : (0 < length c)%nat) by (destruct c; [congruence|simpl; lia]).
      assert (Hl : length (dst ++ c) = (length dst + length c)%nat) by apply app_length.
      specialize (IH f s1 y' (dst ++ c)
                    (if Nat.eqb (length (dst ++ c)) cap then 2 * length (dst ++ c) else cap) HY' ltac:(lia)).
      assert (Hc' : (length (dst ++ c) < (if Nat.eqb (length (dst ++ c)) cap then 2 * length (dst ++ c) else cap))%nat).
      { destruct (Nat.eqb (length (dst ++ c)) cap) eqn:E.
        - lia.
        - apply Nat.eqb_neq in E. lia. }
      specialize (IH Hc').
      destruct (grow_loop f s1 _ _) as [[o r] cs]. simpl in *.
      rewrite IH. rewrite app_assoc. reflexivity.
    - subst c. reflexivity.
    - destruct HY.
  Qed.

  Variable r_ok : R -> Prop.
  Variable w_ok : W -> Prop.
  Hypothesis Hr_new_ok : forall src, snd (rd_new src) = false -> r_ok (fst (rd_new src)).
  Hypothesis Hr_reset_ok : forall s o, r_ok s -> snd (rd_reset s o) = false -> r_ok (fst (rd_reset s o)).
  Hypothesis Hr_read_ok : forall s n, r_ok s -> snd (fst (rd_read s n)) <> Err -> r_ok (snd (rd_read s n)).
  Hypothesis Hr_reset_fresh : forall s src, r_ok s ->
    snd (rd_reset s (Some src)) = snd (rd_new src) /\
    (snd (rd_new src) = false -> obs_eq (fst (rd_reset s (Some src))) (fst (rd_new src))).
  Hypothesis Hw_new_ok : snd wr_new = false -> w_ok (fst wr_new).
  Hypothesis Hw_reset_ok : forall w b, w_ok w -> w_ok (wr_reset w b).
  Hypothesis Hw_write_ok : forall w src, w_ok w -> w_ok (snd (wr_write w src)).
  Hypothesis Hw_close_ok : forall w, w_ok w -> w_ok (snd (wr_close w)).
  Hypothesis Hw_reset_fresh : forall w out0 src, w_ok w -> snd wr_new = false ->
    fst (wrun (wr_reset w true) out0 src) = fst (wrun (fst wr_new) out0 src).

  (** the invariant: every pooled object is usable (it was put back after a
      successful reset), and a codec whose writer constructor fails has no
      pooled writer *)
  Definition inv (st : cstate R W) : Prop :=
    Forall r_ok (readers R W st) /\ Forall w_ok (writers R W st) /\
    (snd wr_new = true -> writers R W st = []).

  Lemma inv_init : inv init.
  Proof. repeat split; simpl; auto. Qed.

  Lemma grow_loop_ok : forall f s dst cap out, r_ok s ->
    fst (fst (grow_loop f s dst cap)) = Done out false ->
    r_ok (snd (fst (grow_loop f s dst cap))).
  Proof.
    induction f as [|f IH]; intros s dst cap out H; simpl; [discriminate|].
    pose proof (Hr_read_ok s (cap - length dst) H) as H1.
    destruct (rd_read s (cap - length dst)) as [[c st] s1]. simpl in H1.
    destruct st; simpl.
    - specialize (IH s1 (dst ++ c)
                    (if Nat.eqb (length (dst ++ c)) cap then 2 * length (dst ++ c) else cap) out
                    (H1 ltac:(discriminate))).
      destruct (grow_loop f s1 _ _) as [[o r] cs]. auto.
    - intros _. apply H1. discriminate.
    - discriminate.
  Qed.

  Lemma wrun_ok : forall w out0 src, w_ok w -> w_ok (snd (wrun w out0 src)).
  Proof.
    intros w out0 src H. unfold Model.wrun.
    pose proof (Hw_write_ok w src H) as H1.
    destruct (wr_write w src) as [[o1 e1] w1]. simpl in H1.
    destruct e1; simpl; auto.
    pose proof (Hw_close_ok w1 H1) as H2.
    destruct (wr_close w1) as [[o2 e2] w2]. auto.
  Qed.

  Lemma decode_run_fresh : forall r rn p1 p2 dst src, obs_eq r rn -> r_ok r ->
    fst (decode_run R rd_reset rd_read fuel r p1 dst src) =
    fst (decode_run R rd_reset rd_read fuel rn p2 dst src) /\
    (Forall r_ok p1 -> Forall r_ok (snd (decode_run R rd_reset rd_read fuel r p1 dst src))).
  Proof.
    intros r rn p1 p2 dst src Hobs Hok. unfold decode_run.
    set (cap := if Nat.eqb (length dst) 0 then 2 * length src else length dst).
    destruct (grow_loop_obs_eq fuel r rn (firstn 0 dst) cap Hobs) as [Ho _].
    pose proof (grow_loop_ok fuel r (firstn 0 dst) cap) as Hok1.
    destruct (grow_loop fuel r (firstn 0 dst) cap) as [[o r1] cs].
    destruct (grow_loop fuel rn (firstn 0 dst) cap) as [[o' r1'] cs'].
    simpl in Ho, Hok1. subst o'.
    destruct o as [out err|]; [|simpl; auto].
    destruct (rd_reset r1 None) as [r2 e2] eqn:E2. destruct (rd_reset r1' None) as [r2' e2'].
    simpl in *. split; auto. intros HF.
    destruct e2; simpl; auto. destruct err; simpl; auto.
    constructor; auto.
    specialize (Hok1 out Hok eq_refl).
    pose proof (Hr_reset_ok r1 None Hok1) as Hok2. rewrite E2 in Hok2. auto.
  Qed.

  Lemma obs_eq_refl : forall s, obs_eq s s.
  Proof. intros s ns. reflexivity. Qed.

  (** Decode on a pool of usable readers: same answer as on an empty pool, and
      the pool stays usable *)
  Lemma decode_fresh : forall pool pick dst src, Forall r_ok pool ->
    fst (decode pool pick dst src) = fst (decode [] None dst src) /\
    Forall r_ok (snd (decode pool pick dst src)).
  Proof.
    intros pool pick dst src HF. unfold Model.decode. simpl pool_get.
    destruct (pool_get pool pick) as [[r0 rest]|] eqn:EG.
    - destruct (pool_get_Forall _ _ _ _ _ _ HF EG) as [Hr0 Hrest].
      destruct (Hr_reset_fresh r0 src Hr0) as [He Hobs].
      pose proof (Hr_reset_ok r0 (Some src) Hr0) as Hok.
      rewrite He in *. destruct (snd (rd_new src)); [simpl; auto|].
      destruct (decode_run_fresh _ _ rest [] dst src (Hobs eq_refl) (Hok eq_refl)); auto.
    - pose proof (Hr_new_ok src) as Hok.
      destruct (snd (rd_new src)); [simpl; auto|].
      destruct (decode_run_fresh _ _ pool [] dst src (obs_eq_refl _) (Hok eq_refl)); auto.
  Qed.

  Lemma encode_run_ok : forall w p dst src, w_ok w -> Forall w_ok p ->
    Forall w_ok (snd (encode_run W wr_reset wr_write wr_close w p dst src)) /\
    snd (encode_run W wr_reset wr_write wr_close w p dst src) <> [].
  Proof.
    intros w p dst src Hw Hp. unfold encode_run.
    pose proof (wrun_ok w (firstn 0 dst) src Hw) as Hok.
    destruct (wrun w (firstn 0 dst) src) as [[out e] w1]. simpl in *.
    split; [constructor; auto | discriminate].
  Qed.

  Lemma encode_fresh : forall pool pick dst src, Forall w_ok pool ->
    (snd wr_new = true -> pool = []) ->
    fst (encode pool pick dst src) = fst (encode [] None dst src) /\
    Forall w_ok (snd (encode pool pick dst src)) /\
    (snd wr_new = true -> snd (encode pool pick dst src) = []).
  Proof.
    intros pool pick dst src HF HN. unfold Model.encode. simpl pool_get.
    destruct (pool_get pool pick) as [[w0 rest]|] eqn:EG.
    - destruct (pool_get_Forall _ _ _ _ _ _ HF EG) as [Hw0 Hrest].
      assert (Hnew : snd wr_new = false).
      { destruct (snd wr_new) eqn:E; auto. rewrite (HN eq_refl) in EG.
        rewrite pool_get_nil in EG. discriminate. }
      rewrite Hnew.
      destruct (encode_run_ok (wr_reset w0 true) rest dst src (Hw_reset_ok w0 true Hw0) Hrest) as [H1 H2].
      split; [|split; [auto | discriminate]].
      unfold encode_run.
      pose proof (Hw_reset_fresh w0 (firstn 0 dst) src Hw0 Hnew) as Hfr.
      destruct (wrun (wr_reset w0 true) (firstn 0 dst) src) as [[out e] w1].
      destruct (wrun (fst wr_new) (firstn 0 dst) src) as [[out' e'] w1'].
      simpl in *. inversion Hfr; subst. reflexivity.
    - destruct (snd wr_new) eqn:Hnew.
      + simpl. auto.
      + destruct (encode_run_ok (fst wr_new) pool dst src (Hw_new_ok eq_refl) HF) as [H1 H2].
        split; [|split; [auto | discriminate]].
        unfold encode_run. destruct (wrun (fst wr_new) (firstn 0 dst) src) as [[out e] w1]. reflexivity.
  Qed.

  Definition ev_no_pick (ev : event) : event :=
    match ev with
    | EvEncode _ dst src => EvEncode None dst src
    | EvDecode _ dst src => EvDecode None dst src
    | EvGc b i => EvGc b i
    end.

  Lemma step_inv : forall st ev, inv st ->
    fst (step st ev) = fst (step init (ev_no_pick ev)) /\ inv (snd (step st ev)).
  Proof.
    intros [rs ws] ev [HR [HW HN]]. simpl in HR, HW, HN.
    destruct ev as [pick dst src|pick dst src|[|] i]; simpl.
    - destruct (encode_fresh ws pick dst src HW HN) as [H1 [H2 H3]].
      destruct (encode ws pick dst src) as [o ws']. destruct (encode [] None dst src) as [o' ws''].
      simpl in *. subst. repeat split; auto.
    - destruct (decode_fresh rs pick dst src HR) as [H1 H2].
      destruct (decode rs pick dst src) as [o rs']. destruct (decode [] None dst src) as [o' rs''].
      simpl in *. subst. repeat split; auto.
    - repeat split; simpl; auto. apply remove_nth_Forall; auto.
    - repeat split; simpl; auto.
      + apply remove_nth_Forall; auto.
      + intros H. rewrite (HN H). destruct i; reflexivity.
  Qed.

  Lemma run_history_inv : forall h st, inv st -> inv (run_history st h).
  Proof.
    induction h as [|ev h IH]; intros st H; simpl; auto.
    apply IH. apply (step_inv st ev H).
  Qed.

  (** HISTORY INDEPENDENCE: after every history of Encode / Decode calls (valid
      or failing inputs, any dst, any choice of sync.Pool) and GC events, the
      next call answers what a fresh codec value answers. *)
  Theorem history_independent : forall h ev,
    fst (step (run_history init h) ev) = fresh_result (ev_no_pick ev).
  Proof.
    intros h ev. unfold Model.fresh_result.
    apply (step_inv _ ev (run_history_inv h init inv_init)).
  Qed.

  (** the contents of dst never reach the output: only its capacity matters *)
  Theorem dst_contents_irrelevant : forall h pick dst dst' src,
    length dst = length dst' ->
    fst (step (run_history init h) (EvDecode pick dst src)) =
    fst (step (run_history init h) (EvDecode pick dst' src)) /\
    fst (step (run_history init h) (EvEncode pick dst src)) =
    fst (step (run_history init h) (EvEncode pick dst' src)).
  Proof.
    intros h pick dst dst' src Hl. rewrite !history_independent.
    unfold ev_no_pick, Model.fresh_result, Model.step, Model.init. cbn [readers writers].
    unfold Model.decode, Model.encode, decode_run, encode_run. cbn [pool_get].
    change (firstn 0 dst) with (@nil N). change (firstn 0 dst') with (@nil N).
    rewrite Hl. split; reflexivity.
  Qed.

  Section Roundtrip.
    Variable enc : bytes -> bytes.
    Hypothesis Hw_enc : forall x, snd wr_new = false /\
      fst (wrun (fst wr_new) [] x) = (enc x, false).
    Hypothesis Hr_dec : forall x, snd (rd_new (enc x)) = false /\
      yields (S (length x)) (fst (rd_new (enc x))) x.
    Hypothesis enc_nonempty : forall x, enc x <> [].

    Lemma fresh_encode : forall dst x, fresh_result (EvEncode None dst x) = Done (enc x) false.
    Proof.
      intros dst x. unfold Model.fresh_result, Model.step, Model.encode. simpl pool_get. cbv iota beta.
      destruct (Hw_enc x) as [Hn Hr]. rewrite Hn. unfold encode_run.
      change (firstn 0 dst) with (@nil N).
      destruct (wrun (fst wr_new) [] x) as [[out e] w1]. simpl in Hr. inversion Hr. reflexivity.
    Qed.

    Lemma fresh_decode : forall dst x, (length x < fuel)%nat ->
      fresh_result (EvDecode None dst (enc x)) = Done x false.
    Proof.
      intros dst x Hf. unfold Model.fresh_result, Model.step, Model.decode. simpl pool_get. cbv iota beta.
      destruct (Hr_dec x) as [Hn HY]. rewrite Hn. unfold decode_run.
      change (firstn 0 dst) with (@nil N).
      set (cap := if Nat.eqb (length dst) 0 then 2 * length (enc x) else length dst).
      assert (Hc : (length (@nil N) < cap)%nat).
      { unfold cap. destruct (Nat.eqb (length dst) 0) eqn:E.
        - pose proof (enc_nonempty x). destruct (enc x); [congruence|simpl; lia].
        - apply Nat.eqb_neq in E. simpl. lia. }
      pose proof (grow_loop_yields (S (length x)) fuel (fst (rd_new (enc x))) x [] cap HY ltac:(lia) Hc) as HG.
      destruct (grow_loop fuel (fst (rd_new (enc x))) [] cap) as [[o r1] cs]. simpl in HG. subst o.
      destruct (rd_reset r1 None) as [r2 e2]. reflexivity.
    Qed.

    (** Decode(Encode(x)) = x whatever happened on the codec value before the
        Encode, between the two calls, and whatever dst buffers are passed *)
    Theorem roundtrip_after_any_history : forall h1 h2 p1 p2 dst1 dst2 x,
      (length x < fuel)%nat ->
      fst (step (run_history init h1) (EvEncode p1 dst1 x)) = Done (enc x) false /\
      fst (step (run_history init h2) (EvDecode p2 dst2 (enc x))) = Done x false.
    Proof.
      intros. rewrite !history_independent. simpl. split.
      - apply fresh_encode.
      - apply fresh_decode; auto.
    Qed.
  End Roundtrip.
End Contract.

Section ZstdContract.
  Variable ZS : Type.
  Variable z_new : ZS.
  Variable z_all : ZS -> bytes -> (bytes * bool) * ZS.
  Variable z_ok : ZS -> Prop.
  (* contract of EncodeAll / DecodeAll: stateless *)
  Hypothesis Hz_new : z_ok z_new.
  Hypothesis Hz_keep : forall z src, z_ok z -> z_ok (snd (z_all z src)).
  Hypothesis Hz_stateless : forall z src, z_ok z -> fst (z_all z src) = fst (z_all z_new src).

  Lemma zstd_call_fresh : forall pool pick dst src, Forall z_ok pool ->
    fst (zstd_call ZS z_new z_all pool pick dst src) = fst (zstd_call ZS z_new z_all [] None dst src) /\
    Forall z_ok (snd (zstd_call ZS z_new z_all pool pick dst src)).
  Proof.
    intros pool pick dst src HF. unfold zstd_call. simpl pool_get.
    destruct (pool_get pool pick) as [[z0 rest]|] eqn:EG.
    - destruct (pool_get_Forall _ _ _ _ _ _ HF EG) as [Hz Hrest].
      pose proof (Hz_stateless z0 src Hz) as Hs. pose proof (Hz_keep z0 src Hz) as Hk.
      destruct (z_all z0 src) as [[out e] z1]. destruct (z_all z_new src) as [[out' e'] z1'].
      simpl in *. inversion Hs; subst. auto.
    - pose proof (Hz_keep z_new src Hz_new) as Hk.
      destruct (z_all z_new src) as [[out e] z1]. simpl in *. auto.
  Qed.

  Theorem zstd_history_independent : forall h pick dst src,
    fst (zstd_call ZS z_new z_all (zstd_history ZS z_new z_all [] h) pick dst src) =
    fst (zstd_call ZS z_new z_all [] None dst src).
  Proof.
    intros h pick dst src.
    assert (H : forall h pool, Forall z_ok pool -> Forall z_ok (zstd_history ZS z_new z_all pool h)).
    { clear h. induction h as [|[[p d] s] h IH]; intros pool HF; simpl; auto.
      apply IH. apply zstd_call_fresh; auto. }
    apply zstd_call_fresh. apply H. constructor.
  Qed.
End ZstdContract.

Local Open Scope N_scope.

Lemma lz4_retry_S : forall f ub src_len d,
  lz4_retry (S f) ub src_len d =
  match ub d with
  | Some n => LzOk n d
  | None => if 255 * src_len + 64 <? d then LzErr d
            else lz4_retry f ub src_len (N.max (2 * d) 64)
  end.
Proof. reflexivity. Qed.

Lemma lz4_retry_terminates_aux : forall f ub src_len d,
  64 <= d -> 255 * src_len + 64 < d * 2 ^ N.of_nat f ->
  lz4_retry (S f) ub src_len d <> LzHang.
Proof.
  induction f as [|f IH]; intros ub src_len d Hd Hb.
  - simpl in *. destruct (ub d); [discriminate|].
    replace (d * 1) with d in Hb by lia.
    apply N.ltb_lt in Hb. rewrite Hb. discriminate.
  - rewrite lz4_retry_S.
    destruct (ub d); [discriminate|].
    destruct (255 * src_len + 64 <? d); [discriminate|].
    apply IH.
    + lia.
    + rewrite Nat2N.inj_succ, N.pow_succ_r' in Hb.
      replace (N.max (2 * d) 64) with (2 * d) by lia. lia.
Qed.

Lemma lz4_size_bound : forall x, x < 2 ^ N.size x.
Proof.
  intros x. destruct x as [|p]; [reflexivity|].
  apply N.size_gt.
Qed.

(** the repaired loop terminates for every input, every dst capacity and every
    behaviour of UncompressBlock: within [lz4_fuel] iterations it has either
    succeeded or passed the 255x bound and returned the error *)
Theorem lz4_retry_terminates : forall ub src_len dst_len,
  lz4_retry (lz4_fuel src_len) ub src_len dst_len <> LzHang.
Proof.
  intros ub src_len dst_len. unfold lz4_fuel.
  set (k := N.to_nat (N.size (255 * src_len + 64))).
  rewrite lz4_retry_S.
  destruct (ub dst_len); [discriminate|].
  destruct (255 * src_len + 64 <? dst_len); [discriminate|].
  apply lz4_retry_terminates_aux; [lia|].
  unfold k. rewrite N2Nat.id.
  pose proof (lz4_size_bound (255 * src_len + 64)).
  assert (0 < 2 ^ N.size (255 * src_len + 64)) by lia.
  nia.
Qed.

(** an error is only reported past the bound (a shorter buffer is retried), and
    the buffer never exceeds twice the bound plus the caller's own capacity *)
Theorem lz4_retry_err_bound : forall f ub src_len d d',
  lz4_retry f ub src_len d = LzErr d' -> 255 * src_len + 64 < d'.
Proof.
  induction f as [|f IH]; intros ub src_len d d' H; [discriminate|]. rewrite lz4_retry_S in H.
  destruct (ub d); [discriminate|].
  destruct (255 * src_len + 64 <? d) eqn:E.
  - inversion H; subst. apply N.ltb_lt; auto.
  - eapply IH; eauto.
Qed.

Theorem lz4_retry_alloc_bound : forall f ub src_len d,
  match lz4_retry f ub src_len d with
  | LzOk _ d' | LzErr d' => d' <= N.max d (2 * (255 * src_len + 64))
  | LzHang => True
  end.
Proof.
  induction f as [|f IH]; intros ub src_len d; [simpl; auto|]. rewrite lz4_retry_S.
  destruct (ub d); [lia|].
  destruct (255 * src_len + 64 <? d) eqn:E; [lia|].
  apply N.ltb_ge in E.
  specialize (IH ub src_len (N.max (2 * d) 64)).
  destruct (lz4_retry f ub src_len (N.max (2 * d) 64)); auto; lia.
Qed.
