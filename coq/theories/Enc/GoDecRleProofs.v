(** Refinement of the specification decoder of the RLE / bit-packed hybrid by
    the models of Go's decoders (Enc/GoDecRle.v).

    [dec_runs64] is [Rle.dec_runs] restricted to what a reader with 64-bit
    integers can take: run headers are varints of at most 10 bytes / 64 bits
    and announce 1 .. MaxInt32 values (groups).  On EVERY byte string that
    [dec_runs64] accepts, Go's decodeBytes (levels, widths 0..8) and
    decodeInt32 (widths 0..32) return the same values ([go_levels_refines],
    [go_int32_refines]); the encoders' output is such a string
    ([hybrid_roundtrip64]), so Go's decoders invert Go's encoders.  What is
    outside [dec_runs64] and accepted by [Rle.dec_runs]: headers announcing
    0 values (Go skips them without reading a value: [*_empty_run_refuted]),
    more than MaxInt32 values, varints longer than 10 bytes (Go: errors).
    Booleans (decodeBits): Enc/GoDecBitsProofs.v. *)
From Coq Require Import List NArith ZArith Lia Bool Arith.
From Coq Require Import ZifyN ZifyNat ZifyBool.
From PQ Require Import Base.Bytes Base.Varint Base.BitPack Base.ListExtra.
From PQ Require Import Enc.Rle Enc.RleProofs Enc.GoDecBase Enc.GoDecBaseProofs Enc.GoDecRle.
Import ListNotations.
Open Scope N_scope.

Definition count_ok (c : N) : bool := (0 <? c) && (c <=? max_count).

Fixpoint dec_runs64 (fuel : nat) (w : N) (b : bytes) : option (list N) :=
  match fuel with
  | O => match b with [] => Some [] | _ => None end
  | S f =>
      match b with
      | [] => Some []
      | _ =>
          match go_uvarint b with
          | None => None
          | Some (h, b1) =>
              if count_ok (h / 2) then dec_run_body (dec_runs64 f w) w h b1 else None
          end
      end
  end.

Definition dec_hybrid64 (w : N) (b : bytes) : option (list N) := dec_runs64 (length b) w b.

Lemma dec_run_body_mono (r1 r2 : bytes -> option (list N)) w h b xs :
  (forall b ys, r1 b = Some ys -> r2 b = Some ys) ->
  dec_run_body r1 w h b = Some xs -> dec_run_body r2 w h b = Some xs.
Proof.
  intros Hr. unfold dec_run_body.
  destruct (N.odd h).
  - destruct (Rle.take_bytes _ b) as [[body b2]|]; [|discriminate].
    destruct (r1 b2) as [rest|] eqn:E; [|discriminate]. now rewrite (Hr _ _ E).
  - destruct (Rle.take_bytes _ b) as [[vb b2]|]; [|discriminate].
    destruct (r1 b2) as [rest|] eqn:E; [|discriminate]. now rewrite (Hr _ _ E).
Qed.

Theorem dec_runs64_sound w : forall f b xs, dec_runs64 f w b = Some xs -> dec_runs f w b = Some xs.
Proof.
  induction f as [|f IH]; intros b xs H.
  - exact H.
  - destruct b as [|x l]; [exact H|].
    cbn [dec_runs64] in H. cbn [dec_runs].
    destruct (go_uvarint (x :: l)) as [[h b1]|] eqn:E; [|discriminate].
    rewrite (go_uvarint_spec _ _ E).
    destruct (count_ok (h / 2)); [|discriminate].
    eapply dec_run_body_mono; [|exact H]. exact IH.
Qed.

Lemma nb_levels c w : (c * 8 * w + 7) / 8 = c * w.
Proof.
  replace (c * 8 * w + 7) with (7 + (c * w) * 8) by lia.
  rewrite N.div_add by discriminate. reflexivity.
Qed.

Lemma count_ok_spec c : count_ok c = true -> (c =? 0) = false /\ (max_count <? c) = false.
Proof.
  unfold count_ok. intros H. apply andb_true_iff in H. destruct H as [H1 H2].
  apply N.ltb_lt in H1. apply N.leb_le in H2.
  split; [apply N.eqb_neq; lia|apply N.ltb_ge; exact H2].
Qed.

Lemma byte_count_levels w : w <= 8 -> w <> 0 -> byte_count w = 1%nat.
Proof.
  intros H1 H2. unfold byte_count.
  assert (E : (w + 7) / 8 = 1).
  { symmetry. apply (N.div_unique (w + 7) 8 1 (w - 1)); lia. }
  now rewrite E.
Qed.

Lemma go_bytes_run_refines w (Hw : w <= 8) rec64 recgo h b1 xs :
  (forall b ys, rec64 b = Some ys -> recgo b = GOk ys) ->
  count_ok (h / 2) = true ->
  dec_run_body rec64 w h b1 = Some xs -> go_bytes_run recgo w h b1 = GOk xs.
Proof.
  intros Hrec Hc H. unfold go_bytes_run.
  destruct (count_ok_spec _ Hc) as [E0 Em]. rewrite E0, Em.
  destruct (dec_run_body_some _ _ _ _ _ H) as (rest & Hle & Er & ->). clear H.
  apply Hrec in Er. destruct (N.odd h).
  - rewrite nb_levels.
    assert (En : N.to_nat (h / 2 * w) = (N.to_nat (h / 2) * N.to_nat w)%nat) by lia.
    assert (Hf : fits_len (h / 2 * w) b1 = true) by (apply fits_len_true; lia).
    rewrite Hf. cbn [negb]. rewrite En, Er. cbn [gbind].
    unfold go_unpack_groups. now rewrite go_unpack_chunks_groups by exact Hw.
  - destruct (N.eqb_spec w 0) as [->|Hw0].
    + change (byte_count 0) with 0%nat in *. cbn [negb andb firstn skipn of_le] in *.
      now rewrite Er.
    + rewrite (byte_count_levels w Hw Hw0) in *. cbn [negb andb].
      assert (Hf : fits_len 1 b1 = true) by (apply fits_len_true; lia).
      rewrite Hf. cbn [negb].
      destruct b1 as [|x l]; [cbn in Hle; lia|].
      cbn [hd tl firstn skipn of_le] in *. rewrite Er. cbn [gbind].
      now rewrite N.mul_0_r, N.add_0_r.
Qed.

Theorem go_levels_refines w (Hw : w <= 8) : forall f b xs,
  dec_runs64 f w b = Some xs -> go_decode_bytes f w b = GOk xs.
Proof.
  induction f as [|f IH]; intros b xs H.
  - destruct b; [inversion H; reflexivity|discriminate].
  - destruct b as [|x l]; [inversion H; reflexivity|].
    cbn [dec_runs64] in H. cbn [go_decode_bytes].
    destruct (go_uvarint (x :: l)) as [[h b1]|]; [|discriminate].
    destruct (count_ok (h / 2)) eqn:Hc; [|discriminate].
    eapply go_bytes_run_refines; eauto.
Qed.

Lemma go_int32_run_refines w (Hw : w <= 32) pinned rec64 recgo h b1 xs :
  (forall b ys, rec64 b = Some ys -> recgo b = GOk ys) ->
  count_ok (h / 2) = true ->
  dec_run_body rec64 w h b1 = Some xs -> go_int32_run pinned recgo w h b1 = GOk xs.
Proof.
  intros Hrec Hc H. unfold go_int32_run.
  destruct (count_ok_spec _ Hc) as [E0 Em]. rewrite E0, Em.
  destruct (dec_run_body_some _ _ _ _ _ H) as (rest & Hle & Er & ->). clear H.
  apply Hrec in Er. destruct (N.odd h).
  - assert (En : N.to_nat (h / 2 * w) = (N.to_nat (h / 2) * N.to_nat w)%nat) by lia.
    assert (Hf : fits_len (h / 2 * w) b1 = true) by (apply fits_len_true; lia).
    rewrite Hf. cbn [negb]. rewrite En, Er. cbn [gbind].
    now rewrite go_unpack_chunks_groups by exact Hw.
  - unfold byte_count in *.
    assert (Hf : fits_len ((w + 7) / 8) b1 = true) by (apply fits_len_true; lia).
    rewrite Hf. cbn [negb]. now rewrite Er.
Qed.

(** before and after 70434b6: the repair concerns rejected streams only *)
Theorem go_int32_refines w (Hw : w <= 32) pinned : forall f b xs,
  dec_runs64 f w b = Some xs -> go_decode_int32 pinned f w b = GOk xs.
Proof.
  induction f as [|f IH]; intros b xs H.
  - destruct b; [inversion H; reflexivity|discriminate].
  - destruct b as [|x l]; [inversion H; reflexivity|].
    cbn [dec_runs64] in H. cbn [go_decode_int32].
    destruct (go_uvarint (x :: l)) as [[h b1]|]; [|discriminate].
    destruct (count_ok (h / 2)) eqn:Hc; [|discriminate].
    eapply go_int32_run_refines; eauto.
Qed.

Definition go_run_ok (r : run) : Prop :=
  match r with
  | RunRLE c _ => 0 < N.of_nat c <= max_count
  | RunBP gs => 0 < N.of_nat (length gs) <= max_count
  end.

Lemma dec_runs64_step f w h p : h < 2 ^ 64 -> count_ok (h / 2) = true ->
  dec_runs64 (S f) w (uvarint64 h ++ p) = dec_run_body (dec_runs64 f w) w h p.
Proof.
  intros Hh Hc. cbn [dec_runs64].
  destruct (uvarint64 h ++ p) as [|x l] eqn:E; [now destruct (uvarint64_app_nonempty h p)|].
  rewrite <- E, go_uvarint64_roundtrip by exact Hh. now rewrite Hc.
Qed.

Lemma max_count_lt31 : max_count < 2 ^ 31.
Proof. exact max_int32_lt31. Qed.

Lemma go_run_ok_count r : go_run_ok r <-> 0 < N.of_nat (run_count r) <= max_count.
Proof. destruct r; reflexivity. Qed.

Theorem dec_runs64_serialize w rs : Forall (wf_run w) rs -> Forall go_run_ok rs ->
  forall fuel, (length (serialize w rs) <= fuel)%nat ->
  dec_runs64 fuel w (serialize w rs) = Some (concat (map expand rs)).
Proof.
  induction 1 as [|r rs Hr Hrs IH]; intros Hok fuel Hfuel; [destruct fuel; reflexivity|].
  inversion Hok as [|? ? Hr_ok Hrs_ok]; subst.
  unfold serialize in *. cbn [map concat] in *. rewrite serialize_run_eq in *.
  rewrite !app_length in Hfuel. pose proof (uvarint64_length_pos (run_header r)).
  destruct fuel as [|f]; [lia|].
  rewrite <- !app_assoc, dec_runs64_step.
  - rewrite dec_run_body_serialized, IH by (assumption || lia). reflexivity.
  - exact (run_header_lt w r Hr).
  - rewrite run_header_half. apply andb_true_iff. apply go_run_ok_count in Hr_ok.
    split; [apply N.ltb_lt|apply N.leb_le]; apply Hr_ok.
Qed.

Theorem go_levels_refines_top w b xs :
  w <= 8 -> dec_hybrid64 w b = Some xs -> go_decode_levels w b = GOk xs /\ dec_hybrid w b = Some xs.
Proof.
  intros Hw H. split.
  - unfold go_decode_levels. destruct (N.ltb_spec 8 w); [lia|]. now apply go_levels_refines.
  - now apply dec_runs64_sound.
Qed.

Theorem go_int32_refines_top w b xs :
  w <= 32 -> dec_hybrid64 w b = Some xs -> go_decode_int32_top w b = GOk xs /\ dec_hybrid w b = Some xs.
Proof.
  intros Hw H. split.
  - unfold go_decode_int32_top. destruct (N.ltb_spec 32 w); [lia|]. now apply go_int32_refines.
  - now apply dec_runs64_sound.
Qed.

(** run-length runs of any length included, not only those Go writes *)
Theorem go_levels_any_runs w rs : w <= 8 -> Forall (wf_run w) rs -> Forall go_run_ok rs ->
  go_decode_levels w (serialize w rs) = GOk (concat (map expand rs)).
Proof.
  intros Hw Hwf Hok. apply go_levels_refines_top; [exact Hw|]. now apply dec_runs64_serialize.
Qed.

Theorem go_int32_any_runs w rs : w <= 32 -> Forall (wf_run w) rs -> Forall go_run_ok rs ->
  go_decode_int32_top w (serialize w rs) = GOk (concat (map expand rs)).
Proof.
  intros Hw Hwf Hok. apply go_int32_refines_top; [exact Hw|]. now apply dec_runs64_serialize.
Qed.

Lemma expand_length_le rs : forall r, In r rs -> (length (expand r) <= length (concat (map expand rs)))%nat.
Proof.
  induction rs as [|a rs IH]; intros r Hin; [destruct Hin|].
  cbn [map concat]. rewrite app_length. destruct Hin as [->|Hin]; [lia|].
  specialize (IH r Hin). lia.
Qed.

Lemma concat_groups_length w gs :
  Forall (fun g => length g = 8%nat /\ fits w g) gs -> length (concat gs) = (8 * length gs)%nat.
Proof.
  intros H. rewrite Nat.mul_comm. apply concat_length_uniform.
  eapply Forall_impl; [|exact H]. now intros g [Hg _].
Qed.

Lemma run_pos_go_ok w rs : Forall run_pos rs -> Forall (wf_run w) rs ->
  N.of_nat (length (concat (map expand rs))) <= max_count -> Forall go_run_ok rs.
Proof.
  intros P W Hlen. apply Forall_forall. intros r Hr.
  rewrite Forall_forall in W, P. specialize (W r Hr). specialize (P r Hr).
  pose proof (expand_length_le _ r Hr) as Hl. apply go_run_ok_count. unfold run_pos in P.
  destruct r as [c v|gs]; cbn [run_count expand wf_run] in *.
  - rewrite repeat_length in Hl. lia.
  - destruct W as [Wg _]. rewrite (concat_groups_length w gs Wg) in Hl. lia.
Qed.

Theorem hybrid_roundtrip64 int32 w src :
  fits w src -> N.of_nat (length src) <= max_count -> (w = 0 -> src <> []) ->
  exists b, enc_hybrid int32 w src = Some b /\ dec_hybrid64 w b = Some src.
Proof.
  intros Hfit Hlen Hne. pose proof max_count_lt31 as Hmc.
  destruct (enc_hybrid_runs int32 w src Hfit ltac:(lia)) as (rs & Hb & E & W & P).
  eexists. split; [exact Hb|]. unfold dec_hybrid64.
  rewrite dec_runs64_serialize; [now rewrite E|exact W| |lia].
  apply (run_pos_go_ok w); [exact (P Hne)|exact W|now rewrite E].
Qed.

(** second premise: the header announcing no value, which the encoders write
    for the empty sequence at width 0, is skipped *)
Lemma go_hybrid_roundtrip (godec : bytes -> gres (list N)) int32 w src :
  (forall b xs, dec_hybrid64 w b = Some xs -> godec b = GOk xs) ->
  (w = 0 -> godec (uvarint64 0) = GOk []) ->
  fits w src -> N.of_nat (length src) <= max_count ->
  exists b, enc_hybrid int32 w src = Some b /\ godec b = GOk src /\ dec_hybrid w b = Some src.
Proof.
  intros Href Hskip Hfit Hlen. pose proof max_count_lt31 as Hmc.
  destruct (hybrid_roundtrip int32 w src Hfit ltac:(lia)) as (b & Hb & Hd).
  exists b. split; [exact Hb|]. split; [|exact Hd].
  destruct (N.eq_dec w 0) as [Hw|Hw]; [destruct src as [|x src'] eqn:Es|].
  - subst w. inversion Hb. now apply Hskip.
  - destruct (hybrid_roundtrip64 int32 w (x :: src') Hfit Hlen) as (b' & Hb' & Hd'); [discriminate|].
    rewrite Hb in Hb'. inversion Hb'; subst b'. now apply Href.
  - destruct (hybrid_roundtrip64 int32 w src Hfit Hlen) as (b' & Hb' & Hd'); [contradiction|].
    rewrite Hb in Hb'. inversion Hb'; subst b'. now apply Href.
Qed.

Theorem go_levels_roundtrip w src :
  w <= 8 -> fits w src -> N.of_nat (length src) <= max_count ->
  exists b, enc_levels w src = Some b /\ go_decode_levels w b = GOk src /\ dec_hybrid w b = Some src.
Proof.
  intros Hw. apply go_hybrid_roundtrip; [|now intros ->].
  intros b xs H. now apply go_levels_refines_top.
Qed.

Theorem go_int32_roundtrip w src :
  w <= 32 -> fits w src -> N.of_nat (length src) <= max_count ->
  exists b, enc_int32 w src = Some b /\ go_decode_int32_top w b = GOk src /\ dec_hybrid w b = Some src.
Proof.
  intros Hw. apply go_hybrid_roundtrip; [|now intros ->].
  intros b xs H. now apply go_int32_refines_top.
Qed.

Theorem go_dict_roundtrip src :
  Forall (fun v => v < 2 ^ 32) src -> N.of_nat (length src) <= max_count ->
  exists b, enc_dict_indexes src = Some b /\ go_decode_dict b = GOk src /\ dec_dict_indexes b = Some src.
Proof.
  intros H32 Hlen. unfold enc_dict_indexes.
  set (w := fold_left N.max (map bitlen src) 0).
  pose proof (fits_max_bitlen src) as Hfit. fold w in Hfit.
  pose proof (max_bitlen_le 32 src H32) as Hw. fold w in Hw.
  destruct (go_int32_roundtrip w src Hw Hfit Hlen) as (b & Hb & Hg & Hd).
  rewrite Hb. eexists. split; [reflexivity|]. split; [exact Hg|exact Hd].
Qed.

(** a header announcing 0 values: Go skips it without reading a value, the
    format's grammar gives a run-length run its value; the two decoders then
    read different streams *)
Theorem go_levels_empty_run_refuted :
  exists w b xs, dec_hybrid w b = Some xs /\ go_decode_levels w b <> GOk xs.
Proof. exists 1, [0; 2; 1], []. split; [reflexivity|]. vm_compute. discriminate. Qed.

(** before 70434b6: a bit-packed run longer than the input was sliced
    unchecked (a panic; or a decode of the bytes behind the slice) *)
Theorem go_int32_pinned_truncated_refuted :
  exists w b, dec_hybrid w b = None /\ go_decode_int32_pinned w b = GPanic
              /\ go_decode_int32_top w b = GErr.
Proof. exists 3, [3; 17]. repeat split; vm_compute; reflexivity. Qed.

(** before 75827ad: a conforming stream (10 x true as a run-length run, then
    6 x false in a bit-packed group) was decoded to 16 x true, 8 x false *)
Theorem go_boolean_pinned_unaligned_refuted :
  exists b n packed,
    go_decode_boolean_pinned b = GOk packed /\
    exists bits, dec_boolean_n n b = Some bits /\ firstn n (bits_of packed) <> bits.
Proof.
  exists [4; 0; 0; 0; 20; 1; 3; 0], 16%nat, [255; 255; 0].
  split; [vm_compute; reflexivity|].
  eexists. split; [vm_compute; reflexivity|]. vm_compute. discriminate.
Qed.

(** the repaired decodeBits on that stream *)
Example go_boolean_unaligned_example :
  exists packed, go_decode_boolean [4; 0; 0; 0; 20; 1; 3; 0] = GOk packed /\
                 Some (firstn 16 (bits_of packed)) = dec_boolean_n 16 [4; 0; 0; 0; 20; 1; 3; 0].
Proof. eexists. split; vm_compute; reflexivity. Qed.
