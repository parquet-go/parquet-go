(** Facts about the primitives of the Go-decoder models (Enc/GoDecBase.v):
    Go's Uvarint accepts a subset of what the format's ULEB128 decoder accepts
    and inverts PutUvarint; the portable bit unpacking equals the arithmetic
    [BitPack.unpack] (truncated to the destination type), whether evaluated on
    the whole stream or 8 values at a time. *)
From Coq Require Import List NArith ZArith Lia Bool Arith.
From Coq Require Import ZifyN ZifyNat ZifyBool.
From PQ Require Import Base.Bytes Base.Varint Base.BitPack Base.ListExtra Enc.Rle Enc.GoDecBase.
Import ListNotations.
Open Scope N_scope.

Lemma go_uvarint_aux_spec fuel : forall l s acc r,
  go_uvarint_aux fuel l s acc = Some r -> uvarint_dec_aux l s acc = Some r.
Proof.
  induction fuel as [|f IH]; intros l s acc r H; cbn [go_uvarint_aux] in H; [discriminate|].
  destruct l as [|b l']; [discriminate|]. cbn [uvarint_dec_aux].
  destruct (b <? 128).
  - destruct ((f =? 0)%nat && (1 <? b)); [discriminate|exact H].
  - apply IH. exact H.
Qed.

(** everything binary.Uvarint accepts is read identically by the format's decoder *)
Lemma go_uvarint_spec l r : go_uvarint l = Some r -> uvarint_dec l = Some r.
Proof. apply go_uvarint_aux_spec. Qed.

Lemma go_varint_spec l r : go_varint l = Some r -> varint_dec l = Some r.
Proof.
  unfold go_varint, varint_dec. destruct (go_uvarint l) as [[n r']|] eqn:E; [|discriminate].
  rewrite (go_uvarint_spec _ _ E). auto.
Qed.

Lemma go_uvarint_aux_cons f b r s acc :
  go_uvarint_aux (S f) (b :: r) s acc =
  if b <? 128 then (if (f =? 0)%nat && (1 <? b) then None else Some (acc + b * 2 ^ s, r))
  else go_uvarint_aux f r (s + 7) (acc + (b - 128) * 2 ^ s).
Proof. reflexivity. Qed.

Lemma go_uvarint_aux_enc f : forall x rest shift acc,
  x < 2 ^ (7 * N.of_nat f + 1) ->
  go_uvarint_aux (S f) (uvarint_enc f x ++ rest) shift acc = Some (acc + x * 2 ^ shift, rest).
Proof.
  induction f as [|f IH]; intros x rest shift acc Hx.
  - change (7 * N.of_nat 0 + 1) with 1 in Hx. change (2 ^ 1) with 2 in Hx.
    cbn [uvarint_enc app]. rewrite go_uvarint_aux_cons.
    rewrite N.mod_small by lia.
    destruct (N.ltb_spec x 128); [|lia]. cbn [Nat.eqb andb].
    destruct (N.ltb_spec 1 x); [lia|reflexivity].
  - cbn [uvarint_enc].
    destruct (N.ltb_spec x 128) as [Hs|Hb].
    + cbn [app]. rewrite go_uvarint_aux_cons. destruct (N.ltb_spec x 128); [|lia]. cbn [Nat.eqb andb]. reflexivity.
    + cbn [app]. rewrite go_uvarint_aux_cons.
      assert (Hm : x mod 128 < 128) by (apply N.mod_lt; discriminate).
      destruct (N.ltb_spec (x mod 128 + 128) 128) as [H|_]; [lia|].
      rewrite IH.
      * f_equal. f_equal.
        replace (x mod 128 + 128 - 128) with (x mod 128) by lia.
        rewrite N.pow_add_r. change (2 ^ 7) with 128.
        pose proof (N.div_mod x 128 ltac:(discriminate)). nia.
      * apply N.div_lt_upper_bound; [discriminate|].
        replace (7 * N.of_nat (S f) + 1) with (7 + (7 * N.of_nat f + 1)) in Hx by lia.
        rewrite N.pow_add_r in Hx. change (2 ^ 7) with 128 in Hx. exact Hx.
Qed.

Lemma go_uvarint64_roundtrip x rest :
  x < 2 ^ 64 -> go_uvarint (uvarint64 x ++ rest) = Some (x, rest).
Proof.
  intros Hx. unfold go_uvarint, uvarint64.
  rewrite go_uvarint_aux_enc by exact Hx.
  f_equal. f_equal. rewrite N.pow_0_r. lia.
Qed.

Lemma go_varint64_roundtrip z rest :
  in_sint 64 z -> go_varint (varint64 z ++ rest) = Some (z, rest).
Proof.
  intros Hz. unfold go_varint, varint64.
  rewrite go_uvarint64_roundtrip by (apply zigzag_lt; [lia|exact Hz]).
  now rewrite unzigzag_zigzag.
Qed.

Lemma go_uvarint_aux_lt fuel : forall l s acc v r,
  go_uvarint_aux fuel l s acc = Some (v, r) -> (length r < length l)%nat.
Proof.
  induction fuel as [|f IH]; intros l s acc v r H; cbn [go_uvarint_aux] in H; [discriminate|].
  destruct l as [|b l']; [discriminate|].
  destruct (b <? 128).
  - destruct ((f =? 0)%nat && (1 <? b)); [discriminate|]. inversion H; subst. cbn. lia.
  - apply IH in H. cbn. lia.
Qed.

(** a varint consumes at least one byte *)
Lemma go_uvarint_lt l v r : go_uvarint l = Some (v, r) -> (length r < length l)%nat.
Proof. apply go_uvarint_aux_lt. Qed.

Lemma go_varint_lt l v r : go_varint l = Some (v, r) -> (length r < length l)%nat.
Proof.
  unfold go_varint. destruct (go_uvarint l) as [[n r']|] eqn:E; [|discriminate].
  intros H. inversion H; subst. eapply go_uvarint_lt. exact E.
Qed.

Lemma uvarint_enc_wf64 x : wf_bytes (uvarint64 x).
Proof. apply uvarint_enc_wf. Qed.

Lemma go_unpack_map tw w n : forall x,
  go_unpack tw w n x = map (fun v => v mod 2 ^ tw) (unpack w n x).
Proof. induction n as [|n IH]; intros x; cbn [go_unpack unpack map]; [reflexivity|]. now rewrite IH. Qed.

Lemma go_unpack_small tw w n : w <= tw -> forall x, go_unpack tw w n x = unpack w n x.
Proof.
  intros Hw. induction n as [|n IH]; intros x; cbn [go_unpack unpack]; [reflexivity|].
  rewrite IH. f_equal. apply N.mod_small.
  eapply N.lt_le_trans; [apply N.mod_lt; pose proof (pow2_pos w); lia|].
  apply N.pow_le_mono_r; [discriminate|exact Hw].
Qed.

Lemma unpack_app w n : forall m x,
  unpack w (n + m) x = unpack w n x ++ unpack w m (x / 2 ^ (w * N.of_nat n)).
Proof.
  induction n as [|n IH]; intros m x.
  - cbn [Nat.add unpack app]. change (N.of_nat 0) with 0. rewrite N.mul_0_r, N.pow_0_r, N.div_1_r. reflexivity.
  - cbn [Nat.add unpack app]. f_equal. rewrite IH. f_equal. f_equal.
    rewrite N.div_div by (try apply N.pow_nonzero; discriminate).
    f_equal. rewrite <- N.pow_add_r. f_equal. lia.
Qed.

Lemma unpack_add_high w n : forall a b, unpack w n (a + 2 ^ (w * N.of_nat n) * b) = unpack w n a.
Proof.
  induction n as [|n IH]; intros a b; cbn [unpack]; [reflexivity|].
  assert (Hp : 2 ^ w <> 0) by (apply N.pow_nonzero; discriminate).
  assert (E : 2 ^ (w * N.of_nat (S n)) = 2 ^ w * 2 ^ (w * N.of_nat n)).
  { rewrite <- N.pow_add_r. f_equal. lia. }
  rewrite E, <- N.mul_assoc, (N.mul_comm (2 ^ w)), N.mod_add, N.div_add by exact Hp.
  now rewrite IH.
Qed.

(** the first [n] bytes and the rest, as numbers *)
Lemma of_le_split n bs : wf_bytes bs ->
  of_le bs = of_le (firstn n bs) + 2 ^ (8 * N.of_nat n) * of_le (skipn n bs)
  /\ of_le (firstn n bs) < 2 ^ (8 * N.of_nat n).
Proof.
  intros Hwf. split.
  - rewrite <- (firstn_skipn n bs) at 1. rewrite of_le_app, firstn_length.
    destruct (Nat.le_gt_cases n (length bs)) as [H|H].
    + rewrite Nat.min_l by exact H. now rewrite pow256.
    + rewrite skipn_all2 by lia. cbn [of_le]. lia.
  - eapply N.lt_le_trans; [apply of_le_bound; now apply Forall_firstn|].
    rewrite pow256. apply N.pow_le_mono_r; [discriminate|].
    rewrite firstn_length. lia.
Qed.

(** 8 values at a time = the whole stream at once *)
Lemma go_unpack_chunks_whole tw w g : forall bs, wf_bytes bs ->
  go_unpack_chunks tw w g bs = go_unpack tw w (8 * g) (of_le bs).
Proof.
  induction g as [|g IH]; intros bs Hwf.
  - reflexivity.
  - cbn [go_unpack_chunks].
    replace (8 * S g)%nat with (8 + 8 * g)%nat by lia.
    rewrite IH by (now apply Forall_skipn).
    rewrite !go_unpack_map, unpack_app, map_app.
    destruct (of_le_split (N.to_nat w) bs Hwf) as [E Hlt].
    rewrite N2Nat.id in E, Hlt.
    set (A := of_le (firstn (N.to_nat w) bs)) in *.
    set (B := of_le (skipn (N.to_nat w) bs)) in *.
    assert (Ew : 8 * w = w * N.of_nat 8) by (change (N.of_nat 8) with 8; lia).
    rewrite Ew in E, Hlt.
    rewrite E, unpack_add_high.
    f_equal. f_equal. f_equal.
    rewrite N.mul_comm, N.div_add by (apply N.pow_nonzero; discriminate).
    rewrite N.div_small by exact Hlt. reflexivity.
Qed.

(** for widths within the destination type: group by group, as the
    specification decoder of the hybrid encoding reads them *)
Lemma go_unpack_chunks_groups tw w g : w <= tw -> forall bs,
  go_unpack_chunks tw w g bs = concat (map (unpack_bytes w 8) (Rle.split_every g (N.to_nat w) bs)).
Proof.
  intros Hw. induction g as [|g IH]; intros bs; cbn [go_unpack_chunks Rle.split_every map concat]; [reflexivity|].
  rewrite IH, go_unpack_small by exact Hw. reflexivity.
Qed.

Lemma unpack_zero_width n : forall x, unpack 0 n x = repeat 0 n.
Proof.
  induction n as [|n IH]; intros x; cbn [unpack repeat]; [reflexivity|].
  rewrite IH. f_equal. change (2 ^ 0) with 1. apply N.mod_1_r.
Qed.

Lemma gbind_ok {A B} (r : gres A) (f : A -> gres B) y :
  gbind r f = GOk y -> exists x, r = GOk x /\ f x = GOk y.
Proof. destruct r; cbn [gbind]; intros H; try discriminate. eauto. Qed.

Lemma max_int32_lt31 : max_int32 < 2 ^ 31.
Proof. reflexivity. Qed.

Lemma fits_len_true n (l : bytes) : fits_len n l = true <-> n <= N.of_nat (length l).
Proof. unfold fits_len. apply N.leb_le. Qed.
