(** RLE / bit-packed hybrid: the specification decoder inverts the Go-mirroring
    encoders for every input and every bit width. *)
From Coq Require Import List NArith ZArith Lia Bool Arith.
From Coq Require Import ZifyN ZifyNat ZifyBool.
From PQ Require Import Base.Bytes Base.Varint Base.BitPack Base.ListExtra Enc.PlainProofs Enc.Rle.
Import ListNotations.
Open Scope N_scope.

Definition wf_run (w : N) (r : run) : Prop :=
  match r with
  | RunRLE c v => v < 256 ^ N.of_nat (byte_count w) /\ N.of_nat c < 2 ^ 62
  | RunBP gs => Forall (fun g => length g = 8%nat /\ fits w g) gs /\ N.of_nat (length gs) < 2 ^ 62
  end.

Lemma take_bytes_app n a b : length a = n -> take_bytes n (a ++ b) = Some (a, b).
Proof. apply leb_cut_app. Qed.

Lemma pack_bytes_len8 w g : length g = 8%nat -> length (pack_bytes w g) = N.to_nat w.
Proof.
  intros H. rewrite pack_bytes_length, H. f_equal.
  change (N.of_nat 8) with 8. rewrite N.div_mul by discriminate. reflexivity.
Qed.

Lemma concat_packed_length w gs :
  Forall (fun g => length g = 8%nat /\ fits w g) gs ->
  length (concat (map (pack_bytes w) gs)) = (length gs * N.to_nat w)%nat.
Proof.
  intros H. rewrite <- (map_length (pack_bytes w) gs). apply concat_length_uniform.
  apply Forall_map. eapply Forall_impl; [|exact H]. intros g [Hg _]. now apply pack_bytes_len8.
Qed.

Lemma split_every_packed w gs :
  Forall (fun g => length g = 8%nat /\ fits w g) gs ->
  split_every (length gs) (N.to_nat w) (concat (map (pack_bytes w) gs)) = map (pack_bytes w) gs.
Proof.
  intros H. rewrite <- (map_length (pack_bytes w) gs). apply (split_every_concat (N.to_nat w)).
  apply Forall_map. eapply Forall_impl; [|exact H]. intros g [Hg _]. now apply pack_bytes_len8.
Qed.

Lemma unpack_packed_groups w gs :
  Forall (fun g => length g = 8%nat /\ fits w g) gs ->
  map (unpack_bytes w 8) (map (pack_bytes w) gs) = gs.
Proof.
  induction 1 as [|g gs [Hg Hf] _ IH]; cbn [map]; [reflexivity|].
  rewrite IH. f_equal. rewrite <- Hg. apply unpack_bytes_pack_bytes; [exact Hf|].
  rewrite Hg. change (N.of_nat 8) with 8. apply N.mod_mul. discriminate.
Qed.

(** header: twice the count, the low bit telling the kind *)
Definition run_count (r : run) : nat := match r with RunRLE c _ => c | RunBP gs => length gs end.

Definition run_header (r : run) : N :=
  match r with RunRLE c _ => 2 * N.of_nat c | RunBP gs => 2 * N.of_nat (length gs) + 1 end.

Definition run_body (w : N) (r : run) : bytes :=
  match r with RunRLE _ v => to_le (byte_count w) v | RunBP gs => concat (map (pack_bytes w) gs) end.

Lemma serialize_run_eq w r : serialize_run w r = uvarint64 (run_header r) ++ run_body w r.
Proof. destruct r; reflexivity. Qed.

Lemma run_header_half r : run_header r / 2 = N.of_nat (run_count r).
Proof.
  destruct r as [c v|gs]; cbn [run_header run_count].
  - now rewrite N.mul_comm, N.div_mul.
  - rewrite N.add_comm, N.mul_comm, N.div_add by discriminate. reflexivity.
Qed.

Lemma run_header_odd r :
  N.odd (run_header r) = match r with RunRLE _ _ => false | RunBP _ => true end.
Proof.
  destruct r; cbn [run_header]; [now rewrite N.odd_mul|now rewrite N.add_comm, N.odd_add_mul_2].
Qed.

Lemma run_header_lt w r : wf_run w r -> run_header r < 2 ^ 64.
Proof. destruct r; intros [_ H]; cbn [run_header]; change (2 ^ 64) with (4 * 2 ^ 62); lia. Qed.

Lemma serialize_run_length_pos w r : (0 < length (serialize_run w r))%nat.
Proof.
  rewrite serialize_run_eq, app_length. pose proof (uvarint64_length_pos (run_header r)). lia.
Qed.

Lemma dec_run_body_serialized rec w r p : wf_run w r ->
  dec_run_body rec w (run_header r) (run_body w r ++ p)
  = match rec p with Some rest => Some (expand r ++ rest) | None => None end.
Proof.
  intros Hr. unfold dec_run_body. rewrite run_header_odd, run_header_half, Nat2N.id.
  destruct r as [c v|gs]; cbn [run_body run_count expand]; destruct Hr as [Hr _].
  - now rewrite take_bytes_app, of_le_to_le by (apply to_le_length || exact Hr).
  - rewrite take_bytes_app by (now apply concat_packed_length).
    now rewrite split_every_packed, unpack_packed_groups by exact Hr.
Qed.

Lemma take_bytes_some n b x y :
  take_bytes n b = Some (x, y) -> (n <= length b)%nat /\ x = firstn n b /\ y = skipn n b.
Proof. apply leb_cut_some. Qed.

Lemma dec_run_body_some rec w h b xs : dec_run_body rec w h b = Some xs ->
  let n := if N.odd h then (N.to_nat (h / 2) * N.to_nat w)%nat else byte_count w in
  exists rest, (n <= length b)%nat /\ rec (skipn n b) = Some rest /\
    xs = (if N.odd h
          then concat (map (unpack_bytes w 8) (split_every (N.to_nat (h / 2)) (N.to_nat w) (firstn n b)))
          else repeat (of_le (firstn n b)) (N.to_nat (h / 2))) ++ rest.
Proof.
  unfold dec_run_body. intros H.
  destruct (N.odd h);
    (destruct (take_bytes _ b) as [[body b2]|] eqn:Et; [|discriminate]);
    apply take_bytes_some in Et; destruct Et as (Hle & -> & ->);
    (destruct (rec _) as [rest|]; [|discriminate]); inversion H; eauto.
Qed.

Lemma dec_runs_step f w h p : h < 2 ^ 64 ->
  dec_runs (S f) w (uvarint64 h ++ p) = dec_run_body (dec_runs f w) w h p.
Proof.
  intros Hh. cbn [dec_runs].
  destruct (uvarint64 h ++ p) as [|x l] eqn:E; [now destruct (uvarint64_app_nonempty h p)|].
  rewrite <- E, uvarint64_roundtrip by exact Hh. reflexivity.
Qed.

Theorem dec_runs_serialize w rs : Forall (wf_run w) rs ->
  forall fuel, (length (serialize w rs) <= fuel)%nat ->
  dec_runs fuel w (serialize w rs) = Some (concat (map expand rs)).
Proof.
  induction 1 as [|r rs Hr Hrs IH]; intros fuel Hfuel; [destruct fuel; reflexivity|].
  unfold serialize in *. cbn [map concat] in *. rewrite serialize_run_eq in *.
  rewrite !app_length in Hfuel. pose proof (uvarint64_length_pos (run_header r)).
  destruct fuel as [|f]; [lia|].
  rewrite <- !app_assoc, dec_runs_step by exact (run_header_lt w r Hr).
  rewrite dec_run_body_serialized, IH by (exact Hr || lia). reflexivity.
Qed.

Lemma eqb_list_eq a : forall b, eqb_list a b = true -> a = b.
Proof.
  unfold eqb_list. induction a as [|x a IH]; intros [|y b] H; cbn in *; try discriminate; [reflexivity|].
  apply andb_true_iff in H. destruct H as [Hl H]. apply andb_true_iff in H. destruct H as [Hxy H].
  apply N.eqb_eq in Hxy. subst y. f_equal. apply IH. now rewrite Hl, H.
Qed.

Lemma count_equal_spec pat gs :
  (count_equal pat gs <= length gs)%nat /\
  firstn (count_equal pat gs) gs = repeat pat (count_equal pat gs).
Proof.
  induction gs as [|g r IH]; cbn [count_equal]; [split; [cbn; lia|reflexivity]|].
  destruct (eqb_list g pat) eqn:E.
  - apply eqb_list_eq in E. subst g. destruct IH as [IH1 IH2]. split; [cbn; lia|].
    cbn [firstn repeat]. now rewrite IH2.
  - split; [cbn; lia|reflexivity].
Qed.

Lemma concat_repeat_broadcast v c : concat (repeat (broadcast v) c) = repeat v (8 * c).
Proof.
  induction c as [|c IH]; [reflexivity|].
  cbn [repeat concat]. rewrite IH. unfold broadcast.
  rewrite <- repeat_app. f_equal. lia.
Qed.

Lemma span_bytes_le gs : forall prev, (span_bytes prev gs <= length gs)%nat.
Proof. induction gs as [|g r IH]; intros prev; cbn [span_bytes length]; [lia|]. destruct (eqb_list _ _); [lia|]. specialize (IH g). lia. Qed.

Lemma span_int32_le gs : (span_int32 gs <= length gs)%nat.
Proof. induction gs as [|g r IH]; cbn [span_int32 length]; [lia|]. destruct (is_const g); lia. Qed.

Definition groups_ok (w : N) (gs : list (list N)) : Prop :=
  Forall (fun g => length g = 8%nat /\ fits w g) gs.

Lemma hd_fits w g : length g = 8%nat -> fits w g -> hd 0 g < 2 ^ w.
Proof. destruct g as [|x g]; cbn; [discriminate|]. intros _ H. now inversion H. Qed.

Lemma pow2_le_256pow w : 2 ^ w <= 256 ^ N.of_nat (byte_count w).
Proof.
  unfold byte_count. rewrite N2Nat.id.
  rewrite pow256.
  apply N.pow_le_mono_r; [discriminate|].
  pose proof (N.div_mod (w + 7) 8 ltac:(discriminate)) as H.
  pose proof (N.mod_lt (w + 7) 8 ltac:(discriminate)). lia.
Qed.

Lemma detect_groups_spec int32 w : forall fuel gs,
  (length gs <= fuel)%nat -> groups_ok w gs -> N.of_nat (length gs) < 2 ^ 58 ->
  concat (map expand (detect_groups int32 fuel gs)) = concat gs /\
  Forall (wf_run w) (detect_groups int32 fuel gs).
Proof.
  induction fuel as [|f IH]; intros gs Hfuel Hok Hlen.
  - destruct gs; [split; [reflexivity|constructor]|cbn in Hfuel; lia].
  - cbn [detect_groups]. destruct gs as [|g r] eqn:Egs; [split; [reflexivity|constructor]|].
    rewrite <- Egs in *.
    set (c := count_equal (broadcast (hd 0 g)) gs).
    destruct (count_equal_spec (broadcast (hd 0 g)) gs) as [Hc1 Hc2]. fold c in Hc1, Hc2.
    assert (Hg : length g = 8%nat /\ fits w g) by (subst gs; inversion Hok; assumption).
    destruct (Nat.ltb_spec 0 c) as [Hpos|Hzero].
    + destruct (IH (skipn c gs)) as [E W].
      * rewrite skipn_length. lia.
      * now apply Forall_skipn.
      * rewrite skipn_length. lia.
      * split.
        -- cbn [map concat expand]. rewrite E.
           rewrite <- (firstn_skipn c gs) at 2. rewrite concat_app, Hc2, concat_repeat_broadcast.
           reflexivity.
        -- constructor; [|exact W]. cbn [wf_run]. split.
           ++ eapply N.lt_le_trans; [apply hd_fits; [exact (proj1 Hg)|exact (proj2 Hg)]|apply pow2_le_256pow].
           ++ change (2 ^ 62) with (16 * 2 ^ 58). lia.
    + set (c2 := S (if int32 then span_int32 r else span_bytes g r)).
      assert (Hc2le : (c2 <= length gs)%nat).
      { subst c2 gs. cbn [length]. destruct int32; [pose proof (span_int32_le r)|pose proof (span_bytes_le r g)]; lia. }
      destruct (IH (skipn c2 gs)) as [E W].
      * rewrite skipn_length. subst c2. lia.
      * now apply Forall_skipn.
      * rewrite skipn_length. lia.
      * split.
        -- cbn [map concat expand]. rewrite E, <- concat_app, firstn_skipn. reflexivity.
        -- constructor; [|exact W]. cbn [wf_run]. split.
           ++ now apply Forall_firstn.
           ++ rewrite firstn_length. change (2 ^ 62) with (16 * 2 ^ 58). lia.
Qed.

Lemma count_same_spec v l :
  (count_same v l <= length l)%nat /\ firstn (count_same v l) l = repeat v (count_same v l).
Proof.
  induction l as [|x r IH]; cbn [count_same]; [split; [cbn; lia|reflexivity]|].
  destruct (N.eqb_spec x v) as [->|_].
  - destruct IH as [IH1 IH2]. split; [cbn; lia|]. cbn [firstn repeat]. now rewrite IH2.
  - split; [cbn; lia|reflexivity].
Qed.

Lemma detect_tail_spec w : forall fuel l,
  (length l <= fuel)%nat -> fits w l -> N.of_nat (length l) < 2 ^ 61 ->
  concat (map expand (detect_tail fuel l)) = l /\ Forall (wf_run w) (detect_tail fuel l).
Proof.
  induction fuel as [|f IH]; intros l Hfuel Hfit Hlen.
  - destruct l; [split; [reflexivity|constructor]|cbn in Hfuel; lia].
  - cbn [detect_tail]. destruct l as [|v r]; [split; [reflexivity|constructor]|].
    destruct (count_same_spec v r) as [Hc1 Hc2]. set (c := count_same v r) in *.
    inversion Hfit as [|? ? Hv Hr]; subst.
    cbn [length] in *.
    destruct (IH (skipn c r)) as [E W].
    + rewrite skipn_length. lia.
    + now apply Forall_skipn.
    + rewrite skipn_length. lia.
    + split.
      * cbn [map concat expand repeat]. rewrite E. cbn [app]. f_equal.
        rewrite <- (firstn_skipn c r) at 2. now rewrite Hc2.
      * constructor; [|exact W]. cbn [wf_run]. split.
        -- eapply N.lt_le_trans; [exact Hv|apply pow2_le_256pow].
        -- change (2 ^ 62) with (2 * 2 ^ 61). lia.
Qed.

Lemma groups8_spec {A} : forall fuel (l : list A) k,
  length l = (8 * k)%nat -> (k <= fuel)%nat ->
  concat (groups8 fuel l) = l /\ Forall (fun g => length g = 8%nat) (groups8 fuel l)
  /\ length (groups8 fuel l) = k.
Proof.
  induction fuel as [|f IH]; intros l k Hl Hk.
  - assert (k = 0%nat) by lia. subst k. destruct l; [|discriminate].
    repeat split. constructor.
  - cbn [groups8]. destruct (Nat.leb_spec 8 (length l)) as [H8|H8].
    + destruct k as [|k]; [lia|].
      destruct (IH (skipn 8 l) k) as (E & F & L).
      * rewrite skipn_length. lia.
      * lia.
      * cbn [concat length]. rewrite E, firstn_skipn. repeat split; [|now rewrite L].
        constructor; [rewrite firstn_length; lia|exact F].
    + assert (k = 0%nat) by lia. subst k. destruct l; [|cbn in Hl; lia].
      repeat split. constructor.
Qed.

Lemma fits_concat_groups w (gs : list (list N)) :
  fits w (concat gs) -> Forall (fun g => length g = 8%nat) gs -> groups_ok w gs.
Proof.
  induction gs as [|g gs IH]; intros Hf Hl; [constructor|].
  cbn [concat] in Hf. apply Forall_app in Hf. destruct Hf as [Hg Hgs].
  inversion Hl; subst. constructor; [split; assumption|]. now apply IH.
Qed.

Theorem detect_spec int32 w src :
  fits w src -> N.of_nat (length src) < 2 ^ 61 ->
  concat (map expand (detect int32 src)) = src /\ Forall (wf_run w) (detect int32 src).
Proof.
  intros Hfit Hlen. unfold detect.
  set (n8 := (length src / 8 * 8)%nat).
  assert (Hn8 : (n8 <= length src)%nat).
  { subst n8. pose proof (Nat.div_mod (length src) 8 ltac:(lia)). lia. }
  assert (Hfl : length (firstn n8 src) = (8 * (length src / 8))%nat).
  { rewrite firstn_length. subst n8. lia. }
  destruct (groups8_spec (length src) (firstn n8 src) (length src / 8) Hfl) as (E & F & L).
  { pose proof (Nat.div_mod (length src) 8 ltac:(lia)). lia. }
  set (gs := groups8 (length src) (firstn n8 src)) in *.
  assert (Hok : groups_ok w gs).
  { apply fits_concat_groups; [|exact F]. rewrite E. now apply Forall_firstn. }
  destruct (detect_groups_spec int32 w (length gs) gs ltac:(lia) Hok) as [E1 W1].
  { rewrite L. change (2 ^ 61) with (8 * 2 ^ 58) in Hlen.
    pose proof (Nat.div_mod (length src) 8 ltac:(lia)). lia. }
  destruct (detect_tail_spec w (length src) (skipn n8 src)) as [E2 W2].
  { rewrite skipn_length. lia. }
  { now apply Forall_skipn. }
  { rewrite skipn_length. lia. }
  split.
  - rewrite map_app, concat_app, E1, E2, E. apply firstn_skipn.
  - apply Forall_app. split; assumption.
Qed.

Definition run_pos (r : run) : Prop := (0 < run_count r)%nat.

Lemma detect_groups_pos int32 : forall fuel gs, Forall run_pos (detect_groups int32 fuel gs).
Proof.
  induction fuel as [|f IH]; intros gs; cbn [detect_groups]; [constructor|].
  destruct gs as [|g r]; [constructor|].
  set (c := count_equal (broadcast (hd 0 g)) (g :: r)).
  destruct (Nat.ltb_spec 0 c).
  - constructor; [unfold run_pos; cbn [run_count]; lia|apply IH].
  - constructor; [|apply IH]. unfold run_pos. cbn [run_count firstn length]. lia.
Qed.

Lemma detect_tail_pos : forall fuel l, Forall run_pos (detect_tail fuel l).
Proof.
  induction fuel as [|f IH]; intros l; cbn [detect_tail]; [constructor|].
  destruct l as [|v r]; [constructor|]. constructor; [apply Nat.lt_0_succ|apply IH].
Qed.

Lemma detect_pos int32 src : Forall run_pos (detect int32 src).
Proof. unfold detect. apply Forall_app. split; [apply detect_groups_pos|apply detect_tail_pos]. Qed.

(** the runs are non-empty unless the input is empty at width 0, where the
    encoders write one header announcing no value *)
Theorem enc_hybrid_runs int32 w src : fits w src -> N.of_nat (length src) < 2 ^ 61 ->
  exists rs, enc_hybrid int32 w src = Some (serialize w rs) /\ concat (map expand rs) = src /\
             Forall (wf_run w) rs /\ ((w = 0 -> src <> []) -> Forall run_pos rs).
Proof.
  intros Hfit Hlen. unfold enc_hybrid. destruct (N.eqb_spec w 0) as [->|Hw].
  - (* width 0: one run-length run of zeros, without a value byte *)
    assert (Esrc : repeat 0 (length src) = src).
    { clear Hlen. induction Hfit as [|v r Hv _ IH]; [reflexivity|]. change (2 ^ 0) with 1 in Hv.
      cbn [length repeat]. f_equal; [lia|exact IH]. }
    assert (Hfb : forallb (fun v => v =? 0) src = true).
    { rewrite <- Esrc. generalize (length src). induction n as [|n IH]; [reflexivity|exact IH]. }
    rewrite Hfb. exists [RunRLE (length src) 0]. unfold serialize.
    cbn [map concat serialize_run expand]. change (byte_count 0) with 0%nat. cbn [to_le].
    rewrite !app_nil_r. repeat split; [exact Esrc| |].
    + constructor; [|constructor]. split; [reflexivity|]. change (2 ^ 62) with (2 * 2 ^ 61). lia.
    + intros Hne. constructor; [|constructor]. unfold run_pos. cbn [run_count].
      destruct src; [now destruct (Hne eq_refl)|apply Nat.lt_0_succ].
  - destruct (detect_spec int32 w src Hfit Hlen) as [E W].
    exists (detect int32 src). repeat split; [exact E|exact W|intros _; apply detect_pos].
Qed.

Theorem hybrid_roundtrip int32 w src :
  fits w src -> N.of_nat (length src) < 2 ^ 61 ->
  exists b, enc_hybrid int32 w src = Some b /\ dec_hybrid w b = Some src.
Proof.
  intros Hfit Hlen. destruct (enc_hybrid_runs int32 w src Hfit Hlen) as (rs & Hb & E & W & _).
  eexists. split; [exact Hb|]. unfold dec_hybrid.
  rewrite dec_runs_serialize by (exact W || lia). now rewrite E.
Qed.

(** RLE_DICTIONARY index pages: the width byte is the maximal bit length *)
Theorem dict_indexes_roundtrip src :
  N.of_nat (length src) < 2 ^ 61 ->
  exists b, enc_dict_indexes src = Some b /\ dec_dict_indexes b = Some src.
Proof.
  intros Hlen. unfold enc_dict_indexes, enc_int32.
  set (w := fold_left N.max (map bitlen src) 0).
  pose proof (fits_max_bitlen src) as Hfit. fold w in Hfit.
  destruct (hybrid_roundtrip true w src Hfit Hlen) as (b & Hb & Hd).
  rewrite Hb. eexists. split; [reflexivity|]. exact Hd.
Qed.

Definition bits_of (src : list N) : list N := concat (map bits_of_byte src).

Definition to_run (r : bits_run) : run :=
  match r with
  | BitsRLE n v => RunRLE (8 * n) (v mod 2)
  | BitsBP raw => RunBP (map bits_of_byte raw)
  end.

Definition bits_run_ok (r : bits_run) : Prop :=
  match r with
  | BitsRLE n v => (0 < n)%nat /\ (v = 0 \/ v = 255) /\ N.of_nat n < 2 ^ 58
  | BitsBP raw => wf_bytes raw /\ N.of_nat (length raw) < 2 ^ 58 /\ (0 < length raw)%nat
  end.

Lemma bits_of_byte_len x : length (bits_of_byte x) = 8%nat.
Proof. apply unpack_length. Qed.

Lemma pack_bits_of_byte x : x < 256 -> pack_bytes 1 (bits_of_byte x) = [x].
Proof.
  intros Hx. unfold pack_bytes, bits_of_byte. rewrite unpack_length.
  change (N.to_nat (1 * N.of_nat 8 / 8)) with 1%nat.
  rewrite pack_unpack by (change (2 ^ (1 * N.of_nat 8)) with 256; exact Hx).
  cbn [to_le]. now rewrite N.mod_small.
Qed.

Lemma serialize_bits_run_eq r : bits_run_ok r -> serialize_bits_run r = serialize_run 1 (to_run r).
Proof.
  destruct r as [n v|raw]; cbn [bits_run_ok serialize_bits_run to_run serialize_run].
  - intros (Hn & Hv & _). destruct (Nat.eqb_spec n 0); [lia|].
    change (byte_count 1) with 1%nat. cbn [to_le].
    replace (N.of_nat (8 * n)) with (8 * N.of_nat n) by lia.
    f_equal. f_equal. symmetry. apply N.mod_small.
    pose proof (N.mod_lt v 2 ltac:(discriminate)). lia.
  - intros (Hwf & _ & _). rewrite map_length. f_equal.
    induction Hwf as [|x r Hx Hr IH]; cbn [map concat]; [reflexivity|].
    rewrite pack_bits_of_byte by exact Hx. cbn [app]. f_equal. exact IH.
Qed.

Lemma to_run_wf r : bits_run_ok r -> wf_run 1 (to_run r).
Proof.
  destruct r as [n v|raw]; cbn [bits_run_ok to_run wf_run].
  - intros (Hn & Hv & Hl). split.
    + change (byte_count 1) with 1%nat. pose proof (N.mod_lt v 2 ltac:(discriminate)). cbn. lia.
    + change (2 ^ 62) with (16 * 2 ^ 58). lia.
  - intros (Hwf & Hl & _). split.
    + apply Forall_forall. intros g Hg. apply in_map_iff in Hg. destruct Hg as (x & <- & _).
      split; [apply bits_of_byte_len|apply unpack_fits].
    + rewrite map_length. change (2 ^ 62) with (16 * 2 ^ 58). lia.
Qed.

Lemma expand_to_run r : bits_run_ok r ->
  expand (to_run r) = match r with
                      | BitsRLE n v => bits_of (repeat v n)
                      | BitsBP raw => bits_of raw
                      end.
Proof.
  destruct r as [n v|raw]; cbn [bits_run_ok to_run expand]; [|reflexivity].
  intros (_ & Hv & _). unfold bits_of.
  assert (E : bits_of_byte v = repeat (v mod 2) 8) by (destruct Hv; subst v; reflexivity).
  induction n as [|n IH]; [reflexivity|].
  cbn [repeat map concat]. rewrite <- IH, E, <- repeat_app. f_equal. lia.
Qed.

Definition bits_payload (r : bits_run) : list N :=
  match r with BitsRLE n v => repeat v n | BitsBP raw => raw end.

Lemma span_bits_le l : forall prev, (span_bits prev l <= length l)%nat.
Proof.
  induction l as [|x r IH]; intros prev; cbn [span_bits length]; [lia|].
  destruct (_ || _); [specialize (IH x); lia|lia].
Qed.

Lemma detect_bits_loop_spec : forall fuel l,
  (length l <= fuel)%nat -> wf_bytes l -> N.of_nat (length l) < 2 ^ 58 ->
  concat (map bits_payload (detect_bits_loop fuel l)) = l /\
  Forall bits_run_ok (detect_bits_loop fuel l).
Proof.
  induction fuel as [|f IH]; intros l Hfuel Hwf Hlen.
  - destruct l; [split; [reflexivity|constructor]|cbn in Hfuel; lia].
  - cbn [detect_bits_loop]. destruct l as [|v r] eqn:El; [split; [reflexivity|constructor]|].
    rewrite <- El in *.
    destruct (count_same_spec v r) as [Hc1 Hc2]. set (same := count_same v r) in *.
    assert (Hv : v < 256) by (subst l; inversion Hwf; assumption).
    assert (Hr : wf_bytes r) by (subst l; inversion Hwf; assumption).
    assert (Hll : length l = S (length r)) by (subst l; reflexivity).
    destruct (((v =? 0) || (v =? 255)) && (0 <? same)%nat) eqn:Eb.
    + apply andb_true_iff in Eb. destruct Eb as [Ev Es].
      apply Nat.ltb_lt in Es.
      destruct (IH (skipn same r)) as [E W].
      * rewrite skipn_length. lia.
      * now apply Forall_skipn.
      * rewrite skipn_length. lia.
      * split.
        -- cbn [map concat bits_payload repeat]. rewrite E. subst l. cbn [app]. f_equal.
           rewrite <- (firstn_skipn same r) at 2. now rewrite Hc2.
        -- constructor; [|exact W]. cbn [bits_run_ok]. split; [lia|]. split; [|lia].
           apply orb_true_iff in Ev. destruct Ev as [Ev|Ev]; apply N.eqb_eq in Ev; auto.
    + set (j := S (span_bits v r)).
      assert (Hj : (1 <= j <= length l)%nat) by (subst j; pose proof (span_bits_le r v); lia).
      set (j' := if (1 <? j)%nat && (j <? length l)%nat then (j - 1)%nat else j).
      assert (Hj' : (1 <= j' <= length l)%nat).
      { subst j'. destruct (Nat.ltb_spec 1 j); destruct (Nat.ltb_spec j (length l)); cbn [andb]; lia. }
      destruct (IH (skipn j' l)) as [E W].
      * rewrite skipn_length. lia.
      * now apply Forall_skipn.
      * rewrite skipn_length. lia.
      * split.
        -- cbn [map concat bits_payload]. rewrite E. apply firstn_skipn.
        -- constructor; [|exact W]. cbn [bits_run_ok]. split.
           ++ now apply Forall_firstn.
           ++ rewrite firstn_length. split; lia.
Qed.

Lemma forallb_eqb_repeat (c : N) l : forallb (fun v => v =? c) l = true -> l = repeat c (length l).
Proof.
  induction l as [|x l IH]; cbn [forallb length repeat]; [reflexivity|].
  intros H. apply andb_true_iff in H. destruct H as [Hx Hl]. apply N.eqb_eq in Hx. subst x.
  now rewrite <- IH.
Qed.

Lemma detect_bits_spec src :
  src <> [] -> wf_bytes src -> N.of_nat (length src) < 2 ^ 58 ->
  concat (map bits_payload (detect_bits src)) = src /\ Forall bits_run_ok (detect_bits src).
Proof.
  intros Hne Hwf Hlen. unfold detect_bits.
  destruct (Nat.eqb_spec (length src) 0) as [E|_]; [destruct src; [contradiction|discriminate]|].
  cbn [orb].
  destruct (forallb (fun v => v =? 0) src) eqn:Ez.
  - apply forallb_eqb_repeat in Ez. cbn [orb map concat bits_payload].
    rewrite app_nil_r. split.
    + rewrite Ez at 1 3. destruct src; [contradiction|]. cbn [length repeat hd]. reflexivity.
    + constructor; [|constructor]. cbn [bits_run_ok]. split; [destruct src; [contradiction|cbn; lia]|].
      split; [|exact Hlen]. left. rewrite Ez. destruct src; [contradiction|reflexivity].
  - cbn [orb]. destruct (forallb (fun v => v =? 255) src) eqn:Eo.
    + apply forallb_eqb_repeat in Eo. cbn [map concat bits_payload].
      rewrite app_nil_r. split.
      * rewrite Eo at 1 3. destruct src; [contradiction|]. cbn [length repeat hd]. reflexivity.
      * constructor; [|constructor]. cbn [bits_run_ok]. split; [destruct src; [contradiction|cbn; lia]|].
        split; [|exact Hlen]. right. rewrite Eo. destruct src; [contradiction|reflexivity].
    + apply detect_bits_loop_spec; auto.
Qed.

Lemma bits_of_app a b : bits_of (a ++ b) = bits_of a ++ bits_of b.
Proof. unfold bits_of. now rewrite map_app, concat_app. Qed.

Lemma bits_of_concat ls : bits_of (concat ls) = concat (map bits_of ls).
Proof.
  induction ls as [|l ls IH]; [reflexivity|]. cbn [concat map]. now rewrite bits_of_app, IH.
Qed.

Lemma bits_of_length src : length (bits_of src) = (8 * length src)%nat.
Proof.
  unfold bits_of. induction src as [|x s IH]; [reflexivity|].
  cbn [map concat length]. rewrite app_length, bits_of_byte_len, IH. lia.
Qed.

Lemma to_run_pos r : bits_run_ok r -> run_pos (to_run r).
Proof.
  destruct r as [n v|raw]; unfold run_pos; cbn [bits_run_ok to_run run_count]; [lia|].
  rewrite map_length. tauto.
Qed.

Theorem enc_bits_body_runs src :
  src <> [] -> wf_bytes src -> N.of_nat (length src) < 2 ^ 58 ->
  let rs := map to_run (detect_bits src) in
  enc_bits_body src = serialize 1 rs /\ concat (map expand rs) = bits_of src /\
  Forall (wf_run 1) rs /\ Forall run_pos rs.
Proof.
  intros Hne Hwf Hlen rs. subst rs. destruct (detect_bits_spec src Hne Hwf Hlen) as [E W].
  rewrite Forall_forall in W. repeat split.
  - unfold enc_bits_body, serialize. rewrite map_map. f_equal. apply map_ext_in.
    intros r Hr. apply serialize_bits_run_eq, W, Hr.
  - rewrite <- E at 2. rewrite bits_of_concat, !map_map. f_equal. apply map_ext_in.
    intros r Hr. rewrite expand_to_run by apply W, Hr. destruct r; reflexivity.
  - apply Forall_map, Forall_forall. intros r Hr. apply to_run_wf, W, Hr.
  - apply Forall_map, Forall_forall. intros r Hr. apply to_run_pos, W, Hr.
Qed.

Theorem boolean_body_roundtrip src :
  src <> [] -> wf_bytes src -> N.of_nat (length src) < 2 ^ 58 ->
  dec_hybrid 1 (enc_bits_body src) = Some (bits_of src).
Proof.
  intros Hne Hwf Hlen. destruct (enc_bits_body_runs src Hne Hwf Hlen) as (Eb & Ex & Wf & _).
  unfold dec_hybrid. rewrite Eb, dec_runs_serialize by (exact Wf || lia). now rewrite Ex.
Qed.

(** at most 11 bytes per input byte: a 10-byte header and the byte *)
Lemma bits_runs_length rs : Forall bits_run_ok rs ->
  (length (concat (map serialize_bits_run rs)) <= 11 * length (concat (map bits_payload rs)))%nat.
Proof.
  induction 1 as [|r rs Hr Hrs IH]; [cbn; lia|].
  cbn [map concat]. rewrite !app_length.
  destruct r as [k v|raw]; cbn [serialize_bits_run bits_payload bits_run_ok] in *.
  - destruct Hr as (Hk & _ & _). rewrite app_length, repeat_length.
    pose proof (uvarint64_length_le (2 * (8 * N.of_nat k))). destruct (k =? 0)%nat; cbn [length]; lia.
  - rewrite app_length. destruct Hr as (Hr & _ & Hpos).
    pose proof (uvarint64_length_le (2 * N.of_nat (length raw) + 1)). lia.
Qed.

Lemma enc_bits_body_length src :
  src <> [] -> wf_bytes src -> N.of_nat (length src) < 2 ^ 58 ->
  (0 < length (enc_bits_body src) <= 11 * length src)%nat.
Proof.
  intros Hne Hwf Hlen. destruct (detect_bits_spec src Hne Hwf Hlen) as [E W]. split.
  - destruct (enc_bits_body_runs src Hne Hwf Hlen) as (-> & Ex & _ & _).
    destruct (detect_bits src) as [|r rs]; [now destruct src|].
    unfold serialize. cbn [map concat]. rewrite app_length.
    pose proof (serialize_run_length_pos 1 (to_run r)). lia.
  - pose proof (bits_runs_length _ W) as H. now rewrite E in H.
Qed.

(** EncodeBoolean / a decoder that knows the number of values of the page *)
Definition dec_boolean_n (n : nat) (b : bytes) : option (list N) :=
  if (n =? 0)%nat then Some []
  else match dec_boolean b with
       | Some l => if (n <=? length l)%nat then Some (firstn n l) else None
       | None => None
       end.

Lemma dec_boolean_prefix body : N.of_nat (length body) < 2 ^ 32 ->
  dec_boolean (to_le 4 (N.of_nat (length body)) ++ body) = dec_hybrid 1 body.
Proof.
  intros Hl. unfold dec_boolean.
  rewrite take_bytes_app, of_le_to_le, Nat2N.id by (apply to_le_length || exact Hl).
  rewrite <- (app_nil_r body) at 2. now rewrite take_bytes_app.
Qed.

Theorem boolean_roundtrip src n :
  wf_bytes src -> N.of_nat (length src) < 2 ^ 26 -> (n <= 8 * length src)%nat ->
  dec_boolean_n n (enc_boolean src) = Some (firstn n (bits_of src)).
Proof.
  intros Hwf Hlen Hn. unfold dec_boolean_n.
  destruct (Nat.eqb_spec n 0) as [->|Hn0]; [reflexivity|].
  assert (Hne : src <> []) by (destruct src; [cbn in Hn; lia|discriminate]).
  assert (H58 : N.of_nat (length src) < 2 ^ 58) by (eapply N.lt_trans; [exact Hlen|reflexivity]).
  destruct (enc_bits_body_length src Hne Hwf H58) as [_ Hbl].
  unfold enc_boolean. rewrite dec_boolean_prefix, boolean_body_roundtrip by (assumption || lia).
  rewrite bits_of_length. destruct (Nat.leb_spec n (8 * length src)); [reflexivity|lia].
Qed.
