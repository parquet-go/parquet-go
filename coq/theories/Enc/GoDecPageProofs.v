(** Lemmas about Enc/GoDecPage.v. *)
From Coq Require Import List NArith Lia Arith.
From PQ Require Import Base.Bytes Base.ListExtra Enc.Rle Enc.GoDecBase Enc.GoDecRle Enc.GoDecRleProofs Enc.GoDecPage.
Import ListNotations.
Open Scope N_scope.

Lemma indexed_page_length : forall n ix, length (indexed_page_indexes n ix) = n.
Proof.
  intros n ix. unfold indexed_page_indexes.
  rewrite firstn_length, app_length, repeat_length. lia.
Qed.

(** the page data holds at least the values of the page (more: the padding of
    a last bit-packed group): the indexes of the page are those of the data *)
Lemma indexed_page_conforming : forall n ix,
  (n <= length ix)%nat -> indexed_page_indexes n ix = firstn n ix.
Proof.
  intros n ix H. unfold indexed_page_indexes.
  replace (n - length ix)%nat with 0%nat by lia. simpl. now rewrite app_nil_r.
Qed.

(** fewer: the indexes of the data, then zeros *)
Lemma indexed_page_short : forall n ix,
  (length ix <= n)%nat -> indexed_page_indexes n ix = ix ++ repeat 0 (n - length ix).
Proof.
  intros n ix H. unfold indexed_page_indexes.
  apply firstn_all2. rewrite app_length, repeat_length. lia.
Qed.

Lemma indexed_page_nth : forall n ix i,
  (i < n)%nat -> nth i (indexed_page_indexes n ix) 0 = nth i ix 0.
Proof.
  intros n ix i Hi. unfold indexed_page_indexes.
  rewrite nth_firstn_lt by exact Hi.
  destruct (Nat.lt_ge_cases i (length ix)) as [Hl | Hl].
  - now rewrite app_nth1.
  - rewrite app_nth2 by exact Hl. rewrite (nth_overflow ix) by exact Hl.
    apply nth_repeat.
Qed.

(** a page written by the encoder of the library (all the indexes present):
    Go's page holds exactly the indexes *)
Lemma go_indexed_page_roundtrip : forall src,
  Forall (fun v => v < 2 ^ 32) src -> N.of_nat (length src) <= max_count ->
  exists b, enc_dict_indexes src = Some b /\ go_indexed_page (length src) b = GOk src.
Proof.
  intros src Hf Hl. destruct (go_dict_roundtrip src Hf Hl) as [b [He [Hg _]]].
  exists b. split; [exact He |]. unfold go_indexed_page. rewrite Hg. simpl.
  rewrite indexed_page_conforming by lia. now rewrite firstn_all.
Qed.

Lemma go_indexed_page_conforming : forall n data ix,
  go_decode_dict data = GOk ix -> (n <= length ix)%nat -> go_indexed_page n data = GOk (firstn n ix).
Proof.
  intros n data ix Hd Hn. unfold go_indexed_page. rewrite Hd. simpl.
  now rewrite indexed_page_conforming.
Qed.

Lemma go_indexed_page_short : forall n data ix,
  go_decode_dict data = GOk ix -> (length ix <= n)%nat ->
  go_indexed_page n data = GOk (ix ++ repeat 0 (n - length ix)).
Proof.
  intros n data ix Hd Hn. unfold go_indexed_page. rewrite Hd. simpl.
  now rewrite indexed_page_short.
Qed.

(** the outcome (ok / error / panic) is that of the index decoder *)
Lemma go_indexed_page_status : forall n data,
  gstatus (go_indexed_page n data) = gstatus (go_decode_dict data).
Proof. intros n data. unfold go_indexed_page. now destruct (go_decode_dict data). Qed.
