(** Refinement of the specification decoders of the DELTA encodings by the
    models of Go's decoders (Enc/GoDecDelta.v).

    [dec64] is [DeltaBP.dec] with varints limited to 10 bytes / 64 bits and
    mini-block bit widths limited to the width of the type.  On every
    well-formed byte string that [dec64] accepts and whose header passes Go's
    checks (block size a multiple of 128 and at most 65536, values per
    mini-block a multiple of 32, at most MaxInt32 values, first value within
    int32 for 32-bit columns) Go's decodeInt32 / decodeInt64 return the same
    values and the same remaining input ([go_dbp_refines]).  The encoder's
    output is such a string ([dec64_enc_g], [go_header_enc_g]). *)
From Coq Require Import List NArith ZArith Lia Bool Arith.
From Coq Require Import ZifyN ZifyNat ZifyBool.
From PQ Require Import Base.Bytes Base.Varint Base.BitPack Base.ListExtra.
From PQ Require Import Enc.DeltaBP Enc.DeltaBPBlocks Enc.ByteArrayDelta.
From PQ Require Import Enc.GoDecBase Enc.GoDecBaseProofs Enc.GoDecDelta.
Import ListNotations.
Open Scope N_scope.

(** [DeltaBP.dec_mbs] rejecting a needed mini-block wider than the type *)
Fixpoint dec_mbs_w (k : N) (vpm : nat) (m : N) (ws : list N) (b : bytes) (remaining : nat) (prev : N)
  : option (list N * nat * N * bytes) :=
  match ws with
  | [] => Some ([], remaining, prev, b)
  | w :: ws' =>
      if (remaining =? 0)%nat then Some ([], remaining, prev, b)
      else if k <? w then None
      else
        match DeltaBP.take_bytes (N.to_nat (w * N.of_nat vpm / 8)) b with
        | None => None
        | Some (mb, b') =>
            let us := firstn (Nat.min vpm remaining) (unpack_bytes w vpm mb) in
            let '(xs, p) := recon k prev m us in
            match dec_mbs_w k vpm m ws' b' (remaining - length us) p with
            | None => None
            | Some (ys, rem', p', b'') => Some (xs ++ ys, rem', p', b'')
            end
        end
  end.

Lemma dec_mbs_w_sound k vpm m : forall ws b rem prev r,
  dec_mbs_w k vpm m ws b rem prev = Some r -> dec_mbs k vpm m ws b rem prev = Some r.
Proof.
  induction ws as [|w ws IH]; intros b rem prev r H; [exact H|].
  cbn [dec_mbs_w] in H. cbn [dec_mbs].
  destruct (rem =? 0)%nat; [exact H|].
  destruct (k <? w); [discriminate|].
  destruct (DeltaBP.take_bytes _ b) as [[mb b1]|]; [|discriminate].
  destruct (recon k prev m _) as [xs p].
  destruct (dec_mbs_w k vpm m ws b1 _ p) as [[[[ys r2] p2] b2]|] eqn:E; [|discriminate].
  now rewrite (IH _ _ _ _ E).
Qed.

Lemma dec_mbs_w_eq k vpm m : forall ws b rem prev,
  Forall (fun w => w <= k) ws -> dec_mbs_w k vpm m ws b rem prev = dec_mbs k vpm m ws b rem prev.
Proof.
  induction ws as [|w ws IH]; intros b rem prev Hws; [reflexivity|].
  inversion Hws; subst. cbn [dec_mbs_w dec_mbs].
  destruct (rem =? 0)%nat; [reflexivity|].
  destruct (N.ltb_spec k w); [lia|].
  destruct (DeltaBP.take_bytes _ b) as [[mb b1]|]; [|reflexivity].
  destruct (recon k prev m _) as [xs p]. now rewrite IH.
Qed.

Fixpoint dec_blocks64 (fuel : nat) (k : N) (vpm nmb : nat) (b : bytes) (remaining : nat) (prev : N)
  : option (list N * bytes) :=
  match fuel with
  | O => if (remaining =? 0)%nat then Some ([], b) else None
  | S f =>
      if (remaining =? 0)%nat then Some ([], b)
      else
        match go_varint b with
        | None => None
        | Some (mz, b1) =>
            match DeltaBP.take_bytes nmb b1 with
            | None => None
            | Some (ws, b2) =>
                match dec_mbs_w k vpm (wrapZ k mz) ws b2 remaining prev with
                | None => None
                | Some (xs, rem', p', b3) =>
                    match dec_blocks64 f k vpm nmb b3 rem' p' with
                    | None => None
                    | Some (ys, b4) => Some (xs ++ ys, b4)
                    end
                end
            end
        end
  end.

Definition dec64 (k : N) (b : bytes) : option (list Z * bytes) :=
  match go_uvarint b with
  | None => None
  | Some (bs, b1) =>
      match go_uvarint b1 with
      | None => None
      | Some (nmb, b2) =>
          match go_uvarint b2 with
          | None => None
          | Some (total, b3) =>
              match go_varint b3 with
              | None => None
              | Some (first, b4) =>
                  if total =? 0 then Some ([], b4)
                  else if nmb =? 0 then None
                  else
                    let vpm := N.to_nat (bs / nmb) in
                    let p := wrapZ k first in
                    match dec_blocks64 (N.to_nat total) k vpm (N.to_nat nmb) b4 (N.to_nat total - 1) p with
                    | None => None
                    | Some (ps, rest) => Some (map (sintZ k) (p :: ps), rest)
                    end
              end
          end
      end
  end.

Lemma dec_blocks64_sound k vpm nmb : forall f b rem prev r,
  dec_blocks64 f k vpm nmb b rem prev = Some r -> dec_blocks f k vpm nmb b rem prev = Some r.
Proof.
  induction f as [|f IH]; intros b rem prev r H; [exact H|].
  cbn [dec_blocks64] in H. cbn [dec_blocks].
  destruct (rem =? 0)%nat; [exact H|].
  destruct (go_varint b) as [[mz b1]|] eqn:E; [|discriminate].
  rewrite (go_varint_spec _ _ E).
  destruct (DeltaBP.take_bytes nmb b1) as [[ws b2]|]; [|discriminate].
  destruct (dec_mbs_w k vpm (wrapZ k mz) ws b2 rem prev) as [[[[xs rem'] p'] b3]|] eqn:E1; [|discriminate].
  rewrite (dec_mbs_w_sound _ _ _ _ _ _ _ _ E1).
  destruct (dec_blocks64 f k vpm nmb b3 rem' p') as [[ys b4]|] eqn:E2; [|discriminate].
  now rewrite (IH _ _ _ _ E2).
Qed.

Theorem dec64_sound k b r : dec64 k b = Some r -> DeltaBP.dec k b = Some r.
Proof.
  unfold dec64, DeltaBP.dec.
  destruct (go_uvarint b) as [[bs b1]|] eqn:E1; [|discriminate]. rewrite (go_uvarint_spec _ _ E1).
  destruct (go_uvarint b1) as [[nmb b2]|] eqn:E2; [|discriminate]. rewrite (go_uvarint_spec _ _ E2).
  destruct (go_uvarint b2) as [[total b3]|] eqn:E3; [|discriminate]. rewrite (go_uvarint_spec _ _ E3).
  destruct (go_varint b3) as [[first b4]|] eqn:E4; [|discriminate]. rewrite (go_varint_spec _ _ E4).
  destruct (total =? 0); [auto|]. destruct (nmb =? 0); [auto|].
  destruct (dec_blocks64 _ _ _ _ _ _ _) as [[ps rest]|] eqn:E5; [|discriminate].
  now rewrite (dec_blocks64_sound _ _ _ _ _ _ _ _ E5).
Qed.

Lemma go_uvarint_aux_suffix (P : N -> Prop) fuel : forall l s acc v r,
  go_uvarint_aux fuel l s acc = Some (v, r) -> Forall P l -> Forall P r.
Proof.
  induction fuel as [|f IH]; intros l s acc v r H Hl; cbn [go_uvarint_aux] in H; [discriminate|].
  destruct l as [|b l']; [discriminate|]. inversion Hl; subst.
  destruct (b <? 128).
  - destruct ((f =? 0)%nat && (1 <? b)); [discriminate|]. inversion H; subst. assumption.
  - eapply IH; eassumption.
Qed.

Lemma go_uvarint_wf l v r : go_uvarint l = Some (v, r) -> wf_bytes l -> wf_bytes r.
Proof. apply go_uvarint_aux_suffix. Qed.

Lemma go_varint_wf l v r : go_varint l = Some (v, r) -> wf_bytes l -> wf_bytes r.
Proof.
  unfold go_varint. destruct (go_uvarint l) as [[n r']|] eqn:E; [|discriminate].
  intros H. inversion H; subst. eapply go_uvarint_wf. exact E.
Qed.

Lemma dbp_take_bytes_some n b x y :
  DeltaBP.take_bytes n b = Some (x, y) -> (n <= length b)%nat /\ x = firstn n b /\ y = skipn n b.
Proof. apply leb_cut_some. Qed.

Lemma recon_mod k m us : forall prev,
  recon k prev m (map (fun u => u mod 2 ^ k) us) = recon k prev m us.
Proof.
  induction us as [|u us IH]; intros prev; cbn [map recon]; [reflexivity|].
  assert (E : addk k (addk k prev m) (u mod 2 ^ k) = addk k (addk k prev m) u).
  { unfold addk. pose proof (pow2_pos k).
    rewrite N.add_mod_idemp_r by lia. reflexivity. }
  rewrite E, IH. reflexivity.
Qed.

Lemma recon_fst_snd k prev m us : recon k prev m us = (fst (recon k prev m us), snd (recon k prev m us)).
Proof. destruct (recon k prev m us); reflexivity. Qed.

Lemma dec_mbs_suffix k vpm m : forall ws b rem prev xs rem' p' b',
  dec_mbs k vpm m ws b rem prev = Some (xs, rem', p', b') -> exists n, b' = skipn n b.
Proof.
  induction ws as [|w ws IH]; intros b rem prev xs rem' p' b' H; cbn [dec_mbs] in H.
  - inversion H; subst. now exists 0%nat.
  - destruct (rem =? 0)%nat; [inversion H; subst; now exists 0%nat|].
    destruct (DeltaBP.take_bytes _ b) as [[mb b1]|] eqn:Et; [|discriminate].
    apply dbp_take_bytes_some in Et. destruct Et as (_ & -> & ->).
    destruct (recon k prev m _) as [xs1 p1].
    destruct (dec_mbs k vpm m ws _ _ p1) as [[[[ys r2] p2] b2]|] eqn:Er; [|discriminate].
    inversion H; subst. apply IH in Er. destruct Er as (n & ->).
    eexists. symmetry. apply skipn_add.
Qed.

(** one mini-block as Go reads it: its bytes are there, and the [n] values
    unpacked are those of the specification up to the bits above the type *)
Lemma go_miniblock k vpm w n b prev m (Hv8 : Nat.divide 8 vpm) :
  wf_bytes b -> (n <= vpm)%nat ->
  let size := N.to_nat (w * N.of_nat vpm / 8) in
  (size <= length b)%nat ->
  exists vals,
    (negb (w =? 0) && (N.of_nat (length (firstn size b)) <? (N.of_nat n * w + 7) / 8)) = false /\
    (if w =? 0 then (repeat 0 n, b)
     else (firstn n (go_unpack_chunks k w (N.to_nat (N.of_nat vpm / 8)) (firstn size b)), skipn size b))
    = (vals, skipn size b) /\
    recon k prev m vals = recon k prev m (firstn n (unpack_bytes w vpm (firstn size b))).
Proof.
  intros Hwf Hn size Hle. destruct Hv8 as [q Hq].
  destruct (N.eqb_spec w 0) as [->|Hw0].
  - exists (repeat 0 n). repeat split.
    unfold unpack_bytes. rewrite unpack_zero_width, firstn_repeat. do 2 f_equal. lia.
  - eexists. repeat split.
    + (* the whole mini-block is there, the bits of [n] of its values are *)
      cbn [negb andb]. apply N.ltb_ge.
      rewrite firstn_length, Nat.min_l by exact Hle. subst size. rewrite N2Nat.id, Hq.
      replace (w * N.of_nat (q * 8)) with ((N.of_nat q * w) * 8) by lia.
      rewrite N.div_mul by discriminate.
      replace (N.of_nat q * w) with ((7 + N.of_nat q * w * 8) / 8) by now rewrite N.div_add.
      apply N.div_le_mono; [discriminate|]. nia.
    + rewrite go_unpack_chunks_whole by (now apply Forall_firstn).
      replace (8 * N.to_nat (N.of_nat vpm / 8))%nat with vpm.
      * now rewrite go_unpack_map, firstn_map, recon_mod.
      * rewrite Hq, Nat2N.inj_mul, N.div_mul by discriminate. lia.
Qed.

Lemma mbs_refines k vpm m (Hv8 : (Nat.divide 8 vpm)) : forall ws b rem prev xs rem' p' b',
  wf_bytes b -> (0 < rem)%nat ->
  dec_mbs_w k vpm m ws b rem prev = Some (xs, rem', p', b') ->
  exists us,
    go_dbp_miniblocks k (N.of_nat vpm) ws b (N.of_nat rem) = GOk (us, b', N.of_nat rem')
    /\ recon k prev m us = (xs, p').
Proof.
  induction ws as [|w ws IH]; intros b rem prev xs rem' p' b' Hwf Hrem H; cbn [dec_mbs_w] in H.
  - inversion H; subst. exists []. split; reflexivity.
  - destruct (Nat.eqb_spec rem 0) as [E|_]; [lia|].
    destruct (N.ltb_spec k w) as [|Hkw]; [discriminate|].
    destruct (DeltaBP.take_bytes _ b) as [[mb b1]|] eqn:Et; [|discriminate].
    apply dbp_take_bytes_some in Et. destruct Et as (Hle & -> & ->).
    set (n := Nat.min vpm rem) in *.
    destruct (go_miniblock k vpm w n b prev m Hv8 Hwf (Nat.le_min_l _ _) Hle) as (vals & Hneed & Esrc & Evals).
    set (size := N.to_nat (w * N.of_nat vpm / 8)) in *.
    rewrite firstn_length in H. unfold unpack_bytes in H at 2. rewrite unpack_length in H.
    replace (Nat.min n vpm) with n in H by lia.
    destruct (recon k prev m (firstn n _)) as [xs1 p1].
    destruct (dec_mbs_w k vpm m ws (skipn size b) (rem - n) p1) as [[[[ys r2] p2] b2]|] eqn:Er; [|discriminate].
    inversion H; subst xs rem' p' b'. clear H.
    cbn [go_dbp_miniblocks].
    destruct (N.ltb_spec k w) as [|_]; [lia|].
    replace (N.of_nat vpm * w) with (w * N.of_nat vpm) by lia. fold size.
    replace (N.min (N.of_nat vpm) (N.of_nat rem)) with (N.of_nat n) by lia.
    rewrite Nat2N.id, Hneed, Esrc.
    replace (N.of_nat rem - N.of_nat n) with (N.of_nat (rem - n)) by lia.
    destruct (Nat.eq_dec (rem - n) 0) as [E0|E0].
    + (* the last needed mini-block: Go breaks, the specification loop stops *)
      rewrite E0 in *. cbn [N.of_nat N.eqb].
      assert (Ey : ys = [] /\ r2 = 0%nat /\ p2 = p1 /\ b2 = skipn size b).
      { destruct ws; cbn [dec_mbs_w] in Er; inversion Er; auto. }
      destruct Ey as (-> & -> & -> & ->).
      exists vals. split; [reflexivity|]. rewrite app_nil_r. exact Evals.
    + destruct (N.eqb_spec (N.of_nat (rem - n)) 0) as [E|_]; [lia|].
      assert (Hpos : (0 < rem - n)%nat) by lia.
      destruct (IH _ _ _ _ _ _ _ (Forall_skipn _ size b Hwf) Hpos Er) as (us' & Hgo & Hrec).
      rewrite Hgo. cbn [gbind]. exists (vals ++ us'). split; [reflexivity|].
      rewrite recon_app, Evals. cbn [fst snd]. now rewrite Hrec.
Qed.

Lemma take_upto_of_take_bytes nmb b1 ws b2 :
  DeltaBP.take_bytes nmb b1 = Some (ws, b2) -> take_upto (N.of_nat nmb) b1 = (ws, b2).
Proof.
  intros H. apply dbp_take_bytes_some in H. destruct H as (Hle & -> & ->).
  unfold take_upto. assert (Hf : fits_len (N.of_nat nmb) b1 = true) by (apply fits_len_true; lia).
  now rewrite Hf, Nat2N.id.
Qed.

Lemma go_varint_nonempty b r : go_varint b = Some r -> b <> [].
Proof. intros H ->. discriminate. Qed.

Lemma blocks_refines k vpm nmb (Hv8 : Nat.divide 8 vpm) : forall fs b rem prev xs rest,
  dec_blocks64 fs k vpm nmb b rem prev = Some (xs, rest) -> wf_bytes b ->
  forall fg, (length b <= fg)%nat ->
  go_dbp_blocks fg k (N.of_nat vpm) (N.of_nat nmb) b (N.of_nat rem) prev = GOk (xs, rest).
Proof.
  induction fs as [|fs IH]; intros b rem prev xs rest H Hwf fg Hfg.
  - cbn [dec_blocks64] in H. destruct (Nat.eqb_spec rem 0) as [->|_]; [|discriminate].
    inversion H; subst. destruct fg; cbn [go_dbp_blocks N.of_nat N.eqb orb]; reflexivity.
  - cbn [dec_blocks64] in H. destruct (Nat.eqb_spec rem 0) as [->|Hrem].
    + inversion H; subst. destruct fg; cbn [go_dbp_blocks N.of_nat N.eqb orb]; reflexivity.
    + destruct (go_varint b) as [[mz b1]|] eqn:Ev; [|discriminate].
      destruct (DeltaBP.take_bytes nmb b1) as [[ws b2]|] eqn:Et; [|discriminate].
      destruct (dec_mbs_w k vpm (wrapZ k mz) ws b2 rem prev) as [[[[xs1 rem1] p1] b3]|] eqn:Emw; [|discriminate].
      pose proof (dec_mbs_w_sound _ _ _ _ _ _ _ _ Emw) as Em.
      destruct (dec_blocks64 fs k vpm nmb b3 rem1 p1) as [[ys b4]|] eqn:Eb; [|discriminate].
      inversion H; subst xs rest. clear H.
      pose proof (go_varint_lt _ _ _ Ev) as Hl1.
      pose proof (go_varint_wf _ _ _ Ev Hwf) as Hwf1.
      pose proof (dbp_take_bytes_some _ _ _ _ Et) as (Hle & Ews & Eb2).
      assert (Hwf2 : wf_bytes b2) by (subst b2; now apply Forall_skipn).
      destruct (dec_mbs_suffix _ _ _ _ _ _ _ _ _ _ _ Em) as (n3 & ->).
      assert (Hl2 : (length b2 <= length b1)%nat) by (subst b2; rewrite skipn_length; lia).
      assert (Hpos : (0 < rem)%nat) by lia.
      destruct (mbs_refines k vpm (wrapZ k mz) Hv8 _ _ _ _ _ _ _ _ Hwf2 Hpos Emw) as (us & Hgo & Hrec).
      destruct fg as [|fg]; [lia|].
      cbn [go_dbp_blocks].
      destruct (N.eqb_spec (N.of_nat rem) 0) as [E|_]; [lia|].
      destruct (Nat.eqb_spec (length b) 0) as [E|_]; [lia|]. cbn [orb].
      rewrite Ev, (take_upto_of_take_bytes _ _ _ _ Et), Hgo. cbn [gbind]. rewrite Hrec.
      rewrite (IH _ _ _ _ _ Eb (Forall_skipn _ n3 _ Hwf2) fg) by (rewrite skipn_length; lia).
      reflexivity.
Qed.

Definition first_ok (k : N) (first : Z) : Prop := k = 32 -> in_sint 32 first.

Lemma go_uvarint_aux_bound fuel : forall l s acc v r,
  (fuel <= 10)%nat -> s = 7 * N.of_nat (10 - fuel) -> acc < 2 ^ s -> wf_bytes l ->
  go_uvarint_aux fuel l s acc = Some (v, r) -> v < 2 ^ 64.
Proof.
  induction fuel as [|f IH]; intros l s acc v r Hf Hs Hacc Hwf H; cbn [go_uvarint_aux] in H; [discriminate|].
  destruct l as [|b l']; [discriminate|].
  assert (Hb : b < 256) by (inversion Hwf; assumption).
  assert (Hwf' : wf_bytes l') by (inversion Hwf; assumption).
  assert (Hp : 2 ^ (s + 7) = 128 * 2 ^ s) by (rewrite N.pow_add_r; change (2 ^ 7) with 128; lia).
  destruct (N.ltb_spec b 128) as [Hb7|Hb7].
  - destruct (Nat.eqb_spec f 0) as [->|Hf0].
    + (* the tenth byte: at most 1 *)
      destruct (N.ltb_spec 1 b) as [|Hb1]; [discriminate|]. cbn [andb] in H. inversion H; subst v r.
      change (10 - 1)%nat with 9%nat in Hs. change (7 * N.of_nat 9) with 63 in Hs. subst s.
      change (2 ^ 64) with (2 * 2 ^ 63). nia.
    + cbn [andb] in H. inversion H; subst v r.
      assert (Hle : s + 7 <= 63) by lia.
      assert (Hlt : acc + b * 2 ^ s < 2 ^ (s + 7)) by nia.
      eapply N.lt_le_trans; [exact Hlt|]. apply N.pow_le_mono_r; lia.
  - eapply (IH l' (s + 7)); try eassumption; try lia. nia.
Qed.

Lemma go_uvarint_bound l v r : wf_bytes l -> go_uvarint l = Some (v, r) -> v < 2 ^ 64.
Proof.
  intros Hwf H. apply (go_uvarint_aux_bound 10 l 0 0 v r); [lia|reflexivity|cbn; lia|exact Hwf|exact H].
Qed.

Lemma to_int64_small u : u < 2 ^ 64 -> (0 <= to_int64 u)%Z -> to_int64 u = Z.of_N u.
Proof.
  unfold to_int64. destruct (N.ltb_spec u (2 ^ 63)) as [|Hge]; [reflexivity|].
  intros Hu Hn. exfalso. rename Hn into H. change (2 ^ 64)%Z with (Z.of_N (2 ^ 64)) in H. lia.
Qed.

Lemma divide8_of_mod32 q : q mod 32 = 0 -> Nat.divide 8 (N.to_nat q).
Proof. intros H. exists (N.to_nat (q / 32) * 4)%nat. lia. Qed.

Lemma go_header_facts (b : bytes) (bs nmb total first : Z) (s : bytes) :
  wf_bytes b -> go_dbp_header b = GOk (bs, nmb, total, first, s) ->
  exists ubs unmb utotal b1 b2 b3,
    go_uvarint b = Some (ubs, b1) /\ go_uvarint b1 = Some (unmb, b2) /\
    go_uvarint b2 = Some (utotal, b3) /\ go_varint b3 = Some (first, s) /\
    bs = Z.of_N ubs /\ nmb = Z.of_N unmb /\ total = Z.of_N utotal /\
    0 < unmb /\ utotal <= max_int32 /\ Nat.divide 8 (N.to_nat (ubs / unmb)) /\ wf_bytes s.
Proof.
  intros Hwf H. unfold go_dbp_header in H.
  destruct (go_uvarint b) as [[ubs b1]|] eqn:E1; [|discriminate].
  destruct (go_uvarint b1) as [[unmb b2]|] eqn:E2; [|discriminate].
  destruct (go_uvarint b2) as [[utotal b3]|] eqn:E3; [|discriminate].
  destruct (go_varint b3) as [[f s']|] eqn:E4; [|discriminate].
  pose proof (go_uvarint_wf _ _ _ E1 Hwf) as W1.
  pose proof (go_uvarint_wf _ _ _ E2 W1) as W2.
  pose proof (go_uvarint_wf _ _ _ E3 W2) as W3.
  pose proof (go_varint_wf _ _ _ E4 W3) as W4.
  (* the three counts pass the sign checks: they are the varints read *)
  pose proof (to_int64_small ubs (go_uvarint_bound _ _ _ Hwf E1)) as Ebs.
  pose proof (to_int64_small unmb (go_uvarint_bound _ _ _ W1 E2)) as Enmb.
  pose proof (to_int64_small utotal (go_uvarint_bound _ _ _ W2 E3)) as Etot.
  destruct (Z.eqb_spec (to_int64 unmb) 0) as [|_]; [discriminate|].
  destruct (Z.leb_spec (to_int64 ubs) 0) as [|Hbs]; [discriminate|]. cbn [orb] in H.
  destruct (Z.eqb_spec (Z.rem (to_int64 ubs) 128) 0) as [_|]; [|discriminate]. cbn [negb] in H.
  destruct (Z.ltb_spec max_block_size (to_int64 ubs)) as [|_]; [discriminate|].
  destruct (Z.leb_spec (to_int64 unmb) 0) as [|Hnmb]; [discriminate|]. cbn [orb] in H.
  destruct (Z.eqb_spec (Z.rem (Z.quot (to_int64 ubs) (to_int64 unmb)) 32) 0) as [Hq|]; [|discriminate].
  cbn [negb] in H.
  destruct (Z.ltb_spec (to_int64 utotal) 0) as [|Htot]; [discriminate|].
  destruct (Z.ltb_spec (Z.of_N max_int32) (to_int64 utotal)) as [|Hmax]; [discriminate|].
  inversion H; subst bs nmb total first s. clear H.
  specialize (Ebs (Z.lt_le_incl _ _ Hbs)). specialize (Enmb (Z.lt_le_incl _ _ Hnmb)). specialize (Etot Htot).
  rewrite Ebs, Enmb in Hq. rewrite Enmb in Hnmb. rewrite Etot in Hmax.
  exists ubs, unmb, utotal, b1, b2, b3.
  repeat split; try assumption; [clear -Hnmb; lia|clear -Hmax; lia|].
  (* values per mini-block: a multiple of 32, hence of 8 *)
  apply divide8_of_mod32.
  rewrite <- N2Z.inj_quot in Hq. change 32%Z with (Z.of_N 32) in Hq. rewrite <- N2Z.inj_rem in Hq.
  now apply N2Z.inj.
Qed.

Theorem go_dbp_refines k b xs rest h :
  wf_bytes b -> dec64 k b = Some (xs, rest) ->
  go_dbp_header b = GOk h -> first_ok k (snd (fst h)) ->
  go_dbp_dec k b = GOk (xs, rest).
Proof.
  intros Hwf Hd Hh Hfirst.
  destruct h as [[[[bs nmb] total] first] s]. cbn [fst snd] in Hfirst.
  destruct (go_header_facts _ _ _ _ _ _ Hwf Hh)
    as (ubs & unmb & utotal & b1 & b2 & b3 & E1 & E2 & E3 & E4 & -> & -> & -> & Hn & Ht & Hv8 & Hws).
  unfold go_dbp_dec. rewrite Hh. cbn [gbind].
  unfold dec64 in Hd. rewrite E1, E2, E3, E4 in Hd.
  destruct (N.eqb_spec utotal 0) as [->|Ht0].
  - inversion Hd; subst. reflexivity.
  - destruct (Z.eqb_spec (Z.of_N utotal) 0) as [E|_]; [lia|].
    destruct (N.eqb_spec unmb 0) as [E|_]; [lia|].
    assert (Hrange : ((k =? 32) && ((first <? - 2 ^ 31) || (2 ^ 31 - 1 <? first))%Z) = false).
    { destruct (N.eqb_spec k 32) as [Hk|_]; [|reflexivity]. cbn [andb].
      specialize (Hfirst Hk). unfold in_sint in Hfirst. cbn in Hfirst.
      destruct (Z.ltb_spec first (- 2 ^ 31)); [lia|]. destruct (Z.ltb_spec (2 ^ 31 - 1) first); [lia|]. reflexivity. }
    rewrite Hrange.
    destruct (dec_blocks64 _ _ _ _ _ _ _) as [[ps rest']|] eqn:Eb; [|discriminate].
    inversion Hd; subst xs rest'. clear Hd.
    pose proof (blocks_refines k _ _ Hv8 _ _ _ _ _ _ Eb Hws (length s) (le_n _)) as Hgo.
    rewrite <- N2Z.inj_quot, N2Z.id, !N2Z.id.
    rewrite !N2Nat.id in Hgo.
    replace (N.of_nat (N.to_nat utotal - 1)) with (utotal - 1) in Hgo by lia.
    rewrite Hgo. reflexivity.
Qed.

Lemma go_varint_enc_block bs nmb vpm k (Hk : k = 32 \/ k = 64) last chunk rest :
  go_varint (enc_block_g bs nmb vpm k last chunk ++ rest)
  = Some (sintZ k (block_m bs k last chunk),
          map width_of (chunks nmb vpm (cleared_block bs k last chunk))
          ++ concat (map emit (chunks nmb vpm (cleared_block bs k last chunk))) ++ rest).
Proof.
  rewrite enc_block_unfold, <- !app_assoc. apply go_varint64_roundtrip.
  apply (in_sint_64_of_k k _ Hk). apply sintZ_in_range; [destruct Hk; subst; lia|apply block_m_lt].
Qed.

Lemma width_of_le k g : Forall (fun v => v < 2 ^ k) g -> width_of g <= k.
Proof. apply max_bitlen_le. Qed.

Lemma chunks_forall {A} (P : A -> Prop) n : forall fuel (l : list A),
  Forall P l -> Forall (Forall P) (chunks fuel n l).
Proof.
  induction fuel as [|f IH]; intros l Hl; cbn [chunks]; [constructor|].
  destruct l as [|a l'] eqn:E; [constructor|]. rewrite <- E in *.
  constructor; [now apply Forall_firstn|]. apply IH. now apply Forall_skipn.
Qed.

Lemma cleared_block_lt bs k last chunk : Forall (fun v => v < 2 ^ k) (cleared_block bs k last chunk).
Proof.
  unfold cleared_block, pad_to. apply Forall_app. split.
  - apply Forall_firstn. apply Forall_forall. intros x Hx. apply in_map_iff in Hx.
    destruct Hx as (d & <- & _). apply subk_lt.
  - apply Forall_forall. intros x Hx. apply repeat_spec in Hx. subst x. apply pow2_pos.
Qed.

Lemma enc_widths_le bs nmb vpm k last chunk :
  Forall (fun w => w <= k)
    (map width_of (chunks nmb vpm (cleared_block bs k last chunk))).
Proof.
  pose proof (chunks_forall _ vpm nmb _ (cleared_block_lt bs k last chunk)) as Hg.
  apply Forall_forall. intros x Hx. apply in_map_iff in Hx. destruct Hx as (g & <- & Hin).
  rewrite Forall_forall in Hg. apply width_of_le. now apply Hg.
Qed.

Lemma dec_blocks64_ok bs nmb vpm (Hg : geom bs nmb vpm) k (Hk : k = 32 \/ k = 64) : forall fuel rest_vals last tail,
  (length rest_vals <= fuel)%nat -> Forall (fun v => v < 2 ^ k) rest_vals ->
  dec_blocks64 fuel k vpm nmb
    (enc_blocks_g bs nmb vpm fuel k last rest_vals ++ tail) (length rest_vals) last
  = Some (rest_vals, tail).
Proof.
  induction fuel as [|f IH]; intros vals last tail Hfuel Hvals.
  - destruct vals; [reflexivity|cbn in Hfuel; lia].
  - cbn [enc_blocks_g dec_blocks64].
    destruct vals as [|v vals'] eqn:Ev; [reflexivity|].
    rewrite <- Ev in *. assert (Hne : (0 < length vals)%nat) by (subst vals; cbn; lia).
    clear Ev v vals'.
    destruct (Nat.eqb_spec (length vals) 0) as [E|_]; [lia|].
    set (chunk := firstn bs vals).
    assert (Hcl : length chunk = Nat.min bs (length vals)) by (subst chunk; apply firstn_length).
    pose proof (geom_bs_pos _ _ _ Hg) as Hbp.
    assert (Hchunk : Forall (fun v => v < 2 ^ k) chunk) by (subst chunk; apply Forall_firstn; exact Hvals).
    assert (Hle : (length chunk <= bs)%nat) by lia.
    rewrite <- app_assoc, go_varint_enc_block by exact Hk.
    rewrite DeltaBPBlocks.take_bytes_app
      by (rewrite map_length; apply (cleared_chunks bs nmb vpm Hg k last chunk Hle)).
    rewrite wrapZ_sintZ by (destruct Hk; subst; lia || apply block_m_lt).
    rewrite dec_mbs_w_eq by (apply enc_widths_le).
    rewrite dec_block_ok by (assumption || lia).
    replace (length vals - length chunk)%nat with (length (skipn bs vals))
      by (rewrite skipn_length; lia).
    rewrite IH.
    + f_equal. f_equal. subst chunk. apply firstn_skipn.
    + rewrite skipn_length. lia.
    + apply Forall_skipn. exact Hvals.
Qed.

Theorem dec64_enc_g bs nmb (Hl : legal_geometry bs nmb) k (Hk : k = 32 \/ k = 64) xs tail :
  Forall (in_sint k) xs -> N.of_nat (length xs) < 2 ^ 64 ->
  dec64 k (enc_g bs nmb k xs ++ tail) = Some (xs, tail).
Proof.
  intros Hxs Hlen. unfold enc_g, dec64.
  pose proof (legal_geom _ _ Hl) as Hg.
  pose proof (geom_bs_pos _ _ _ Hg) as Hbp.
  assert (Hkpos : 0 < k) by (destruct Hk; subst; lia).
  rewrite <- !app_assoc.
  rewrite go_uvarint64_roundtrip by (apply Hl).
  rewrite go_uvarint64_roundtrip by (apply (legal_nmb_small _ _ Hl)).
  rewrite go_uvarint64_roundtrip by exact Hlen.
  destruct xs as [|x xs'].
  - rewrite go_varint64_roundtrip by (unfold in_sint; cbn; lia).
    cbn [length N.of_nat N.eqb map app]. reflexivity.
  - inversion Hxs as [|? ? Hx Hxs']; subst.
    rewrite go_varint64_roundtrip by (apply (in_sint_64_of_k k _ Hk); exact Hx).
    destruct (N.eqb_spec (N.of_nat (length (x :: xs'))) 0) as [E|_]; [cbn in E; lia|].
    destruct (N.eqb_spec (N.of_nat nmb) 0) as [E|_]; [destruct Hl; lia|].
    rewrite legal_vpm_eq, !Nat2N.id.
    cbn [map length].
    replace (S (length xs') - 1)%nat with (length (map (wrapZ k) xs')) by (rewrite map_length; lia).
    pose proof (dec_blocks64_ok bs nmb (bs / nmb) Hg k Hk (S (length xs')) (map (wrapZ k) xs') (wrapZ k x) tail) as H.
    rewrite (enc_blocks_fuel bs nmb (bs / nmb) Hbp k (length (map (wrapZ k) xs')) (S (length xs')) (wrapZ k x) (map (wrapZ k) xs'))
      by (rewrite map_length; lia).
    rewrite H.
    + f_equal. f_equal. cbn [map]. f_equal.
      * apply sintZ_wrapZ; assumption.
      * exact (map_map_id _ _ _ xs' (fun z => sintZ_wrapZ k z Hkpos) Hxs').
    + rewrite map_length. lia.
    + apply wrapZ_all.
Qed.

Theorem dec64_enc k (Hk : k = 32 \/ k = 64) xs tail :
  Forall (in_sint k) xs -> N.of_nat (length xs) < 2 ^ 64 ->
  dec64 k (enc k xs ++ tail) = Some (xs, tail).
Proof. exact (dec64_enc_g block_size num_mini_blocks go_geometry_legal k Hk xs tail). Qed.

(** the geometries Go's decoders accept (decodeBinaryPackedHeader): a block
    size that is a multiple of 128 and at most 65536, mini-blocks of a
    multiple of 32 values -- the format's rule plus the upper bound *)
Definition go_geometry (bs nmb : nat) : Prop :=
  (0 < bs)%nat /\ (0 < nmb)%nat /\ (bs mod 128 = 0)%nat /\ N.of_nat bs <= 65536
  /\ (bs mod nmb = 0)%nat /\ ((bs / nmb) mod 32 = 0)%nat.

Lemma go_geometry_format_g bs nmb : go_geometry bs nmb -> format_geometry bs nmb.
Proof.
  intros (Hb & Hn & H128 & Hmax & Hd & H32). repeat split; try assumption.
  change (2 ^ 64) with (2 ^ 47 * 131072). lia.
Qed.

Lemma go_geometry_go : go_geometry block_size num_mini_blocks.
Proof. unfold go_geometry. repeat split; vm_compute; try reflexivity; try lia. intros H; discriminate H. Qed.

Lemma go_header_enc_g bs nmb (Hgo : go_geometry bs nmb) k (Hk : k = 32 \/ k = 64) xs tail :
  Forall (in_sint k) xs -> N.of_nat (length xs) <= max_int32 ->
  exists first s, go_dbp_header (enc_g bs nmb k xs ++ tail)
                  = GOk (Z.of_nat bs, Z.of_nat nmb, Z.of_nat (length xs), first, s)
                  /\ first_ok k first.
Proof.
  intros Hxs Hlen. unfold enc_g, go_dbp_header.
  destruct Hgo as (Hb & Hn & H128 & Hmax & Hd & H32).
  assert (Hnb : (nmb <= bs)%nat).
  { apply Nat.mod_divides in Hd; [|lia]. destruct Hd as ([|c] & Hc); [lia|].
    rewrite Hc, Nat.mul_succ_r. lia. }
  (* the two divisibility checks, in Go's truncated division *)
  assert (C1 : (Z.rem (Z.of_nat bs) 128 =? 0)%Z = true).
  { rewrite Z.rem_mod_nonneg by (apply Nat2Z.is_nonneg || reflexivity).
    change 128%Z with (Z.of_nat 128). now rewrite <- Nat2Z.inj_mod, H128. }
  assert (C2 : (Z.rem (Z.quot (Z.of_nat bs) (Z.of_nat nmb)) 32 =? 0)%Z = true).
  { rewrite Z.quot_div_nonneg, <- Nat2Z.inj_div, Z.rem_mod_nonneg
      by (apply Nat2Z.is_nonneg || reflexivity || (clear -Hn; lia)).
    change 32%Z with (Z.of_nat 32). now rewrite <- Nat2Z.inj_mod, H32. }
  clear H128 Hd H32.
  change max_int32 with 2147483647 in Hlen.
  rewrite <- !app_assoc.
  rewrite go_uvarint64_roundtrip by (change (2 ^ 64) with (2 ^ 47 * 131072); lia).
  rewrite go_uvarint64_roundtrip by (change (2 ^ 64) with (2 ^ 47 * 131072); lia).
  rewrite go_uvarint64_roundtrip by (change (2 ^ 64) with (2 ^ 33 * 2 ^ 31); lia).
  assert (Hfirst : in_sint k (match xs with [] => 0%Z | x :: _ => x end)).
  { destruct xs as [|x xs']; [destruct Hk; subst; unfold in_sint; cbn; lia|]. now inversion Hxs. }
  rewrite go_varint64_roundtrip by (apply (in_sint_64_of_k k _ Hk); exact Hfirst).
  assert (Esmall : forall n : nat, N.of_nat n <= 2147483647 -> to_int64 (N.of_nat n) = Z.of_nat n).
  { clear. intros n Hle. unfold to_int64. change (2 ^ 63) with (2 ^ 32 * 2147483648).
    destruct (N.ltb_spec (N.of_nat n) (2 ^ 32 * 2147483648)); lia. }
  rewrite (Esmall bs), (Esmall nmb), (Esmall (length xs)) by lia. clear Esmall.
  rewrite C1, C2. cbn [negb]. clear C1 C2 Hxs.
  destruct (Z.eqb_spec (Z.of_nat nmb) 0); [lia|].
  destruct (Z.leb_spec (Z.of_nat bs) 0); [lia|]. cbn [orb].
  destruct (Z.ltb_spec max_block_size (Z.of_nat bs)); [unfold max_block_size in *; lia|].
  destruct (Z.leb_spec (Z.of_nat nmb) 0); [lia|]. cbn [orb].
  destruct (Z.ltb_spec (Z.of_nat (length xs)) 0); [lia|].
  destruct (Z.ltb_spec (Z.of_N max_int32) (Z.of_nat (length xs))); [unfold max_int32 in *; lia|].
  eexists _, _. split; [reflexivity|].
  intros ->. exact Hfirst.
Qed.

Lemma go_header_enc k (Hk : k = 32 \/ k = 64) xs tail :
  Forall (in_sint k) xs -> N.of_nat (length xs) <= max_int32 ->
  exists first s, go_dbp_header (enc k xs ++ tail) = GOk (128%Z, 4%Z, Z.of_nat (length xs), first, s)
                  /\ first_ok k first.
Proof. exact (go_header_enc_g block_size num_mini_blocks go_geometry_go k Hk xs tail). Qed.

Lemma concat_wf (ls : list bytes) : Forall wf_bytes ls -> wf_bytes (concat ls).
Proof.
  induction 1 as [|l ls Hl Hls IH]; [constructor|]. cbn [concat]. apply wf_bytes_app. split; assumption.
Qed.

Lemma enc_block_wf bs nmb vpm k (Hk : k = 32 \/ k = 64) last chunk : wf_bytes (enc_block_g bs nmb vpm k last chunk).
Proof.
  rewrite enc_block_unfold.
  pose proof (chunks_forall _ vpm nmb _ (cleared_block_lt bs k last chunk)) as Hg.
  apply wf_bytes_app. split; [apply uvarint_enc_wf|].
  apply wf_bytes_app. split.
  - apply Forall_forall. intros x Hx. apply in_map_iff in Hx. destruct Hx as (g & <- & Hin).
    rewrite Forall_forall in Hg. pose proof (width_of_le k g (Hg g Hin)). destruct Hk; subst; lia.
  - apply concat_wf. apply Forall_forall. intros x Hx. apply in_map_iff in Hx.
    destruct Hx as (g & <- & _). apply to_le_wf.
Qed.

Lemma enc_blocks_wf bs nmb vpm k (Hk : k = 32 \/ k = 64) : forall fuel last vals, wf_bytes (enc_blocks_g bs nmb vpm fuel k last vals).
Proof.
  induction fuel as [|f IH]; intros last vals; cbn [enc_blocks_g]; [constructor|].
  destruct vals; [constructor|]. apply wf_bytes_app. split; [now apply enc_block_wf|apply IH].
Qed.

Lemma enc_g_wf bs nmb k (Hk : k = 32 \/ k = 64) xs : wf_bytes (enc_g bs nmb k xs).
Proof.
  unfold enc_g. repeat (apply wf_bytes_app; split); try apply uvarint_enc_wf.
  destruct (map (wrapZ k) xs); [constructor|now apply enc_blocks_wf].
Qed.

Lemma enc_wf k (Hk : k = 32 \/ k = 64) xs : wf_bytes (enc k xs).
Proof. exact (enc_g_wf block_size num_mini_blocks k Hk xs). Qed.

(** pages of writers that choose another block size or mini-block count than
    Go's 128 / 4 decode to the values written *)
Theorem go_dbp_roundtrip_g bs nmb (Hgo : go_geometry bs nmb) k (Hk : k = 32 \/ k = 64) xs tail :
  Forall (in_sint k) xs -> N.of_nat (length xs) <= max_int32 -> wf_bytes tail ->
  go_dbp_dec k (enc_g bs nmb k xs ++ tail) = GOk (xs, tail).
Proof.
  intros Hxs Hlen Hwt.
  pose proof max_int32_lt31 as Hmi.
  destruct (go_header_enc_g bs nmb Hgo k Hk xs tail Hxs Hlen) as (first & s & Hh & Hf).
  eapply go_dbp_refines.
  - apply wf_bytes_app. split; [now apply enc_g_wf|exact Hwt].
  - apply dec64_enc_g; [apply format_geometry_legal, go_geometry_format_g, Hgo|exact Hk|exact Hxs|].
    change (2 ^ 64) with (2 ^ 33 * 2 ^ 31). lia.
  - exact Hh.
  - exact Hf.
Qed.

Fixpoint offsets_from (a : N) (vs : list bytes) : list N :=
  match vs with
  | [] => [a]
  | v :: r => a :: offsets_from (a + N.of_nat (length v)) r
  end.

Lemma offsets_from_cons a vs : exists t, offsets_from a vs = a :: t.
Proof. destruct vs; cbn [offsets_from]; eauto. Qed.

Lemma go_lengths_offsets_ok vs : forall a,
  a + N.of_nat (length (concat vs)) < 2 ^ 32 ->
  go_lengths_offsets (lengths_of vs) a = Some (offsets_from a vs, a + N.of_nat (length (concat vs))).
Proof.
  induction vs as [|v r IH]; intros a Ha; cbn [lengths_of map go_lengths_offsets concat offsets_from length].
  - rewrite N.add_0_r. reflexivity.
  - cbn [concat] in Ha. rewrite app_length in Ha.
    destruct (Z.ltb_spec (Z.of_nat (length v)) 0); [lia|].
    replace (Z.to_N (Z.of_nat (length v))) with (N.of_nat (length v)) by lia.
    rewrite N.mod_small by lia.
    fold (lengths_of r). rewrite IH by lia.
    rewrite app_length. f_equal. f_equal. lia.
Qed.

Lemma unflatten_cons2 data a b t :
  unflatten data (a :: b :: t)
  = firstn (N.to_nat (b - a)) (skipn (N.to_nat a) data) :: unflatten data (b :: t).
Proof. reflexivity. Qed.

Lemma unflatten_ok vs : forall pre tail,
  unflatten (pre ++ concat vs ++ tail) (offsets_from (N.of_nat (length pre)) vs) = vs.
Proof.
  induction vs as [|v r IH]; intros pre tail; cbn [offsets_from]; [reflexivity|].
  destruct (offsets_from_cons (N.of_nat (length pre) + N.of_nat (length v)) r) as (t & Et).
  rewrite Et, unflatten_cons2, <- Et.
  replace (N.to_nat (N.of_nat (length pre) + N.of_nat (length v) - N.of_nat (length pre))) with (length v) by lia.
  rewrite Nat2N.id, skipn_app_exact. cbn [concat]. rewrite <- app_assoc, firstn_app_exact.
  f_equal.
  replace (N.of_nat (length pre) + N.of_nat (length v)) with (N.of_nat (length (pre ++ v)))
    by (rewrite app_length; lia).
  rewrite <- (IH (pre ++ v) tail) at 3. f_equal. now rewrite <- !app_assoc.
Qed.

(** Go tolerates a last mini-block without its padding (missing bytes read as
    zeros) as long as the bits of the values it has to provide are present;
    the specification decoder requires whole mini-blocks *)
Theorem go_dbp_unpadded_miniblock_lenient :
  exists b xs, DeltaBP.dec 32 b = None /\ go_dbp_dec 32 b = GOk (xs, []).
Proof.
  exists [128; 1; 4; 3; 1; 1; 2; 0; 0; 0; 5]. eexists.
  split; vm_compute; reflexivity.
Qed.

(** ... and (since b47fdb3) rejects a mini-block that lacks bits of its values *)
Example go_dbp_truncated_miniblock_rejected :
  go_dbp_dec 32 [128; 1; 4; 3; 1; 1; 2; 0; 0; 0] = GErr.
Proof. vm_compute. reflexivity. Qed.

(** ... and (since 15954b9) a needed mini-block wider than the type *)
Example go_dbp_wide_width_rejected :
  go_dbp_dec 32 [128; 1; 4; 2; 0; 1; 33; 0; 0; 0] = GErr
  /\ go_dbp_dec 64 [128; 1; 4; 2; 0; 1; 65; 0; 0; 0] = GErr.
Proof. split; vm_compute; reflexivity. Qed.

(** Go's header checks are stricter than the format: a block size that is not
    a multiple of 128 is accepted by the specification decoder *)
Theorem go_dbp_header_stricter :
  exists b r, DeltaBP.dec 32 b = Some r /\ go_dbp_dec 32 b = GErr.
Proof.
  exists [64; 2; 1; 2]. eexists. split; vm_compute; reflexivity.
Qed.
