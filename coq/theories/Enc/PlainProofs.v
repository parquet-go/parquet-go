(** Round trips of PLAIN and BYTE_STREAM_SPLIT for every input. *)
From Coq Require Import List NArith ZArith Lia Bool Arith.
From Coq Require Import ZifyN ZifyNat ZifyBool.
From PQ Require Import Base.Bytes Base.BitPack Base.ListExtra Enc.Plain.
Import ListNotations.
Open Scope N_scope.

Lemma split_every_concat {A} n (ls : list (list A)) :
  Forall (fun l => length l = n) ls -> split_every (length ls) n (concat ls) = ls.
Proof.
  induction 1 as [|l ls Hl _ IH]; cbn [length split_every concat]; [reflexivity|].
  rewrite firstn_app_len, skipn_app_len by exact Hl. now rewrite IH.
Qed.

Theorem plain_fixed_roundtrip k vs :
  (0 < k)%nat -> Forall (fun v => v < 256 ^ N.of_nat k) vs ->
  dec_plain_fixed k (plain_fixed k vs) = Some vs.
Proof.
  intros Hk Hvs. unfold dec_plain_fixed, plain_fixed.
  destruct (Nat.eqb_spec k 0); [lia|].
  assert (Hu : Forall (fun l => length l = k) (map (to_le k) vs)).
  { apply Forall_forall. intros l Hl. apply in_map_iff in Hl. destruct Hl as (v & <- & _). apply to_le_length. }
  rewrite (concat_length_uniform k _ Hu), map_length.
  rewrite Nat.mod_mul by lia. cbn [Nat.eqb]. rewrite Nat.div_mul by lia.
  pose proof (split_every_concat k _ Hu) as Hsp. rewrite map_length in Hsp. rewrite Hsp.
  f_equal. exact (map_map_id _ _ _ vs (of_le_to_le k) Hvs).
Qed.

Theorem plain_byte_array_roundtrip vs :
  Forall (fun v => N.of_nat (length v) < 2 ^ 32) vs ->
  forall fuel, (length vs <= fuel)%nat ->
  dec_plain_byte_array fuel (plain_byte_array vs) = Some vs.
Proof.
  induction 1 as [|v vs Hv _ IH]; intros fuel Hfuel.
  - destruct fuel; reflexivity.
  - destruct fuel as [|f]; [cbn in Hfuel; lia|].
    unfold plain_byte_array in *. cbn [map concat dec_plain_byte_array].
    rewrite <- app_assoc.
    pose proof (to_le_length 4 (N.of_nat (length v))) as H4.
    destruct (to_le 4 (N.of_nat (length v)) ++ v ++ concat (map (fun v0 => to_le 4 (N.of_nat (length v0)) ++ v0) vs)) as [|x l] eqn:E.
    { exfalso. apply (f_equal (@length N)) in E. rewrite app_length, H4 in E. cbn in E. lia. }
    rewrite <- E. clear E x l.
    rewrite !app_length, H4.
    destruct (Nat.ltb_spec (4 + (length v + length (concat (map (fun v0 => to_le 4 (N.of_nat (length v0)) ++ v0) vs)))) 4); [lia|].
    rewrite firstn_app_len, skipn_app_len by exact H4.
    rewrite of_le_to_le by (change (256 ^ N.of_nat 4) with (2 ^ 32); exact Hv).
    rewrite Nat2N.id. rewrite app_length.
    destruct (Nat.ltb_spec (length v + length (concat (map (fun v0 => to_le 4 (N.of_nat (length v0)) ++ v0) vs))) (length v)); [lia|].
    rewrite firstn_app_exact, skipn_app_exact.
    rewrite IH by (cbn in Hfuel; lia). reflexivity.
Qed.

Theorem plain_flba_roundtrip size vs :
  (0 < size)%nat -> Forall (fun v => length v = size) vs ->
  dec_plain_flba size (plain_flba vs) = Some vs.
Proof.
  intros Hs Hvs. unfold dec_plain_flba, plain_flba.
  destruct (Nat.eqb_spec size 0); [lia|].
  rewrite (concat_length_uniform size _ Hvs), Nat.mod_mul by lia. cbn [Nat.eqb].
  rewrite Nat.div_mul by lia. now rewrite split_every_concat.
Qed.

(** booleans *)
Definition is_bit (v : N) : Prop := v < 2.

Theorem plain_boolean_roundtrip bits :
  Forall is_bit bits ->
  dec_plain_boolean (length bits) (plain_boolean bits) = Some bits.
Proof.
  intros Hb. unfold dec_plain_boolean, plain_boolean.
  assert (G : forall fuel bs, Forall is_bit bs -> (length bs <= fuel)%nat ->
              exists pad, concat (map (unpack 1 8) (pack_bools fuel bs)) = bs ++ pad).
  { induction fuel as [|f IH]; intros bs Hbs Hf.
    - destruct bs; [exists []; reflexivity|cbn in Hf; lia].
    - cbn [pack_bools]. destruct bs as [|b0 bs'] eqn:Ebs; [exists []; reflexivity|].
      rewrite <- Ebs in *.
      pose proof (Forall_firstn _ 8 _ Hbs : fits 1 (firstn 8 bs)) as Hfit.
      cbn [map concat].
      rewrite (unpack_pack_short 1 (firstn 8 bs) 8 Hfit) by (rewrite firstn_length; lia).
      destruct (IH (skipn 8 bs)) as [pad Hpad].
      + now apply Forall_skipn.
      + rewrite skipn_length. subst bs. cbn [length] in *. lia.
      + rewrite Hpad. rewrite firstn_length.
        destruct (Nat.le_gt_cases 8 (length bs)) as [H8|H8].
        * rewrite Nat.min_l by lia. rewrite Nat.sub_diag. cbn [repeat]. rewrite app_nil_r.
          exists pad. rewrite app_assoc, firstn_skipn. reflexivity.
        * rewrite Nat.min_r by lia. rewrite skipn_all2 in * by lia.
          rewrite firstn_all2 by lia. cbn [app] in *.
          exists (repeat 0 (8 - length bs) ++ pad). now rewrite app_assoc. }
  destruct (G (length bits) bits Hb ltac:(lia)) as [pad Hpad].
  rewrite Hpad, app_length.
  destruct (Nat.leb_spec (length bits) (length bits + length pad)); [|lia].
  now rewrite firstn_app_exact.
Qed.

(** BYTE_STREAM_SPLIT *)

Lemma nth_concat_uniform {A} n (d : A) : forall (blocks : list (list A)) j i,
  Forall (fun l => length l = n) blocks -> (i < n)%nat -> (j < length blocks)%nat ->
  nth (j * n + i) (concat blocks) d = nth i (nth j blocks []) d.
Proof.
  induction blocks as [|bl blocks IH]; intros j i Hu Hi Hj; [cbn in Hj; lia|].
  inversion Hu as [|? ? Hb Hbs]; subst. cbn [concat].
  destruct j as [|j].
  - cbn [Nat.mul Nat.add nth]. apply app_nth1. lia.
  - rewrite app_nth2 by lia.
    replace (S j * length bl + i - length bl)%nat with (j * length bl + i)%nat by lia.
    cbn [nth]. apply IH; auto. cbn in Hj. lia.
Qed.

Theorem bss_roundtrip k vs :
  (0 < k)%nat -> Forall (fun v => length v = k) vs ->
  bss_dec k (bss_enc k vs) = Some vs.
Proof.
  intros Hk Hvs. unfold bss_dec, bss_enc.
  destruct (Nat.eqb_spec k 0); [lia|].
  set (blocks := map (fun j => map (fun v => nth j v 0) vs) (seq 0 k)).
  assert (Hu : Forall (fun l => length l = length vs) blocks).
  { subst blocks. apply Forall_forall. intros l Hl. apply in_map_iff in Hl.
    destruct Hl as (j & <- & _). apply map_length. }
  assert (Hbl : length blocks = k) by (subst blocks; rewrite map_length, seq_length; reflexivity).
  rewrite (concat_length_uniform _ _ Hu), Hbl.
  rewrite Nat.mul_comm, Nat.mod_mul by lia. cbn [Nat.eqb].
  rewrite Nat.div_mul by lia. f_equal.
  apply nth_ext with (d := []) (d' := []).
  - now rewrite map_length, seq_length.
  - intros i Hi. rewrite map_length, seq_length in Hi.
    rewrite nth_map_seq by exact Hi.
    assert (Hvi : length (nth i vs []) = k).
    { rewrite Forall_forall in Hvs. apply Hvs. now apply nth_In. }
    apply nth_ext with (d := 0) (d' := 0).
    + now rewrite map_length, seq_length, Hvi.
    + intros j Hj. rewrite map_length, seq_length in Hj.
      rewrite nth_map_seq by exact Hj.
      rewrite (nth_concat_uniform (length vs) 0 blocks j i Hu Hi) by (rewrite Hbl; exact Hj).
      subst blocks. rewrite nth_map_seq by exact Hj.
      apply (nth_map' (fun v => nth j v 0) vs i 0 []). exact Hi.
Qed.

Theorem bss_fixed_roundtrip k vs :
  (0 < k)%nat -> Forall (fun v => v < 256 ^ N.of_nat k) vs ->
  bss_dec_fixed k (bss_enc_fixed k vs) = Some vs.
Proof.
  intros Hk Hvs. unfold bss_dec_fixed, bss_enc_fixed.
  rewrite bss_roundtrip.
  - f_equal. exact (map_map_id _ _ _ vs (of_le_to_le k) Hvs).
  - exact Hk.
  - apply Forall_forall. intros l Hl. apply in_map_iff in Hl. destruct Hl as (v & <- & _). apply to_le_length.
Qed.
