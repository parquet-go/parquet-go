(** The fast encoders of Enc/DeltaBPFast.v write the bytes of the encoders the
    theorems are about, at every legal geometry. *)
From Coq Require Import List NArith ZArith Lia Bool Arith.
From Coq Require Import ZifyN ZifyNat ZifyBool.
From PQ Require Import Base.Bytes Base.Varint Base.BitPack Base.ListExtra.
From PQ Require Import Enc.DeltaBP Enc.DeltaBPProofs Enc.ByteArrayDelta Enc.DeltaBPFast.
Import ListNotations.
Open Scope N_scope.

Lemma to_le_app n : forall m x y, x < 256 ^ N.of_nat n ->
  to_le (n + m) (x + 256 ^ N.of_nat n * y) = to_le n x ++ to_le m y.
Proof.
  induction n as [|n IH]; intros m x y Hx.
  - cbn [N.of_nat] in *. rewrite N.pow_0_r in *. cbn [Nat.add to_le app].
    replace x with 0 by lia. f_equal. lia.
  - rewrite Nat2N.inj_succ, N.pow_succ_r' in *. cbn [Nat.add to_le app].
    assert (E1 : (x + 256 * 256 ^ N.of_nat n * y) mod 256 = x mod 256).
    { replace (x + 256 * 256 ^ N.of_nat n * y) with (x + (256 ^ N.of_nat n * y) * 256) by lia.
      apply N.mod_add. discriminate. }
    assert (E2 : (x + 256 * 256 ^ N.of_nat n * y) / 256 = x / 256 + 256 ^ N.of_nat n * y).
    { replace (x + 256 * 256 ^ N.of_nat n * y) with (x + (256 ^ N.of_nat n * y) * 256) by lia.
      apply N.div_add. discriminate. }
    rewrite E1, E2, IH; [reflexivity|].
    apply N.div_lt_upper_bound; [discriminate|exact Hx].
Qed.

Lemma pack_bytes_app w a b :
  fits w a -> (w * N.of_nat (length a)) mod 8 = 0 ->
  pack_bytes w (a ++ b) = pack_bytes w a ++ pack_bytes w b.
Proof.
  intros Hf Hm. unfold pack_bytes. rewrite pack_app, app_length, Nat2N.inj_add, N.mul_add_distr_l.
  pose proof (N.div_mod (w * N.of_nat (length a)) 8 ltac:(discriminate)) as E. rewrite Hm, N.add_0_r in E.
  set (na := w * N.of_nat (length a) / 8) in *.
  rewrite E at 1. rewrite (N.mul_comm 8 na), N.div_add_l by discriminate.
  rewrite N2Nat.inj_add.
  replace (2 ^ (w * N.of_nat (length a))) with (256 ^ N.of_nat (N.to_nat na)).
  - apply to_le_app. rewrite N2Nat.id. rewrite pow256, <- E.
    now apply pack_bound.
  - rewrite N2Nat.id. now rewrite pow256, <- E.
Qed.

Lemma pack_bytes_nil w : pack_bytes w [] = [].
Proof. unfold pack_bytes. cbn [length N.of_nat]. rewrite N.mul_0_r. reflexivity. Qed.

Lemma pack_groups_eq w : forall q g, length g = (q * 8)%nat -> fits w g ->
  concat (map (pack_bytes w) (chunks q 8 g)) = pack_bytes w g.
Proof.
  induction q as [|q IH]; intros g Hl Hf.
  - destruct g; [|cbn in Hl; lia]. cbn [chunks map concat]. now rewrite pack_bytes_nil.
  - cbn [chunks]. destruct g as [|v g'] eqn:Eg; [cbn in Hl; lia|]. rewrite <- Eg in *. clear Eg v g'.
    cbn [map concat].
    rewrite IH.
    + rewrite <- pack_bytes_app.
      * now rewrite firstn_skipn.
      * now apply Forall_firstn.
      * rewrite firstn_length, Nat.min_l by lia. change (N.of_nat 8) with 8.
        apply N.mod_mul. discriminate.
    + rewrite skipn_length. lia.
    + now apply Forall_skipn.
Qed.

Lemma pack_chunks_eq w g : fits w g -> N.of_nat (length g) mod 8 = 0 ->
  pack_chunks w g = pack_bytes w g.
Proof.
  intros Hf Hm. unfold pack_chunks. apply pack_groups_eq; [|exact Hf].
  pose proof (Nat.div_mod (length g) 8 ltac:(lia)) as E.
  assert (length g mod 8 = 0)%nat.
  { change 8 with (N.of_nat 8) in Hm. rewrite <- Nat2N.inj_mod in Hm. lia. }
  lia.
Qed.

Lemma enc_block_f_eq bs nmb vpm (Hg : geom bs nmb vpm) k last chunk :
  (length chunk <= bs)%nat ->
  enc_block_f bs nmb vpm k last chunk = enc_block_g bs nmb vpm k last chunk.
Proof.
  intros Hle. unfold enc_block_f, enc_block_g.
  destruct Hg as (bs_eq & vpm_mod8 & vpm_pos & nmb_pos).
  set (cb := pad_to bs 0 (firstn (length chunk) _)).
  assert (Hcbl : length cb = (nmb * vpm)%nat).
  { subst cb. rewrite pad_to_length; [exact bs_eq|]. rewrite firstn_length. lia. }
  destruct (chunks_exact vpm vpm_pos nmb cb Hcbl) as (_ & Hf & _).
  do 3 f_equal. apply map_ext_in. intros g Hin.
  rewrite Forall_forall in Hf. apply pack_chunks_eq; [apply width_of_fits|].
  now rewrite (Hf g Hin).
Qed.

Lemma enc_blocks_f_eq bs nmb vpm (Hg : geom bs nmb vpm) k : forall fuel last rest,
  enc_blocks_f bs nmb vpm fuel k last rest = enc_blocks_g bs nmb vpm fuel k last rest.
Proof.
  induction fuel as [|f IH]; intros last rest; cbn [enc_blocks_f enc_blocks_g]; [reflexivity|].
  destruct rest as [|v r] eqn:E; [reflexivity|]. rewrite <- E. clear E v r.
  rewrite IH, enc_block_f_eq; [reflexivity|exact Hg|]. rewrite firstn_length. lia.
Qed.

(** the encoder the oracle runs = the encoder of the theorems *)
Theorem enc_f_eq bs nmb (Hl : legal_geometry bs nmb) k xs : enc_f bs nmb k xs = enc_g bs nmb k xs.
Proof.
  unfold enc_f, enc_g. do 4 f_equal.
  destruct (map (wrapZ k) xs); [reflexivity|].
  apply enc_blocks_f_eq. now apply legal_geom.
Qed.

Theorem dlba_enc_f_eq bs nmb (Hl : legal_geometry bs nmb) vs : dlba_enc_f bs nmb vs = dlba_enc_g bs nmb vs.
Proof. unfold dlba_enc_f, dlba_enc_g. now rewrite enc_f_eq. Qed.

Theorem dba_enc_f_eq cap bs1 nmb1 bs2 nmb2 vs :
  legal_geometry bs1 nmb1 -> legal_geometry bs2 nmb2 ->
  dba_enc_f cap bs1 nmb1 bs2 nmb2 vs = dba_enc_g cap bs1 nmb1 bs2 nmb2 vs.
Proof. intros H1 H2. unfold dba_enc_f, dba_enc_g. now rewrite !enc_f_eq. Qed.

(** Go's geometry: the fast encoders write the bytes of the Go-mirroring encoders *)
Theorem enc_fast_eq k xs : enc_fast k xs = enc k xs.
Proof. exact (enc_f_eq block_size num_mini_blocks go_geometry_legal k xs). Qed.

Theorem dlba_enc_fast_eq vs : dlba_enc_fast vs = dlba_enc vs.
Proof. unfold dlba_enc_fast, dlba_enc. now rewrite enc_fast_eq. Qed.

Theorem dba_enc_fast_eq vs : dba_enc_fast vs = dba_enc vs.
Proof. unfold dba_enc_fast, dba_enc. now rewrite !enc_fast_eq. Qed.
