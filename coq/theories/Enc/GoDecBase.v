(** Primitives shared by the models of the GO DECODERS (Enc/GoDecRle.v,
    Enc/GoDecDelta.v): the result type, encoding/binary's Uvarint / Varint and
    the portable bit unpacking of github.com/parquet-go/bitpack.

    The decoders of Enc/Rle.v, Enc/DeltaBP.v, Enc/ByteArrayDelta.v are written
    from the format specification; the functions here and in GoDec*.v mirror
    what the Go code does, statement by statement, malformed input included.
    A Go decoder either returns values and a nil error ([GOk]), returns an
    error ([GErr]) or panics ([GPanic]).  Slices are modelled by lists, i.e.
    [cap(src) = len(src)]: a slice expression reaching beyond [len(src)] is a
    panic (with spare capacity Go would read whatever follows the slice).
    No proofs here (Enc/GoDec*Proofs.v). *)
From Coq Require Import List NArith ZArith Lia Bool Arith.
From PQ Require Import Base.Bytes Base.Varint Base.BitPack.
Import ListNotations.
Open Scope N_scope.

Inductive gres (A : Type) : Type :=
| GOk (x : A)
| GErr
| GPanic.
Arguments GOk {A} x.
Arguments GErr {A}.
Arguments GPanic {A}.

Definition gbind {A B} (r : gres A) (f : A -> gres B) : gres B :=
  match r with
  | GOk x => f x
  | GErr => GErr
  | GPanic => GPanic
  end.

(** status of a result: 0 ok, 1 error, 2 panic *)
Definition gstatus {A} (r : gres A) : N :=
  match r with GOk _ => 0 | GErr => 1 | GPanic => 2 end.

(** encoding/binary.Uvarint:

      for i, b := range buf {
        if i == MaxVarintLen64 { return 0, -(i + 1) }            // overflow
        if b < 0x80 {
          if i == MaxVarintLen64-1 && b > 1 { return 0, -(i + 1) } // overflow
          return x | uint64(b)<<s, i + 1
        }
        x |= uint64(b&0x7f) << s ; s += 7
      }
      return 0, 0

    [fuel] = MaxVarintLen64 - i.  Both failures (n == 0: input exhausted,
    n < 0: more than 64 bits) are errors for every caller: [None]. *)
Fixpoint go_uvarint_aux (fuel : nat) (l : bytes) (shift acc : N) : option (N * bytes) :=
  match fuel with
  | O => None
  | S f =>
      match l with
      | [] => None
      | b :: r =>
          if b <? 128 then
            if (f =? 0)%nat && (1 <? b) then None
            else Some (acc + b * 2 ^ shift, r)
          else go_uvarint_aux f r (shift + 7) (acc + (b - 128) * 2 ^ shift)
      end
  end.

Definition go_uvarint (l : bytes) : option (N * bytes) := go_uvarint_aux 10 l 0 0.

(** binary.Varint: x := int64(ux >> 1); if ux&1 != 0 { x = ^x } *)
Definition go_varint (l : bytes) : option (Z * bytes) :=
  match go_uvarint l with
  | Some (n, r) => Some (unzigzag n, r)
  | None => None
  end.

(** int(u) for a uint64 [u] (two's complement reinterpretation) *)
Definition to_int64 (u : N) : Z :=
  if u <? 2 ^ 63 then Z.of_N u else (Z.of_N u - 2 ^ 64)%Z.

(** bitpack.Unpack, portable version (unpack_int32_purego.go /
    unpack_int64_purego.go): value [i] is the field of [w] bits at bit offset
    [i*w] of the little-endian bit stream, truncated to the [tw] bits of the
    destination type ([w] > [tw] happens on malformed input only; the code
    reads the low [tw] bits of the field).  [x] is the stream as a number. *)
Fixpoint go_unpack (tw w : N) (n : nat) (x : N) : list N :=
  match n with
  | O => []
  | S m => ((x mod 2 ^ w) mod 2 ^ tw) :: go_unpack tw w m (x / 2 ^ w)
  end.

(** The same values computed 8 at a time: 8 values of [w] bits are exactly [w]
    bytes, so value [8*g + j] is field [j] of the bytes [w*g .. w*g+w-1]
    (bytes beyond the end of [src] count as zeros).  This is how the models
    evaluate an unpack of [8*groups] values: the numbers stay small. *)
Fixpoint go_unpack_chunks (tw w : N) (groups : nat) (src : bytes) : list N :=
  match groups with
  | O => []
  | S g =>
      go_unpack tw w 8 (of_le (firstn (N.to_nat w) src))
        ++ go_unpack_chunks tw w g (skipn (N.to_nat w) src)
  end.

(** [l[:n]] and [l[n:]] for an [n] already known to be at most [len(l)]; the
    comparison is made on [N] so that a huge count read from a malformed
    stream is never converted to a unary number. *)
Definition fits_len (n : N) (l : bytes) : bool := n <=? N.of_nat (length l).

Definition max_int32 : N := 2147483647.
