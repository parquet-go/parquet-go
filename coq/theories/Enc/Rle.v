(** RLE / bit-packed hybrid (encoding/rle/rle.go).

    The encoders are modelled in two stages that mirror the Go code: run
    detection ([detect_bytes] for levels, [detect_int32] for dictionary
    indexes, [detect_bits] for packed booleans) producing a list of runs, and
    serialisation of the runs.  [dec_runs] is a decoder written from
    Encodings.md (any partition into runs).  No proofs here. *)
From Coq Require Import List NArith ZArith Lia Bool Arith.
From PQ Require Import Base.Bytes Base.Varint Base.BitPack.
Import ListNotations.
Open Scope N_scope.

Inductive run :=
| RunRLE (count : nat) (v : N)
| RunBP (groups : list (list N)).      (* groups of 8 values *)

Definition byte_count (w : N) : nat := N.to_nat ((w + 7) / 8).

Definition expand (r : run) : list N :=
  match r with
  | RunRLE c v => repeat v c
  | RunBP gs => concat gs
  end.

Definition serialize_run (w : N) (r : run) : bytes :=
  match r with
  | RunRLE c v => uvarint64 (2 * N.of_nat c) ++ to_le (byte_count w) v
  | RunBP gs => uvarint64 (2 * N.of_nat (length gs) + 1) ++ concat (map (pack_bytes w) gs)
  end.

Definition serialize (w : N) (rs : list run) : bytes := concat (map (serialize_run w) rs).

(** * Run detection, as the Go encoders do it *)

Fixpoint groups8 {A} (fuel : nat) (l : list A) : list (list A) :=
  match fuel with
  | O => []
  | S f => if (8 <=? length l)%nat then firstn 8 l :: groups8 f (skipn 8 l) else []
  end.

Definition eqb_list (a b : list N) : bool :=
  (length a =? length b)%nat && forallb (fun p => fst p =? snd p) (combine a b).

Definition broadcast (v : N) : list N := repeat v 8.
Definition is_const (g : list N) : bool := eqb_list g (broadcast (hd 0 g)).

(* number of leading groups equal to [pat] *)
Fixpoint count_equal (pat : list N) (gs : list (list N)) : nat :=
  match gs with
  | g :: r => if eqb_list g pat then S (count_equal pat r) else O
  | [] => O
  end.

(* encodeBytes: the bit-packed run is extended while
   words[j] != broadcast8x1(words[j-1]) *)
Fixpoint span_bytes (prev : list N) (gs : list (list N)) : nat :=
  match gs with
  | g :: r => if eqb_list g (broadcast (hd 0 prev)) then O else S (span_bytes g r)
  | [] => O
  end.

(* encodeInt32: extended over the following groups while they are not constant
   (encodeInt32IndexEqual8Contiguous) *)
Fixpoint span_int32 (gs : list (list N)) : nat :=
  match gs with
  | g :: r => if is_const g then O else S (span_int32 r)
  | [] => O
  end.

Fixpoint detect_groups (int32 : bool) (fuel : nat) (gs : list (list N)) : list run :=
  match fuel with
  | O => []
  | S f =>
      match gs with
      | [] => []
      | g :: r =>
          let c := count_equal (broadcast (hd 0 g)) gs in
          if (0 <? c)%nat then RunRLE (8 * c) (hd 0 g) :: detect_groups int32 f (skipn c gs)
          else
            let c2 := S (if int32 then span_int32 r else span_bytes g r) in
            RunBP (firstn c2 gs) :: detect_groups int32 f (skipn c2 gs)
      end
  end.

(* the tail (len mod 8 values): runs of equal neighbours *)
Fixpoint count_same (v : N) (l : list N) : nat :=
  match l with
  | x :: r => if x =? v then S (count_same v r) else O
  | [] => O
  end.

Fixpoint detect_tail (fuel : nat) (l : list N) : list run :=
  match fuel with
  | O => []
  | S f =>
      match l with
      | [] => []
      | v :: r => let c := count_same v r in RunRLE (S c) v :: detect_tail f (skipn c r)
      end
  end.

Definition detect (int32 : bool) (src : list N) : list run :=
  let n8 := (length src / 8 * 8)%nat in
  let gs := groups8 (length src) (firstn n8 src) in
  detect_groups int32 (length gs) gs ++ detect_tail (length src) (skipn n8 src).

(* encodeBytes / encodeInt32 *)
Definition enc_hybrid (int32 : bool) (w : N) (src : list N) : option bytes :=
  if w =? 0 then
    if forallb (fun v => v =? 0) src then Some (uvarint64 (2 * N.of_nat (length src))) else None
  else Some (serialize w (detect int32 src)).

Definition enc_levels (w : N) (src : list N) : option bytes := enc_hybrid false w src.
Definition enc_int32 (w : N) (src : list N) : option bytes := enc_hybrid true w src.

(* RLE_DICTIONARY data page: bit width byte then the indexes *)
Definition enc_dict_indexes (src : list N) : option bytes :=
  let w := fold_left N.max (map bitlen src) 0 in
  match enc_int32 w src with
  | Some b => Some (w :: b)
  | None => None
  end.

(** encodeBits: [src] are the packed bytes of a boolean page (8 values per
    byte, LSB first); runs are counted in bytes. *)
Inductive bits_run :=
| BitsRLE (nbytes : nat) (value_byte : N)
| BitsBP (raw : list N).

(* extension of a bit-packed section: while src[j-1] != src[j] || (src[j] != 0 && src[j] == 0xFF) *)
Fixpoint span_bits (prev : N) (l : list N) : nat :=
  match l with
  | x :: r => if negb (prev =? x) || (negb (x =? 0) && (x =? 255)) then S (span_bits x r) else O
  | [] => O
  end.

Fixpoint detect_bits_loop (fuel : nat) (l : list N) : list bits_run :=
  match fuel with
  | O => []
  | S f =>
      match l with
      | [] => []
      | v :: r =>
          let same := count_same v r in
          if ((v =? 0) || (v =? 255)) && (0 <? same)%nat then
            BitsRLE (S same) v :: detect_bits_loop f (skipn same r)
          else
            let j := S (span_bits v r) in               (* j - i *)
            let j' := if (1 <? j)%nat && (j <? length l)%nat then (j - 1)%nat else j in
            BitsBP (firstn j' l) :: detect_bits_loop f (skipn j' l)
      end
  end.

Definition detect_bits (src : list N) : list bits_run :=
  if (length src =? 0)%nat || forallb (fun v => v =? 0) src || forallb (fun v => v =? 255) src
  then [BitsRLE (length src) (hd 0 src)]
  else detect_bits_loop (length src) src.

Definition serialize_bits_run (r : bits_run) : bytes :=
  match r with
  | BitsRLE n v => uvarint64 (2 * (8 * N.of_nat n)) ++ (if (n =? 0)%nat then [] else [v mod 2])
  | BitsBP raw => uvarint64 (2 * N.of_nat (length raw) + 1) ++ raw
  end.

Definition enc_bits_body (src : list N) : bytes := concat (map serialize_bits_run (detect_bits src)).

(* EncodeBoolean: 4-byte little-endian length prefix *)
Definition enc_boolean (src : list N) : bytes :=
  let body := enc_bits_body src in
  to_le 4 (N.of_nat (length body)) ++ body.

(** * Decoder from the specification *)

Definition take_bytes (n : nat) (b : bytes) : option (bytes * bytes) :=
  if (n <=? length b)%nat then Some (firstn n b, skipn n b) else None.

Fixpoint split_every {A} (fuel n : nat) (l : list A) : list (list A) :=
  match fuel with
  | O => []
  | S f => firstn n l :: split_every f n (skipn n l)
  end.

(* one run, given the decoder for what follows it *)
Definition dec_run_body (rec : bytes -> option (list N)) (w h : N) (b1 : bytes) : option (list N) :=
  if N.odd h then
    let g := N.to_nat (h / 2) in
    match take_bytes (g * N.to_nat w) b1 with
    | None => None
    | Some (body, b2) =>
        match rec b2 with
        | None => None
        | Some rest =>
            Some (concat (map (unpack_bytes w 8) (split_every g (N.to_nat w) body)) ++ rest)
        end
    end
  else
    let c := N.to_nat (h / 2) in
    match take_bytes (byte_count w) b1 with
    | None => None
    | Some (vb, b2) =>
        match rec b2 with
        | None => None
        | Some rest => Some (repeat (of_le vb) c ++ rest)
        end
    end.

Fixpoint dec_runs (fuel : nat) (w : N) (b : bytes) : option (list N) :=
  match fuel with
  | O => match b with [] => Some [] | _ => None end
  | S f =>
      match b with
      | [] => Some []
      | _ =>
          match uvarint_dec b with
          | None => None
          | Some (h, b1) => dec_run_body (dec_runs f w) w h b1
          end
      end
  end.

Definition dec_hybrid (w : N) (b : bytes) : option (list N) := dec_runs (length b) w b.

Definition dec_dict_indexes (b : bytes) : option (list N) :=
  match b with
  | [] => None
  | w :: r => dec_hybrid w r
  end.

(* booleans: bit width 1; the decoded values are bits *)
Definition bits_of_byte (x : N) : list N := unpack 1 8 x.
Definition dec_boolean (b : bytes) : option (list N) :=
  match take_bytes 4 b with
  | None => None
  | Some (lenb, r) =>
      match take_bytes (N.to_nat (of_le lenb)) r with
      | None => None
      | Some (body, _) => dec_hybrid 1 body
      end
  end.
