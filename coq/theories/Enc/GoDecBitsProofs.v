(** Go's decodeBits (RLE booleans, Enc/GoDecRle.v, since 75827ad with a bit
    position across runs) on EVERY conforming stream: any partition of a
    sequence of booleans into non-empty run-length runs of any length and
    bit-packed runs of groups of 8 is decoded to packed bytes whose first bits
    are the values ([go_bits_any_runs]).  The invariant is arithmetic: with
    [P] the output read as a little-endian number, [P mod 2^bits] is the
    number whose binary digits are the values decoded so far. *)
From Coq Require Import List NArith ZArith Lia Bool Arith.
From Coq Require Import ZifyN ZifyNat ZifyBool.
From PQ Require Import Base.Bytes Base.Varint Base.BitPack Base.ListExtra.
From PQ Require Import Enc.Rle Enc.RleProofs Enc.GoDecBase Enc.GoDecBaseProofs Enc.GoDecRle Enc.GoDecRleProofs.
Import ListNotations.
Open Scope N_scope.

Lemma land_disjoint a c s : a < 2 ^ s -> c mod 2 ^ s = 0 -> N.land a c = 0.
Proof.
  intros Ha Hc. apply N.bits_inj. intros n. rewrite N.land_spec, N.bits_0.
  destruct (N.lt_ge_cases n s) as [Hn|Hn].
  - assert (Ec : c = (c / 2 ^ s) * 2 ^ s).
    { pose proof (N.div_mod c (2 ^ s) ltac:(apply N.pow_nonzero; discriminate)). lia. }
    rewrite Ec, N.mul_pow2_bits_low by exact Hn. apply andb_false_r.
  - assert (Et : N.testbit a n = false).
    { apply N.testbit_false. rewrite N.div_small; [reflexivity|].
      eapply N.lt_le_trans; [exact Ha|]. apply N.pow_le_mono_r; [discriminate|exact Hn]. }
    now rewrite Et.
Qed.

Lemma lor_disjoint a c s : a < 2 ^ s -> c mod 2 ^ s = 0 -> N.lor a c = a + c.
Proof.
  intros Ha Hc. pose proof (land_disjoint a c s Ha Hc) as H.
  rewrite N.add_nocarry_lxor by exact H. symmetry. now apply N.lxor_lor.
Qed.

Lemma pow2_8 s : s <= 8 -> 2 ^ s * 2 ^ (8 - s) = 256.
Proof. intros H. rewrite <- N.pow_add_r. replace (s + (8 - s)) with 8 by lia. reflexivity. Qed.

Lemma shl8_eq b s : s <= 8 -> go_shl8 b s = 2 ^ s * (b mod 2 ^ (8 - s)).
Proof.
  intros Hs. unfold go_shl8. rewrite <- (pow2_8 s Hs), (N.mul_comm b).
  apply N.mul_mod_distr_l; apply N.pow_nonzero; discriminate.
Qed.

Lemma shl8_split b s : s <= 8 -> go_shl8 b s + 256 * (b / 2 ^ (8 - s)) = 2 ^ s * b.
Proof.
  intros Hs. rewrite shl8_eq by exact Hs. rewrite <- (pow2_8 s Hs).
  rewrite (N.div_mod b (2 ^ (8 - s))) at 3 by (apply N.pow_nonzero; discriminate). ring.
Qed.

Lemma ldiff_ones s : 0 < s < 8 -> N.ldiff 255 (2 ^ s - 1) = 256 - 2 ^ s.
Proof.
  intros H.
  assert (C : s = 1 \/ s = 2 \/ s = 3 \/ s = 4 \/ s = 5 \/ s = 6 \/ s = 7) by lia.
  destruct C as [->|[->|[->|[->|[->|[->| ->]]]]]]; reflexivity.
Qed.

Lemma pack1_repeat0 c : pack 1 (repeat 0 c) = 0.
Proof. induction c as [|c IH]; cbn [repeat pack]; [reflexivity|]. rewrite IH. lia. Qed.

Lemma pack1_repeat1 c : pack 1 (repeat 1 c) + 1 = 2 ^ N.of_nat c.
Proof.
  induction c as [|c IH]; cbn [repeat pack]; [reflexivity|].
  rewrite Nat2N.inj_succ, N.pow_succ_r'. change (2 ^ 1) with 2. lia.
Qed.

Lemma of_le_packed1 gs : Forall (fun g => length g = 8%nat /\ fits 1 g) gs ->
  of_le (concat (map (pack_bytes 1) gs)) = pack 1 (concat gs).
Proof.
  induction 1 as [|g gs [Hl Hf] _ IH]; [reflexivity|].
  cbn [map concat]. rewrite of_le_app, pack_app, IH, Hl, pack_bytes_len8 by exact Hl.
  change (N.of_nat (N.to_nat 1)) with 1. change (1 * N.of_nat 8) with 8. change (256 ^ 1) with (2 ^ 8).
  f_equal. unfold pack_bytes. rewrite Hl. change (N.to_nat (1 * N.of_nat 8 / 8)) with 1%nat.
  cbn [to_le of_le].
  pose proof (pack_bound 1 g Hf) as Hb. rewrite Hl in Hb. change (2 ^ (1 * N.of_nat 8)) with 256 in Hb.
  rewrite N.mod_small by exact Hb. lia.
Qed.

Lemma unpack_mod w n x : unpack w n (x mod 2 ^ (w * N.of_nat n)) = unpack w n x.
Proof.
  pose proof (N.div_mod x (2 ^ (w * N.of_nat n)) ltac:(apply N.pow_nonzero; discriminate)) as E.
  rewrite E at 2. rewrite N.add_comm, unpack_add_high. reflexivity.
Qed.

Lemma firstn_unpack w n : forall m x, (n <= m)%nat -> firstn n (unpack w m x) = unpack w n x.
Proof.
  induction n as [|n IH]; intros m x H; [reflexivity|].
  destruct m as [|m]; [lia|]. cbn [unpack firstn]. f_equal. apply IH. lia.
Qed.

Lemma bits_of_unpack l : wf_bytes l -> bits_of l = unpack 1 (8 * length l) (of_le l).
Proof.
  induction 1 as [|b l Hb Hl IH]; [reflexivity|].
  unfold bits_of in *. cbn [map concat length of_le]. rewrite IH.
  replace (8 * S (length l))%nat with (8 + 8 * length l)%nat by lia.
  rewrite unpack_app. unfold bits_of_byte.
  change (1 * N.of_nat 8) with 8. change (2 ^ 8) with 256.
  f_equal.
  - replace (b + 256 * of_le l) with (b + 2 ^ (1 * N.of_nat 8) * of_le l) by reflexivity.
    now rewrite unpack_add_high.
  - f_equal. rewrite (N.mul_comm 256), N.div_add by discriminate. rewrite N.div_small by exact Hb. reflexivity.
Qed.

Lemma pow2_le_128 s : s < 8 -> 2 ^ s <= 128.
Proof. intros H. change 128 with (2 ^ 7). apply N.pow_le_mono_r; [discriminate|lia]. Qed.

Lemma digits_lt a m T T' : a < T -> m < T' -> a + T * m < T * T'.
Proof. nia. Qed.

Lemma append_shifted_spec s (Hs : 0 < s < 8) : forall blk init lb,
  wf_bytes blk -> wf_bytes init -> lb < 2 ^ s ->
  of_le (go_append_shifted s init lb blk)
    = of_le init + 256 ^ N.of_nat (length init) * (lb + 2 ^ s * of_le blk)
  /\ length (go_append_shifted s init lb blk) = (length init + 1 + length blk)%nat
  /\ wf_bytes (go_append_shifted s init lb blk).
Proof.
  assert (Hs8 : s <= 8) by lia.
  pose proof (pow2_le_128 s ltac:(lia)) as H128.
  induction blk as [|b blk IH]; intros init lb Hb Hi Hl; cbn [go_append_shifted].
  - rewrite of_le_snoc, app_length. cbn [of_le length]. repeat split; try lia.
    apply wf_bytes_app. split; [assumption|]. constructor; [lia|constructor].
  - inversion Hb as [|? ? Hb0 Hb']; subst.
    (* the byte written is [lb] below the low bits of [b]; the high bits of [b] are carried *)
    assert (Hm : b mod 2 ^ (8 - s) < 2 ^ (8 - s)) by (apply N.mod_lt, N.pow_nonzero; discriminate).
    assert (Ex : N.lor lb (go_shl8 b s) = lb + go_shl8 b s).
    { apply (lor_disjoint _ _ s); [exact Hl|]. rewrite shl8_eq, N.mul_comm by exact Hs8.
      apply N.mod_mul, N.pow_nonzero. discriminate. }
    assert (Hx : N.lor lb (go_shl8 b s) < 256).
    { rewrite Ex, shl8_eq, <- (pow2_8 s) by exact Hs8. now apply digits_lt. }
    assert (Hc : b / 2 ^ (8 - s) < 2 ^ s).
    { apply N.div_lt_upper_bound; [apply N.pow_nonzero; discriminate|].
      now rewrite N.mul_comm, pow2_8. }
    assert (Hi' : wf_bytes (init ++ [N.lor lb (go_shl8 b s)])).
    { apply wf_bytes_app. split; [assumption|]. constructor; [exact Hx|constructor]. }
    destruct (IH (init ++ [N.lor lb (go_shl8 b s)]) (b / 2 ^ (8 - s)) Hb' Hi' Hc) as (E & L & W).
    split; [|split; [|exact W]].
    + rewrite E, of_le_snoc, app_length, Ex. cbn [length of_le].
      rewrite Nat.add_1_r, Nat2N.inj_succ, N.pow_succ_r', (N.mul_add_distr_l (2 ^ s)), <- (shl8_split b s Hs8).
      ring.
    + rewrite L, app_length. cbn [length]. lia.
Qed.

Definition inv (dst : bytes) (bits : N) (vals : list N) : Prop :=
  wf_bytes dst /\ N.of_nat (length dst) = (bits + 7) / 8 /\ N.of_nat (length vals) = bits
  /\ fits 1 vals /\ of_le dst mod 2 ^ bits = pack 1 vals.

Lemma inv_nil : inv [] 0 [].
Proof. repeat split; constructor. Qed.

Lemma pack1_lt vals : fits 1 vals -> pack 1 vals < 2 ^ N.of_nat (length vals).
Proof. intros H. pose proof (pack_bound 1 vals H) as B. now rewrite N.mul_1_l in B. Qed.

(** [h]: what the unfinished byte holds above the bit position *)
Lemma inv_intro d bits vals h :
  wf_bytes d -> bits <= 8 * N.of_nat (length d) < bits + 8 ->
  N.of_nat (length vals) = bits -> fits 1 vals ->
  of_le d = pack 1 vals + 2 ^ bits * h -> inv d bits vals.
Proof.
  intros Hw Hl Hv Hf E. unfold inv. repeat split; try assumption.
  - clear -Hl. lia.
  - rewrite E, N.mul_comm, N.mod_add by (apply N.pow_nonzero; discriminate).
    apply N.mod_small. rewrite <- Hv. now apply pack1_lt.
Qed.

(** [init]: the whole bytes; [lb]: the valid bits of the unfinished byte *)
Lemma inv_split dst bits vals : inv dst bits vals ->
  exists init lb,
    wf_bytes init /\ lb < 2 ^ (bits mod 8) /\
    bits = 8 * N.of_nat (length init) + bits mod 8 /\
    pack 1 vals = of_le init + 2 ^ (8 * N.of_nat (length init)) * lb /\
    if bits mod 8 =? 0 then dst = init
    else removelast dst = init /\ last dst 0 mod 2 ^ (bits mod 8) = lb.
Proof.
  intros (Hwf & Hlen & Hvl & Hfit & Hnum).
  destruct (N.eqb_spec (bits mod 8) 0) as [Hs|Hs].
  - exists dst, 0. rewrite Hs.
    assert (Hb : bits = 8 * N.of_nat (length dst)) by (clear -Hlen Hs; lia).
    repeat split; [exact Hwf|lia|].
    rewrite N.mul_0_r, N.add_0_r, <- Hnum. apply N.mod_small.
    rewrite Hb. now apply of_le_lt.
  - assert (Hne : dst <> []) by (intros ->; cbn [length N.of_nat] in Hlen; clear -Hlen Hs; lia).
    pose proof (app_removelast_last 0 Hne) as Ed.
    set (init := removelast dst) in *. set (l := last dst 0) in *.
    assert (Hb : bits = 8 * N.of_nat (length init) + bits mod 8).
    { rewrite Ed, app_length, Nat.add_1_r in Hlen. clear -Hlen Hs. lia. }
    rewrite Ed in Hwf. apply wf_bytes_app in Hwf. destruct Hwf as [Hwi _].
    exists init, (l mod 2 ^ (bits mod 8)).
    repeat split; [exact Hwi|apply N.mod_lt, N.pow_nonzero; discriminate|exact Hb|].
    (* [of_le dst mod 2^bits] keeps [init] and cuts the last byte at [bits mod 8] *)
    assert (HM : 2 ^ (8 * N.of_nat (length init)) <> 0) by (apply N.pow_nonzero; discriminate).
    rewrite <- Hnum, Ed, of_le_snoc, pow256. rewrite Hb at 1.
    rewrite N.pow_add_r, N.mod_mul_r by (try exact HM; apply N.pow_nonzero; discriminate).
    rewrite (N.mul_comm _ l), N.mod_add, N.div_add by exact HM.
    now rewrite N.mod_small, N.div_small by (apply of_le_lt; exact Hwi).
Qed.

(** above [lb], [dst1] holds zeros, or ones up to its end *)
Lemma dst1_spec s init lb (one : bool) : s < 8 -> wf_bytes init -> lb < 2 ^ s ->
  let word := if one then 255 else 0 in
  let dst1 := if s =? 0 then init else init ++ [N.lor lb (N.ldiff word (2 ^ s - 1))] in
  let n := N.of_nat (length init) in
  let n1 := N.of_nat (length dst1) in
  wf_bytes dst1 /\ 8 * n + s <= 8 * n1 < 8 * n + s + 8 /\
  of_le dst1 + (if one then 2 ^ (8 * n + s) else 0)
    = of_le init + 2 ^ (8 * n) * lb + (if one then 2 ^ (8 * n1) else 0).
Proof.
  intros Hs Hwi Hlb word dst1 n n1. subst dst1 n1.
  destruct (N.eqb_spec s 0) as [->|Hs0].
  - change (2 ^ 0) with 1 in Hlb. assert (lb = 0) as -> by lia.
    fold n. rewrite N.add_0_r, N.mul_0_r, N.add_0_r. repeat split; [exact Hwi|lia|lia].
  - pose proof (pow2_le_128 s Hs) as H128.
    assert (Ex : N.lor lb (N.ldiff word (2 ^ s - 1)) = lb + (if one then 256 - 2 ^ s else 0)).
    { subst word. destruct one; [|now rewrite N.ldiff_0_l, N.lor_0_r, N.add_0_r].
      rewrite ldiff_ones by lia. apply (lor_disjoint _ _ s); [exact Hlb|].
      rewrite <- (pow2_8 s) at 1 by lia. rewrite <- (N.mul_1_r (2 ^ s)) at 2.
      rewrite <- N.mul_sub_distr_l, N.mul_comm. apply N.mod_mul, N.pow_nonzero. discriminate. }
    rewrite Ex, of_le_snoc, pow256, app_length, Nat.add_1_r, Nat2N.inj_succ. fold n.
    repeat split.
    + apply wf_bytes_app. split; [exact Hwi|]. constructor; [destruct one; lia|constructor].
    + lia.
    + lia.
    + destruct one; [|now rewrite !N.add_0_r].
      rewrite N.mul_succ_r, !N.pow_add_r. change (2 ^ 8) with 256.
      rewrite <- (N.sub_add (2 ^ s) 256) at 2 by lia. ring.
Qed.

Lemma resize_spare bits c (m : nat) : bits <= 8 * N.of_nat m < bits + 8 -> 0 < c ->
  exists g, 8 * N.of_nat (m + (N.to_nat ((bits + c + 7) / 8) - m)) = bits + c + g /\ g < 8.
Proof. intros H Hc. exists (8 * ((bits + c + 7) / 8) - (bits + c)). lia. Qed.

(** ones from bit [A] up to the end [L] of the buffer, then the bytes
    [R = K - 1] of ones: the run [P = B - 1] and ones above it *)
Lemma ones_run_arith D A V L R K P B G :
  D + A = V + L -> R + 1 = K -> P + 1 = B -> L * K = A * B * G -> 0 < G ->
  D + L * R = V + A * P + A * B * (G - 1).
Proof. nia. Qed.

Lemma rle_step dst bits vals c (v : N) :
  inv dst bits vals -> 0 < c -> v < 2 ->
  let shift := bits mod 8 in
  let word := if N.odd v then 255 else 0 in
  let dst1 := if shift =? 0 then dst
              else removelast dst ++ [N.lor (last dst 0 mod 2 ^ shift) (N.ldiff word (2 ^ shift - 1))] in
  inv (dst1 ++ repeat word (N.to_nat ((bits + c + 7) / 8) - length dst1)) (bits + c)
      (vals ++ repeat v (N.to_nat c)).
Proof.
  intros Hinv Hc Hv shift word dst1.
  destruct (inv_split dst bits vals Hinv) as (init & lb & Hwi & Hlb & Hb & HV & Hd).
  destruct Hinv as (_ & _ & Hvl & Hfit & _).
  fold shift in Hlb, Hb, Hd.
  assert (Hs : shift < 8) by (apply N.mod_lt; discriminate).
  destruct (dst1_spec shift init lb (N.odd v) Hs Hwi Hlb) as (Hw1 & Hl1 & Hn1).
  fold word in Hw1, Hl1, Hn1.
  replace (if shift =? 0 then init else _) with dst1 in Hw1, Hl1, Hn1
    by (subst dst1; destruct (shift =? 0); [|destruct Hd as [-> ->]]; now subst).
  rewrite <- Hb in Hl1, Hn1. rewrite <- HV in Hn1. clearbody shift. clear Hd Hb HV Hlb.
  destruct (resize_spare bits c (length dst1) Hl1 Hc) as (g & Hg & Hg8).
  set (k := (N.to_nat ((bits + c + 7) / 8) - length dst1)%nat) in *.
  assert (Hfit' : fits 1 (vals ++ repeat v (N.to_nat c))).
  { apply Forall_app. split; [exact Hfit|]. apply Forall_forall. intros x Hx.
    apply repeat_spec in Hx. now subst x. }
  assert (Hvl' : N.of_nat (length (vals ++ repeat v (N.to_nat c))) = bits + c).
  { rewrite app_length, repeat_length. lia. }
  assert (Hl' : bits + c <= 8 * N.of_nat (length (dst1 ++ repeat word k)) < bits + c + 8).
  { rewrite app_length, repeat_length. lia. }
  assert (Hw' : wf_bytes (dst1 ++ repeat word k)).
  { apply wf_bytes_app. split; [exact Hw1|]. apply Forall_forall. intros x Hx.
    apply repeat_spec in Hx. subst x word. now destruct (N.odd v). }
  assert (Hv01 : v = 0 \/ v = 1) by lia.
  destruct Hv01 as [-> | ->]; subst word;
    [change (N.odd 0) with false in * | change (N.odd 1) with true in *]; cbn iota in *.
  - apply (inv_intro _ _ _ 0 Hw' Hl' Hvl' Hfit').
    rewrite of_le_app, of_le_repeat0, pack_app, pack1_repeat0. rewrite !N.add_0_r in Hn1. lia.
  - apply (inv_intro _ _ _ (2 ^ g - 1) Hw' Hl' Hvl' Hfit').
    rewrite of_le_app, pack_app, N.mul_1_l, Hvl, pow256, N.pow_add_r.
    pose proof (pack1_repeat1 (N.to_nat c)) as Hp1. rewrite N2Nat.id in Hp1.
    pose proof (of_le_repeat255 k) as H255. rewrite pow256 in H255.
    apply (ones_run_arith _ _ _ _ _ _ _ _ _ Hn1 H255 Hp1); [|apply pow2_pos].
    rewrite <- !N.pow_add_r, <- Hg. f_equal. lia.
Qed.

Lemma packed1_wf gs : wf_bytes (concat (map (pack_bytes 1) gs)).
Proof.
  induction gs as [|g gs IH]; [constructor|]. cbn [map concat]. apply wf_bytes_app.
  split; [apply to_le_wf|exact IH].
Qed.

Lemma bp_step dst bits vals gs :
  inv dst bits vals -> Forall (fun g => length g = 8%nat /\ fits 1 g) gs ->
  let shift := bits mod 8 in
  let blk := concat (map (pack_bytes 1) gs) in
  let dst' := if shift =? 0 then dst ++ blk
              else go_append_shifted shift (removelast dst) (last dst 0 mod 2 ^ shift) blk in
  inv dst' (bits + 8 * N.of_nat (length gs)) (vals ++ concat gs).
Proof.
  intros Hinv Hgs shift blk dst'.
  destruct (inv_split dst bits vals Hinv) as (init & lb & Hwi & Hlb & Hb & HV & Hd).
  destruct Hinv as (_ & _ & Hvl & Hfit & _).
  fold shift in Hlb, Hb, Hd.
  assert (Hs : shift < 8) by (apply N.mod_lt; discriminate).
  assert (Hbw : wf_bytes blk) by apply packed1_wf.
  assert (Hbl : length blk = length gs).
  { subst blk. rewrite (concat_packed_length 1 gs Hgs). apply Nat.mul_1_r. }
  assert (Hcl : length (concat gs) = (8 * length gs)%nat) by (apply (concat_groups_length 1); exact Hgs).
  assert (Hcf : fits 1 (concat gs)).
  { clear -Hgs. induction Hgs as [|g gs [_ Hf] _ IH]; [constructor|]. cbn [concat]. apply Forall_app. split; assumption. }
  assert (HB : of_le blk = pack 1 (concat gs)) by (apply of_le_packed1; exact Hgs).
  (* either way the block lands at the bit position *)
  assert (Hd' : wf_bytes dst' /\
                N.of_nat (length dst') = N.of_nat (length init) + (if shift =? 0 then 0 else 1) + N.of_nat (length blk) /\
                of_le dst' = of_le init + 2 ^ (8 * N.of_nat (length init)) * (lb + 2 ^ shift * of_le blk)).
  { subst dst'. destruct (N.eqb_spec shift 0) as [E|E].
    - subst dst. rewrite E in Hlb |- *. change (2 ^ 0) with 1 in *. assert (lb = 0) as -> by lia.
      rewrite of_le_app, app_length, pow256, N.mul_1_l, N.add_0_l. repeat split; [|lia].
      apply wf_bytes_app. now split.
    - destruct Hd as [-> ->].
      destruct (append_shifted_spec shift ltac:(lia) blk init lb Hbw Hwi Hlb) as (E' & L & W).
      rewrite E', L, pow256. repeat split; [exact W|lia]. }
  destruct Hd' as (W & L & E). clearbody shift dst'. clear Hd.
  apply (inv_intro _ _ _ 0).
  - exact W.
  - rewrite L, Hbl. destruct (shift =? 0) eqn:E0; [apply N.eqb_eq in E0|]; lia.
  - rewrite app_length, Hcl. lia.
  - apply Forall_app. now split.
  - rewrite E, pack_app, N.mul_1_l, Hvl, HV, HB, N.mul_0_r, N.add_0_r.
    rewrite Hb, N.pow_add_r. ring.
Qed.

Definition run_bit (r : run) : Prop :=
  match r with RunRLE _ v => v < 2 | RunBP _ => True end.

Lemma go_decode_bits_step f h p dst bits : h < 2 ^ 64 ->
  go_decode_bits (S f) (uvarint64 h ++ p) dst bits = go_bits_run (go_decode_bits f) h p dst bits.
Proof.
  intros Hh. cbn [go_decode_bits].
  destruct (uvarint64 h ++ p) as [|x l] eqn:E; [now destruct (uvarint64_app_nonempty h p)|].
  rewrite <- E, go_uvarint64_roundtrip by exact Hh. reflexivity.
Qed.

Lemma go_bits_run_serialized rec r p dst bits vals :
  wf_run 1 r -> go_run_ok r -> run_bit r -> inv dst bits vals ->
  exists dst',
    go_bits_run rec (run_header r) (run_body 1 r ++ p) dst bits
    = rec p dst' (bits + N.of_nat (length (expand r))) /\
    inv dst' (bits + N.of_nat (length (expand r))) (vals ++ expand r).
Proof.
  intros Hr Hr_ok Hr_bit Hinv. unfold go_bits_run. rewrite run_header_half, run_header_odd.
  apply go_run_ok_count in Hr_ok.
  destruct (N.eqb_spec (N.of_nat (run_count r)) 0) as [E|_]; [lia|].
  destruct (N.ltb_spec max_count (N.of_nat (run_count r))) as [E|_]; [lia|].
  destruct r as [c v|gs]; cbn [run_body run_count expand run_bit wf_run] in *.
  - change (byte_count 1) with 1%nat. cbn [to_le app tl]. rewrite (N.mod_small v) by lia.
    pose proof (rle_step dst bits vals (N.of_nat c) v Hinv (proj1 Hr_ok) Hr_bit) as Hstep.
    cbn zeta in Hstep. rewrite Nat2N.id in Hstep. rewrite repeat_length. eauto.
  - destruct Hr as [Hgs _].
    assert (Hbl : length (concat (map (pack_bytes 1) gs)) = length gs).
    { rewrite (concat_packed_length 1 gs Hgs). apply Nat.mul_1_r. }
    assert (Hf : fits_len (N.of_nat (length gs)) (concat (map (pack_bytes 1) gs) ++ p) = true).
    { apply fits_len_true. rewrite app_length, Hbl. lia. }
    rewrite Hf. cbn [negb]. rewrite Nat2N.id.
    rewrite !(firstn_app_len (length gs)), !(skipn_app_len (length gs)) by exact Hbl.
    pose proof (bp_step dst bits vals gs Hinv Hgs) as Hstep. cbn zeta in Hstep.
    rewrite (concat_groups_length 1 gs Hgs), Nat2N.inj_mul. eauto.
Qed.

Lemma go_bits_runs rs : Forall (wf_run 1) rs -> Forall go_run_ok rs -> Forall run_bit rs ->
  forall fuel dst bits vals, (length (serialize 1 rs) <= fuel)%nat -> inv dst bits vals ->
  exists packed,
    go_decode_bits fuel (serialize 1 rs) dst bits = GOk packed /\
    inv packed (bits + N.of_nat (length (concat (map expand rs)))) (vals ++ concat (map expand rs)).
Proof.
  induction 1 as [|r rs Hr Hrs IH]; intros Hok Hbit fuel dst bits vals Hfuel Hinv.
  - exists dst. split; [destruct fuel; reflexivity|].
    cbn [map concat length N.of_nat]. now rewrite N.add_0_r, app_nil_r.
  - inversion Hok as [|? ? Hr_ok Hrs_ok]; subst. inversion Hbit as [|? ? Hr_bit Hrs_bit]; subst.
    unfold serialize in *. cbn [map concat] in *. rewrite serialize_run_eq in *.
    rewrite !app_length in Hfuel. pose proof (uvarint64_length_pos (run_header r)) as Hpos.
    destruct fuel as [|f]; [lia|].
    rewrite <- !app_assoc, go_decode_bits_step by exact (run_header_lt 1 r Hr).
    destruct (go_bits_run_serialized (go_decode_bits f) r (concat (map (serialize_run 1) rs)) dst bits vals Hr Hr_ok Hr_bit Hinv)
      as (dst' & -> & Hinv').
    rewrite app_length, Nat2N.inj_add, N.add_assoc, app_assoc.
    apply (IH Hrs_ok Hrs_bit f _ _ _ ltac:(lia) Hinv').
Qed.

Theorem go_bits_any_runs rs :
  Forall (wf_run 1) rs -> Forall go_run_ok rs -> Forall run_bit rs ->
  let vals := concat (map expand rs) in
  exists packed,
    go_decode_bits (length (serialize 1 rs)) (serialize 1 rs) [] 0 = GOk packed /\
    N.of_nat (length packed) = (N.of_nat (length vals) + 7) / 8 /\
    firstn (length vals) (bits_of packed) = vals /\
    dec_hybrid 1 (serialize 1 rs) = Some vals.
Proof.
  intros Hwf Hok Hbit vals.
  destruct (go_bits_runs rs Hwf Hok Hbit _ [] 0 [] (le_n _) inv_nil) as (packed & Hgo & Hfin).
  exists packed. split; [exact Hgo|].
  rewrite N.add_0_l in Hfin. cbn [app] in Hfin. fold vals in Hfin.
  destruct Hfin as (Hw & Hl & Hvl & Hfit & Hnum).
  split; [exact Hl|]. split.
  - rewrite bits_of_unpack by exact Hw.
    rewrite firstn_unpack by lia.
    rewrite <- unpack_mod, N.mul_1_l, Hnum. now apply unpack_pack.
  - unfold dec_hybrid. apply dec_runs_serialize; [exact Hwf|lia].
Qed.

Lemma go_decode_boolean_prefix dec body : (0 < length body)%nat -> N.of_nat (length body) < 2 ^ 32 ->
  go_decode_boolean_with dec (to_le 4 (N.of_nat (length body)) ++ body) = dec body.
Proof.
  intros Hpos Hl. unfold go_decode_boolean_with. rewrite app_length, to_le_length.
  destruct (Nat.eqb_spec (4 + length body) 4); [lia|].
  destruct (Nat.ltb_spec (4 + length body) 4); [lia|].
  rewrite !(firstn_app_len 4), !(skipn_app_len 4) by apply to_le_length.
  rewrite of_le_to_le by exact Hl.
  assert (Hf : fits_len (N.of_nat (length body)) body = true) by (apply fits_len_true; lia).
  now rewrite Hf, Nat2N.id, firstn_all.
Qed.

Theorem go_boolean_any_runs rs :
  Forall (wf_run 1) rs -> Forall go_run_ok rs -> Forall run_bit rs ->
  rs <> [] -> N.of_nat (length (serialize 1 rs)) < 2 ^ 32 ->
  let vals := concat (map expand rs) in
  let page := to_le 4 (N.of_nat (length (serialize 1 rs))) ++ serialize 1 rs in
  exists packed,
    go_decode_boolean page = GOk packed /\
    firstn (length vals) (bits_of packed) = vals /\
    dec_boolean_n (length vals) page = Some vals.
Proof.
  intros Hwf Hok Hbit Hne Hlen vals page.
  destruct (go_bits_any_runs rs Hwf Hok Hbit) as (packed & Hgo & Hl & Hbits & Hspec).
  fold vals in Hl, Hbits, Hspec.
  destruct rs as [|r rs']; [contradiction|].
  inversion Hok as [|? ? Hr _]; subst. inversion Hwf as [|? ? Hw _]; subst.
  exists packed. split; [|split; [exact Hbits|]].
  - unfold go_decode_boolean. subst page. rewrite go_decode_boolean_prefix; [exact Hgo| |exact Hlen].
    unfold serialize. cbn [map concat]. rewrite app_length.
    pose proof (serialize_run_length_pos 1 r). lia.
  - unfold dec_boolean_n. subst page. rewrite dec_boolean_prefix, Hspec by exact Hlen.
    assert (Hvpos : (0 < length vals)%nat).
    { subst vals. cbn [map concat]. rewrite app_length. apply go_run_ok_count in Hr.
      destruct r as [c v|gs]; cbn [expand run_count wf_run] in *.
      - rewrite repeat_length. lia.
      - destruct Hw as [Hg _]. rewrite (concat_groups_length 1 gs Hg). lia. }
    destruct (Nat.eqb_spec (length vals) 0); [lia|].
    now rewrite Nat.leb_refl, firstn_all.
Qed.

Lemma inv_whole packed src : wf_bytes src ->
  inv packed (N.of_nat (length (bits_of src))) (bits_of src) -> packed = src.
Proof.
  intros Hwf (Hw & Hl & _ & _ & Hnum). rewrite bits_of_length, Nat2N.inj_mul in Hl, Hnum.
  change (N.of_nat 8) with 8 in Hl, Hnum.
  assert (El : length packed = length src) by (clear -Hl; lia).
  rewrite bits_of_unpack, pack_unpack in Hnum
    by (try rewrite N.mul_1_l, Nat2N.inj_mul; try apply of_le_lt; exact Hwf).
  rewrite N.mod_small in Hnum by (rewrite <- El; now apply of_le_lt).
  now rewrite <- (to_le_of_le packed Hw), <- (to_le_of_le src Hwf), El, Hnum.
Qed.

Lemma to_run_bit r : run_bit (to_run r).
Proof. destruct r as [n v|raw]; cbn [to_run run_bit]; [apply N.mod_lt; discriminate|exact I]. Qed.

Theorem go_boolean_roundtrip src :
  wf_bytes src -> N.of_nat (length src) < 2 ^ 26 ->
  go_decode_boolean (enc_boolean src) = GOk src.
Proof.
  intros Hwf Hlen.
  destruct src as [|x0 src0] eqn:Es; [reflexivity|]. rewrite <- Es in *.
  assert (Hne : src <> []) by (subst src; discriminate).
  assert (H58 : N.of_nat (length src) < 2 ^ 58) by (eapply N.lt_trans; [exact Hlen|reflexivity]).
  destruct (enc_bits_body_runs src Hne Hwf H58) as (Eb & Ex & Wf & Wp).
  destruct (enc_bits_body_length src Hne Hwf H58) as [Hpos Hle].
  change (2 ^ 26) with 67108864 in Hlen.
  unfold go_decode_boolean, enc_boolean.
  rewrite go_decode_boolean_prefix by (exact Hpos || (change (2 ^ 32) with 4294967296; lia)).
  rewrite Eb. set (rs := map to_run (detect_bits src)) in *.
  assert (Hok : Forall go_run_ok rs).
  { apply (run_pos_go_ok 1); [exact Wp|exact Wf|]. rewrite Ex, bits_of_length.
    change max_count with 2147483647. lia. }
  assert (Hbit : Forall run_bit rs) by (apply Forall_map, Forall_forall; intros r _; apply to_run_bit).
  destruct (go_bits_runs rs Wf Hok Hbit _ [] 0 [] (le_n _) inv_nil) as (packed & Hgo & Hfin).
  rewrite Hgo. f_equal. rewrite Ex, N.add_0_l in Hfin. now apply inv_whole.
Qed.
