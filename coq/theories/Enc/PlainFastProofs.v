(** [bss_dec_fast] = [bss_dec]. *)
From Coq Require Import List NArith Arith Lia.
From PQ Require Import Base.Bytes Base.ListExtra Enc.Plain Enc.PlainFast.
Import ListNotations.
Open Scope N_scope.

Lemma hd_skipn {A} (d : A) a (l : list A) : hd d (skipn a l) = nth a l d.
Proof. rewrite <- (Nat.add_0_r a) at 2. rewrite <- nth_skipn_add. now destruct (skipn a l). Qed.

Lemma tl_skipn {A} a : forall (l : list A), tl (skipn a l) = skipn (S a) l.
Proof.
  induction a as [|a IH]; intros l; [now destruct l|].
  destruct l as [|x l]; [reflexivity|]. cbn [skipn]. rewrite IH. reflexivity.
Qed.

Lemma bss_zip_from n ss : forall a,
  bss_zip n (map (skipn a) ss) = map (fun i => map (fun s => nth i s 0) ss) (seq a n).
Proof.
  induction n as [|n IH]; intros a; cbn [bss_zip seq map]; [reflexivity|].
  f_equal.
  - rewrite map_map. apply map_ext. intros s. apply hd_skipn.
  - rewrite map_map. rewrite <- IH. f_equal. apply map_ext. intros s. apply tl_skipn.
Qed.

Lemma bss_zip_spec n ss :
  bss_zip n ss = map (fun i => map (fun s => nth i s 0) ss) (seq 0 n).
Proof.
  rewrite <- bss_zip_from. f_equal. rewrite <- (map_id ss) at 1. apply map_ext. reflexivity.
Qed.

Lemma bss_streams_nth i n (Hi : (i < n)%nat) : forall k b,
  map (fun s => nth i s 0) (bss_streams k n b) = map (fun j => nth (j * n + i) b 0) (seq 0 k).
Proof.
  induction k as [|k IH]; intros b; cbn [bss_streams map seq]; [reflexivity|].
  f_equal; [now apply nth_firstn_lt|].
  rewrite IH, <- seq_shift, map_map. apply map_ext. intros j.
  rewrite nth_skipn_add. f_equal. lia.
Qed.

Theorem bss_dec_fast_eq k b : bss_dec_fast k b = bss_dec k b.
Proof.
  unfold bss_dec_fast, bss_dec.
  destruct (k =? 0)%nat; [reflexivity|].
  destruct (length b mod k =? 0)%nat; [|reflexivity].
  f_equal. rewrite bss_zip_spec. apply map_ext_in. intros i Hi.
  apply in_seq in Hi. apply bss_streams_nth. lia.
Qed.
