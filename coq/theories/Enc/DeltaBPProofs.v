(** DELTA_BINARY_PACKED: the specification decoder inverts the Go-mirroring
    encoder, for every input sequence (any length, any values incl. those
    whose deltas wrap around), with any bytes following the encoded section.
    The induction is in Enc/GoDecDeltaProofs.v ([dec64_enc_g]), about the
    decoder restricted to 64-bit varints. *)
From Coq Require Import List NArith Arith.
From PQ Require Import Base.Bytes Base.ListExtra Enc.DeltaBP.
From PQ Require Export Enc.DeltaBPBlocks.
From PQ Require Import Enc.GoDecDeltaProofs.
Import ListNotations.
Open Scope N_scope.

Theorem dec_enc_g bs nmb (Hl : legal_geometry bs nmb) k (Hk : k = 32 \/ k = 64) xs tail :
  Forall (in_sint k) xs -> N.of_nat (length xs) < 2 ^ 64 ->
  dec k (enc_g bs nmb k xs ++ tail) = Some (xs, tail).
Proof. intros Hxs Hlen. apply dec64_sound. now apply dec64_enc_g. Qed.

Theorem dec_enc k (Hk : k = 32 \/ k = 64) xs tail :
  Forall (in_sint k) xs -> N.of_nat (length xs) < 2 ^ 64 ->
  dec k (enc k xs ++ tail) = Some (xs, tail).
Proof. exact (dec_enc_g block_size num_mini_blocks go_geometry_legal k Hk xs tail). Qed.

Lemma block_size_small : N.of_nat block_size < 2 ^ 64.
Proof. now rewrite block_size_128. Qed.
Lemma num_mini_blocks_small : N.of_nat num_mini_blocks < 2 ^ 64.
Proof. now rewrite num_mini_blocks_4. Qed.
Lemma mini_block_size_eq : (block_size / num_mini_blocks)%nat = mini_block_size.
Proof. reflexivity. Qed.

Lemma addk_lt k a b : addk k a b < 2 ^ k.
Proof. unfold addk. apply N.mod_lt, N.pow_nonzero. discriminate. Qed.

Lemma recon_nil k prev m : recon k prev m [] = ([], prev).
Proof. reflexivity. Qed.

Lemma last_firstn_skipn {A} n (l : list A) d :
  List.last (skipn n l) (List.last (firstn n l) d) = List.last l d.
Proof.
  rewrite <- (firstn_skipn n l) at 3. rewrite last_app_default. reflexivity.
Qed.
