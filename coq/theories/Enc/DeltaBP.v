(** DELTA_BINARY_PACKED (encoding/delta/binary_packed.go).

    [enc k xs] mirrors encodeInt32Default / encodeInt64Default for element
    width [k] = 32 / 64: values are handled as [k]-bit patterns with explicit
    wrap-around; blocks of 128 values, 4 mini-blocks of 32, the deltas and the
    minimum are computed over the zero-padded block exactly as the Go code
    does.  [enc_g bs nmb k xs] is the same encoder for any block size and
    mini-block count ([enc] = [enc_g 128 4]).  [dec k] is a decoder written
    from Encodings.md for any block size and mini-block count.  No proofs here
    (Enc/DeltaBPBlocks.v, Enc/GoDecDeltaProofs.v, Enc/DeltaBPProofs.v). *)
From Coq Require Import List NArith ZArith Lia Bool Arith.
From PQ Require Import Base.Bytes Base.Varint Base.BitPack Generated.Consts.
Import ListNotations.
Open Scope N_scope.

Definition block_size : nat := Z.to_nat go_encoding_delta_blockSize.
Definition num_mini_blocks : nat := Z.to_nat go_encoding_delta_numMiniBlocks.
Definition mini_block_size : nat := (block_size / num_mini_blocks)%nat.

(** [k]-bit arithmetic on patterns *)
Definition subk (k a b : N) : N := (a + 2 ^ k - b mod 2 ^ k) mod 2 ^ k.
Definition addk (k a b : N) : N := (a + b) mod 2 ^ k.

(* blockDelta: block[i], last = v - last, v  over all slots *)
Fixpoint block_delta (k : N) (last : N) (block : list N) : list N :=
  match block with
  | [] => []
  | v :: r => subk k v last :: block_delta k v r
  end.

(* blockMin: signed minimum *)
Definition smin (k : N) (a b : N) : N := if (sintZ k b <? sintZ k a)%Z then b else a.
Definition block_min (k : N) (block : list N) : N :=
  match block with
  | [] => 0
  | v :: r => fold_left (smin k) r v
  end.

Fixpoint chunks {A} (fuel n : nat) (l : list A) : list (list A) :=
  match fuel with
  | O => []
  | S f => match l with
           | [] => []
           | _ => firstn n l :: chunks f n (skipn n l)
           end
  end.

Definition width_of (g : list N) : N := fold_left N.max (map bitlen g) 0.

Definition pad_to {A} (n : nat) (d : A) (l : list A) : list A := l ++ repeat d (n - length l).

(** The encoder is parametric in the geometry of the page -- [bs] values per
    block, [nmb] mini-blocks per block, [vpm] = [bs / nmb] values per
    mini-block -- which the format leaves to the writer (block size a multiple
    of 128, mini-block size a multiple of 32) and writes in the header.  Go
    writes 128 / 4 ([enc]); other writers choose otherwise (parquet-rs: 256 / 4
    for INT64), and every decoder must follow the header ([enc_g] is what the
    harness feeds Go's decoders with, for every legal geometry in a range). *)

(* one block: chunk = the (up to [bs]) values of this block as patterns *)
Definition enc_block_g (bs nmb vpm : nat) (k : N) (last : N) (chunk : list N) : bytes :=
  let block := pad_to bs 0 chunk in
  let deltas := block_delta k last block in
  let m := block_min k deltas in
  let subd := map (fun d => subk k d m) deltas in
  let cleared := pad_to bs 0 (firstn (length chunk) subd) in
  let groups := chunks nmb vpm cleared in
  varint64 (sintZ k m) ++ map width_of groups
    ++ concat (map (fun g => pack_bytes (width_of g) g) groups).

Fixpoint enc_blocks_g (bs nmb vpm : nat) (fuel : nat) (k : N) (last : N) (rest : list N) : bytes :=
  match fuel with
  | O => []
  | S f =>
      match rest with
      | [] => []
      | _ =>
          let chunk := firstn bs rest in
          enc_block_g bs nmb vpm k last chunk
            ++ enc_blocks_g bs nmb vpm f k (List.last chunk last) (skipn bs rest)
      end
  end.

(** patterns of the signed inputs *)
Definition enc_g (bs nmb : nat) (k : N) (xs : list Z) : bytes :=
  let ps := map (wrapZ k) xs in
  let first := match xs with [] => 0%Z | x :: _ => x end in
  uvarint64 (N.of_nat bs) ++ uvarint64 (N.of_nat nmb)
    ++ uvarint64 (N.of_nat (length xs)) ++ varint64 first
    ++ match ps with
       | [] => []
       | p :: rest => enc_blocks_g bs nmb (bs / nmb) (length rest) k p rest
       end.

(** the geometries the round-trip theorems cover: [nmb] mini-blocks of
    [bs / nmb] values, a multiple of 8 (so that a mini-block is a whole number
    of bytes at every bit width) ... *)
Definition legal_geometry (bs nmb : nat) : Prop :=
  (0 < nmb)%nat /\ bs = (nmb * (bs / nmb))%nat /\ (0 < bs / nmb)%nat
  /\ N.of_nat (bs / nmb) mod 8 = 0 /\ N.of_nat bs < 2 ^ 64.

(** ... which include every geometry the format allows: a block size that is a
    multiple of 128, divided into mini-blocks whose size is a multiple of 32 *)
Definition format_geometry (bs nmb : nat) : Prop :=
  (0 < bs)%nat /\ (0 < nmb)%nat /\ (bs mod 128 = 0)%nat /\ (bs mod nmb = 0)%nat
  /\ ((bs / nmb) mod 32 = 0)%nat /\ N.of_nat bs < 2 ^ 64.

(** Go's encoder (encodeInt32Default / encodeInt64Default): 128 / 4 *)
Definition enc (k : N) (xs : list Z) : bytes := enc_g block_size num_mini_blocks k xs.

(** * Decoder from the specification *)

Definition take_bytes (n : nat) (b : bytes) : option (bytes * bytes) :=
  if (n <=? length b)%nat then Some (firstn n b, skipn n b) else None.

(* values of one mini-block: prefix sums with wrap-around *)
Fixpoint recon (k : N) (prev : N) (m : N) (us : list N) : list N * N :=
  match us with
  | [] => ([], prev)
  | u :: r =>
      let x := addk k (addk k prev m) u in
      let '(xs, p) := recon k x m r in (x :: xs, p)
  end.

Fixpoint dec_mbs (k : N) (vpm : nat) (m : N) (ws : list N) (b : bytes) (remaining : nat) (prev : N)
  : option (list N * nat * N * bytes) :=
  match ws with
  | [] => Some ([], remaining, prev, b)
  | w :: ws' =>
      if (remaining =? 0)%nat then Some ([], remaining, prev, b)
      else
        match take_bytes (N.to_nat (w * N.of_nat vpm / 8)) b with
        | None => None
        | Some (mb, b') =>
            let us := firstn (Nat.min vpm remaining) (unpack_bytes w vpm mb) in
            let '(xs, p) := recon k prev m us in
            match dec_mbs k vpm m ws' b' (remaining - length us) p with
            | None => None
            | Some (ys, rem', p', b'') => Some (xs ++ ys, rem', p', b'')
            end
        end
  end.

Fixpoint dec_blocks (fuel : nat) (k : N) (vpm nmb : nat) (b : bytes) (remaining : nat) (prev : N)
  : option (list N * bytes) :=
  match fuel with
  | O => if (remaining =? 0)%nat then Some ([], b) else None
  | S f =>
      if (remaining =? 0)%nat then Some ([], b)
      else
        match varint_dec b with
        | None => None
        | Some (mz, b1) =>
            match take_bytes nmb b1 with
            | None => None
            | Some (ws, b2) =>
                match dec_mbs k vpm (wrapZ k mz) ws b2 remaining prev with
                | None => None
                | Some (xs, rem', p', b3) =>
                    match dec_blocks f k vpm nmb b3 rem' p' with
                    | None => None
                    | Some (ys, b4) => Some (xs ++ ys, b4)
                    end
                end
            end
        end
  end.

Definition dec (k : N) (b : bytes) : option (list Z * bytes) :=
  match uvarint_dec b with
  | None => None
  | Some (bs, b1) =>
      match uvarint_dec b1 with
      | None => None
      | Some (nmb, b2) =>
          match uvarint_dec b2 with
          | None => None
          | Some (total, b3) =>
              match varint_dec b3 with
              | None => None
              | Some (first, b4) =>
                  if total =? 0 then Some ([], b4)
                  else if nmb =? 0 then None
                  else
                    let vpm := N.to_nat (bs / nmb) in
                    let p := wrapZ k first in
                    match dec_blocks (N.to_nat total) k vpm (N.to_nat nmb) b4 (N.to_nat total - 1) p with
                    | None => None
                    | Some (ps, rest) => Some (map (sintZ k) (p :: ps), rest)
                    end
              end
          end
      end
  end.
