(** DELTA_BINARY_PACKED: k-bit arithmetic, bit widths, the reconstruction of
    the values, and the mini-blocks of one block of the encoder's output. *)
From Coq Require Import List NArith ZArith Lia Bool Arith.
From Coq Require Import ZifyN ZifyNat ZifyBool.
From PQ Require Import Base.Bytes Base.Varint Base.BitPack Base.ListExtra Enc.DeltaBP.
Import ListNotations.
Open Scope N_scope.

(** a geometry: [bs] values per block in [nmb] mini-blocks of [vpm] values, a
    multiple of 8 *)
Definition geom (bs nmb vpm : nat) : Prop :=
  bs = (nmb * vpm)%nat /\ N.of_nat vpm mod 8 = 0 /\ (0 < vpm)%nat /\ (0 < nmb)%nat.

Lemma geom_bs_pos bs nmb vpm : geom bs nmb vpm -> (0 < bs)%nat.
Proof. intros (-> & _ & Hv & Hn). apply Nat.mul_pos_pos; assumption. Qed.

Lemma legal_geom bs nmb : legal_geometry bs nmb -> geom bs nmb (bs / nmb).
Proof. intros (Hn & He & Hv & H8 & _). repeat split; assumption. Qed.

Lemma format_geometry_legal bs nmb : format_geometry bs nmb -> legal_geometry bs nmb.
Proof.
  intros (Hb & Hn & _ & Hd & H32 & Hs).
  assert (He : bs = (nmb * (bs / nmb))%nat).
  { pose proof (Nat.div_mod bs nmb ltac:(lia)) as E. rewrite Hd in E. lia. }
  assert (Hq : (0 < bs / nmb)%nat).
  { destruct (bs / nmb)%nat; [rewrite Nat.mul_0_r in He; lia|lia]. }
  repeat split; try assumption.
  pose proof (Nat.div_mod (bs / nmb) 32 ltac:(lia)) as E. rewrite H32, Nat.add_0_r in E.
  rewrite E. rewrite Nat2N.inj_mul. change (N.of_nat 32) with (8 * 4).
  rewrite <- N.mul_assoc, N.mul_comm. apply N.mod_mul. discriminate.
Qed.

Lemma go_geometry_format : format_geometry block_size num_mini_blocks.
Proof. unfold format_geometry. repeat split; vm_compute; try reflexivity; lia. Qed.
Lemma go_geometry_legal : legal_geometry block_size num_mini_blocks.
Proof. apply format_geometry_legal, go_geometry_format. Qed.
Lemma block_size_128 : N.of_nat block_size = 128.
Proof. vm_compute. reflexivity. Qed.
Lemma num_mini_blocks_4 : N.of_nat num_mini_blocks = 4.
Proof. vm_compute. reflexivity. Qed.
Global Opaque block_size num_mini_blocks mini_block_size.

Lemma subk_lt k a b : subk k a b < 2 ^ k.
Proof. unfold subk. apply N.mod_lt. pose proof (pow2_pos k). lia. Qed.

Lemma addk_subk k a b : addk k (subk k a b) b = a mod 2 ^ k.
Proof.
  unfold addk, subk. pose proof (pow2_pos k) as HP.
  assert (Hm : b mod 2 ^ k < 2 ^ k) by (apply N.mod_lt; lia).
  rewrite N.add_mod_idemp_l, <- (N.add_mod_idemp_r _ b), N.sub_add by lia.
  rewrite <- (N.mul_1_l (2 ^ k)) at 1. apply N.mod_add. lia.
Qed.

Lemma addk_rot k p m u : addk k (addk k p m) u = addk k (addk k u m) p.
Proof.
  pose proof (pow2_pos k) as HP. unfold addk. rewrite !N.add_mod_idemp_l by lia. f_equal. ring.
Qed.

Lemma delta_undo k prev m v : v < 2 ^ k ->
  addk k (addk k prev m) (subk k (subk k v prev) m) = v.
Proof.
  intros Hv. pose proof (pow2_pos k) as HP.
  rewrite addk_rot, addk_subk.
  unfold addk at 1. rewrite N.add_mod_idemp_l by lia.
  fold (addk k (subk k v prev) prev). rewrite addk_subk. now apply N.mod_small.
Qed.

Lemma width_of_fits g : fits (width_of g) g.
Proof. apply fits_max_bitlen. Qed.

Definition all_zero (l : list N) : Prop := Forall (fun v => v = 0) l.

Lemma width_of_zero g : all_zero g -> width_of g = 0.
Proof.
  unfold width_of. intros H.
  assert (E : map bitlen g = repeat 0 (length g)).
  { induction H as [|v r Hv Hr IH]; cbn; [reflexivity|]. subst v. now rewrite IH. }
  rewrite E. clear. induction (length g) as [|n IH]; cbn; [reflexivity|exact IH].
Qed.

Definition emit (g : list N) : bytes := pack_bytes (width_of g) g.

Lemma emit_zero g : all_zero g -> emit g = [].
Proof.
  intros H. unfold emit, pack_bytes. rewrite (width_of_zero g H).
  rewrite N.mul_0_l. reflexivity.
Qed.

Lemma emit_zero_groups gs : all_zero (concat gs) -> concat (map emit gs) = [].
Proof.
  induction gs as [|g gs IH]; cbn [concat map]; [reflexivity|].
  intros H. apply Forall_app in H. destruct H as [Hg Hgs].
  rewrite (emit_zero g Hg), IH by exact Hgs. reflexivity.
Qed.

Lemma emit_length g : length (emit g) = N.to_nat (width_of g * N.of_nat (length g) / 8).
Proof. apply pack_bytes_length. Qed.

Lemma recon_app k m a : forall prev b,
  recon k prev m (a ++ b) =
  (fst (recon k prev m a) ++ fst (recon k (snd (recon k prev m a)) m b),
   snd (recon k (snd (recon k prev m a)) m b)).
Proof.
  induction a as [|u a IH]; intros prev b; cbn [app recon fst snd].
  - destruct (recon k prev m b). reflexivity.
  - rewrite IH. destruct (recon k (addk k (addk k prev m) u) m a) as [xs p].
    cbn [fst snd]. reflexivity.
Qed.

Lemma block_delta_app k a : forall last b,
  block_delta k last (a ++ b) = block_delta k last a ++ block_delta k (List.last a last) b.
Proof.
  induction a as [|v a IH]; intros last b; cbn [app block_delta]; [reflexivity|].
  rewrite IH, last_cons. reflexivity.
Qed.

Lemma block_delta_length k l : forall last, length (block_delta k last l) = length l.
Proof. induction l as [|v l IH]; intros last; cbn [block_delta length]; [reflexivity|]. now rewrite IH. Qed.

Lemma recon_deltas k m chunk : forall last,
  Forall (fun v => v < 2 ^ k) chunk ->
  recon k last m (map (fun d => subk k d m) (block_delta k last chunk)) = (chunk, List.last chunk last).
Proof.
  induction chunk as [|v chunk IH]; intros last Hc; cbn [block_delta map recon]; [reflexivity|].
  inversion Hc as [|? ? Hv Hc']; subst.
  rewrite delta_undo, IH by assumption. now rewrite last_cons.
Qed.

Lemma take_bytes_app n a b : length a = n -> take_bytes n (a ++ b) = Some (a, b).
Proof. apply leb_cut_app. Qed.

Lemma dec_mbs_ok k vpm m : (N.of_nat vpm) mod 8 = 0 ->
  forall gs rem prev rest,
  Forall (fun g => length g = vpm) gs ->
  all_zero (skipn rem (concat gs)) ->
  dec_mbs k vpm m (map width_of gs) (concat (map emit gs) ++ rest) rem prev
  = Some (fst (recon k prev m (firstn rem (concat gs))),
          (rem - Nat.min rem (length (concat gs)))%nat,
          snd (recon k prev m (firstn rem (concat gs))),
          rest).
Proof.
  intros Hv8. induction gs as [|g gs IH]; intros rem prev rest Hlen Hz.
  - cbn [map concat dec_mbs app]. rewrite firstn_nil. cbn [recon fst snd length].
    rewrite Nat.min_0_r, Nat.sub_0_r. reflexivity.
  - cbn [map concat dec_mbs].
    inversion Hlen as [|? ? Hg Hgs]; subst.
    destruct (Nat.eqb_spec rem 0) as [->|Hrem].
    + (* nothing remains: the following mini-blocks are all zero and empty *)
      cbn [skipn] in Hz.
      assert (E : emit g ++ concat (map emit gs) = []).
      { change (emit g ++ concat (map emit gs)) with (concat (map emit (g :: gs))).
        apply emit_zero_groups. exact Hz. }
      rewrite E. cbn [app firstn recon fst snd Nat.min Nat.sub]. reflexivity.
    + rewrite <- app_assoc.
      rewrite take_bytes_app by apply emit_length.
      assert (Eu : unpack_bytes (width_of g) (length g) (emit g) = g).
      { apply unpack_bytes_pack_bytes; [apply width_of_fits|].
        rewrite N.mul_mod by discriminate. rewrite Hv8, N.mul_0_r. reflexivity. }
      rewrite Eu, firstn_min_length, firstn_length.
      replace (rem - Nat.min rem (length g))%nat with (rem - length g)%nat by lia.
      cbn [concat] in Hz. rewrite skipn_app in Hz. apply Forall_app in Hz.
      destruct (recon k prev m (firstn rem g)) as [xs p] eqn:Er.
      rewrite IH, firstn_app, recon_app, Er by (exact Hgs || apply Hz). cbn [fst snd].
      rewrite app_length. do 4 f_equal. lia.
Qed.

Lemma chunks_exact {A} n (Hn : (0 < n)%nat) : forall fuel (l : list A),
  length l = (fuel * n)%nat ->
  concat (chunks fuel n l) = l /\ Forall (fun g => length g = n) (chunks fuel n l)
  /\ length (chunks fuel n l) = fuel.
Proof.
  induction fuel as [|f IH]; intros l Hl; cbn [chunks].
  - destruct l; [repeat split; constructor|cbn in Hl; lia].
  - destruct l as [|a l'] eqn:El.
    + cbn in Hl. lia.
    + rewrite <- El in *. clear El a l'.
      assert (Hs : length (skipn n l) = (f * n)%nat) by (rewrite skipn_length; lia).
      destruct (IH _ Hs) as (Hc & Hf & Hlen).
      cbn [concat length]. rewrite Hc, firstn_skipn. split; [reflexivity|]. split.
      * constructor; [rewrite firstn_length; lia|exact Hf].
      * now rewrite Hlen.
Qed.

Lemma smin_lt k a b : a < 2 ^ k -> b < 2 ^ k -> smin k a b < 2 ^ k.
Proof. unfold smin. destruct (_ <? _)%Z; auto. Qed.

Lemma block_min_lt k l : Forall (fun v => v < 2 ^ k) l -> block_min k l < 2 ^ k.
Proof.
  unfold block_min. destruct l as [|v r]; intros H; [apply pow2_pos|].
  inversion H as [|? ? Hv Hr]; subst. clear H.
  revert v Hv. induction r as [|y r IH]; intros v Hv; cbn [fold_left]; [exact Hv|].
  inversion Hr; subst. apply IH; [assumption|]. now apply smin_lt.
Qed.

Lemma block_delta_lt k l : forall last, Forall (fun v => v < 2 ^ k) (block_delta k last l).
Proof.
  induction l as [|v l IH]; intros last; cbn [block_delta]; constructor.
  - apply subk_lt.
  - apply IH.
Qed.

Lemma in_sint_64_of_k k z : (k = 32 \/ k = 64) -> in_sint k z -> in_sint 64 z.
Proof.
  intros [->| ->]; unfold in_sint; cbn; lia.
Qed.

Definition cleared_block (bs : nat) (k : N) (last : N) (chunk : list N) : list N :=
  let block := pad_to bs 0 chunk in
  let deltas := block_delta k last block in
  let m := block_min k deltas in
  let subd := map (fun d => subk k d m) deltas in
  pad_to bs 0 (firstn (length chunk) subd).

Definition block_m (bs : nat) (k : N) (last : N) (chunk : list N) : N :=
  block_min k (block_delta k last (pad_to bs 0 chunk)).

Lemma pad_to_length {A} n (d : A) l : (length l <= n)%nat -> length (pad_to n d l) = n.
Proof. intros H. unfold pad_to. rewrite app_length, repeat_length. lia. Qed.

Lemma enc_block_unfold bs nmb vpm k last chunk :
  enc_block_g bs nmb vpm k last chunk =
  varint64 (sintZ k (block_m bs k last chunk))
    ++ map width_of (chunks nmb vpm (cleared_block bs k last chunk))
    ++ concat (map emit (chunks nmb vpm (cleared_block bs k last chunk))).
Proof. reflexivity. Qed.

Lemma cleared_block_eq bs k last chunk : (length chunk <= bs)%nat ->
  cleared_block bs k last chunk =
  map (fun d => subk k d (block_m bs k last chunk)) (block_delta k last chunk) ++ repeat 0 (bs - length chunk).
Proof.
  intros Hle. unfold cleared_block, block_m. set (m := block_min _ _).
  unfold pad_to at 2. rewrite block_delta_app, map_app.
  set (X := map _ (block_delta k last chunk)).
  assert (HX : length X = length chunk) by (subst X; now rewrite map_length, block_delta_length).
  rewrite <- HX at 1. rewrite firstn_app_exact. unfold pad_to. now rewrite HX.
Qed.

Lemma cleared_block_length bs k last chunk : (length chunk <= bs)%nat ->
  length (cleared_block bs k last chunk) = bs.
Proof.
  intros H. rewrite cleared_block_eq, app_length, map_length, block_delta_length, repeat_length by exact H. lia.
Qed.

(** [rem]: all of a full block, exactly the chunk of a last one *)
Lemma cleared_block_firstn bs k last chunk rem : (length chunk <= bs)%nat -> (length chunk <= rem)%nat ->
  ((length chunk < bs)%nat -> rem = length chunk) ->
  firstn rem (cleared_block bs k last chunk)
  = map (fun d => subk k d (block_m bs k last chunk)) (block_delta k last chunk)
  /\ all_zero (skipn rem (cleared_block bs k last chunk)).
Proof.
  intros Hle Hrem Hshort. rewrite cleared_block_eq by exact Hle.
  set (X := map _ _). assert (HX : length X = length chunk) by (subst X; now rewrite map_length, block_delta_length).
  split.
  - rewrite firstn_app, HX, (firstn_all2 X) by lia.
    destruct (Nat.eq_dec (length chunk) bs) as [E|E].
    + rewrite E, Nat.sub_diag. cbn [repeat]. rewrite firstn_nil. apply app_nil_r.
    + rewrite (Hshort ltac:(lia)), Nat.sub_diag. apply app_nil_r.
  - rewrite skipn_app, (skipn_all2 X) by lia. cbn [app]. apply Forall_skipn.
    apply Forall_forall. intros x Hx. now apply repeat_spec in Hx.
Qed.

Lemma block_m_lt bs k last chunk : block_m bs k last chunk < 2 ^ k.
Proof. apply block_min_lt, block_delta_lt. Qed.

Lemma cleared_chunks bs nmb vpm (Hg : geom bs nmb vpm) k last chunk : (length chunk <= bs)%nat ->
  let gs := chunks nmb vpm (cleared_block bs k last chunk) in
  concat gs = cleared_block bs k last chunk /\ Forall (fun g => length g = vpm) gs /\ length gs = nmb.
Proof.
  intros Hle. destruct Hg as (bs_eq & _ & vpm_pos & _). apply chunks_exact; [exact vpm_pos|].
  now rewrite cleared_block_length, bs_eq.
Qed.

Lemma dec_block_ok bs nmb vpm (Hg : geom bs nmb vpm) k last chunk rem rest :
  Forall (fun v => v < 2 ^ k) chunk ->
  (length chunk <= bs)%nat ->
  (length chunk <= rem)%nat -> ((length chunk < bs)%nat -> rem = length chunk) ->
  dec_mbs k vpm (block_m bs k last chunk)
    (map width_of (chunks nmb vpm (cleared_block bs k last chunk)))
    (concat (map emit (chunks nmb vpm (cleared_block bs k last chunk))) ++ rest) rem last
  = Some (chunk, (rem - length chunk)%nat, List.last chunk last, rest).
Proof.
  intros Hchunk Hle Hrem Hshort.
  destruct (cleared_chunks bs nmb vpm Hg k last chunk Hle) as (Hc & Hf & _).
  destruct (cleared_block_firstn bs k last chunk rem Hle Hrem Hshort) as [Ef Hz].
  rewrite (dec_mbs_ok k vpm _ (proj1 (proj2 Hg)) _ rem last rest Hf) by (rewrite Hc; exact Hz).
  rewrite Hc, Ef, recon_deltas by assumption. cbn [fst snd].
  rewrite cleared_block_length by exact Hle. do 4 f_equal. lia.
Qed.

Lemma wrapZ_all k xs : Forall (fun v => v < 2 ^ k) (map (wrapZ k) xs).
Proof. apply Forall_forall. intros v Hv. apply in_map_iff in Hv. destruct Hv as (z & <- & _). apply wrapZ_lt. Qed.

Lemma enc_blocks_fuel bs nmb vpm (Hbp : (0 < bs)%nat) k : forall f1 f2 last vals,
  (length vals <= f1)%nat -> (length vals <= f2)%nat ->
  enc_blocks_g bs nmb vpm f1 k last vals = enc_blocks_g bs nmb vpm f2 k last vals.
Proof.
  induction f1 as [|f1 IHf]; intros f2 last vals H1 H2.
  - destruct vals; [destruct f2; reflexivity|cbn in H1; lia].
  - destruct f2 as [|f2]; [destruct vals; [reflexivity|cbn in H2; lia]|].
    cbn [enc_blocks_g]. destruct vals as [|v vals'] eqn:Ev; [reflexivity|].
    rewrite <- Ev in *. f_equal. apply IHf.
    + rewrite skipn_length. subst vals. cbn [length] in *. lia.
    + rewrite skipn_length. subst vals. cbn [length] in *. lia.
Qed.

Lemma legal_vpm_eq bs nmb : N.to_nat (N.of_nat bs / N.of_nat nmb) = (bs / nmb)%nat.
Proof. rewrite <- Nat2N.inj_div. apply Nat2N.id. Qed.

Lemma legal_nmb_small bs nmb : legal_geometry bs nmb -> N.of_nat nmb < 2 ^ 64.
Proof.
  intros (Hn & He & Hv & _ & Hs).
  set (q := (bs / nmb)%nat) in *.
  assert ((nmb <= bs)%nat) by (rewrite He; destruct q; [lia|rewrite Nat.mul_succ_r; lia]). lia.
Qed.
