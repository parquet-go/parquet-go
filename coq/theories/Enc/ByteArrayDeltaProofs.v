(** DELTA_LENGTH_BYTE_ARRAY and DELTA_BYTE_ARRAY: the specification decoders
    and Go's (Enc/GoDecDelta.v) invert the encoders at any geometry of the
    length sections and any cap on the shared prefixes. *)
From Coq Require Import List NArith ZArith Lia Bool Arith.
From Coq Require Import ZifyN ZifyNat ZifyBool.
From PQ Require Import Base.Bytes Base.ListExtra Enc.DeltaBP Enc.DeltaBPProofs Enc.ByteArrayDelta.
From PQ Require Import Enc.GoDecBase Enc.GoDecBaseProofs Enc.GoDecDelta Enc.GoDecDeltaProofs.
Import ListNotations.
Open Scope N_scope.

Definition short (v : bytes) : Prop := (Z.of_nat (length v) < 2 ^ 31)%Z.

Lemma lengths_in_range vs : Forall short vs -> Forall (in_sint 32) (lengths_of vs).
Proof.
  intros H. unfold lengths_of. apply Forall_forall. intros z Hz.
  apply in_map_iff in Hz. destruct Hz as (v & <- & Hv).
  rewrite Forall_forall in H. specialize (H v Hv). unfold short in H. unfold in_sint. cbn. lia.
Qed.

Lemma cut_concat vs tail : cut (lengths_of vs) (concat vs ++ tail) = Some vs.
Proof.
  induction vs as [|v vs IH]; cbn [lengths_of map concat cut]; [reflexivity|].
  destruct (Z.ltb_spec (Z.of_nat (length v)) 0); [lia|].
  rewrite Nat2Z.id, <- app_assoc, app_length.
  destruct (Nat.ltb_spec (length v + length (concat vs ++ tail)) (length v)); [lia|].
  rewrite firstn_app_exact, skipn_app_exact.
  unfold lengths_of in IH. now rewrite IH.
Qed.

Theorem dlba_roundtrip_g bs nmb vs :
  legal_geometry bs nmb -> Forall short vs -> N.of_nat (length vs) < 2 ^ 64 ->
  dlba_dec (dlba_enc_g bs nmb vs) = Some vs.
Proof.
  intros Hg Hs Hl. unfold dlba_dec, dlba_enc_g.
  rewrite (dec_enc_g bs nmb Hg 32 (or_introl eq_refl)).
  - rewrite <- (app_nil_r (concat vs)). apply cut_concat.
  - now apply lengths_in_range.
  - unfold lengths_of. now rewrite map_length.
Qed.

Theorem go_dlba_roundtrip_g bs nmb vs :
  go_geometry bs nmb -> Forall short vs -> Forall wf_bytes vs ->
  N.of_nat (length vs) <= max_int32 -> N.of_nat (length (concat vs)) < 2 ^ 32 ->
  go_dlba_dec (dlba_enc_g bs nmb vs) = GOk (concat vs, offsets_from 0 vs).
Proof.
  intros Hgo Hs Hwf Hn Hl.
  unfold go_dlba_dec, dlba_enc_g.
  rewrite (go_dbp_roundtrip_g bs nmb Hgo 32 (or_introl eq_refl)).
  + cbn [gbind]. rewrite go_lengths_offsets_ok by (rewrite N.add_0_l; exact Hl).
    rewrite N.add_0_l.
    assert (Hf : fits_len (N.of_nat (length (concat vs))) (concat vs) = true) by (apply fits_len_true; lia).
    rewrite Hf. cbn [negb]. now rewrite Nat2N.id, firstn_all.
  + now apply lengths_in_range.
  + unfold lengths_of. now rewrite map_length.
  + now apply concat_wf.
Qed.

Theorem go_dlba_roundtrip vs :
  Forall short vs -> Forall wf_bytes vs ->
  N.of_nat (length vs) <= max_int32 -> N.of_nat (length (concat vs)) < 2 ^ 32 ->
  go_dlba_dec (dlba_enc vs) = GOk (concat vs, offsets_from 0 vs)
  /\ unflatten (concat vs) (offsets_from 0 vs) = vs.
Proof.
  intros Hs Hwf Hn Hl. split.
  - now apply (go_dlba_roundtrip_g block_size num_mini_blocks vs go_geometry_go).
  - pose proof (unflatten_ok vs [] []) as H. cbn [app length N.of_nat] in H. now rewrite app_nil_r in H.
Qed.

Lemma lcp_le a : forall b, (lcp a b <= length a)%nat /\ (lcp a b <= length b)%nat.
Proof.
  induction a as [|x a IH]; intros [|y b]; cbn [lcp length]; try lia.
  destruct (x =? y); [specialize (IH b); lia|lia].
Qed.

Lemma lcp_prefix a : forall b, firstn (lcp a b) a = firstn (lcp a b) b.
Proof.
  induction a as [|x a IH]; intros [|y b]; cbn [lcp firstn]; try reflexivity.
  destruct (N.eqb_spec x y) as [->|_]; [|reflexivity]. cbn [firstn]. now rewrite IH.
Qed.

Lemma prefixes_c_length cap vs : forall prev, length (prefixes_c cap prev vs) = length vs.
Proof. induction vs as [|v r IH]; intros prev; cbn [prefixes_c length]; [reflexivity|]. now rewrite IH. Qed.

Lemma suffixes_c_length cap vs : forall prev, length (suffixes_c cap prev vs) = length vs.
Proof. induction vs as [|v r IH]; intros prev; cbn [suffixes_c length]; [reflexivity|]. now rewrite IH. Qed.

Lemma capped_prefix cap a b :
  firstn (Nat.min cap (lcp a b)) a = firstn (Nat.min cap (lcp a b)) b.
Proof.
  pose proof (lcp_prefix a b) as H.
  rewrite <- (Nat.min_id (Nat.min cap (lcp a b))) at 1 2.
  replace (Nat.min (Nat.min cap (lcp a b)) (Nat.min cap (lcp a b)))
    with (Nat.min (Nat.min cap (lcp a b)) (lcp a b)) by lia.
  rewrite <- !firstn_firstn. now rewrite H.
Qed.

Lemma dba_rebuild_c_ok cap vs : forall prev,
  dba_rebuild prev (map Z.of_nat (prefixes_c cap prev vs)) (suffixes_c cap prev vs) = Some vs.
Proof.
  induction vs as [|v r IH]; intros prev; cbn [prefixes_c suffixes_c map dba_rebuild]; [reflexivity|].
  destruct (Z.ltb_spec (Z.of_nat (Nat.min cap (lcp prev v))) 0); [lia|].
  rewrite Nat2Z.id. destruct (lcp_le prev v) as [H1 H2].
  destruct (Nat.ltb_spec (length prev) (Nat.min cap (lcp prev v))); [lia|].
  rewrite capped_prefix, firstn_skipn, IH. reflexivity.
Qed.

Lemma suffixes_c_short cap vs : forall prev, Forall short vs -> Forall short (suffixes_c cap prev vs).
Proof.
  induction vs as [|v r IH]; intros prev H; cbn [suffixes_c]; constructor.
  - inversion H; subst. unfold short in *. rewrite skipn_length. lia.
  - inversion H; subst. now apply IH.
Qed.

Lemma prefixes_c_in_range cap vs : forall prev, Forall short vs ->
  Forall (in_sint 32) (map Z.of_nat (prefixes_c cap prev vs)).
Proof.
  induction vs as [|v r IH]; intros prev H; cbn [prefixes_c map]; constructor.
  - inversion H; subst. destruct (lcp_le prev v). unfold short in *. unfold in_sint. cbn. lia.
  - inversion H; subst. now apply IH.
Qed.

Theorem dba_roundtrip_g cap bs1 nmb1 bs2 nmb2 vs :
  legal_geometry bs1 nmb1 -> legal_geometry bs2 nmb2 ->
  Forall short vs -> N.of_nat (length vs) < 2 ^ 64 ->
  dba_dec (dba_enc_g cap bs1 nmb1 bs2 nmb2 vs) = Some vs.
Proof.
  intros Hg1 Hg2 Hs Hl. unfold dba_dec, dba_enc_g.
  rewrite (dec_enc_g bs1 nmb1 Hg1 32 (or_introl eq_refl)).
  - rewrite (dec_enc_g bs2 nmb2 Hg2 32 (or_introl eq_refl)).
    + rewrite <- (app_nil_r (concat _)), cut_concat. apply dba_rebuild_c_ok.
    + apply lengths_in_range. now apply suffixes_c_short.
    + unfold lengths_of. now rewrite map_length, suffixes_c_length.
  - now apply prefixes_c_in_range.
  - now rewrite map_length, prefixes_c_length.
Qed.

Lemma go_dba_loop_c_ok cap vs : forall prev tail,
  go_dba_loop (map Z.of_nat (prefixes_c cap prev vs)) (lengths_of (suffixes_c cap prev vs))
              (concat (suffixes_c cap prev vs) ++ tail) prev = GOk (vs, tail).
Proof.
  induction vs as [|v r IH]; intros prev tail;
    cbn [prefixes_c suffixes_c map lengths_of go_dba_loop concat app]; [reflexivity|].
  destruct (lcp_le prev v) as [H1 H2].
  set (p := Nat.min cap (lcp prev v)).
  destruct (Z.ltb_spec (Z.of_nat (length (skipn p v))) 0); [lia|].
  rewrite <- app_assoc, app_length.
  destruct (Z.ltb_spec (Z.of_nat (length (skipn p v) + length (concat (suffixes_c cap v r) ++ tail)))
                       (Z.of_nat (length (skipn p v)))); [lia|].
  destruct (Z.ltb_spec (Z.of_nat p) 0); [lia|].
  destruct (Z.ltb_spec (Z.of_nat (length prev)) (Z.of_nat p)); [subst p; lia|].
  rewrite !Nat2Z.id, firstn_app_exact, skipn_app_exact.
  subst p. rewrite capped_prefix, firstn_skipn.
  fold (lengths_of (suffixes_c cap v r)). rewrite IH. reflexivity.
Qed.

Lemma suffixes_c_wf cap vs : forall prev, Forall wf_bytes vs -> Forall wf_bytes (suffixes_c cap prev vs).
Proof.
  induction vs as [|v r IH]; intros prev H; cbn [suffixes_c]; [constructor|].
  inversion H; subst. constructor; [now apply Forall_skipn|now apply IH].
Qed.

Theorem go_dba_roundtrip_g cap bs1 nmb1 bs2 nmb2 vs :
  go_geometry bs1 nmb1 -> go_geometry bs2 nmb2 ->
  Forall short vs -> Forall wf_bytes vs -> N.of_nat (length vs) <= max_int32 ->
  go_dba_dec (dba_enc_g cap bs1 nmb1 bs2 nmb2 vs) = GOk vs.
Proof.
  intros Hg1 Hg2 Hs Hwf Hn. unfold go_dba_dec, go_dba_dec_rest, dba_enc_g.
  rewrite (go_dbp_roundtrip_g bs1 nmb1 Hg1 32 (or_introl eq_refl)).
  - cbn [gbind]. rewrite (go_dbp_roundtrip_g bs2 nmb2 Hg2 32 (or_introl eq_refl)).
    + cbn [gbind]. rewrite map_length, prefixes_c_length.
      unfold lengths_of at 1. rewrite map_length, suffixes_c_length, Nat.eqb_refl. cbn [negb].
      rewrite <- (app_nil_r (concat _)), go_dba_loop_c_ok. reflexivity.
    + apply lengths_in_range. now apply suffixes_c_short.
    + unfold lengths_of. now rewrite map_length, suffixes_c_length.
    + apply concat_wf. now apply suffixes_c_wf.
  - now apply prefixes_c_in_range.
  - now rewrite map_length, prefixes_c_length.
  - apply wf_bytes_app. split; [apply enc_g_wf; now left|]. apply concat_wf. now apply suffixes_c_wf.
Qed.

(** Go's encoder shares the longest common prefix: a cap that no value reaches *)
Lemma uncapped cap vs : Forall (fun v => length v <= cap)%nat vs ->
  forall prev, prefixes_c cap prev vs = prefixes prev vs /\ suffixes_c cap prev vs = suffixes prev vs.
Proof.
  induction 1 as [|v r Hv _ IH]; intros prev; cbn [prefixes_c prefixes suffixes_c suffixes]; [now split|].
  destruct (lcp_le prev v) as [_ Hl]. destruct (IH v) as [-> ->].
  now rewrite Nat.min_r by lia.
Qed.

Lemma length_le_concat (vs : list bytes) : Forall (fun v => length v <= length (concat vs))%nat vs.
Proof.
  induction vs as [|v r IH]; constructor; cbn [concat]; rewrite app_length; [lia|].
  eapply Forall_impl; [|exact IH]. cbn beta. lia.
Qed.

Lemma dba_enc_uncapped vs :
  dba_enc vs = dba_enc_g (length (concat vs)) block_size num_mini_blocks block_size num_mini_blocks vs.
Proof.
  unfold dba_enc_g. destruct (uncapped _ vs (length_le_concat vs) []) as [-> ->]. reflexivity.
Qed.
