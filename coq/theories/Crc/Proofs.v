(** Proofs about the CRC-32/IEEE model of Crc/Model.v.

    Route to the burst theorem:
    - [step0] (one shift step with no input) is linear over xor on all of N
      ([step0_lxor]) and divides an even register by two ([step0_shiftl1]);
    - hence the register after a byte string is [8 * length] steps applied
      to (initial register xor the message read as a little-endian number)
      ([update_le]), and the run over [m xor e] differs from the run over [m]
      by the run over [e] from the zero register: the initial 0xFFFFFFFF and
      the final complement cancel ([crc32_diff]);
    - on 32-bit registers [step0] maps non-zero to non-zero
      ([step0_nonzero]: the step sets bit 31 exactly when the register was
      odd, because only the polynomial has bit 31) and is injective
      ([step0_injective]);
    - an error pattern whose set bits lie in [p, p+32) is the number
      [c * 2^p] with [0 < c < 2^32]; [p] steps bring the register to [c], the
      remaining steps keep it non-zero ([burst_register_nonzero]). *)
From Coq Require Import List NArith ZArith Bool Arith Lia ZifyN ZifyNat ZifyBool.
From PQ Require Import Crc.Model.
Import ListNotations.
Open Scope N_scope.

Ltac xor_solve :=
  apply N.bits_inj; intro; rewrite ?N.lxor_spec, ?N.bits_0;
  repeat match goal with
         | |- context [N.testbit ?a ?k] => destruct (N.testbit a k)
         end; reflexivity.

Lemma lxor_cancel_l a b : N.lxor a (N.lxor a b) = b.
Proof. xor_solve. Qed.

Lemma iter_S {A} (f : A -> A) n x : Nat.iter (S n) f x = f (Nat.iter n f x).
Proof. reflexivity. Qed.

Lemma iter_plus {A} (f : A -> A) a b x :
  Nat.iter (a + b) f x = Nat.iter a f (Nat.iter b f x).
Proof.
  induction a; [reflexivity|].
  change (S a + b)%nat with (S (a + b)). now rewrite !iter_S, IHa.
Qed.

Lemma iter_S_r {A} (f : A -> A) n x : Nat.iter (S n) f x = Nat.iter n f (f x).
Proof. induction n; [reflexivity|]. now rewrite iter_S, IHn. Qed.

Lemma step0_alt s :
  step0 s = N.lxor (N.shiftr s 1) (if N.odd s then poly else 0).
Proof. unfold step0. destruct (N.odd s); [reflexivity|]. now rewrite N.lxor_0_r. Qed.

Lemma step0_lxor a b : step0 (N.lxor a b) = N.lxor (step0 a) (step0 b).
Proof.
  rewrite !step0_alt, Nxor_bit0, N.shiftr_lxor.
  destruct (N.odd a), (N.odd b); cbn [xorb]; xor_solve.
Qed.

Lemma step0_0 : step0 0 = 0.
Proof. reflexivity. Qed.

Lemma step0_shiftl1 y : step0 (N.shiftl y 1) = y.
Proof.
  unfold step0.
  assert (H : N.odd (N.shiftl y 1) = false).
  { rewrite <- N.bit0_odd. apply N.shiftl_spec_low. lia. }
  rewrite H, N.shiftr_shiftl_l by lia. apply N.shiftl_0_r.
Qed.

Lemma iter_step0_lxor n a b :
  Nat.iter n step0 (N.lxor a b) = N.lxor (Nat.iter n step0 a) (Nat.iter n step0 b).
Proof. induction n; [reflexivity|]. now rewrite !iter_S, IHn, step0_lxor. Qed.

Lemma iter_step0_0 n : Nat.iter n step0 0 = 0.
Proof. induction n; [reflexivity|]. now rewrite iter_S, IHn. Qed.

Lemma iter_step0_shiftl n y : Nat.iter n step0 (N.shiftl y (N.of_nat n)) = y.
Proof.
  induction n; [apply N.shiftl_0_r|].
  rewrite iter_S_r.
  replace (N.of_nat (S n)) with (N.of_nat n + 1) by lia.
  now rewrite <- N.shiftl_shiftl, step0_shiftl1.
Qed.

(* bits above the ones consumed by [n] steps just move down by [n] places *)
Lemma iter_step0_shift n x y :
  Nat.iter n step0 (N.lxor x (N.shiftl y (N.of_nat n))) = N.lxor (Nat.iter n step0 x) y.
Proof. now rewrite iter_step0_lxor, iter_step0_shiftl. Qed.

(** * The register as a function of the whole message *)

Lemma update_byte_lxor s t a b :
  update_byte (N.lxor s t) (N.lxor a b) = N.lxor (update_byte s a) (update_byte t b).
Proof.
  unfold update_byte. rewrite <- iter_step0_lxor. f_equal. xor_solve.
Qed.

Lemma xor_bytes_length m e : length m = length e -> length (xor_bytes m e) = length m.
Proof.
  revert e; induction m as [|a m IH]; intros [|b e] H; cbn in *; try discriminate; auto.
Qed.

Lemma update_cons s b r : update s (b :: r) = update (update_byte s b) r.
Proof. reflexivity. Qed.

Lemma update_lxor m : forall e s t, length m = length e ->
  update (N.lxor s t) (xor_bytes m e) = N.lxor (update s m) (update t e).
Proof.
  induction m as [|a m IH]; intros [|b e] s t H; cbn [length] in *; try discriminate.
  - reflexivity.
  - cbn [xor_bytes]. rewrite !update_cons, update_byte_lxor. apply IH. lia.
Qed.

Lemma update_app s a b : update s (a ++ b) = update (update s a) b.
Proof. apply fold_left_app. Qed.

Lemma crc32_update_diff c m e : length m = length e ->
  N.lxor (crc32_update c (xor_bytes m e)) (crc32_update c m) = update 0 e.
Proof.
  intros H. unfold crc32_update.
  replace (N.lxor c mask32) with (N.lxor (N.lxor c mask32) 0) at 1 by apply N.lxor_0_r.
  rewrite update_lxor by assumption. xor_solve.
Qed.

Lemma crc32_diff m e : length m = length e ->
  N.lxor (crc32 (xor_bytes m e)) (crc32 m) = update 0 e.
Proof. apply crc32_update_diff. Qed.

Lemma update_le bs : forall s,
  update s bs = Nat.iter (8 * length bs) step0 (N.lxor s (le_num bs)).
Proof.
  induction bs as [|b r IH]; intro s.
  - cbn. now rewrite N.lxor_0_r.
  - rewrite update_cons, IH. cbn [length le_num].
    replace (8 * S (length r))%nat with (8 * length r + 8)%nat by lia.
    rewrite iter_plus. f_equal. unfold update_byte.
    rewrite <- (iter_step0_shift 8). f_equal. change (N.of_nat 8) with 8. xor_solve.
Qed.

Definition bounded (s : N) : Prop := N.shiftr s 32 = 0.

Lemma lt_pow2_shiftr a n : a < 2 ^ n <-> N.shiftr a n = 0.
Proof.
  rewrite N.shiftr_div_pow2. symmetry. apply N.div_small_iff.
  apply N.pow_nonzero. discriminate.
Qed.

Lemma bounded_lt s : bounded s <-> s < 2 ^ 32.
Proof. symmetry. apply lt_pow2_shiftr. Qed.

Lemma bounded_lxor a b : bounded a -> bounded b -> bounded (N.lxor a b).
Proof. unfold bounded. intros Ha Hb. now rewrite N.shiftr_lxor, Ha, Hb. Qed.

Lemma bounded_shiftr1 s : bounded s -> bounded (N.shiftr s 1).
Proof.
  unfold bounded. intro H. rewrite N.shiftr_shiftr.
  replace (1 + 32) with (32 + 1) by reflexivity.
  now rewrite <- N.shiftr_shiftr, H.
Qed.

Lemma step0_bound s : bounded s -> bounded (step0 s).
Proof.
  intro H. rewrite step0_alt. apply bounded_lxor.
  - now apply bounded_shiftr1.
  - destruct (N.odd s); reflexivity.
Qed.

(** the step never sends a non-zero 32-bit register to zero: if the register
    is odd the result has bit 31 (only the polynomial contributes it), if it
    is even the result is its half *)
Lemma step0_nonzero s : bounded s -> s <> 0 -> step0 s <> 0.
Proof.
  intros Hb Hnz H0. unfold step0 in H0.
  destruct (N.odd s) eqn:Ho.
  - apply N.lxor_eq in H0.
    assert (H : N.shiftr (N.shiftr s 1) 31 = 1) by (rewrite H0; reflexivity).
    rewrite N.shiftr_shiftr in H. change (1 + 31) with 32 in H.
    unfold bounded in Hb. rewrite Hb in H. discriminate.
  - apply Hnz. rewrite (N.div2_odd s), Ho, N.div2_spec, H0. reflexivity.
Qed.

Lemma step0_injective s t : bounded s -> bounded t -> step0 s = step0 t -> s = t.
Proof.
  intros Hs Ht H. apply N.lxor_eq.
  destruct (N.eq_dec (N.lxor s t) 0) as [|Hnz]; [assumption|exfalso].
  apply (step0_nonzero (N.lxor s t)); [now apply bounded_lxor|assumption|].
  rewrite step0_lxor, H. apply N.lxor_nilpotent.
Qed.

Lemma iter_step0_bound n s : bounded s -> bounded (Nat.iter n step0 s).
Proof. induction n; [auto|]. intro. rewrite iter_S. auto using step0_bound. Qed.

Lemma iter_step0_nonzero n s : bounded s -> s <> 0 -> Nat.iter n step0 s <> 0.
Proof.
  induction n; [auto|]. intros Hb Hnz. rewrite iter_S.
  apply step0_nonzero; [now apply iter_step0_bound|auto].
Qed.

Lemma iter_step0_injective n s t :
  bounded s -> bounded t -> Nat.iter n step0 s = Nat.iter n step0 t -> s = t.
Proof.
  induction n; [auto|]. intros Hs Ht H. rewrite !iter_S in H.
  apply IHn; auto. apply step0_injective; auto using iter_step0_bound.
Qed.

Lemma byte_high_bits b k : b < 256 -> 8 <= k -> N.testbit b k = false.
Proof.
  intros Hb Hk. rewrite <- (N.mod_small b (2 ^ 8)) by exact Hb.
  now apply N.mod_pow2_bits_high.
Qed.

Lemma msg_bit_nil k : msg_bit [] k = false.
Proof. unfold msg_bit. destruct (k / 8)%nat; apply N.bits_0. Qed.

Lemma msg_bit_cons_low b r k : (k < 8)%nat ->
  msg_bit (b :: r) k = N.testbit b (N.of_nat k).
Proof.
  intro H. unfold msg_bit.
  rewrite Nat.div_small, Nat.mod_small by assumption. reflexivity.
Qed.

Lemma msg_bit_cons_high b r k : msg_bit (b :: r) (8 + k) = msg_bit r k.
Proof.
  unfold msg_bit.
  replace (8 + k)%nat with (k + 1 * 8)%nat by lia.
  rewrite Nat.div_add, Nat.mod_add by discriminate.
  replace (k / 8 + 1)%nat with (S (k / 8)) by lia. reflexivity.
Qed.

Lemma le_num_bit e : is_bytes e -> forall k,
  N.testbit (le_num e) (N.of_nat k) = msg_bit e k.
Proof.
  induction 1 as [|b r Hb Hr IH]; intro k.
  - now rewrite msg_bit_nil, N.bits_0.
  - cbn [le_num]. rewrite N.lxor_spec.
    destruct (Nat.lt_ge_cases k 8) as [Hk|Hk].
    + rewrite msg_bit_cons_low by assumption.
      rewrite N.shiftl_spec_low by lia. apply xorb_false_r.
    + replace k with (8 + (k - 8))%nat at 3 by lia.
      rewrite msg_bit_cons_high, <- IH.
      rewrite byte_high_bits by (assumption || lia).
      rewrite N.shiftl_spec_high' by lia. rewrite xorb_false_l. f_equal. lia.
Qed.

Lemma msg_bit_true_lt e k : msg_bit e k = true -> (k < 8 * length e)%nat.
Proof.
  unfold msg_bit. intro H.
  destruct (Nat.lt_ge_cases (k / 8) (length e)) as [Hl|Hl].
  - pose proof (Nat.div_mod k 8). pose proof (Nat.mod_upper_bound k 8). lia.
  - rewrite nth_overflow, N.bits_0 in H by assumption. discriminate.
Qed.

Lemma burst_within_check w e p :
  forallb (fun k => negb (msg_bit e k) || ((p <=? k) && (k <? p + w))%nat) (seq 0 (8 * length e)) = true ->
  burst_within w e.
Proof.
  intros H. exists p. intros k Hk. rewrite forallb_forall in H.
  specialize (H k). rewrite Hk in H. cbn [negb orb] in H.
  assert (Hin : In k (seq 0 (8 * length e))) by (apply in_seq; pose proof (msg_bit_true_lt e k Hk); lia).
  apply H, andb_true_iff in Hin. destruct Hin as [H1 H2].
  apply Nat.leb_le in H1. apply Nat.ltb_lt in H2. lia.
Qed.

Lemma le_num_zero e : is_bytes e -> le_num e = 0 -> forall b, In b e -> b = 0.
Proof.
  induction 1 as [|b r Hb Hr IH]; cbn [le_num]; intros H0 x Hin; [destruct Hin|].
  apply N.lxor_eq in H0. rewrite N.shiftl_mul_pow2 in H0.
  change (2 ^ 8) with 256 in H0.
  assert (le_num r = 0) by lia.
  destruct Hin as [<-|Hin]; [lia|auto].
Qed.

Lemma le_num_nonzero e : is_bytes e -> nonzero e -> le_num e <> 0.
Proof.
  intros Hb (b & Hin & Hnz) H0. apply Hnz. eapply le_num_zero; eauto.
Qed.

(** a non-zero pattern whose set bits lie in [p, p + 32), fed to the zero
    register, leaves a non-zero register *)
Lemma burst_register_nonzero e :
  is_bytes e -> nonzero e -> burst_within 32 e -> update 0 e <> 0.
Proof.
  intros Hb Hnz (p & Hp).
  pose proof (le_num_nonzero e Hb Hnz) as HE.
  set (E := le_num e) in *.
  assert (Hbit : forall k, N.testbit E k = msg_bit e (N.to_nat k)).
  { intro k. unfold E. rewrite <- le_num_bit by assumption. f_equal. lia. }
  (* the lowest position is inside the message *)
  assert (Hpn : (p <= 8 * length e)%nat).
  { destruct (Nat.le_gt_cases p (8 * length e)) as [|Hgt]; [assumption|exfalso].
    apply HE. apply N.bits_inj. intro k. rewrite N.bits_0, Hbit.
    destruct (msg_bit e (N.to_nat k)) eqn:Hk; [|reflexivity].
    pose proof (Hp _ Hk). pose proof (msg_bit_true_lt _ _ Hk). lia. }
  set (c := N.shiftr E (N.of_nat p)).
  assert (HEc : E = N.shiftl c (N.of_nat p)).
  { apply N.bits_inj. intro k. unfold c.
    destruct (N.lt_ge_cases k (N.of_nat p)) as [Hk|Hk].
    - rewrite N.shiftl_spec_low by assumption. rewrite Hbit.
      destruct (msg_bit e (N.to_nat k)) eqn:Hm; [|reflexivity].
      pose proof (Hp _ Hm). lia.
    - rewrite N.shiftl_spec_high', N.shiftr_spec' by assumption. f_equal. lia. }
  assert (Hcb : bounded c).
  { unfold bounded, c. apply N.bits_inj. intro k.
    rewrite N.bits_0, !N.shiftr_spec', Hbit.
    destruct (msg_bit e (N.to_nat (k + 32 + N.of_nat p))) eqn:Hm; [|reflexivity].
    pose proof (Hp _ Hm). lia. }
  assert (Hcnz : c <> 0).
  { intro H0. apply HE. rewrite HEc, H0. apply N.shiftl_0_l. }
  rewrite update_le, N.lxor_0_l. fold E.
  replace (8 * length e)%nat with ((8 * length e - p) + p)%nat by lia.
  rewrite iter_plus, HEc, iter_step0_shiftl.
  now apply iter_step0_nonzero.
Qed.

Theorem crc_update_detects_bursts c m e :
  length e = length m -> is_bytes e -> nonzero e -> burst_within 32 e ->
  crc32_update c (xor_bytes m e) <> crc32_update c m.
Proof.
  intros Hl Hb Hnz Hbu Heq.
  apply (burst_register_nonzero e Hb Hnz Hbu).
  rewrite <- (crc32_update_diff c m e) by auto. rewrite Heq. apply N.lxor_nilpotent.
Qed.

Theorem crc_detects_bursts m e :
  length e = length m -> is_bytes e -> nonzero e -> burst_within 32 e ->
  crc32 (xor_bytes m e) <> crc32 m.
Proof. exact (crc_update_detects_bursts 0 m e). Qed.

(** * A change confined to a window of at most four bytes *)

Lemma xor_bytes_app a b c d : length a = length c ->
  xor_bytes (a ++ b) (c ++ d) = xor_bytes a c ++ xor_bytes b d.
Proof.
  revert c; induction a as [|x a IH]; intros [|y c] H; cbn in *; try discriminate; auto.
  f_equal. apply IH. lia.
Qed.

Lemma xor_bytes_zeros a : xor_bytes a (repeat 0 (length a)) = a.
Proof. induction a as [|x a IH]; cbn; [reflexivity|]. now rewrite N.lxor_0_r, IH. Qed.

Lemma xor_bytes_cancel w w' : length w = length w' ->
  xor_bytes w (xor_bytes w w') = w'.
Proof.
  revert w'; induction w as [|x w IH]; intros [|y w'] H; cbn in *; try discriminate; auto.
  f_equal; [xor_solve|apply IH; lia].
Qed.

Lemma is_bytes_repeat0 n : is_bytes (repeat 0 n).
Proof. induction n; constructor; [reflexivity|assumption]. Qed.

Lemma lxor_byte a b : a < 256 -> b < 256 -> N.lxor a b < 256.
Proof.
  change 256 with (2 ^ 8). rewrite !lt_pow2_shiftr. intros Ha Hb.
  now rewrite N.shiftr_lxor, Ha, Hb.
Qed.

Lemma is_bytes_xor w : forall w', is_bytes w -> is_bytes w' -> is_bytes (xor_bytes w w').
Proof.
  induction w as [|x w IH]; intros [|y w'] H H'; cbn; try constructor;
    inversion H; inversion H'; subst; auto using lxor_byte.
  apply IH; assumption.
Qed.

Lemma is_bytes_app a b : is_bytes a -> is_bytes b -> is_bytes (a ++ b).
Proof. intros. apply Forall_app. now split. Qed.

Lemma xor_bytes_nonzero w : forall w', length w = length w' -> w <> w' ->
  nonzero (xor_bytes w w').
Proof.
  induction w as [|x w IH]; intros [|y w'] Hl Hne; cbn in *; try discriminate.
  - now elim Hne.
  - destruct (N.eq_dec x y) as [->|Hxy].
    + destruct (IH w') as (b & Hin & Hb); [lia|congruence|].
      exists b. split; [now right|assumption].
    + exists (N.lxor x y). split; [now left|].
      intro H0. apply N.lxor_eq in H0. contradiction.
Qed.

Lemma nth_window a l b i :
  nth i (repeat 0 a ++ l ++ repeat 0 b) 0 <> 0 -> (a <= i < a + length l)%nat.
Proof.
  intro H.
  destruct (Nat.lt_ge_cases i a) as [Hia|Hia].
  - rewrite app_nth1 in H by (rewrite repeat_length; assumption).
    rewrite nth_repeat in H. now elim H.
  - rewrite app_nth2 in H by (rewrite repeat_length; assumption).
    rewrite repeat_length in H.
    destruct (Nat.lt_ge_cases (i - a) (length l)) as [Hil|Hil]; [lia|].
    rewrite app_nth2 in H by assumption. rewrite nth_repeat in H. now elim H.
Qed.

Lemma window_burst a l b : (length l <= 4)%nat ->
  burst_within 32 (repeat 0 a ++ l ++ repeat 0 b).
Proof.
  intro Hl. exists (8 * a)%nat. intros k Hk. unfold msg_bit in Hk.
  assert (Hn : nth (k / 8) (repeat 0 a ++ l ++ repeat 0 b) 0 <> 0).
  { intro H0. rewrite H0, N.bits_0 in Hk. discriminate. }
  apply nth_window in Hn.
  pose proof (Nat.div_mod k 8). pose proof (Nat.mod_upper_bound k 8). lia.
Qed.

Theorem crc_detects_window pre w w' post :
  length w = length w' -> (length w <= 4)%nat -> is_bytes w -> is_bytes w' -> w <> w' ->
  crc32 (pre ++ w' ++ post) <> crc32 (pre ++ w ++ post).
Proof.
  intros Hl H4 Hw Hw' Hne.
  set (e := repeat 0 (length pre) ++ xor_bytes w w' ++ repeat 0 (length post)).
  assert (Hx : pre ++ w' ++ post = xor_bytes (pre ++ w ++ post) e).
  { unfold e. rewrite xor_bytes_app by (now rewrite repeat_length).
    rewrite xor_bytes_app by (now rewrite xor_bytes_length).
    now rewrite !xor_bytes_zeros, xor_bytes_cancel. }
  rewrite Hx. apply crc_detects_bursts.
  - unfold e. rewrite !app_length, !repeat_length, xor_bytes_length by assumption. reflexivity.
  - unfold e. repeat apply is_bytes_app; auto using is_bytes_repeat0, is_bytes_xor.
  - destruct (xor_bytes_nonzero w w' Hl Hne) as (b & Hin & Hb).
    exists b. split; [|assumption]. unfold e. apply in_or_app. right. apply in_or_app. now left.
  - unfold e. apply window_burst. now rewrite xor_bytes_length.
Qed.

Theorem crc_detects_single_bit pre x post j :
  x < 256 -> j < 8 ->
  crc32 (pre ++ N.lxor x (N.shiftl 1 j) :: post) <> crc32 (pre ++ x :: post).
Proof.
  intros Hx Hj.
  assert (Hbit : N.shiftl 1 j < 256).
  { rewrite N.shiftl_1_l. change 256 with (2 ^ 8). apply N.pow_lt_mono_r; lia. }
  apply (crc_detects_window pre [x] [N.lxor x (N.shiftl 1 j)] post); cbn; try lia.
  - repeat constructor. assumption.
  - repeat constructor. now apply lxor_byte.
  - intro H. injection H as H.
    assert (H0 : N.shiftl 1 j = 0).
    { apply (f_equal (N.lxor x)) in H. now rewrite N.lxor_nilpotent, lxor_cancel_l in H. }
    rewrite N.shiftl_1_l in H0. now apply N.pow_nonzero in H0.
Qed.

(** * 32-bit result, table-driven form, chaining *)

Lemma bounded_byte b : b < 256 -> bounded b.
Proof. intro H. apply bounded_lt. lia. Qed.

Lemma update_byte_bound s b : bounded s -> b < 256 -> bounded (update_byte s b).
Proof.
  intros Hs Hb. unfold update_byte. apply iter_step0_bound.
  apply bounded_lxor; auto using bounded_byte.
Qed.

Lemma update_bound bs : is_bytes bs -> forall s, bounded s -> bounded (update s bs).
Proof.
  induction 1 as [|b r Hb Hr IH]; intros s Hs; [assumption|].
  rewrite update_cons. apply IH. now apply update_byte_bound.
Qed.

Theorem crc32_bound bs : is_bytes bs -> crc32 bs < 2 ^ 32.
Proof.
  intro H. apply bounded_lt. unfold crc32, crc32_update.
  apply bounded_lxor; [|reflexivity]. apply update_bound; [assumption|reflexivity].
Qed.

Lemma update_byte_table_eq s b : update_byte_table s b = update_byte s b.
Proof.
  unfold update_byte_table, update_byte, tab.
  rewrite <- (iter_step0_shift 8). f_equal.
  change (N.of_nat 8) with 8. change 255 with (N.ones 8).
  apply N.bits_inj. intro k. rewrite !N.lxor_spec, N.land_spec.
  destruct (N.lt_ge_cases k 8) as [Hk|Hk].
  - rewrite N.shiftl_spec_low, N.ones_spec_low by assumption.
    now rewrite andb_true_r, xorb_false_r.
  - rewrite N.shiftl_spec_high', N.shiftr_spec', N.ones_spec_high by assumption.
    rewrite andb_false_r. replace (k - 8 + 8) with k by lia.
    destruct (N.testbit s k), (N.testbit b k); reflexivity.
Qed.

Theorem crc32_table_eq bs : crc32_table bs = crc32 bs.
Proof.
  unfold crc32_table, crc32, crc32_update, update. f_equal.
  change (N.lxor 0 mask32) with mask32. generalize mask32.
  induction bs as [|b r IH]; intro s; cbn; [reflexivity|].
  now rewrite update_byte_table_eq, IH.
Qed.

Lemma crc32_update_app c a b :
  crc32_update (crc32_update c a) b = crc32_update c (a ++ b).
Proof.
  unfold crc32_update. rewrite update_app. f_equal. f_equal.
  rewrite N.lxor_assoc, N.lxor_nilpotent. apply N.lxor_0_r.
Qed.

Theorem int32_roundtrip c : c < 2 ^ 32 -> int32_to_crc (crc_to_int32 c) = c.
Proof.
  intro H. unfold int32_to_crc, crc_to_int32.
  change (2 ^ 32) with 4294967296 in H.
  change (2 ^ 32)%Z with 4294967296%Z. change (2 ^ 31)%Z with 2147483648%Z.
  destruct (Z.ltb_spec (Z.of_N c) 2147483648).
  - rewrite Z.mod_small by lia. lia.
  - replace (Z.of_N c - 4294967296)%Z with (Z.of_N c + (-1) * 4294967296)%Z by lia.
    rewrite Z.mod_add by lia. rewrite Z.mod_small by lia. lia.
Qed.

Theorem read_page_accepts_iff stored body :
  read_page_accepts stored body = true <-> stored = 0 \/ stored = crc32 body.
Proof.
  unfold read_page_accepts.
  destruct (N.eqb_spec stored 0) as [H0|H0].
  - split; [intros _; left; exact H0 | reflexivity].
  - rewrite N.eqb_eq. split; [intros H; right; exact H | intros [H|H]; [contradiction | exact H]].
Qed.

Theorem read_page_rejects_wrong_stored stored body :
  stored <> 0 -> stored <> crc32 body -> read_page_accepts stored body = false.
Proof.
  intros H0 H1. destruct (read_page_accepts stored body) eqn:E; [|reflexivity].
  apply read_page_accepts_iff in E. destruct E as [E|E]; contradiction.
Qed.

Theorem read_page_rejects body e :
  length e = length body -> is_bytes e -> nonzero e -> burst_within 32 e ->
  crc32 body <> 0 ->
  read_page_accepts (crc32 body) (xor_bytes body e) = false.
Proof.
  intros Hl Hb Hnz Hbu H0. apply read_page_rejects_wrong_stored; [exact H0|].
  apply not_eq_sym. now apply crc_detects_bursts.
Qed.

Theorem loader_check_verified : forall l, loader_check l <> Unverified.
Proof. intros []; discriminate. Qed.

(* a dictionary is only ever marked loaded by a load of the dictionary page:
   the skip of the dictionary page in the stream never replaces a load *)
Lemma serve_dict_loaded st ev :
  dict_loaded st = false -> dict_loaded (snd (serve st ev)) = true ->
  exists l, In (DictPage, l) (fst (serve st ev)).
Proof.
  intros H0 H1. destruct st as [enc hd dl]. cbn in H0. subst dl.
  destruct ev as [| |k de]; cbn in *.
  - destruct hd; cbn in *; [eexists; left; reflexivity|discriminate].
  - discriminate.
  - destruct k, de, hd; cbn in *; try discriminate;
      try (eexists; left; reflexivity); try (eexists; right; left; reflexivity).
Qed.

Fixpoint final (st : state) (evs : list event) : state :=
  match evs with
  | [] => st
  | ev :: r => final (snd (serve st ev)) r
  end.

Theorem dictionary_always_loaded_from_page evs : forall st,
  dict_loaded st = false -> dict_loaded (final st evs) = true ->
  exists l, In (DictPage, l) (run st evs).
Proof.
  induction evs as [|ev r IH]; intros st H0 H1; cbn in *; [congruence|].
  destruct (serve st ev) as [loads st'] eqn:Hs. cbn in H1.
  destruct (dict_loaded st') eqn:Hd.
  - destruct (serve_dict_loaded st ev H0) as (l & Hl); [now rewrite Hs|].
    rewrite Hs in Hl. exists l. apply in_or_app. now left.
  - destruct (IH st' Hd H1) as (l & Hl). exists l. apply in_or_app. now right.
Qed.

(** * The reader of a column across row groups (Column.Pages) *)

Theorem column_path_never_unverified enc dict p noindex k target :
  column_path_check loader_check enc dict p noindex k target <> Some Unverified.
Proof.
  unfold column_path_check.
  destruct (column_chunk_events p noindex k dict) as [evs|]; [|discriminate].
  destruct (filter _ _) as [|[k' l] r]; [discriminate|].
  cbn. intro H. injection H as H. now apply (loader_check_verified l).
Qed.

(* the page that is read is checked: a data page of the row group the reader
   reads, and the dictionary page whenever the data page is dictionary-encoded *)
Theorem column_path_reads_the_page enc dict p noindex k :
  k <> DictPage -> p <> ColSeek RgBefore ->
  column_path_check loader_check enc dict p noindex k k <> None /\
  (dict = true -> column_path_check loader_check enc dict p noindex k DictPage <> None).
Proof.
  intros Hk Hp.
  destruct p as [|[]]; try congruence;
    destruct k; try congruence; destruct enc, dict, noindex; vm_compute; split; congruence.
Qed.

(** * The full 32-bit comparison is necessary: any tolerated difference is reachable by a four-byte change *)

Lemma bounded_testbit s k : bounded s -> 32 <= k -> N.testbit s k = false.
Proof.
  intros H Hk. unfold bounded in H.
  replace k with ((k - 32) + 32) by lia. rewrite <- N.shiftr_spec', H. apply N.bits_0.
Qed.

Lemma bounded_of_bits s : (forall k, 32 <= k -> N.testbit s k = false) -> bounded s.
Proof.
  intros H. unfold bounded. apply N.bits_inj. intro k.
  rewrite N.bits_0, N.shiftr_spec'. apply H. lia.
Qed.

Lemma poly_bounded : bounded poly.
Proof. reflexivity. Qed.

Lemma inv_step0_bounded s : bounded s -> bounded (inv_step0 s).
Proof.
  intros Hs. unfold inv_step0. apply bounded_of_bits. intros k Hk.
  destruct (N.testbit s 31) eqn:H31.
  - rewrite N.lor_spec.
    assert (N.testbit 1 k = false) as -> by (apply (bounded_testbit 1); [reflexivity|exact Hk]).
    rewrite orb_false_r, N.shiftl_spec_high' by lia. rewrite N.lxor_spec.
    destruct (N.eq_dec k 32) as [->|Hne].
    + change (32 - 1) with 31. rewrite H31. reflexivity.
    + rewrite (bounded_testbit s), (bounded_testbit poly) by (try exact Hs; try exact poly_bounded; lia).
      reflexivity.
  - rewrite N.shiftl_spec_high' by lia.
    destruct (N.eq_dec k 32) as [->|Hne].
    + exact H31.
    + apply bounded_testbit; [exact Hs|lia].
Qed.

Lemma step0_inv_step0 s : step0 (inv_step0 s) = s.
Proof.
  unfold inv_step0. destruct (N.testbit s 31) eqn:H31.
  - unfold step0.
    assert (N.odd (N.lor (N.shiftl (N.lxor s poly) 1) 1) = true) as ->.
    { rewrite <- N.bit0_odd, N.lor_spec, N.shiftl_spec_low by lia. reflexivity. }
    assert (N.shiftr (N.lor (N.shiftl (N.lxor s poly) 1) 1) 1 = N.lxor s poly) as ->.
    { rewrite N.shiftr_lor, N.shiftr_shiftl_l by lia. change (N.shiftr 1 1) with 0.
      rewrite N.lor_0_r. apply N.shiftl_0_r. }
    rewrite N.lxor_assoc, N.lxor_nilpotent. apply N.lxor_0_r.
  - apply step0_shiftl1.
Qed.

Lemma iter_step0_inv n s : Nat.iter n step0 (Nat.iter n inv_step0 s) = s.
Proof.
  induction n as [|n IH]; [reflexivity|].
  rewrite iter_S_r. rewrite iter_S. rewrite step0_inv_step0. exact IH.
Qed.

Lemma iter_inv_bounded n s : bounded s -> bounded (Nat.iter n inv_step0 s).
Proof. intros H. induction n as [|n IH]; [exact H|]. rewrite iter_S. now apply inv_step0_bounded. Qed.


Lemma land255_lt x : N.land x 255 < 256.
Proof. change 255 with (N.ones 8). rewrite N.land_ones. now apply N.mod_lt. Qed.

Lemma is_bytes_le32 x : is_bytes (le32_bytes x).
Proof. unfold le32_bytes, is_bytes. repeat constructor; apply land255_lt. Qed.

Lemma testbit_255 j : N.testbit 255 j = (j <? 8).
Proof.
  change 255 with (N.ones 8).
  destruct (N.ltb_spec j 8); [now apply N.ones_spec_low|now apply N.ones_spec_high].
Qed.

Lemma byte_split x n m : m = n + 8 ->
  N.lxor (N.land (N.shiftr x n) 255) (N.shiftl (N.shiftr x m) 8) = N.shiftr x n.
Proof.
  intros ->. rewrite <- N.shiftr_shiftr. generalize (N.shiftr x n). clear. intros y.
  apply N.bits_inj. intro k. rewrite N.lxor_spec, N.land_spec, testbit_255.
  destruct (N.ltb_spec k 8) as [H|H].
  - now rewrite N.shiftl_spec_low, andb_true_r, xorb_false_r.
  - rewrite N.shiftl_spec_high' by exact H. rewrite N.shiftr_spec', andb_false_r, xorb_false_l. f_equal. lia.
Qed.

Lemma le_num_le32 x : bounded x -> le_num (le32_bytes x) = x.
Proof.
  intros Hx. unfold le32_bytes. cbn [le_num].
  pose proof (byte_split x 24 32 eq_refl) as E. unfold bounded in Hx. rewrite Hx in E.
  rewrite E, (byte_split x 16 24 eq_refl), (byte_split x 8 16 eq_refl). exact (byte_split x 0 8 eq_refl).
Qed.

Lemma update_zeros n : update 0 (repeat 0 n) = 0.
Proof.
  rewrite update_le, N.lxor_0_l.
  assert (le_num (repeat 0 n) = 0) as ->.
  { induction n as [|n IH]; [reflexivity|]. cbn [repeat le_num]. rewrite IH. reflexivity. }
  apply iter_step0_0.
Qed.

(** the change of the last four bytes whose checksum difference is exactly [d] *)

Theorem crc_suffix_fault pre w d :
  length w = 4%nat -> bounded d ->
  crc32 (pre ++ xor_bytes w (suffix_fault d)) = N.lxor (crc32 (pre ++ w)) d.
Proof.
  intros Hw Hd.
  set (e := suffix_fault d).
  assert (He : length e = 4%nat) by reflexivity.
  assert (Hx : pre ++ xor_bytes w e = xor_bytes (pre ++ w) (repeat 0 (length pre) ++ e)).
  { rewrite xor_bytes_app by (now rewrite repeat_length). now rewrite xor_bytes_zeros. }
  rewrite Hx.
  pose proof (crc32_diff (pre ++ w) (repeat 0 (length pre) ++ e)) as Hdiff.
  rewrite !app_length, repeat_length, Hw, He in Hdiff. specialize (Hdiff eq_refl).
  rewrite update_app, update_zeros, update_le, N.lxor_0_l, He in Hdiff.
  unfold e in Hdiff at 2. unfold suffix_fault in Hdiff.
  rewrite le_num_le32 in Hdiff by (apply iter_inv_bounded; exact Hd).
  change (8 * 4)%nat with 32%nat in Hdiff. rewrite iter_step0_inv in Hdiff.
  rewrite <- Hdiff. rewrite N.lxor_comm, N.lxor_assoc, N.lxor_nilpotent. symmetry. apply N.lxor_0_r.
Qed.

(** Consequence: a reader that tolerates ANY non-zero difference [d] between
    the stored checksum and the checksum of the body lets an altered body
    through: the altered body differs in its last four bytes only (a burst of
    at most 32 bits), and its checksum is the stored one xor [d]. *)
Theorem weaker_comparison_lets_a_burst_through pre w d :
  length w = 4%nat -> is_bytes w -> bounded d -> d <> 0 ->
  let body := pre ++ w in
  let body' := pre ++ xor_bytes w (suffix_fault d) in
  body' <> body /\ length body' = length body /\
  N.lxor (crc32 body') (crc32 body) = d.
Proof.
  intros Hw Hb Hd Hnz body body'. unfold body, body'.
  pose proof (crc_suffix_fault pre w d Hw Hd) as H.
  split; [|split].
  - intro Heq. rewrite Heq in H. apply Hnz. apply (f_equal (N.lxor (crc32 (pre ++ w)))) in H.
    now rewrite lxor_cancel_l, N.lxor_nilpotent in H.
  - rewrite !app_length. f_equal. apply xor_bytes_length. rewrite Hw. reflexivity.
  - rewrite H, N.lxor_comm. apply lxor_cancel_l.
Qed.
