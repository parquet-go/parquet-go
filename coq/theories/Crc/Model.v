(** Model of the page checksum of parquet-go: CRC-32/IEEE exactly as
    hash/crc32 computes it (reflected polynomial 0xEDB88320, register
    initialised to 0xFFFFFFFF, final complement), and of the page loaders of
    file.go: which loader serves which access path and whether that loader
    verifies the checksum stored in the page header.

    Executable, no proofs (proofs are in Crc/Proofs.v).

    Go sources mirrored:
      hash/crc32 (stdlib): simpleMakeTable, simpleUpdate, Update, ChecksumIEEE
      /repo/writer.go  writerBuffers.crc32  (Update over repetitions, definitions, page)
      /repo/file.go    FilePages.ReadPage / readPage / readDictionary /
                       readEncryptedPage / ReadDictionary / readDataPageV1 / readDataPageV2

    Bytes are [N] below 256, the register is an [N] below 2^32.  The step
    functions are written with shifts and xors only, which keeps them inside
    32 bits for 32-bit inputs (Proofs.v: [step0_bound], [crc32_bound]); no
    [mod] is needed. *)
From Coq Require Import List NArith ZArith Bool Arith.
Import ListNotations.
Open Scope N_scope.

(** * CRC-32/IEEE *)

(* crc32.IEEE = 0xedb88320 : the polynomial with its bits reversed *)
Definition poly : N := 0xEDB88320.
Definition mask32 : N := 0xFFFFFFFF.

(* simpleMakeTable, inner loop body:
     if crc&1 == 1 { crc = (crc >> 1) ^ poly } else { crc >>= 1 }           *)
Definition step0 (s : N) : N :=
  if N.odd s then N.lxor (N.shiftr s 1) poly else N.shiftr s 1.

(* bitwise form of one byte: xor the byte into the low end of the register,
   then eight shift steps *)
Definition update_byte (s b : N) : N := Nat.iter 8 step0 (N.lxor s b).

(* the register after a byte string, without pre/post-conditioning *)
Definition update (s : N) (bs : list N) : N := fold_left update_byte bs s.

(* crc32.Update(crc, IEEETable, p) = ^simpleUpdate(^crc, tab, p) *)
Definition crc32_update (crc : N) (bs : list N) : N :=
  N.lxor (update (N.lxor crc mask32) bs) mask32.

(* crc32.ChecksumIEEE(p) = Update(0, IEEETable, p) *)
Definition crc32 (bs : list N) : N := crc32_update 0 bs.

(* simpleMakeTable: tab[i] = eight steps from i *)
Definition tab (i : N) : N := Nat.iter 8 step0 i.

(* simpleUpdate, loop body:  crc = tab[byte(crc)^v] ^ (crc >> 8) *)
Definition update_byte_table (s b : N) : N :=
  N.lxor (tab (N.lxor (N.land s 255) b)) (N.shiftr s 8).

Definition crc32_table (bs : list N) : N :=
  N.lxor (fold_left update_byte_table bs mask32) mask32.

(* writer.go writerBuffers.crc32: the checksum of a page is the chained
   Update over the three sections of the body as they are written to the file *)
Definition page_crc (repetitions definitions page : list N) : N :=
  crc32_update (crc32_update (crc32_update 0 repetitions) definitions) page.

(* writer.go: header.CRC = int32(buf.crc32());  file.go readPage: uint32(header.CRC).
   The thrift field is a signed 32-bit integer. *)
Definition crc_to_int32 (c : N) : Z :=
  let z := Z.of_N c in if (z <? 2 ^ 31)%Z then z else (z - 2 ^ 32)%Z.
Definition int32_to_crc (z : Z) : N := Z.to_N (z mod 2 ^ 32).

(** * Messages as bit strings, error patterns, bursts *)

(* byte-wise xor of two byte strings (the shorter one decides the length) *)
Fixpoint xor_bytes (m e : list N) : list N :=
  match m, e with
  | a :: m', b :: e' => N.lxor a b :: xor_bytes m' e'
  | _, _ => []
  end.

(* bit k of a message, in the order the reflected CRC consumes them: byte
   k/8, bit k mod 8 counted from the least significant bit *)
Definition msg_bit (e : list N) (k : nat) : bool :=
  N.testbit (nth (k / 8) e 0) (N.of_nat (k mod 8)).

(* the message read as one little-endian number: bit k of it is [msg_bit e k]
   (for bytes below 256).  Written with xor so that it is linear for any N. *)
Fixpoint le_num (bs : list N) : N :=
  match bs with
  | [] => 0
  | b :: r => N.lxor b (N.shiftl (le_num r) 8)
  end.

Definition is_bytes (bs : list N) : Prop := Forall (fun b => b < 256) bs.
Definition nonzero (e : list N) : Prop := exists b, In b e /\ b <> 0.

(* all set bits of [e] lie within [w] consecutive bit positions *)
Definition burst_within (w : nat) (e : list N) : Prop :=
  exists p : nat, forall k, msg_bit e k = true -> (p <= k < p + w)%nat.

(** * The inverse register step (harness: c13InvStep) and the change of the last
    four body bytes that produces a prescribed checksum difference (harness:
    c13DeriveBodyFault); theorem C13_suffix_fault_has_difference *)
Definition inv_step0 (s : N) : N :=
  if N.testbit s 31 then N.lor (N.shiftl (N.lxor s poly) 1) 1 else N.shiftl s 1.

(* the four little-endian bytes of a 32-bit number *)
Definition le32_bytes (x : N) : list N :=
  [N.land x 255; N.land (N.shiftr x 8) 255; N.land (N.shiftr x 16) 255; N.land (N.shiftr x 24) 255].

Definition suffix_fault (d : N) : list N := le32_bytes (Nat.iter 32 inv_step0 d).

(** * Page loaders (file.go)

    A column chunk is a stream [dictionary page?] data page*.  A [FilePages]
    keeps the decoded dictionary once loaded.  The events below are the ways
    the bytes of a page body reach a decoder. *)

Inductive page_kind := DictPage | DataPageV1 | DataPageV2.

(* the routine that fetches the body bytes *)
Inductive loader :=
| LReadPage          (* FilePages.readPage, called from ReadPage (sequential stream) *)
| LReadDictPlain     (* FilePages.readDictionary, unencrypted branch *)
| LReadEncrypted     (* FilePages.readEncryptedPage *)
| LReadDictEncrypted (* FilePages.readDictionary, encrypted branch *).

Inductive check := CrcVerified | AeadVerified | Unverified.

(* current tree: readPage compares header.CRC with ChecksumIEEE(body) before
   anything is decoded (unless header.CRC = 0); readDictionary calls readPage
   (since "fix: the lazy dictionary loader verifies the page checksum");
   encrypted modules are opened with AES-GCM, which authenticates the body *)
Definition loader_check (l : loader) : check :=
  match l with
  | LReadPage => CrcVerified
  | LReadDictPlain => CrcVerified
  | LReadEncrypted => AeadVerified
  | LReadDictEncrypted => AeadVerified
  end.

(* pinned tree (before the fix): readDictionary read the body with io.ReadFull
   and decoded it without looking at header.CRC *)
Definition loader_check_pinned (l : loader) : check :=
  match l with
  | LReadDictPlain => Unverified
  | _ => loader_check l
  end.

(* what the program does with a FilePages *)
Inductive event :=
| EvReadDictionary                 (* FilePages.ReadDictionary *)
| EvSeekToRow                      (* FilePages.SeekToRow: repositions the stream after the dictionary page *)
| EvStreamPage (k : page_kind) (dict_encoded : bool)
                                   (* ReadPage meets a page of this kind in the stream *).

Record state := { encrypted : bool; has_dict : bool; dict_loaded : bool }.

Definition lazy_dict (st : state) : list (page_kind * loader) :=
  if has_dict st && negb (dict_loaded st)
  then [(DictPage, if encrypted st then LReadDictEncrypted else LReadDictPlain)]
  else [].

Definition stream_loader (st : state) : loader :=
  if encrypted st then LReadEncrypted else LReadPage.

Definition with_dict (st : state) : state :=
  {| encrypted := encrypted st; has_dict := has_dict st; dict_loaded := true |}.

(* one event: the page bodies handed to a decoder, each with the loader that
   fetched it, and the next state.
     ReadDictionary:  if f.dictionary == nil && f.dictOffset > 0 { readDictionary() }
     ReadPage on a dictionary page: skipped (Discard / unref) when f.dictionary != nil,
        otherwise loaded from the stream and decoded (readDictionaryPage)
     ReadPage on a data page: loaded from the stream; readDataPageV1/V2 call
        readDictionary() first when the page is dictionary-encoded and
        f.dictionary == nil (the lazy load after a seek)                     *)
Definition serve (st : state) (ev : event) : list (page_kind * loader) * state :=
  match ev with
  | EvReadDictionary => (lazy_dict st, if has_dict st then with_dict st else st)
  | EvSeekToRow => ([], st)
  | EvStreamPage DictPage _ =>
      if dict_loaded st then ([], st)
      else ([(DictPage, stream_loader st)], with_dict st)
  | EvStreamPage k true =>
      ((k, stream_loader st) :: lazy_dict st, if has_dict st then with_dict st else st)
  | EvStreamPage k false => ([(k, stream_loader st)], st)
  end.

Fixpoint run (st : state) (evs : list event) : list (page_kind * loader) :=
  match evs with
  | [] => []
  | ev :: r => let '(loads, st') := serve st ev in loads ++ run st' r
  end.

Definition init_state (enc dict : bool) : state :=
  {| encrypted := enc; has_dict := dict; dict_loaded := false |}.

Definition checkb (c : check) : bool :=
  match c with Unverified => false | _ => true end.

(* every body decoded along a trace was fetched by a checking loader *)
Definition trace_verified (tbl : loader -> check) (enc dict : bool) (evs : list event) : bool :=
  forallb (fun kl => checkb (tbl (snd kl))) (run (init_state enc dict) evs).

(* readPage: `if header.CRC != 0 { compare }` -- a stored checksum of 0 is
   indistinguishable from an absent one and switches the comparison off.
   [read_page_accepts stored body] = true when the body is accepted. *)
Definition read_page_accepts (stored : N) (body : list N) : bool :=
  if N.eqb stored 0 then true else N.eqb stored (crc32 body).

(* named access paths used by the correspondence harness *)
Inductive access_path :=
| PathSequential        (* ReadPage from the start of the chunk: dictionary page met in the stream *)
| PathSeekThenRead      (* SeekToRow, then ReadPage: data page from the stream, dictionary lazily *)
| PathReadDictionary    (* FilePages.ReadDictionary on a fresh reader *)
| PathReadDictThenPages (* ReadDictionary, then ReadPage from the start: the dictionary page in the stream is skipped *).

Definition path_events (p : access_path) (k : page_kind) (dict : bool) : list event :=
  match p with
  | PathSequential => (if dict then [EvStreamPage DictPage false] else []) ++ [EvStreamPage k dict]
  | PathSeekThenRead => [EvSeekToRow; EvStreamPage k dict]
  | PathReadDictionary => [EvReadDictionary]
  | PathReadDictThenPages => [EvReadDictionary] ++ (if dict then [EvStreamPage DictPage false] else []) ++ [EvStreamPage k dict]
  end.

(* how the body of a page of kind [target] is checked along a path:
   None when the path never hands such a body to a decoder *)
Definition path_check (tbl : loader -> check) (enc dict : bool) (p : access_path)
           (k : page_kind) (target : page_kind) : option check :=
  let loads := run (init_state enc dict) (path_events p k dict) in
  match filter (fun kl => match fst kl, target with
                          | DictPage, DictPage | DataPageV1, DataPageV1 | DataPageV2, DataPageV2 => true
                          | _, _ => false end) loads with
  | [] => None
  | kl :: _ => Some (tbl (snd kl))
  end.

(** * The reader of a column across the row groups of a file

    column.go, Column.Pages / PagesFrom: [columnPages] holds one
    [FilePages] per row group of the file (each with its own state: its own
    lazily loaded dictionary) and reads them one after the other; errors of
    the current [FilePages] are returned as they are.
    [columnPages.SeekToRow r]: the row groups before the one holding row [r]
    are not read at all; [SeekToRow] with the remaining row count on that
    one; [SeekToRow 0] on every later one.  With an offset index
    [FilePages.SeekToRow 0] on a fresh reader leaves the stream where it is
    (f.index == target: at the start of the chunk, the dictionary page is met
    in the stream); without offset index (SkipPageIndex, or a file without
    page index) it positions the stream at the first data page, so the
    dictionary of a later row group is loaded lazily. *)
Inductive rg_position :=
| RgBefore (* the row group of the page comes before the one the seek went to *)
| RgAt     (* the seek went to a row of that row group *)
| RgAfter  (* the seek went to an earlier row group: reached by reading on *).

Inductive column_path :=
| ColSequential
| ColSeek (pos : rg_position).

(* the events on the FilePages of the row group that holds the page; None when
   that row group is not read *)
Definition column_chunk_events (p : column_path) (noindex : bool) (k : page_kind) (dict : bool)
  : option (list event) :=
  match p with
  | ColSequential => Some (path_events PathSequential k dict)
  | ColSeek RgBefore => None
  | ColSeek RgAt => Some (path_events PathSeekThenRead k dict)
  | ColSeek RgAfter =>
      Some (EvSeekToRow :: (if noindex then [EvStreamPage k dict] else path_events PathSequential k dict))
  end.

Definition same_kind (a b : page_kind) : bool :=
  match a, b with
  | DictPage, DictPage | DataPageV1, DataPageV1 | DataPageV2, DataPageV2 => true
  | _, _ => false
  end.

Definition column_path_check (tbl : loader -> check) (enc dict : bool) (p : column_path)
           (noindex : bool) (k : page_kind) (target : page_kind) : option check :=
  match column_chunk_events p noindex k dict with
  | None => None
  | Some evs =>
      match filter (fun kl => same_kind (fst kl) target) (run (init_state enc dict) evs) with
      | [] => None
      | kl :: _ => Some (tbl (snd kl))
      end
  end.
