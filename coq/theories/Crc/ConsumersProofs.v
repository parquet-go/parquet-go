(** Proofs about the consumers of Crc/Consumers.v. *)
From Coq Require Import List NArith Bool Arith Lia.
From PQ Require Import Crc.Model Crc.Proofs Crc.Consumers.
Import ListNotations.

Lemma consume_from_clean_prefix : forall k rest n alt,
  consume_from (repeat (AItem Clean) k ++ rest) n alt = consume_from rest (k + n) alt.
Proof.
  induction k as [|k IH]; intros rest n alt; [reflexivity|].
  cbn [repeat app consume_from]. rewrite orb_false_r. rewrite IH. f_equal. lia.
Qed.

(* a checked alteration ends the loop with the error, after exactly the
   intact items in front of it, none of them altered *)
Theorem consume_reports_checked : forall before after c,
  checkb c = true -> consume (source before after c) = Reported before false.
Proof.
  intros before after c Hc. unfold consume, source. rewrite consume_from_clean_prefix, Hc.
  cbn. now rewrite Nat.add_0_r.
Qed.

(* an unchecked one is handed on as data and the loop reports success *)
Theorem consume_unchecked_delivers_altered : forall before after c,
  checkb c = false -> consume (source before after c) = Done (before + 1 + after) true.
Proof.
  intros before after c Hc. unfold consume, source. rewrite consume_from_clean_prefix, Hc.
  cbn [app consume_from]. rewrite consume_from_clean_prefix. cbn. f_equal. lia.
Qed.

Lemma path_check_verified : forall enc dict p k target c,
  path_check loader_check enc dict p k target = Some c -> checkb c = true.
Proof.
  intros enc dict p k target c H. unfold path_check in H.
  destruct (filter _ _) as [|kl r]; [discriminate|]. injection H as <-.
  destruct (loader_check (snd kl)) eqn:E; try reflexivity.
  exfalso. now apply (loader_check_verified (snd kl)).
Qed.

Theorem consumer_check_verified : forall enc dict kind k target,
  match consumer_check loader_check enc dict kind k target with
  | ByCall c | ByOutput c => checkb c = true
  | Untouched => True
  end.
Proof.
  intros enc dict kind k target. unfold consumer_check. destruct kind.
  - destruct (path_check loader_check enc dict PathSequential k target) eqn:E; [|exact I].
    now apply path_check_verified in E.
  - destruct (path_check loader_check false dict PathSequential k target) eqn:E; [|exact I].
    now apply path_check_verified in E.
  - exact I.
Qed.

Theorem consumer_meets_the_page : forall enc dict kind k,
  k <> DictPage -> kind <> ProjectedAway ->
  consumer_check loader_check enc dict kind k k <> Untouched /\
  (dict = true -> consumer_check loader_check enc dict kind k DictPage <> Untouched).
Proof.
  intros enc dict kind k Hk Hkind.
  destruct kind; [| |contradiction]; destruct enc, dict, k; try contradiction; vm_compute; split; intros; discriminate.
Qed.

Theorem wrg_decodes_unless_verbatim : forall same enc transparent fits,
  wrg_kind (write_row_group_path same enc transparent fits) = Verbatim <->
  (same = true /\ enc = false /\ transparent = true /\ fits = true).
Proof.
  intros same enc transparent fits. destruct same, enc, transparent, fits; cbn; split; intro H;
    try discriminate; try reflexivity; try (repeat split; reflexivity);
    destruct H as (A & B & C & D); discriminate.
Qed.

Lemma first_stop_source : forall before after c,
  checkb c = true -> first_stop (source before after c) = AFail.
Proof.
  intros before after c Hc. unfold source. rewrite Hc.
  induction before as [|b IH]; [reflexivity|exact IH].
Qed.

Lemma at_end_first_stop : forall l, at_end l = true -> first_stop l = AEnd.
Proof. intros [|[d| |] r] H; try reflexivity; discriminate. Qed.

Lemma first_stop_pop : forall ins i j d r,
  ins i = AItem d :: r -> first_stop (pop ins i j) = first_stop (ins j).
Proof.
  intros ins i j d r H. unfold pop. destruct (Nat.eqb j i) eqn:E; [|reflexivity].
  apply Nat.eqb_eq in E. subst j. now rewrite H.
Qed.

(* a merge that ended without error although none of its first k inputs has
   anything more to give met no failing input among them: whatever the order
   in which the inputs were refilled *)
Theorem merge_done_all_ended : forall sched ins n alt m alt' rest k,
  merge_run false sched ins n alt = (Done m alt', rest) ->
  (forall j, (j < k)%nat -> at_end (rest j) = true) ->
  forall j, (j < k)%nat -> first_stop (ins j) = AEnd.
Proof.
  induction sched as [|i sched IH]; intros ins n alt m alt' rest k Hrun Hend j Hj.
  - cbn in Hrun. injection Hrun as _ _ <-. now apply at_end_first_stop, Hend.
  - cbn [merge_run] in Hrun. destruct (ins i) as [|[d| |] r] eqn:E.
    + now apply (IH _ _ _ _ _ _ _ Hrun Hend).
    + rewrite <- (first_stop_pop ins i j d r E). now apply (IH _ _ _ _ _ _ _ Hrun Hend).
    + now apply (IH _ _ _ _ _ _ _ Hrun Hend).
    + discriminate.
Qed.

(* hence: one input whose altered page is fetched by a checking loader, and a
   merge that went on until no input had anything more to give, ends with
   the error *)
Theorem merge_reports_checked : forall sched ins n alt o rest k j before after c,
  merge_run false sched ins n alt = (o, rest) ->
  (forall j, (j < k)%nat -> at_end (rest j) = true) ->
  (j < k)%nat -> ins j = source before after c -> checkb c = true ->
  exists m a, o = Reported m a.
Proof.
  intros sched ins n alt o rest k j before after c Hrun Hend Hj Hsrc Hc.
  destruct o as [m a|m a]; [|now exists m, a].
  pose proof (merge_done_all_ended _ _ _ _ _ _ _ _ Hrun Hend j Hj) as H.
  rewrite Hsrc, first_stop_source in H by exact Hc. discriminate.
Qed.

(* wherever the windows end relative to the altered page, the read ends with
   the error after exactly the intact rows in front of the page *)
Theorem windows_report_checked : forall sizes before after c i rem n,
  checkb c = true ->
  read_windows true sizes (source before after c) i rem n false = Reported (before + n)%nat false.
Proof.
  intros sizes before after c i rem n Hc. unfold source. rewrite Hc.
  revert i rem n. induction before as [|b IH]; intros i rem n.
  - cbn. now destruct rem.
  - cbn [repeat app read_windows]. cbn [orb]. destruct rem as [|k]; rewrite IH; f_equal; lia.
Qed.
