(** Proofs about Convert/Chunks.v: the column-chunk view of a copied column is
    the row path (conversion.Convert on every row), column by column. *)
From Coq Require Import List Arith NArith Lia.
From PQ Require Import Base.ListExtra Dremel.Model Convert.Model Convert.Chunks.
Import ListNotations.

Section ChunksProofs.
  Variable V : Type.
  Notation column := (column V).

  Lemma nth_conv : forall (acts : list (action V)) (cols : list column) c a,
      nth_error acts c = Some a -> nth c (conv V acts cols) [] = run V cols a.
  Proof.
    intros acts cols c a H. unfold conv.
    apply nth_error_nth. now apply map_nth_error.
  Qed.

  Lemma row_slice_map : forall (A B : Type) (f : A -> B) i j (l : list A),
      row_slice i j (map f l) = map f (row_slice i j l).
  Proof.
    intros A B f i j l. unfold row_slice. now rewrite skipn_map, firstn_map.
  Qed.

  Lemma chunk_of_conv : forall (acts : list (action V)) c i (rows : list (list column)),
      nth_error acts c = Some (ACopy i) ->
      chunk_of V c (map (conv V acts) rows) = chunk_of V i rows.
  Proof.
    intros acts c i rows H. unfold chunk_of. rewrite map_map. f_equal.
    apply map_ext. intros row. exact (nth_conv acts row c _ H).
  Qed.

  (** The values of rows i .. j-1 of column chunk [c] of the converted row
      group are column [c] of the converted rows i .. j-1. *)
  Theorem chunk_view_is_row_path : forall (acts : list (action V)) c i j (rows : list (list column)) col,
      chunk_view V acts c (row_slice i j rows) = Some col ->
      col = chunk_of V c (row_slice i j (map (conv V acts) rows)).
  Proof.
    intros acts c i j rows col H. unfold chunk_view in H.
    destruct (nth_error acts c) as [a|] eqn:E; [|discriminate].
    destruct a as [k|k k0 d z|z]; try discriminate.
    injection H as <-. rewrite row_slice_map. symmetry. now apply chunk_of_conv.
  Qed.

  (** Slicing twice is slicing once. *)
  Lemma row_slice_slice : forall (A : Type) i j x y (l : list A),
      i + y <= j ->
      row_slice x y (row_slice i j l) = row_slice (i + x) (i + y) l.
  Proof.
    intros A i j x y l Hj. unfold row_slice.
    rewrite skipn_firstn_comm, firstn_firstn, skipn_add.
    f_equal. lia.
  Qed.
End ChunksProofs.
