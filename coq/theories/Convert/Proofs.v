(** The converted columns are the shredding of the projected value. *)
From Coq Require Import List Arith Bool NArith Lia.
From PQ Require Import Base.ListExtra Dremel.Model Dremel.Proofs Convert.Model Convert.Lemmas.
Import ListNotations.

Section Proofs.
  Variable V : Type.
  Variable zero : N -> V.
  Notation value := (value V).
  Notation entry := (entry V).
  Notation column := (column V).
  Notation action := (action V).
  Notation run := (run V).
  Notation conv := (conv V).
  Notation plan := (plan V zero).
  Notation plan_fields := (plan_fields V zero).
  Notation fill_plan := (fill_plan V zero).
  Notation fill_action := (fill_action V).
  Notation fill_plan_fields := (fill_plan_fields V zero).
  Notation project := (project V zero).
  Notation project_fields := (project_fields V zero).
  Notation zero_val := (zero_val V zero).
  Notation zero_fields := (zero_fields V zero).
  Notation wfn := (wfn V).
  Notation wfn_fields := (wfn_fields V).

  Lemma nlf_cons n r s fs : nlf (NCons n r s fs) = nl s + nlf fs.
  Proof. reflexivity. Qed.

  Lemma wf_erase : forall s, wf_nschema s -> wf_schema (erase s).
  Proof.
    apply (nschema_mut (fun s => wf_nschema s -> wf_schema (erase s))
                       (fun fs => wf_nfields fs -> wf_schema_fields (erase_fields fs))).
    - intros; exact I.
    - intros fs IH [Hp Hf]. split; [exact Hp|now apply IH].
    - intros; exact I.
    - intros n r s IHs fs IHf (_ & Hs & Hf). split; auto.
  Qed.

  Lemma rep_eqb_eq r q : rep_eqb r q = true -> r = q.
  Proof. destruct r, q; cbn; congruence. Qed.

  Lemma nl_pos s : wf_nschema s -> 0 < nl s.
  Proof. destruct s; cbn; [lia|tauto]. Qed.

  Lemma find_field_acc n fs : forall off pos,
    find_field n fs off pos =
    match find_field n fs 0 0 with
    | Some (o, p, r, s) => Some (off + o, pos + p, r, s)
    | None => None
    end.
  Proof.
    induction fs as [|m r s fs IH]; intros off pos; cbn; [reflexivity|].
    destruct (N.eqb n m); [now rewrite !Nat.add_0_r|].
    rewrite (IH (off + nl s) (S pos)), (IH (nl s) 1).
    destruct (find_field n fs 0 0) as [[[[o p] r'] s']|]; [|reflexivity].
    f_equal. f_equal. f_equal. f_equal; lia.
  Qed.

  Definition field_cols (rp : rep) (s : schema) (fv : value) (r d k : nat) : list column :=
    match rp, fv with
    | Req, v => shred s v r d k
    | Opt, VOpt None => nulls s r d
    | Opt, VOpt (Some v) => shred s v r (S d) k
    | Rpt, VList [] => nulls s r d
    | Rpt, VList (x :: l) =>
        fold_left zipapp (map (fun y => shred s y (S k) (S d) (S k)) l) (shred s x r (S d) (S k))
    | _, _ => []
    end.

  Definition field_ok (rp : rep) (fv : value) : Prop :=
    match rp, fv with
    | Req, _ => True
    | Opt, VOpt _ => True
    | Rpt, VList _ => True
    | _, _ => False
    end.

  Definition field_wf (rp : rep) (s : schema) (fv : value) : Prop :=
    match rp, fv with
    | Req, v => wf s v
    | Opt, VOpt None => True
    | Opt, VOpt (Some v) => wf s v
    | Rpt, VList l => Forall (wf s) l
    | _, _ => False
    end.

  Definition field_wfn (n : nat) (rp : rep) (s : schema) (fv : value) : Prop :=
    match rp, fv with
    | Req, v => wfn n s v
    | Opt, VOpt None => True
    | Opt, VOpt (Some v) => wfn n s v
    | Rpt, VList l => length l <= n /\ Forall (wfn n s) l
    | _, _ => False
    end.

  Lemma field_wf_ok rp s (fv : value) : field_wf rp s fv -> field_ok rp fv.
  Proof.
    destruct rp; cbn; auto.
    - destruct fv as [| |[x|]|]; auto.
    - destruct fv; auto.
  Qed.

  Lemma field_wfn_wf n rp s fv : field_wfn n rp s fv -> field_wf rp s fv.
  Proof.
    destruct rp; cbn.
    - apply wfn_wf.
    - destruct fv as [| |[x|]|]; auto. apply wfn_wf.
    - destruct fv; auto. intros [_ H]. eapply Forall_impl; [|exact H]. apply wfn_wf.
  Qed.

  Lemma shred_fields_unfold rp s fs (fv : value) vs r d k :
    field_ok rp fv ->
    shred_fields (FCons rp s fs) (fv :: vs) r d k = field_cols rp s fv r d k ++ shred_fields fs vs r d k.
  Proof.
    intros H. destruct rp; cbn in H.
    - reflexivity.
    - destruct fv as [| |[x|]|]; try contradiction; reflexivity.
    - destruct fv as [| | |[|x l]]; try contradiction; reflexivity.
  Qed.

  Lemma wf_fields_cons rp s fs (fv : value) vs :
    wf_fields (FCons rp s fs) (fv :: vs) -> field_wf rp s fv /\ field_ok rp fv /\ wf_fields fs vs.
  Proof.
    intros H. destruct rp; cbn in H.
    - destruct H. repeat split; auto.
    - destruct fv as [| |[x|]|]; try contradiction; [destruct H|]; repeat split; auto.
    - destruct fv as [| | |l]; try contradiction. destruct H. repeat split; auto.
  Qed.

  Lemma wfn_fields_cons n rp s fs (fv : value) vs :
    wfn_fields n (FCons rp s fs) (fv :: vs) <-> field_wfn n rp s fv /\ wfn_fields n fs vs.
  Proof.
    destruct rp; cbn.
    - tauto.
    - destruct fv as [| |[x|]|]; tauto.
    - destruct fv; tauto.
  Qed.

  Lemma field_cols_len rp s (fv : value) r d k :
    field_wf rp s fv -> length (field_cols rp s fv r d k) = nleaves s.
  Proof.
    intros H. destruct rp; cbn in *.
    - now apply shred_len.
    - destruct fv as [| |[v|]|]; try contradiction; [now apply shred_len|apply nulls_length].
    - destruct fv as [| | |[|x l]]; try contradiction; [apply nulls_length|].
      apply Forall_cons_iff in H as [Hx Hl]. apply fold_zipapp_length; [now apply shred_len|now apply shreds_len].
  Qed.

  Lemma find_block nm n r d k : forall sfs vs off pos rp s,
    wfn_fields n (erase_fields sfs) vs ->
    find_field nm sfs 0 0 = Some (off, pos, rp, s) ->
    exists fv, nth_error vs pos = Some fv /\ field_wfn n rp (erase s) fv /\
               firstn (nl s) (skipn off (shred_fields (erase_fields sfs) vs r d k))
               = field_cols rp (erase s) fv r d k.
  Proof.
    induction sfs as [|m r0 s0 fs IH]; intros vs off pos rp s Hv Hf; [discriminate|].
    cbn [erase_fields] in *. destruct vs as [|fv vs]; [destruct r0; contradiction|].
    apply wfn_fields_cons in Hv as [Hfv Hvs]. pose proof (field_wfn_wf _ _ _ _ Hfv) as Hfw.
    rewrite shred_fields_unfold by (eapply field_wf_ok, Hfw).
    pose proof (field_cols_len r0 (erase s0) fv r d k Hfw) as L.
    cbn [find_field] in Hf. destruct (N.eqb nm m).
    - inversion Hf; subst. exists fv. cbn [nth_error skipn]. repeat split; auto.
      now apply firstn_app_len.
    - rewrite find_field_acc in Hf.
      destruct (find_field nm fs 0 0) as [[[[o p] r'] s']|] eqn:Ef; [|discriminate].
      inversion Hf; subst.
      destruct (IH vs o p rp s Hvs eq_refl) as (fv' & Hn & Hw' & Hb).
      exists fv'. cbn [nth_error]. repeat split; auto.
      cbn [Nat.add]. rewrite skipn_add, skipn_app_len by exact L. exact Hb.
  Qed.

  Lemma filter_map_none {A B} (f : A -> option B) l :
    Forall (fun x => f x = None) l -> filter_map f l = [].
  Proof. induction 1 as [|x l Hx _ IH]; cbn; [reflexivity|]. now rewrite Hx. Qed.

  Lemma nulls_group fs r d : @nulls V (Group fs) r d = repeat [(None, r, d)] (nleaves_fields fs).
  Proof. reflexivity. Qed.

  Lemma nulls_app s fs r d :
    @nulls V s r d ++ repeat [(None, r, d)] (nleaves_fields fs)
    = repeat [(None, r, d)] (nleaves s + nleaves_fields fs).
  Proof. unfold nulls. symmetry. apply repeat_app. Qed.

  Lemma nulls_app_n t fs r d :
    @nulls V (erase t) r d ++ repeat [(None, r, d)] (nlf fs) = repeat [(None, r, d)] (nl t + nlf fs).
  Proof. apply nulls_app. Qed.

  (* [pres]: the shared group is present in the entry that the template column
     contributes; then required chains get the zero value *)
  Lemma fill_plan_ok (C : list column) hold k d r d0 (pres : bool) k' :
    (forall z, run C (fill_action hold k d z) = [((if pres then z else None), r, d0)]) ->
    (forall t allreq,
       conv (fill_plan t hold k d allreq) C =
       if pres && allreq then shred (erase t) (zero_val t) r d0 k' else nulls (erase t) r d0) /\
    (forall fs allreq,
       conv (fill_plan_fields fs hold k d allreq) C =
       if pres && allreq then shred_fields (erase_fields fs) (zero_fields fs) r d0 k'
       else repeat [(None, r, d0)] (nlf fs)).
  Proof.
    intros H.
    apply nschema_both.
    - intros ty allreq. cbn [Model.fill_plan]. unfold Model.conv. cbn [map]. rewrite H.
      destruct pres, allreq; reflexivity.
    - intros fs IH allreq. cbn [Model.fill_plan]. rewrite IH.
      destruct (pres && allreq); reflexivity.
    - intros allreq. destruct (pres && allreq); reflexivity.
    - intros n rp s IHs fs IHf allreq. cbn [Model.fill_plan_fields]. rewrite conv_app, IHs, IHf.
      destruct pres; cbn [andb].
      + destruct allreq; cbn [andb].
        * destruct rp; cbn [is_req erase_fields Model.zero_fields].
          -- now rewrite shred_fields_req.
          -- now rewrite shred_fields_none.
          -- now rewrite shred_fields_nil.
        * rewrite nlf_cons. apply nulls_app_n.
      + rewrite nlf_cons. apply nulls_app_n.
  Qed.

  Lemma run_fill_present (C : list column) k d r e rest z :
    nth 0 C [] = e :: rest -> e_r V e = r -> r <= k -> d <= e_d V e ->
    Forall (fun e' => k < e_r V e') rest ->
    run C (AFill 0 k d z) = [(z, r, d)].
  Proof.
    intros HC Hr Hk Hd Ht. cbn. rewrite HC. cbn [filter_map]. unfold fill_entry at 1.
    rewrite Hr. destruct (Nat.leb_spec r k); [|lia]. destruct (Nat.leb_spec d (e_d V e)); [|lia].
    rewrite filter_map_none; [reflexivity|].
    eapply Forall_impl; [|exact Ht]. intros e' He'. cbn beta in He'. unfold fill_entry.
    destruct (Nat.leb_spec (e_r V e') k); [lia|reflexivity].
  Qed.

  Lemma run_fill_absent (C : list column) k d r d0 z :
    nth 0 C [] = [(None, r, d0)] -> r <= k -> d0 < d ->
    run C (AFill 0 k d z) = [(None, r, d0)].
  Proof.
    intros HC Hk Hd. cbn. rewrite HC. cbn. unfold fill_entry. cbn.
    destruct (Nat.leb_spec r k); [|lia]. destruct (Nat.leb_spec d d0); [lia|reflexivity].
  Qed.

  Lemma fill_plan_fields_cons n r s fs hold k d b :
    fill_plan_fields (NCons n r s fs) hold k d b
    = fill_plan s hold k d (b && is_req r) ++ fill_plan_fields fs hold k d b.
  Proof. reflexivity. Qed.

  Lemma fill_plan_spec hold k d :
    (forall t b, exists zs, length zs = nl t /\ fill_plan t hold k d b = map (fill_action hold k d) zs) /\
    (forall fs b, exists zs, length zs = nlf fs /\ fill_plan_fields fs hold k d b = map (fill_action hold k d) zs).
  Proof.
    apply nschema_both.
    - intros ty b. eexists [_]. split; reflexivity.
    - intros fs IH b. apply IH.
    - intros b. exists []. split; reflexivity.
    - intros n r s IHs fs IHf b. destruct (IHs (b && is_req r)) as (z1 & L1 & E1), (IHf b) as (z2 & L2 & E2).
      exists (z1 ++ z2). rewrite fill_plan_fields_cons, E1, E2, map_app, app_length, nlf_cons. auto.
  Qed.

  Lemma find_field_bound nm : forall sfs off pos rp s,
    find_field nm sfs 0 0 = Some (off, pos, rp, s) -> wf_nfields sfs ->
    off + nl s <= nlf sfs /\ wf_nschema s.
  Proof.
    induction sfs as [|m r0 s0 fs IH]; intros off pos rp s Hf Hw; [discriminate|].
    destruct Hw as (_ & Hs0 & Hfs). cbn [find_field] in Hf. rewrite nlf_cons.
    destruct (N.eqb nm m).
    - inversion Hf; subst. split; [lia|assumption].
    - rewrite find_field_acc in Hf.
      destruct (find_field nm fs 0 0) as [[[[o p] r'] s']|] eqn:Ef; [|discriminate].
      inversion Hf; subst. destruct (IH o p rp s eq_refl Hfs). split; [lia|assumption].
  Qed.

  Lemma holds_pos sfs k d : 0 < d -> holds sfs k d = false.
  Proof. intros H. unfold holds. destruct d; [lia|]. cbn. now rewrite andb_false_r. Qed.

  Lemma plan_fields_cons sfs nm rp t tfs k d :
    plan_fields sfs (NCons nm rp t tfs) k d =
    (match find_field nm sfs 0 0 with
     | Some (off, _, _, s) =>
         match s, t with
         | NLeaf _, NLeaf _ | NGroup _, NGroup _ =>
             map (shift V off) (plan s t (rep_k rp k) (rep_d rp d))
         | _, _ => fill_plan t (holds sfs k d) k d (is_req rp)
         end
     | None => fill_plan t (holds sfs k d) k d (is_req rp)
     end) ++ plan_fields sfs tfs k d.
  Proof. reflexivity. Qed.

  Definition project_field (rp : rep) (s t : nschema) (fv : value) : value :=
    match rp, fv with
    | Req, _ => project s t fv
    | Opt, VOpt None => VOpt None
    | Opt, VOpt (Some x) => VOpt (Some (project s t x))
    | Rpt, VList l => VList (map (project s t) l)
    | _, _ => field_default V zero rp t
    end.

  Lemma project_fields_cons sfs vs nm rp t tfs :
    project_fields sfs vs (NCons nm rp t tfs) =
    (match find_field nm sfs 0 0 with
     | Some (_, pos, _, s) =>
         match nth_error vs pos with
         | Some fv => project_field rp s t fv
         | None => field_default V zero rp t
         end
     | None => field_default V zero rp t
     end) :: project_fields sfs vs tfs.
  Proof.
    cbn [Model.project_fields]. destruct (find_field nm sfs 0 0) as [[[[off pos] rs] s]|]; [|reflexivity].
    destruct rp, (nth_error vs pos); reflexivity.
  Qed.

  Lemma plan_actions :
    (forall tgt src k d, wf_nschema src ->
       Forall (fun a => act_index V a < nl src /\ (0 < d -> is_hold V a = false)) (plan src tgt k d)) /\
    (forall tfs sfs k d, wf_nfields sfs -> 0 < nlf sfs ->
       Forall (fun a => act_index V a < nlf sfs /\ (0 < d -> is_hold V a = false)) (plan_fields sfs tfs k d)).
  Proof.
    apply nschema_both.
    - intros ty src k d Hs. constructor; [|constructor]. split; [now apply nl_pos|reflexivity].
    - intros tfs IH [ty|sfs] k d Hs; cbn [Model.plan]; [constructor|].
      destruct Hs as [Hp Hf]. now apply IH.
    - intros; constructor.
    - intros n r t IHt tfs IHf sfs k d Hs Hp. rewrite plan_fields_cons. apply Forall_app. split; [|now apply IHf].
      assert (Hfill : forall b, Forall (fun a => act_index V a < nlf sfs /\ (0 < d -> is_hold V a = false))
                                       (fill_plan t (holds sfs k d) k d b)).
      { intros b. destruct (proj1 (fill_plan_spec (holds sfs k d) k d) t b) as (zs & _ & ->).
        apply Forall_map, Forall_forall. intros z _. split.
        - destruct (holds sfs k d); exact Hp.
        - intros Hd. now rewrite (holds_pos sfs k d Hd). }
      destruct (find_field n sfs 0 0) as [[[[off pos] rs] s]|] eqn:Ef; [|apply Hfill].
      destruct (find_field_bound _ _ _ _ _ _ Ef Hs) as [Hle Hws].
      assert (Hsh : Forall (fun a => act_index V a < nlf sfs /\ (0 < d -> is_hold V a = false))
                           (map (shift V off) (plan s t (rep_k r k) (rep_d r d)))).
      { apply Forall_map. eapply Forall_impl; [|apply (IHt s _ _ Hws)]. intros a [Hi Hh]. split.
        - destruct a; cbn in *; lia.
        - intros Hd. assert (Hd' : 0 < rep_d r d) by (destruct r; cbn; lia). destruct a; cbn in *; auto. }
      destruct s, t; auto.
  Qed.

  Lemma plan_bound tgt src k d : wf_nschema src -> Forall (fun a => act_index V a < nl src) (plan src tgt k d).
  Proof. intros Hs. eapply Forall_impl; [|apply (proj1 plan_actions), Hs]. now intros a [H _]. Qed.

  Lemma plan_no_hold t s k d : wf_nschema s -> 0 < d -> no_hold V (plan s t k d).
  Proof. intros Hs Hd. eapply Forall_impl; [|apply (proj1 plan_actions), Hs]. intros a [_ H]. now apply H. Qed.

  Definition same_kind (s t : nschema) : bool :=
    match s, t with
    | NLeaf _, NLeaf _ | NGroup _, NGroup _ => true
    | _, _ => false
    end.

  Lemma compat_same_kind s t : compat s t = true -> same_kind s t = true.
  Proof. destruct s, t; cbn; auto. Qed.

  Lemma same_kind_match {X} s t (a b : X) : same_kind s t = true ->
    match s, t with NLeaf _, NLeaf _ | NGroup _, NGroup _ => a | _, _ => b end = a.
  Proof. destruct s, t; try discriminate; reflexivity. Qed.

  Lemma block_repeat {A} (x : A) N off m : off + m <= N -> firstn m (skipn off (repeat x N)) = repeat x m.
  Proof.
    intros H. replace N with (off + (m + (N - off - m))) by lia.
    now rewrite !repeat_app, skipn_app_len, firstn_app_len by apply repeat_length.
  Qed.

  Lemma nth0_repeat {A} (x dflt : A) n : 0 < n -> nth 0 (repeat x n) dflt = x.
  Proof. destruct n; [lia|reflexivity]. Qed.

  Lemma plan_on_nulls :
    (forall t s r d0 k d, same_kind s t = true -> wf_nschema s -> r <= k -> d0 < d ->
        conv (plan s t k d) (nulls (erase s) r d0) = nulls (erase t) r d0) /\
    (forall tfs sfs r d0 k d, wf_nfields sfs -> 0 < nlf sfs -> r <= k -> d0 < d ->
        conv (plan_fields sfs tfs k d) (repeat [(None, r, d0)] (nlf sfs)) = repeat [(None, r, d0)] (nlf tfs)).
  Proof.
    apply nschema_both.
    - intros ty [ty'|sfs] r d0 k d Hk Hs Hr Hd; [reflexivity|discriminate].
    - intros tfs IH [ty'|sfs] r d0 k d Hk Hs Hr Hd; [discriminate|]. destruct Hs as [Hp Hs].
      cbn [Model.plan erase]. rewrite !nulls_group. now apply IH.
    - intros; reflexivity.
    - intros n rp t IHt tfs IHf sfs r d0 k d Hs Hp Hr Hd.
      rewrite plan_fields_cons, conv_app, IHf by assumption.
      rewrite nlf_cons. rewrite <- nulls_app_n. f_equal.
      set (C := repeat [(None, r, d0)] (nlf sfs)).
      rewrite (holds_pos sfs k d) by lia.
      assert (Hfill : forall b, conv (fill_plan t false k d b) C = nulls (erase t) r d0).
      { intros b.
        destruct (fill_plan_ok C false k d r d0 false 0) as [F _].
        - intros z. apply run_fill_absent; auto. subst C. now apply nth0_repeat.
        - apply F. }
      destruct (find_field n sfs 0 0) as [[[[off pos] rs] s]|] eqn:Ef; [|apply Hfill].
      destruct (find_field_bound _ _ _ _ _ _ Ef Hs) as [Hle Hws].
      assert (Hcommon : same_kind s t = true ->
                conv (map (shift V off) (plan s t (rep_k rp k) (rep_d rp d))) C = nulls (erase t) r d0).
      { intros Hk. rewrite (conv_shift_block V _ _ _ (nl s)) by (apply plan_bound; exact Hws).
        subst C. rewrite block_repeat by exact Hle.
        apply (IHt s r d0); auto; destruct rp; cbn; lia. }
      destruct s, t; try apply Hfill; apply Hcommon; reflexivity.
  Qed.

  Lemma group_cols_shape sfs vs r d k n :
    0 < nlf sfs -> wfn_fields n (erase_fields sfs) vs ->
    exists e rest, nth 0 (shred_fields (erase_fields sfs) vs r d k) [] = e :: rest /\
                   e_r V e = r /\ d <= e_d V e /\ Forall (fun e' => k < e_r V e') rest.
  Proof.
    intros Hp Hv.
    assert (Hwv : wf (Group (erase_fields sfs)) (VGroup vs)) by exact (wfn_wf V n (Group _) (VGroup vs) Hv).
    pose proof (shred_shaped V _ _ r d k Hwv) as Hsh. pose proof (shred_len V _ _ r d k Hwv) as L.
    rewrite shred_group in Hsh, L. cbn [nleaves] in L.
    destruct (shred_fields (erase_fields sfs) vs r d k) as [|c C]; [cbn in L; unfold nlf in Hp; lia|].
    inversion Hsh as [|? ? (e & rest & -> & H1 & H2 & H3) _]; subst.
    exists e, rest. cbn. auto.
  Qed.

  Lemma convert_field s t rp (fv : value) fs' vs' r d k n :
    (forall v r d k, wfn n (erase s) v -> r <= k ->
       conv (plan s t k d) (shred (erase s) v r d k) = shred (erase t) (project s t v) r d k) ->
    compat s t = true -> wf_nschema s -> field_wfn n rp (erase s) fv -> r <= k ->
    conv (plan s t (rep_k rp k) (rep_d rp d)) (field_cols rp (erase s) fv r d k) ++ shred_fields fs' vs' r d k
    = shred_fields (FCons rp (erase t) fs') (project_field rp s t fv :: vs') r d k.
  Proof.
    intros IH Hc Hws Hfw Hr. pose proof (compat_same_kind _ _ Hc) as Hk.
    destruct rp; cbn [field_cols field_wfn rep_k rep_d project_field] in *.
    - rewrite shred_fields_req. f_equal. now apply IH.
    - destruct fv as [| |[v0|]|]; try contradiction.
      + rewrite shred_fields_some. f_equal. now apply IH.
      + rewrite shred_fields_none. f_equal. apply (proj1 plan_on_nulls); auto.
    - destruct fv as [| | |[|x l]]; try contradiction; destruct Hfw as [_ Hl]; cbn [map].
      + rewrite shred_fields_nil. f_equal. apply (proj1 plan_on_nulls); auto.
      + rewrite shred_fields_cons. f_equal. apply Forall_cons_iff in Hl as [Hx Hl].
        rewrite (conv_fold_zipapp V _ _ (plan_no_hold t s (S k) (S d) Hws (Nat.lt_0_succ d)) _ (nl s)).
        * rewrite (IH x r (S d) (S k)) by (auto; lia). f_equal.
          rewrite !map_map. apply map_ext_in. intros y Hy. rewrite Forall_forall in Hl. apply IH; auto.
        * apply shred_len. eapply wfn_wf; eauto.
        * apply shreds_len. eapply Forall_impl; [|exact Hl]. apply wfn_wf.
  Qed.

  Lemma fill_field sfs vs t rp fs' (vs' : list value) r d k n :
    0 < nlf sfs -> wfn_fields n (erase_fields sfs) vs -> r <= k ->
    conv (fill_plan t (holds sfs k d) k d (is_req rp)) (shred_fields (erase_fields sfs) vs r d k)
      ++ shred_fields fs' vs' r d k
    = shred_fields (FCons rp (erase t) fs') (field_default V zero rp t :: vs') r d k.
  Proof.
    intros Hp Hv Hr.
    destruct (group_cols_shape sfs vs r d k n Hp Hv) as (e & rest & HC & H1 & H2 & H3).
    destruct (fill_plan_ok (shred_fields (erase_fields sfs) vs r d k) (holds sfs k d) k d r d true k) as [F _].
    { intros z. unfold Model.fill_action. destruct (holds sfs k d) eqn:Eh.
      - unfold holds in Eh. apply andb_true_iff in Eh. destruct Eh as [Eh _].
        apply andb_true_iff in Eh. destruct Eh as [Ek Ed].
        apply Nat.eqb_eq in Ek. apply Nat.eqb_eq in Ed.
        cbn. replace r with 0 by lia. replace d with 0 by lia. reflexivity.
      - eapply run_fill_present; eauto. }
    rewrite F. cbn [andb].
    destruct rp; cbn [is_req Model.field_default].
    - now rewrite shred_fields_req.
    - now rewrite shred_fields_none.
    - now rewrite shred_fields_nil.
  Qed.

  Lemma convert_shred :
    (forall tgt src v r d k n, compat src tgt = true -> wf_nschema src -> wfn n (erase src) v -> r <= k ->
        conv (plan src tgt k d) (shred (erase src) v r d k) = shred (erase tgt) (project src tgt v) r d k) /\
    (forall tfs sfs vs r d k n, compat_fields sfs tfs = true -> wf_nfields sfs -> 0 < nlf sfs ->
        wfn_fields n (erase_fields sfs) vs -> r <= k ->
        conv (plan_fields sfs tfs k d) (shred_fields (erase_fields sfs) vs r d k)
        = shred_fields (erase_fields tfs) (project_fields sfs vs tfs) r d k).
  Proof.
    apply nschema_both.
    - intros ty [ty'|sfs] v r d k n Hc Hs Hv Hr; [|discriminate].
      destruct v; cbn in Hv; try contradiction. reflexivity.
    - intros tfs IH [ty'|sfs] v r d k n Hc Hs Hv Hr; [discriminate|]. destruct Hs as [Hp Hs].
      destruct v as [|vs| |]; cbn in Hv; try contradiction.
      cbn [Model.plan Model.project erase]. rewrite !shred_group. eapply IH; eauto.
    - intros; reflexivity.
    - intros nm rp t IHt tfs IHf sfs vs r d k n Hc Hs Hp Hv Hr.
      cbn [compat_fields] in Hc. apply andb_true_iff in Hc as [Hc1 Hc2].
      rewrite plan_fields_cons, project_fields_cons. cbn [erase_fields].
      rewrite conv_app, (IHf sfs vs r d k n) by assumption.
      destruct (find_field nm sfs 0 0) as [[[[off pos] rs] s]|] eqn:Ef; [|now apply (fill_field _ _ _ _ _ _ _ _ _ n)].
      apply andb_true_iff in Hc1 as [Hrep Hcst]. apply rep_eqb_eq in Hrep. subst rs.
      destruct (find_block nm n r d k sfs vs off pos rp s Hv Ef) as (fv & Hnth & Hfw & Hb).
      destruct (find_field_bound _ _ _ _ _ _ Ef Hs) as [_ Hws].
      rewrite Hnth, same_kind_match by now apply compat_same_kind.
      rewrite (conv_shift_block V _ _ _ (nl s)), Hb by (apply plan_bound; exact Hws).
      apply (convert_field s t rp fv _ _ r d k n); auto. intros; eapply IHt; eauto.
  Qed.

  Lemma zero_wfn n :
    (forall t, wfn n (erase t) (zero_val t)) /\
    (forall fs, wfn_fields n (erase_fields fs) (zero_fields fs)).
  Proof.
    apply nschema_both.
    - intros; exact I.
    - intros fs IH. exact IH.
    - exact I.
    - intros nm rp s IHs fs IHf. destruct rp; cbn.
      + split; assumption.
      + exact IHf.
      + split; [split; [lia|constructor]|exact IHf].
  Qed.

  Lemma default_wfn n rp t fs vs :
    wfn_fields n (erase_fields fs) vs ->
    wfn_fields n (FCons rp (erase t) (erase_fields fs)) (field_default V zero rp t :: vs).
  Proof.
    intros H. destruct rp; cbn.
    - split; [apply zero_wfn|exact H].
    - exact H.
    - split; [split; [lia|constructor]|exact H].
  Qed.

  Lemma project_wfn n :
    (forall tgt src v, compat src tgt = true -> wf_nschema src -> wfn n (erase src) v ->
        wfn n (erase tgt) (project src tgt v)) /\
    (forall tfs sfs vs, compat_fields sfs tfs = true -> wf_nfields sfs ->
        wfn_fields n (erase_fields sfs) vs ->
        wfn_fields n (erase_fields tfs) (project_fields sfs vs tfs)).
  Proof.
    apply nschema_both.
    - intros ty [ty'|sfs] v Hc Hs Hv; [|discriminate]. exact Hv.
    - intros tfs IH [ty'|sfs] v Hc Hs Hv; [discriminate|]. destruct Hs as [Hp Hs].
      destruct v as [|vs| |]; cbn in Hv; try contradiction.
      cbn [Model.project erase]. change (wfn_fields n (erase_fields tfs) (project_fields sfs vs tfs)).
      now apply IH.
    - intros; exact I.
    - intros nm rp t IHt tfs IHf sfs vs Hc Hs Hv.
      cbn [compat_fields] in Hc. apply andb_true_iff in Hc. destruct Hc as [Hc1 Hc2].
      rewrite project_fields_cons. cbn [erase_fields].
      specialize (IHf sfs vs Hc2 Hs Hv).
      destruct (find_field nm sfs 0 0) as [[[[off pos] rs] s]|] eqn:Ef; [|now apply default_wfn].
      apply andb_true_iff in Hc1. destruct Hc1 as [Hrep Hcst].
      apply rep_eqb_eq in Hrep. subst rs.
      destruct (find_block nm n 0 0 0 sfs vs off pos rp s Hv Ef) as (fv & Hnth & Hfw & _).
      destruct (find_field_bound _ _ _ _ _ _ Ef Hs) as [_ Hws].
      rewrite Hnth. destruct rp; cbn [field_wfn] in Hfw.
      + cbn. split; [|exact IHf]. now apply IHt.
      + destruct fv as [| |[v0|]|]; try contradiction; cbn; [split; [now apply IHt|exact IHf]|exact IHf].
      + destruct fv as [| | |l]; try contradiction. destruct Hfw as [Hn Hl]. cbn. split; [|exact IHf].
        split; [now rewrite map_length|].
        apply Forall_forall. intros y Hy. apply in_map_iff in Hy. destruct Hy as (y0 & <- & Hy0).
        rewrite Forall_forall in Hl. apply IHt; auto.
  Qed.

  Inductive suffix_of (sfs : nfields) : nfields -> nat -> Prop :=
  | suf_nil : forall pos, suffix_of sfs NNil pos
  | suf_cons : forall nm rp t tfs off pos,
      find_field nm sfs 0 0 = Some (off, pos, rp, t) -> suffix_of sfs tfs (S pos) ->
      suffix_of sfs (NCons nm rp t tfs) pos.

  Lemma suffix_weaken m r s fs : forall tfs pos,
    suffix_of fs tfs pos -> has_name m tfs = false -> suffix_of (NCons m r s fs) tfs (S pos).
  Proof.
    induction 1 as [|nm rp t tfs off pos Hf _ IH]; intros Hn; [constructor|].
    cbn [has_name] in Hn. apply orb_false_iff in Hn. destruct Hn as [Hne Hn].
    apply (suf_cons _ _ _ _ _ (nl s + off)); [|now apply IH].
    cbn [find_field]. rewrite N.eqb_sym, Hne.
    rewrite find_field_acc, Hf. reflexivity.
  Qed.

  Lemma suffix_self fs : wf_nfields fs -> suffix_of fs fs 0.
  Proof.
    induction fs as [|m r s fs IH]; intros Hw; [constructor|].
    destruct Hw as (Hn & _ & Hfs).
    apply (suf_cons _ _ _ _ _ 0).
    - cbn. now rewrite N.eqb_refl.
    - apply suffix_weaken; auto.
  Qed.

  Lemma skipn_cons_nth {A} (l : list A) pos x rest :
    skipn pos l = x :: rest -> nth_error l pos = Some x /\ skipn (S pos) l = rest.
  Proof.
    revert l. induction pos as [|pos IH]; intros [|y l] H; cbn in *; try discriminate.
    - inversion H; subst. split; reflexivity.
    - now apply IH.
  Qed.

  Lemma project_self n :
    (forall s v, wf_nschema s -> wfn n (erase s) v -> project s s v = v) /\
    (forall tfs sfs vs pos, suffix_of sfs tfs pos -> wf_nfields tfs ->
        wfn_fields n (erase_fields tfs) (skipn pos vs) -> project_fields sfs vs tfs = skipn pos vs).
  Proof.
    apply nschema_both.
    - intros; reflexivity.
    - intros fs IH v [_ Hs] Hv. destruct v as [|vs| |]; cbn in Hv; try contradiction.
      cbn [Model.project]. f_equal. apply (IH fs vs 0); auto. now apply suffix_self.
    - intros sfs vs pos _ _ Hv. cbn in Hv. destruct (skipn pos vs); [reflexivity|contradiction].
    - intros nm rp t IHt tfs IHf sfs vs pos Hsuf Hw Hv.
      destruct Hw as (_ & Hwt & Hwf).
      inversion Hsuf as [|? ? ? ? off ? Hf Hsuf']; subst.
      rewrite project_fields_cons, Hf. cbn [erase_fields] in Hv.
      destruct (skipn pos vs) as [|fv rest] eqn:Es; [destruct rp; contradiction|].
      destruct (skipn_cons_nth _ _ _ _ Es) as [Hn Hrest]. rewrite Hn.
      apply wfn_fields_cons in Hv as [Hfw Hvs].
      rewrite <- Hrest in Hvs. rewrite (IHf sfs vs (S pos) Hsuf' Hwf Hvs), Hrest.
      f_equal. destruct rp; cbn [field_wfn project_field] in *.
      + now apply IHt.
      + destruct fv as [| |[v0|]|]; try contradiction; [|reflexivity]. now rewrite IHt.
      + destruct fv as [| | |l]; try contradiction. destruct Hfw as [_ Hl]. f_equal.
        rewrite <- (map_id l) at 2. apply map_ext_in. intros y Hy.
        rewrite Forall_forall in Hl. apply IHt; auto.
  Qed.

  Lemma compat_self :
    (forall s, wf_nschema s -> compat s s = true) /\
    (forall tfs sfs pos, suffix_of sfs tfs pos -> wf_nfields tfs -> compat_fields sfs tfs = true).
  Proof.
    apply nschema_both.
    - intros ty _. cbn. apply N.eqb_refl.
    - intros fs IH [_ Hs]. cbn. apply (IH fs 0); auto. now apply suffix_self.
    - reflexivity.
    - intros nm rp t IHt tfs IHf sfs pos Hsuf (_ & Hwt & Hwf).
      inversion Hsuf as [|? ? ? ? off ? Hf Hsuf']; subst.
      cbn [compat_fields]. rewrite Hf, (IHf sfs (S pos) Hsuf' Hwf), (IHt Hwt).
      destruct rp; reflexivity.
  Qed.

  Lemma nschema_eqb_eq :
    (forall a b, nschema_eqb a b = true -> a = b) /\
    (forall a b, nfields_eqb a b = true -> a = b).
  Proof.
    apply nschema_both.
    - intros ty [ty'|fs] H; cbn in H; [|discriminate]. apply N.eqb_eq in H. now subst.
    - intros fs IH [ty'|fs'] H; cbn in H; [discriminate|]. f_equal. now apply IH.
    - intros [|] H; cbn in H; [reflexivity|discriminate].
    - intros n r s IHs fs IHf [|m q t fs'] H; cbn in H; [discriminate|].
      apply andb_true_iff in H. destruct H as [H H4]. apply andb_true_iff in H. destruct H as [H H3].
      apply andb_true_iff in H. destruct H as [H1 H2]. apply N.eqb_eq in H1.
      apply rep_eqb_eq in H2. subst. f_equal; auto.
  Qed.

  Lemma nschema_eqb_refl : (forall a, nschema_eqb a a = true) /\ (forall a, nfields_eqb a a = true).
  Proof.
    apply nschema_both.
    - intros; cbn; apply N.eqb_refl.
    - intros fs IH; exact IH.
    - reflexivity.
    - intros n r s' IHs fs IHf. cbn. rewrite N.eqb_refl, IHs, IHf. destruct r; reflexivity.
  Qed.

  (* one row, general path *)
  Theorem convert_is_shred_project src tgt v n :
    compat src tgt = true -> wf_nschema src -> wfn n (erase src) v ->
    conv (plan src tgt 0 0) (shred_row (erase src) v) = shred_row (erase tgt) (project src tgt v).
  Proof. intros Hc Hs Hv. unfold shred_row. eapply (proj1 convert_shred); eauto. Qed.

  Theorem convert_general_is_projection src tgt v n tails :
    compat src tgt = true -> wf_nschema src -> wf_nschema tgt -> wfn n (erase src) v ->
    length tails = nl tgt -> heads_le V 0 tails ->
    asm (erase tgt) 0 0 (S n)
        (zipapp (convert_columns_general V zero src tgt (shred_row (erase src) v)) tails)
    = Some (project src tgt v, tails).
  Proof.
    intros Hc Hs Ht Hv Hl Hh. unfold convert_columns_general.
    rewrite (convert_is_shred_project src tgt v n) by assumption.
    unfold shred_row. apply asm_shred; auto.
    - now apply wf_erase.
    - eapply (proj1 (project_wfn n)); eauto.
  Qed.

  (* Convert + conversion.Convert with the identity shortcut and the rejection *)
  Theorem convert_is_projection src tgt v n tails :
    compat src tgt = true -> wf_nschema src -> wf_nschema tgt -> wfn n (erase src) v ->
    length tails = nl tgt -> heads_le V 0 tails ->
    exists cols, convert_columns V zero src tgt (shred_row (erase src) v) = Some cols /\
      asm (erase tgt) 0 0 (S n) (zipapp cols tails) = Some (project src tgt v, tails).
  Proof.
    intros Hc Hs Ht Hv Hl Hh. unfold convert_columns.
    destruct (nschema_eqb src tgt) eqn:E.
    - apply (proj1 nschema_eqb_eq) in E. subst tgt. eexists; split; [reflexivity|].
      rewrite (proj1 (project_self n)) by assumption.
      unfold shred_row. apply asm_shred; auto. now apply wf_erase.
    - rewrite Hc. eexists; split; [reflexivity|].
      now apply (convert_general_is_projection src tgt v n tails).
  Qed.

  (* every well-formed value: the fuel of the assembler is the bound of the value *)
  Theorem convert_is_projection_wf src tgt (v : value) tails :
    compat src tgt = true -> wf_nschema src -> wf_nschema tgt -> wf (erase src) v ->
    length tails = nl tgt -> heads_le V 0 tails ->
    exists fuel cols, convert_columns V zero src tgt (shred_row (erase src) v) = Some cols /\
      asm (erase tgt) 0 0 fuel (zipapp cols tails) = Some (project src tgt v, tails).
  Proof.
    intros Hc Hs Ht Hv Hl Hh.
    destruct (convert_is_projection src tgt v (vbound V v) tails Hc Hs Ht (wf_wfn V _ _ Hv) Hl Hh) as (cols & H1 & H2).
    exists (S (vbound V v)), cols. split; assumption.
  Qed.

  (* sequences of rows: count and order *)
  Definition concat_rows (width : nat) (rows : list (list column)) : list column :=
    fold_right zipapp (repeat [] width) rows.

  Lemma concat_rows_cols s (vs : list value) :
    concat_rows (nleaves s) (map (shred_row s) vs) = rows_cols V s vs.
  Proof. induction vs as [|v vs IH]; cbn; [reflexivity|]. now rewrite <- IH. Qed.

  Theorem convert_rows_preserved src tgt vs n :
    compat src tgt = true -> wf_nschema src -> wf_nschema tgt -> Forall (wfn n (erase src)) vs ->
    exists rows, convert_rows V zero src tgt (map (shred_row (erase src)) vs) = Some rows /\
      length rows = length vs /\
      asm_rows (length vs) (erase tgt) (S n) (concat_rows (nl tgt) rows)
      = Some (map (project src tgt) vs).
  Proof.
    intros Hc Hs Ht Hv.
    assert (Hrows : exists rows, convert_rows V zero src tgt (map (shred_row (erase src)) vs) = Some rows /\
                      rows = map (shred_row (erase tgt)) (map (project src tgt) vs)).
    { unfold convert_rows. destruct (nschema_eqb src tgt) eqn:E.
      - apply (proj1 nschema_eqb_eq) in E. subst tgt. eexists; split; [reflexivity|].
        rewrite map_map. apply map_ext_in. intros v Hin. rewrite Forall_forall in Hv.
        now rewrite (proj1 (project_self n)) by auto.
      - rewrite Hc. eexists; split; [reflexivity|].
        rewrite !map_map. apply map_ext_in. intros v Hin. rewrite Forall_forall in Hv.
        apply (convert_is_shred_project src tgt v n); auto. }
    destruct Hrows as (rows & E & ->). exists (map (shred_row (erase tgt)) (map (project src tgt) vs)).
    split; [exact E|]. split; [now rewrite !map_length|].
    unfold nl. rewrite concat_rows_cols.
    assert (Hp : Forall (wfn n (erase tgt)) (map (project src tgt) vs)).
    { apply Forall_forall. intros y Hy. apply in_map_iff in Hy. destruct Hy as (v & <- & Hin).
      rewrite Forall_forall in Hv. eapply (proj1 (project_wfn n)); eauto. }
    rewrite <- (map_length (project src tgt) vs).
    rewrite <- (shred_rows_eq V _ (wf_erase _ Ht)).
    - apply asm_rows_shred_rows; auto. now apply wf_erase.
    - eapply Forall_impl; [|exact Hp]. apply wfn_wf.
  Qed.

  (* the shortcut taken for equal schemas agrees with the general path *)
  Theorem convert_identity s v n :
    wf_nschema s -> wfn n (erase s) v ->
    convert_columns V zero s s (shred_row (erase s) v) = Some (shred_row (erase s) v) /\
    convert_columns_general V zero s s (shred_row (erase s) v) = shred_row (erase s) v /\
    project s s v = v.
  Proof.
    intros Hs Hv. split; [|split].
    - unfold convert_columns.
      now rewrite (proj1 nschema_eqb_refl).
    - unfold convert_columns_general.
      rewrite (convert_is_shred_project s s v n); auto; [|now apply (proj1 compat_self)].
      now rewrite (proj1 (project_self n)).
    - now apply (proj1 (project_self n)).
  Qed.

  (* two same-named nodes that do not agree *)
  Inductive clash : nschema -> nschema -> Prop :=
  | clash_leaf_group : forall ty fs, clash (NLeaf ty) (NGroup fs)
  | clash_group_leaf : forall fs ty, clash (NGroup fs) (NLeaf ty)
  | clash_type : forall a b, a <> b -> clash (NLeaf a) (NLeaf b)
  | clash_field : forall sfs tfs, clash_fields sfs tfs -> clash (NGroup sfs) (NGroup tfs)
  with clash_fields : nfields -> nfields -> Prop :=
  | clash_here_rep : forall sfs nm rp t tfs off pos rs s,
      find_field nm sfs 0 0 = Some (off, pos, rs, s) -> rs <> rp ->
      clash_fields sfs (NCons nm rp t tfs)
  | clash_here_node : forall sfs nm rp t tfs off pos rs s,
      find_field nm sfs 0 0 = Some (off, pos, rs, s) -> clash s t ->
      clash_fields sfs (NCons nm rp t tfs)
  | clash_later : forall sfs nm rp t tfs, clash_fields sfs tfs -> clash_fields sfs (NCons nm rp t tfs).

  Scheme clash_mut := Induction for clash Sort Prop
  with clash_fields_mut := Induction for clash_fields Sort Prop.

  Lemma clash_not_compat : forall src tgt, clash src tgt -> compat src tgt = false.
  Proof.
    apply (clash_mut (fun src tgt _ => compat src tgt = false)
                     (fun sfs tfs _ => compat_fields sfs tfs = false)).
    - reflexivity.
    - reflexivity.
    - intros a b Hab. cbn. apply N.eqb_neq. congruence.
    - intros sfs tfs _ IH. exact IH.
    - intros sfs nm rp t tfs off pos rs s Hf Hne. cbn [compat_fields]. rewrite Hf.
      destruct rs, rp; try congruence; reflexivity.
    - intros sfs nm rp t tfs off pos rs s Hf _ IH. cbn [compat_fields]. rewrite Hf, IH.
      now rewrite andb_false_r.
    - intros sfs nm rp t tfs _ IH. cbn [compat_fields]. rewrite IH. apply andb_false_r.
  Qed.

  Lemma not_compat_clash :
    (forall tgt src, compat src tgt = false -> clash src tgt) /\
    (forall tfs sfs, compat_fields sfs tfs = false -> clash_fields sfs tfs).
  Proof.
    apply nschema_both.
    - intros ty [ty'|sfs] H; [|constructor]. cbn in H. apply N.eqb_neq in H. constructor. congruence.
    - intros tfs IH [ty'|sfs] H; [constructor|]. constructor. now apply IH.
    - intros sfs H. discriminate.
    - intros nm rp t IHt tfs IHf sfs H. cbn [compat_fields] in H.
      apply andb_false_iff in H. destruct H as [H|H]; [|apply clash_later; now apply IHf].
      destruct (find_field nm sfs 0 0) as [[[[off pos] rs] s]|] eqn:Ef; [|discriminate].
      apply andb_false_iff in H. destruct H as [H|H].
      + eapply clash_here_rep; [exact Ef|]. intros ->. destruct rp; discriminate.
      + eapply clash_here_node; [exact Ef|]. now apply IHt.
  Qed.

  Theorem incompatible_rejected src tgt cols :
    wf_nschema src -> clash src tgt -> convert_columns V zero src tgt cols = None.
  Proof.
    intros Hs Hc. pose proof (clash_not_compat _ _ Hc) as Hn. unfold convert_columns.
    destruct (nschema_eqb src tgt) eqn:E.
    - apply (proj1 nschema_eqb_eq) in E. subst tgt.
      rewrite (proj1 compat_self src Hs) in Hn. discriminate.
    - now rewrite Hn.
  Qed.

  Theorem rejected_only_if_clash src tgt cols :
    convert_columns V zero src tgt cols = None -> clash src tgt.
  Proof.
    unfold convert_columns. destruct (nschema_eqb src tgt); [discriminate|].
    destruct (compat src tgt) eqn:E; [discriminate|]. intros _. now apply (proj1 not_compat_clash).
  Qed.
End Proofs.
