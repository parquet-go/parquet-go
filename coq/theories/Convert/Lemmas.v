(** List and column lemmas used by Convert/Proofs.v and WidenProofs.v: [conv]
    over column-wise concatenation, the shape of shredded columns, the bound
    of a well-formed value. *)
From Coq Require Import List Arith Bool NArith Lia.
From PQ Require Import Base.ListExtra Dremel.Model Dremel.Proofs Convert.Model.
Import ListNotations.

Section Lemmas.
  Variable V : Type.
  Notation value := (value V).
  Notation entry := (entry V).
  Notation column := (column V).
  Notation action := (action V).
  Notation run := (run V).
  Notation conv := (conv V).

  Lemma filter_map_app {A B} (f : A -> option B) (a b : list A) :
    filter_map f (a ++ b) = filter_map f a ++ filter_map f b.
  Proof.
    induction a as [|x a IH]; cbn; [reflexivity|]. destruct (f x); cbn; now rewrite IH.
  Qed.

  Lemma nth_zipapp (A B : list column) i :
    length A = length B -> nth i (zipapp A B) [] = nth i A [] ++ nth i B [].
  Proof.
    revert B i. induction A as [|x A IH]; intros [|y B] i H; cbn in *; try lia.
    - now destruct i.
    - destruct i; [reflexivity|]. apply IH. lia.
  Qed.

  Lemma run_zipapp (A B : list column) a :
    is_hold V a = false -> length A = length B -> run (zipapp A B) a = run A a ++ run B a.
  Proof.
    intros Hh H. destruct a as [i|i k d z|z]; cbn; [| |discriminate].
    - now apply nth_zipapp.
    - rewrite nth_zipapp by assumption. apply filter_map_app.
  Qed.

  Definition no_hold (acts : list action) : Prop := Forall (fun a => is_hold V a = false) acts.

  Lemma conv_zipapp acts (A B : list column) :
    no_hold acts -> length A = length B -> conv acts (zipapp A B) = zipapp (conv acts A) (conv acts B).
  Proof.
    intros Hn H. unfold Model.conv. induction Hn as [|a acts Ha _ IH]; cbn; [reflexivity|].
    now rewrite run_zipapp, IH.
  Qed.

  Lemma conv_length acts (C : list column) : length (conv acts C) = length acts.
  Proof. unfold Model.conv. apply map_length. Qed.

  Lemma conv_app a1 a2 (C : list column) : conv (a1 ++ a2) C = conv a1 C ++ conv a2 C.
  Proof. unfold Model.conv. apply map_app. Qed.

  Lemma conv_fold_zipapp acts (Ms : list (list column)) : no_hold acts -> forall A n,
    length A = n -> Forall (fun M => length M = n) Ms ->
    conv acts (fold_left zipapp Ms A) = fold_left zipapp (map (conv acts) Ms) (conv acts A).
  Proof.
    intros Hn. induction Ms as [|M Ms IH]; intros A n HA HM; cbn [fold_left map]; [reflexivity|].
    inversion HM; subst.
    rewrite (IH _ (length A)); [|rewrite zipapp_length; lia|assumption].
    now rewrite conv_zipapp by (auto; lia).
  Qed.

  Lemma run_shift (C : list column) o a : run C (shift V o a) = run (skipn o C) a.
  Proof. destruct a; cbn; try reflexivity; now rewrite nth_skipn_add. Qed.

  Lemma conv_shift acts (C : list column) o : conv (map (shift V o) acts) C = conv acts (skipn o C).
  Proof.
    unfold Model.conv. rewrite map_map. apply map_ext. intros a. apply run_shift.
  Qed.

  Lemma run_firstn (C : list column) n a : act_index V a < n -> run (firstn n C) a = run C a.
  Proof. destruct a; cbn; intros H; try reflexivity; now rewrite nth_firstn_lt. Qed.

  Lemma conv_firstn acts (C : list column) n :
    Forall (fun a => act_index V a < n) acts -> conv acts (firstn n C) = conv acts C.
  Proof.
    unfold Model.conv. intros H. apply map_ext_in. intros a Ha.
    rewrite Forall_forall in H. apply run_firstn. now apply H.
  Qed.

  Lemma conv_shift_block acts (C : list column) off n :
    Forall (fun a => act_index V a < n) acts -> conv (map (shift V off) acts) C = conv acts (firstn n (skipn off C)).
  Proof. intros H. now rewrite conv_shift, conv_firstn. Qed.

  (** columns of a (sub)record: first entry at levels (r, >= d), later
      entries repeat at a level > k *)
  Definition shaped (r d k : nat) (cols : list column) : Prop :=
    Forall (fun c => exists e rest, c = e :: rest /\ e_r V e = r /\ d <= e_d V e /\
                                    Forall (fun e' => k < e_r V e') rest) cols.

  Lemma shaped_app r d k a b : shaped r d k a -> shaped r d k b -> shaped r d k (a ++ b).
  Proof. intros. apply Forall_app. now split. Qed.

  Lemma shaped_weaken r d d' k k' cols : d' <= d -> k' <= k -> shaped r d k cols -> shaped r d' k' cols.
  Proof.
    intros Hd Hk H. eapply Forall_impl; [|exact H]. intros c (e & rest & -> & Hr & He & Ht).
    exists e, rest. repeat split; auto; [lia|]. eapply Forall_impl; [|exact Ht]. cbn. intros. lia.
  Qed.

  Lemma shaped_nulls s r d k : shaped r d k (@nulls V s r d).
  Proof.
    unfold nulls. apply Forall_forall. intros c Hc. apply repeat_spec in Hc. subst c.
    exists (None, r, d), []. cbn. repeat split; auto.
  Qed.

  Lemma shaped_zipapp r d k (a b : list column) :
    shaped r d k a -> shaped (S k) d (S k) b -> shaped r d k (zipapp a b).
  Proof.
    intros Ha. revert b. induction Ha as [|x a (e & rest & -> & Hr & Hd & Ht) _ IH];
      intros b Hb; destruct Hb as [|y b (e' & rest' & -> & Hr' & Hd' & Ht') Hb]; cbn [zipapp]; constructor.
    - exists e, (rest ++ e' :: rest'). repeat split; auto.
      apply Forall_app. split; [exact Ht|]. constructor; [lia|].
      eapply Forall_impl; [|exact Ht']. cbn. intros. lia.
    - now apply IH.
  Qed.

  Lemma shaped_fold_zipapp r d k (Ms : list (list column)) : forall A,
    shaped r d k A -> Forall (shaped (S k) d (S k)) Ms -> shaped r d k (fold_left zipapp Ms A).
  Proof.
    induction Ms as [|M Ms IH]; intros A HsA HsM; cbn [fold_left]; [exact HsA|].
    inversion HsM; subst. apply IH; [|assumption]. now apply shaped_zipapp.
  Qed.

  Lemma shred_shaped s (v : value) r d k : wf s v -> shaped r d k (shred s v r d k).
  Proof.
    revert s v r d k.
    apply (shred_wf_ind V (fun _ r d k c => shaped r d k c) (fun _ r d k c => shaped r d k c)); intros;
      try apply shaped_app; auto using shaped_nulls.
    - constructor; [|constructor]. exists (Some x, r, d), []. cbn. repeat split; auto.
    - constructor.
    - apply (shaped_weaken r (S d) d k k); auto.
    - apply (shaped_weaken r (S d) d k k); auto. apply shaped_fold_zipapp; [|assumption].
      apply (shaped_weaken r (S d) (S d) (S k) k); auto.
  Qed.

  (** every well-formed value has a bound on the lengths of its lists *)
  Fixpoint vbound (v : value) : nat :=
    match v with
    | VLeaf _ => 0
    | VGroup vs => list_max (map vbound vs)
    | VOpt None => 0
    | VOpt (Some x) => vbound x
    | VList l => Nat.max (length l) (list_max (map vbound l))
    end.

  Lemma wfn_mono n m : n <= m ->
    forall s (v : value), wfn V n s v -> wfn V m s v.
  Proof.
    intros Hnm.
    apply (schema_mut (fun s => forall v : value, wfn V n s v -> wfn V m s v)
                      (fun fs => forall vs : list value, wfn_fields V n fs vs -> wfn_fields V m fs vs)).
    - intros [x| | |] H; simpl in *; auto.
    - intros fs IH [|vs| |] H; simpl in *; auto.
    - intros [|v vs] H; simpl in *; auto.
    - intros rp s IHs fs IHf [|fv vs] H; destruct rp; simpl in *; try contradiction.
      + destruct H. split; auto.
      + destruct fv as [| |[v|]|]; try contradiction; [destruct H; split; auto|auto].
      + destruct fv as [| | |l]; try contradiction. destruct H as [[Hl Hf] Hvs]. split; [split|auto].
        * lia.
        * eapply Forall_impl; [|exact Hf]. auto.
  Qed.

  Lemma in_list_max x l : In x l -> x <= list_max l.
  Proof.
    intros H. assert (Hm : list_max l <= list_max l) by lia.
    apply list_max_le in Hm. rewrite Forall_forall in Hm. now apply Hm.
  Qed.

  Lemma list_max_cons a l : list_max (a :: l) = Nat.max a (list_max l).
  Proof. reflexivity. Qed.

  Lemma wf_wfn : forall s (v : value), wf s v -> wfn V (vbound v) s v.
  Proof.
    apply (schema_mut (fun s => forall v : value, wf s v -> wfn V (vbound v) s v)
                      (fun fs => forall vs : list value, wf_fields fs vs -> wfn_fields V (list_max (map vbound vs)) fs vs)).
    - intros [x| | |] H; simpl in *; auto.
    - intros fs IH [|vs| |] H; simpl in H; try contradiction. apply IH. exact H.
    - intros [|v vs] H; simpl in *; auto.
    - intros rp s IHs fs IHf [|fv vs] H; [destruct rp; contradiction|].
      assert (Ht : forall a, wf_fields fs vs -> wfn_fields V (Nat.max a (list_max (map vbound vs))) fs vs).
      { intros a Hvs. apply (wfn_mono (list_max (map vbound vs)) _ (Nat.le_max_r _ _) (Group fs) (VGroup vs)).
        now apply IHf. }
      cbn [map]. rewrite list_max_cons. destruct rp; simpl in H.
      + destruct H as [Hv Hvs]. split; [|now apply Ht].
        eapply wfn_mono; [|apply IHs; exact Hv]. lia.
      + destruct fv as [| |[v|]|]; try contradiction; cbn [vbound]; [|now apply Ht].
        destruct H as [Hv Hvs]. split; [|now apply Ht].
        eapply wfn_mono; [|apply IHs; exact Hv]. lia.
      + destruct fv as [| | |l]; try contradiction. destruct H as [Hl Hvs]. cbn [vbound].
        split; [split|now apply Ht].
        * lia.
        * apply Forall_forall. intros y Hy. rewrite Forall_forall in Hl.
          eapply wfn_mono; [|apply IHs; apply Hl; exact Hy].
          pose proof (in_list_max (vbound y) (map vbound l) (in_map vbound l y Hy)). lia.
  Qed.
End Lemmas.
