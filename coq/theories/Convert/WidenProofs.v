(** Lifting the definition levels of the converted columns is shredding with
    the widened schema: [widen_columns] and [widen_columns_top] commute with
    [shred]; hence the conversion through a widening target is a projection. *)
From Coq Require Import List Arith Bool NArith Lia.
From PQ Require Import Dremel.Model Dremel.Proofs Convert.Model Convert.Lemmas Convert.Proofs Convert.Widen.
Import ListNotations.

Section WidenProofs.
  Variable V : Type.
  Variable zero : N -> V.
  Notation value := (value V).
  Notation entry := (entry V).
  Notation column := (column V).
  Notation widen_val := (widen_val V).
  Notation widen_vals := (widen_vals V).
  Notation lift := (lift V).
  Notation lift_all := (lift_all V).
  Notation widen_columns := (widen_columns V).
  Notation widen_field := (widen_field V).
  Notation widen_top := (widen_top V).
  Notation widen_top_fields := (widen_top_fields V).
  Notation lift_top := (lift_top V).
  Notation lift_all_top := (lift_all_top V).
  Notation field_cols := (field_cols V).
  Notation field_ok := (field_ok V).
  Notation field_wf := (field_wf V).
  Notation project := (project V zero).
  Notation wfn := (wfn V).
  Notation wfn_fields := (wfn_fields V).

  (** ** every entry of the columns of a (sub)record is defined at least at
         the level reached so far *)
  Definition all_ge (d : nat) (cols : list column) : Prop :=
    Forall (Forall (fun e => d <= e_d V e)) cols.

  Lemma all_ge_app d a b : all_ge d a -> all_ge d b -> all_ge d (a ++ b).
  Proof. intros. apply Forall_app. now split. Qed.

  Lemma all_ge_weaken d d' cols : d' <= d -> all_ge d cols -> all_ge d' cols.
  Proof.
    intros Hd H. eapply Forall_impl; [|exact H]. intros c Hc.
    eapply Forall_impl; [|exact Hc]. cbn. intros. lia.
  Qed.

  Lemma all_ge_nulls s r d : all_ge d (@nulls V s r d).
  Proof.
    unfold nulls. apply Forall_forall. intros c Hc. apply repeat_spec in Hc. subst c.
    constructor; [cbn; lia|constructor].
  Qed.

  Lemma all_ge_zipapp d (a b : list column) : all_ge d a -> all_ge d b -> all_ge d (zipapp a b).
  Proof.
    revert b. induction a as [|x a IH]; intros [|y b] Ha Hb; cbn; try constructor.
    - inversion Ha; inversion Hb; subst. apply Forall_app. now split.
    - inversion Ha; inversion Hb; subst. now apply IH.
  Qed.

  Lemma all_ge_fold d (Ms : list (list column)) : forall A,
    all_ge d A -> Forall (all_ge d) Ms -> all_ge d (fold_left zipapp Ms A).
  Proof.
    induction Ms as [|M Ms IH]; intros A HA HM; cbn [fold_left]; [exact HA|].
    inversion HM; subst. apply IH; [|assumption]. now apply all_ge_zipapp.
  Qed.

  Lemma shred_all_ge :
    forall s (v : value) r d k, wf s v -> all_ge d (shred s v r d k).
  Proof.
    apply (shred_wf_ind V (fun _ _ d _ c => all_ge d c) (fun _ _ d _ c => all_ge d c)); intros;
      try apply all_ge_app; auto using all_ge_nulls.
    - repeat constructor.
    - constructor.
    - apply (all_ge_weaken (S d)); auto.
    - apply (all_ge_weaken (S d)); auto. now apply all_ge_fold.
  Qed.

  Lemma widens_fields_cons n r s sfs m q t tfs :
    widens_fields (NCons n r s sfs) (NCons m q t tfs) = true ->
    rep_widens r q = true /\ widens s t = true /\ widens_fields sfs tfs = true.
  Proof. cbn. rewrite !andb_true_iff. intros [[[_ H2] H3] H4]. auto. Qed.

  Lemma widens_nl :
    (forall s t, widens s t = true -> nl t = nl s) /\
    (forall sfs tfs, widens_fields sfs tfs = true -> nlf tfs = nlf sfs).
  Proof.
    apply nschema_both.
    - intros ty [b|tfs] H; cbn in H; [reflexivity|discriminate].
    - intros sfs IH [b|tfs] H; cbn in H; [discriminate|]. now apply IH.
    - intros [|m q t tfs'] H; cbn in H; [reflexivity|discriminate].
    - intros n r s IHs sfs' IHf [|m q t tfs'] H; cbn in H; [discriminate|].
      destruct (widens_fields_cons _ _ _ _ _ _ _ _ H) as (_ & H3 & H4).
      rewrite !nlf_cons. now rewrite (IHs _ H3), (IHf _ H4).
  Qed.

  Lemma thr_length :
    (forall s t d, length (thr s t d) = nl s) /\
    (forall sfs tfs d, length (thr_fields sfs tfs d) = nlf sfs).
  Proof.
    apply nschema_both.
    - intros ty t d. destruct t; cbn; reflexivity.
    - intros sfs IH [b|tfs] d; cbn [thr].
      + now rewrite repeat_length.
      + apply IH.
    - intros tfs d. reflexivity.
    - intros n r s IHs sfs' IHf [|m q t tfs'] d; cbn [thr_fields]; rewrite app_length, nlf_cons.
      + now rewrite repeat_length, IHf.
      + now rewrite map_length, IHs, IHf.
  Qed.

  Definition ths_ge (d : nat) (T : list (list nat)) : Prop := Forall (Forall (fun x => d <= x)) T.

  Lemma ths_ge_repeat d n : ths_ge d (repeat [] n).
  Proof. apply Forall_forall. intros x Hx. apply repeat_spec in Hx. subst. constructor. Qed.

  Lemma ths_ge_weaken d d' T : d' <= d -> ths_ge d T -> ths_ge d' T.
  Proof.
    intros Hd H. eapply Forall_impl; [|exact H]. intros c Hc.
    eapply Forall_impl; [|exact Hc]. cbn. intros. lia.
  Qed.

  Lemma thr_ge :
    (forall s t d, ths_ge d (thr s t d)) /\
    (forall sfs tfs d, ths_ge d (thr_fields sfs tfs d)).
  Proof.
    apply nschema_both.
    - intros ty t d. destruct t; apply (ths_ge_repeat d 1).
    - intros sfs IH [b|tfs] d; cbn [thr]; [apply ths_ge_repeat|apply IH].
    - intros tfs d. constructor.
    - intros n r s IHs sfs' IHf [|m q t tfs'] d; cbn [thr_fields]; apply Forall_app; split;
        try apply IHf.
      + apply ths_ge_repeat.
      + apply Forall_forall. intros x Hx. apply in_map_iff in Hx. destruct Hx as (ths & <- & Hin).
        assert (Hg : Forall (fun x => d <= x) ths).
        { pose proof (IHs t (rep_d r d)) as H. unfold ths_ge in H. rewrite Forall_forall in H.
          eapply Forall_impl; [|apply H; exact Hin]. cbn. intros a Ha. destruct r; cbn in Ha; lia. }
        destruct (widened r q); [constructor; [lia|exact Hg]|exact Hg].
  Qed.

  Lemma lift_all_nil c A : lift_all c [] A = [].
  Proof. reflexivity. Qed.

  Lemma lift_all_cons c ths T (col : column) A :
    lift_all c (ths :: T) (col :: A) = map (lift c ths) col :: lift_all c T A.
  Proof. reflexivity. Qed.

  Lemma lift_all_app c T1 T2 (A B : list column) :
    length T1 = length A -> lift_all c (T1 ++ T2) (A ++ B) = lift_all c T1 A ++ lift_all c T2 B.
  Proof.
    revert A. induction T1 as [|t T1 IH]; intros [|a A] H; cbn in H; try lia; [reflexivity|].
    cbn [app]. rewrite !lift_all_cons. cbn [app]. f_equal. apply IH. lia.
  Qed.

  Lemma lift_all_zipapp c T : forall (A B : list column),
    lift_all c T (zipapp A B) = zipapp (lift_all c T A) (lift_all c T B).
  Proof.
    induction T as [|t T IH]; intros A B; [reflexivity|].
    destruct A as [|a A]; [reflexivity|]. destruct B as [|b B]; [reflexivity|].
    cbn [zipapp]. rewrite !lift_all_cons. cbn [zipapp]. now rewrite map_app, IH.
  Qed.

  Lemma lift_all_fold c T (Ms : list (list column)) : forall A,
    lift_all c T (fold_left zipapp Ms A) = fold_left zipapp (map (lift_all c T) Ms) (lift_all c T A).
  Proof.
    induction Ms as [|M Ms IH]; intros A; cbn [fold_left map]; [reflexivity|].
    now rewrite IH, lift_all_zipapp.
  Qed.

  Lemma count_le_above ths e : Forall (fun x => e < x) ths -> count_le ths e = 0.
  Proof.
    unfold count_le. induction 1 as [|x ths Hx _ IH]; [reflexivity|]. cbn.
    destruct (x <=? e) eqn:E; [apply Nat.leb_le in E; lia|exact IH].
  Qed.

  Lemma lift_all_nulls c T r d n :
    ths_ge (S d) T -> length T = n ->
    lift_all c T (repeat [(None, r, d)] n) = repeat [((None : option V), r, d + c)] n.
  Proof.
    revert n. induction T as [|t T IH]; intros [|n] Hg Hl; cbn in Hl; try lia; [reflexivity|].
    inversion Hg as [|? ? Ht Hg']; subst. cbn [repeat]. rewrite lift_all_cons. f_equal.
    - cbn. rewrite count_le_above; [now rewrite Nat.add_0_r|].
      eapply Forall_impl; [|exact Ht]. cbn. intros. lia.
    - apply IH; [exact Hg'|lia].
  Qed.

  Lemma lift_cons_ge c d ths (col : column) :
    Forall (fun e => d <= e_d V e) col -> map (lift c (d :: ths)) col = map (lift (S c) ths) col.
  Proof.
    intros H. apply map_ext_in. intros [[x r] e] Hin. rewrite Forall_forall in H.
    specialize (H _ Hin). cbn in H. unfold Widen.lift, count_le. cbn [filter].
    destruct (d <=? e) eqn:E; [|apply Nat.leb_gt in E; lia]. cbn [length]. f_equal. lia.
  Qed.

  Lemma lift_all_cons_ge c d T : forall (A : list column),
    all_ge d A -> lift_all c (map (cons d) T) A = lift_all (S c) T A.
  Proof.
    induction T as [|t T IH]; intros [|a A] H; try reflexivity.
    inversion H; subst. cbn [map]. rewrite !lift_all_cons. f_equal; [now apply lift_cons_ge|now apply IH].
  Qed.

  Lemma map_id_ext {A} (f : A -> A) l : (forall x, f x = x) -> map f l = l.
  Proof. intros H. induction l; cbn; [reflexivity|]. now rewrite H, IHl. Qed.

  (** unfolding equations (mutual fixpoints do not refold under [cbn]) *)
  Lemma widen_val_group sfs tfs (vs : list value) :
    widen_val (NGroup sfs) (NGroup tfs) (VGroup vs) = VGroup (widen_vals sfs tfs vs).
  Proof. reflexivity. Qed.
  Lemma widen_vals_cons n r s sfs m q t tfs (fv : value) vs :
    widen_vals (NCons n r s sfs) (NCons m q t tfs) (fv :: vs) = widen_field r q s t fv :: widen_vals sfs tfs vs.
  Proof. reflexivity. Qed.
  Lemma thr_group sfs tfs d : thr (NGroup sfs) (NGroup tfs) d = thr_fields sfs tfs d.
  Proof. reflexivity. Qed.
  Lemma thr_fields_cons n r s sfs m q t tfs d :
    thr_fields (NCons n r s sfs) (NCons m q t tfs) d =
    map (fun ths => if widened r q then d :: ths else ths) (thr s t (rep_d r d)) ++ thr_fields sfs tfs d.
  Proof. reflexivity. Qed.

  Lemma widen_field_ok r q s t (fv : value) :
    rep_widens r q = true -> field_ok r fv -> field_ok q (widen_field r q s t fv).
  Proof.
    intros Hw H. destruct r, q; cbn in Hw; try discriminate; cbn in *; auto.
    - destruct fv as [| |[x|]|]; auto.
    - destruct fv; auto.
  Qed.

  Lemma lift_all_thr_nulls s t c r d :
    widens s t = true -> lift_all c (thr s t (S d)) (nulls (erase s) r d) = nulls (erase t) r (d + c).
  Proof.
    intros Hw. unfold nulls. fold (nl t) (nl s). rewrite (proj1 widens_nl _ _ Hw).
    apply lift_all_nulls; [apply (proj1 thr_ge)|apply (proj1 thr_length)].
  Qed.

  Lemma widen_field_cols_of s t :
    (forall (v : value) r d k c, wf (erase s) v ->
       shred (erase t) (widen_val s t v) r (d + c) k = lift_all c (thr s t d) (shred (erase s) v r d k)) ->
    widens s t = true ->
    forall r q (fv : value) rr d k c, rep_widens r q = true -> field_wf r (erase s) fv ->
    field_cols q (erase t) (widen_field r q s t fv) rr (d + c) k
    = lift_all c (map (fun ths => if widened r q then d :: ths else ths) (thr s t (rep_d r d)))
               (field_cols r (erase s) fv rr d k).
  Proof.
    intros IH Hw r q fv rr d k c Hr Hv.
    destruct r, q; cbn in Hr; try discriminate;
      cbn [widened is_req rep_eqb andb rep_d field_cols Proofs.field_cols field_wf widen_field Widen.widen_field] in *;
      rewrite ?map_id.
    - now apply IH.
    - (* read as optional: always present, one level deeper *)
      rewrite lift_all_cons_ge by now apply shred_all_ge.
      replace (S (d + c)) with (d + S c) by lia. now apply IH.
    - destruct fv as [| |[x|]|]; try contradiction.
      + now apply (IH x rr (S d) k c).
      + symmetry. now apply lift_all_thr_nulls.
    - destruct fv as [| | |[|x l]]; try contradiction.
      + symmetry. now apply lift_all_thr_nulls.
      + apply Forall_cons_iff in Hv as [Hx Hl]. cbn [map]. change (S (d + c)) with (S d + c).
        rewrite lift_all_fold, !map_map, (IH x rr (S d) (S k) c Hx). f_equal.
        apply map_ext_in. intros y Hy. rewrite Forall_forall in Hl. now apply (IH y (S k) (S d) (S k) c), Hl.
  Qed.

  Lemma widen_shred :
    (forall s t (v : value) r d k c, widens s t = true -> wf (erase s) v ->
        shred (erase t) (widen_val s t v) r (d + c) k = lift_all c (thr s t d) (shred (erase s) v r d k)) /\
    (forall sfs tfs (vs : list value) r d k c, widens_fields sfs tfs = true ->
        wf_fields (erase_fields sfs) vs ->
        shred_fields (erase_fields tfs) (widen_vals sfs tfs vs) r (d + c) k
        = lift_all c (thr_fields sfs tfs d) (shred_fields (erase_fields sfs) vs r d k)).
  Proof.
    apply nschema_both.
    - intros ty [b|tfs] v r d k c Hw Hv; cbn in Hw; [|discriminate].
      destruct v as [x| | |]; cbn in Hv; try contradiction.
      cbn. unfold count_le. cbn. now rewrite Nat.add_0_r.
    - intros sfs IH [b|tfs] v r d k c Hw Hv; cbn in Hw; [discriminate|].
      destruct v as [|vs| |]; cbn in Hv; try contradiction.
      rewrite widen_val_group, thr_group. cbn [erase]. rewrite !shred_group. now apply IH.
    - intros [|m q t tfs'] vs r d k c Hw Hv; cbn in Hw; [|discriminate].
      destruct vs; cbn in Hv; try contradiction. reflexivity.
    - intros n rp s IHs sfs' IHf [|m q t tfs'] vs r d k c Hw Hv; [discriminate|].
      destruct (widens_fields_cons _ _ _ _ _ _ _ _ Hw) as (H2 & H3 & H4). cbn [erase_fields] in *.
      destruct vs as [|fv vs']; [destruct rp; contradiction|].
      destruct (wf_fields_cons _ _ _ _ _ _ Hv) as (Hfv & Hok & Hvs).
      rewrite widen_vals_cons, thr_fields_cons, !shred_fields_unfold by auto using widen_field_ok.
      rewrite lift_all_app by (now rewrite map_length, (proj1 thr_length), field_cols_len).
      f_equal; [|now apply IHf].
      apply widen_field_cols_of; auto.
  Qed.

  Theorem widen_shred_row s t (v : value) :
    widens s t = true -> wf_nschema s -> wf (erase s) v ->
    shred_row (erase t) (widen_val s t v) = widen_columns s t (shred_row (erase s) v).
  Proof.
    intros Hw Hs Hv. unfold shred_row, Widen.widen_columns.
    exact (proj1 widen_shred s t v 0 0 0 0 Hw Hv).
  Qed.

  Lemma widen_field_cols s t r q (fv : value) rr d k c :
    rep_widens r q = true -> widens s t = true -> field_wf r (erase s) fv ->
    field_cols q (erase t) (widen_field r q s t fv) rr (d + c) k
    = lift_all c (map (fun ths => if widened r q then d :: ths else ths) (thr s t (rep_d r d)))
               (field_cols r (erase s) fv rr d k).
  Proof.
    intros Hr Hw Hv. apply widen_field_cols_of; auto. intros. now apply (proj1 widen_shred).
  Qed.

  Definition thr_top_field (r q : rep) (s t : nschema) (hs : list bool) : list (option (list nat)) :=
    match r, q with
    | Req, Req => thr_top s t hs
    | Req, Opt => if all_true hs then repeat None (nl s) else map Some (thr_field r q s t)
    | _, _ => map Some (thr_field r q s t)
    end.

  Definition widen_top_field (r q : rep) (s t : nschema) (hs : list bool) (fv : value) : value :=
    match r, q with
    | Req, Req => widen_top s t hs fv
    | Req, Opt => if all_true hs then VOpt None else widen_field r q s t fv
    | _, _ => widen_field r q s t fv
    end.

  (* the three ways a field is treated: still on the chain of required nodes, the
     outermost widened node when it is null, and everything else *)
  Lemma thr_top_field_case r q s t hs (P : list (option (list nat)) -> Prop) :
    (r = Req -> q = Req -> P (thr_top s t hs)) ->
    (r = Req -> q = Opt -> all_true hs = true -> P (repeat None (nl s))) ->
    P (map Some (thr_field r q s t)) ->
    P (thr_top_field r q s t hs).
  Proof. destruct r, q; cbn; auto. destruct (all_true hs); auto. Qed.

  Lemma top_field_case r q s t hs (fv : value) (P : list (option (list nat)) -> value -> Prop) :
    (r = Req -> q = Req -> P (thr_top s t hs) (widen_top s t hs fv)) ->
    (r = Req -> q = Opt -> all_true hs = true -> P (repeat None (nl s)) (VOpt None)) ->
    P (map Some (thr_field r q s t)) (widen_field r q s t fv) ->
    P (thr_top_field r q s t hs) (widen_top_field r q s t hs fv).
  Proof. destruct r, q; cbn; auto. destruct (all_true hs); auto. Qed.

  Lemma widen_top_group sfs tfs hs (vs : list value) :
    widen_top (NGroup sfs) (NGroup tfs) hs (VGroup vs) = VGroup (widen_top_fields sfs tfs hs vs).
  Proof. reflexivity. Qed.
  Lemma widen_top_fields_cons n r s sfs m q t tfs hs (fv : value) vs :
    widen_top_fields (NCons n r s sfs) (NCons m q t tfs) hs (fv :: vs) =
    widen_top_field r q s t (firstn (nl s) hs) fv :: widen_top_fields sfs tfs (skipn (nl s) hs) vs.
  Proof. reflexivity. Qed.
  Lemma thr_top_group sfs tfs hs : thr_top (NGroup sfs) (NGroup tfs) hs = thr_top_fields sfs tfs hs.
  Proof. reflexivity. Qed.
  Lemma thr_top_fields_cons n r s sfs m q t tfs hs :
    thr_top_fields (NCons n r s sfs) (NCons m q t tfs) hs =
    thr_top_field r q s t (firstn (nl s) hs) ++ thr_top_fields sfs tfs (skipn (nl s) hs).
  Proof. reflexivity. Qed.

  Lemma thr_field_length r q s t : length (thr_field r q s t) = nl s.
  Proof. unfold thr_field. now rewrite map_length, (proj1 thr_length). Qed.

  Lemma thr_top_field_length_of r q s t hs :
    length (thr_top s t hs) = nl s -> length (thr_top_field r q s t hs) = nl s.
  Proof.
    intros H. apply thr_top_field_case; intros;
      [exact H|apply repeat_length|now rewrite map_length, thr_field_length].
  Qed.

  Lemma thr_top_length :
    (forall s t hs, length (thr_top s t hs) = nl s) /\
    (forall sfs tfs hs, length (thr_top_fields sfs tfs hs) = nlf sfs).
  Proof.
    apply nschema_both.
    - intros ty t hs. destruct t; reflexivity.
    - intros sfs IH [b|tfs] hs; cbn [thr_top]; [now rewrite repeat_length|apply IH].
    - reflexivity.
    - intros n r s IHs sfs' IHf [|m q t tfs'] hs.
      + cbn [thr_top_fields]. now rewrite app_length, repeat_length, IHf, nlf_cons.
      + now rewrite thr_top_fields_cons, app_length, IHf, nlf_cons, thr_top_field_length_of.
  Qed.

  Lemma lift_all_top_app T1 T2 (A B : list column) :
    length T1 = length A -> lift_all_top (T1 ++ T2) (A ++ B) = lift_all_top T1 A ++ lift_all_top T2 B.
  Proof.
    unfold Widen.lift_all_top.
    revert A. induction T1 as [|t T1 IH]; intros [|a A] H; cbn in H; try lia; [reflexivity|].
    cbn. f_equal. apply IH. lia.
  Qed.

  Lemma lift_all_top_some T : forall (A : list column), lift_all_top (map Some T) A = lift_all 0 T A.
  Proof.
    unfold Widen.lift_all_top, Widen.lift_all.
    induction T as [|t T IH]; intros [|a A]; cbn; try reflexivity. now rewrite IH.
  Qed.

  (* below a null node every column holds one entry at the level of the node *)
  Definition flat_at (r : nat) (os : list (option (list nat))) (cols : list column) : Prop :=
    Forall2 (fun o c => o = None -> exists x : option V, c = [(x, r, 0)]) os cols.

  Lemma Forall2_app_split {A B} (P : A -> B -> Prop) : forall a1 a2 b1 b2,
    length a1 = length b1 -> Forall2 P (a1 ++ a2) (b1 ++ b2) -> Forall2 P a1 b1 /\ Forall2 P a2 b2.
  Proof.
    induction a1 as [|x a1 IH]; intros a2 [|y b1] b2 Hl H; cbn in *; try lia.
    - split; [constructor|exact H].
    - inversion H; subst. destruct (IH a2 b1 b2) as [H1 H2]; [lia|assumption|].
      split; [now constructor|exact H2].
  Qed.

  Lemma lift_all_top_dead r n : forall (cols : list column),
    flat_at r (repeat None n) cols -> lift_all_top (repeat None n) cols = repeat [((None : option V), r, 0)] n.
  Proof.
    unfold Widen.lift_all_top.
    induction n as [|n IH]; intros cols H; cbn in *.
    - reflexivity.
    - inversion H as [|? c ? cs Hc Hcs]; subst. destruct (Hc eq_refl) as [x ->]. cbn. f_equal. now apply IH.
  Qed.

  Lemma lift_top_nil (e : entry) : lift_top (Some []) e = e.
  Proof. destruct e as [[x r] d]. cbn. unfold count_le. cbn. now rewrite !Nat.add_0_r. Qed.

  Lemma widen_top_field_cols s t rp q hs (fv : value) r k :
    (wf (erase s) fv -> flat_at r (thr_top s t hs) (shred (erase s) fv r 0 k) ->
     shred (erase t) (widen_top s t hs fv) r 0 k = lift_all_top (thr_top s t hs) (shred (erase s) fv r 0 k)) ->
    rep_widens rp q = true -> widens s t = true -> field_wf rp (erase s) fv ->
    flat_at r (thr_top_field rp q s t hs) (field_cols rp (erase s) fv r 0 k) ->
    field_ok q (widen_top_field rp q s t hs fv) /\
    field_cols q (erase t) (widen_top_field rp q s t hs fv) r 0 k
    = lift_all_top (thr_top_field rp q s t hs) (field_cols rp (erase s) fv r 0 k).
  Proof.
    intros IH Hr Hw Hv.
    apply (top_field_case rp q s t hs fv (fun T x => flat_at r T (field_cols rp (erase s) fv r 0 k) ->
             field_ok q x /\ field_cols q (erase t) x r 0 k = lift_all_top T (field_cols rp (erase s) fv r 0 k))).
    - intros -> -> Hf. split; [exact I|]. now apply IH.
    - intros -> -> _ Hf. split; [exact I|]. rewrite (lift_all_top_dead r) by exact Hf.
      cbn. unfold nulls. fold (nl t). now rewrite (proj1 widens_nl _ _ Hw).
    - intros _. split; [apply widen_field_ok; [exact Hr|now apply field_wf_ok with (s := erase s)]|].
      rewrite lift_all_top_some. exact (widen_field_cols s t rp q fv r 0 k 0 Hr Hw Hv).
  Qed.

  Lemma widen_top_shred :
    (forall s t hs (v : value) r k, widens s t = true -> wf (erase s) v ->
        flat_at r (thr_top s t hs) (shred (erase s) v r 0 k) ->
        shred (erase t) (widen_top s t hs v) r 0 k = lift_all_top (thr_top s t hs) (shred (erase s) v r 0 k)) /\
    (forall sfs tfs hs (vs : list value) r k, widens_fields sfs tfs = true ->
        wf_fields (erase_fields sfs) vs ->
        flat_at r (thr_top_fields sfs tfs hs) (shred_fields (erase_fields sfs) vs r 0 k) ->
        shred_fields (erase_fields tfs) (widen_top_fields sfs tfs hs vs) r 0 k
        = lift_all_top (thr_top_fields sfs tfs hs) (shred_fields (erase_fields sfs) vs r 0 k)).
  Proof.
    apply nschema_both.
    - intros ty [b|tfs] hs v r k Hw Hv _; cbn in Hw; [|discriminate].
      destruct v as [x| | |]; cbn in Hv; try contradiction.
      reflexivity.
    - intros sfs IH [b|tfs] hs v r k Hw Hv Hf; cbn in Hw; [discriminate|].
      destruct v as [|vs| |]; cbn in Hv; try contradiction.
      rewrite widen_top_group, thr_top_group in *. cbn [erase] in *. rewrite !shred_group in *. now apply IH.
    - intros [|m q t tfs'] hs vs r k Hw Hv _; cbn in Hw; [|discriminate].
      destruct vs; cbn in Hv; try contradiction. reflexivity.
    - intros n rp s IHs sfs' IHf [|m q t tfs'] hs vs r k Hw Hv Hf; [discriminate|].
      destruct (widens_fields_cons _ _ _ _ _ _ _ _ Hw) as (H2 & H3 & H4). cbn [erase_fields] in *.
      destruct vs as [|fv vs']; [destruct rp; contradiction|].
      destruct (wf_fields_cons _ _ _ _ _ _ Hv) as (Hfv & Hok & Hvs).
      rewrite widen_top_fields_cons, thr_top_fields_cons, (shred_fields_unfold V rp) in * by exact Hok.
      assert (Hpl : length (thr_top_field rp q s t (firstn (nl s) hs)) = length (field_cols rp (erase s) fv r 0 k)).
      { rewrite field_cols_len by exact Hfv. apply thr_top_field_length_of, (proj1 thr_top_length). }
      destruct (Forall2_app_split _ _ _ _ _ Hpl Hf) as [Hf1 Hf2].
      destruct (widen_top_field_cols s t rp q (firstn (nl s) hs) fv r k) as [Hok' E]; auto.
      rewrite lift_all_top_app, shred_fields_unfold by assumption.
      f_equal; [exact E|now apply IHf].
  Qed.

  Lemma firstn_skipn_len {A} (l : list A) n m : length l = n + m -> length (firstn n l) = n /\ length (skipn n l) = m.
  Proof. intros H. rewrite firstn_length, skipn_length. lia. Qed.

  Lemma all_true_forall l : all_true l = true -> Forall (fun h => h = true) l.
  Proof. unfold all_true. intros H. apply Forall_forall. intros x Hx. rewrite forallb_forall in H. now apply H. Qed.

  (* the flags say "placeholder" wherever the table says "null" *)
  Lemma thr_top_flags :
    (forall s t hs, length hs = nl s -> Forall2 (fun (o : option (list nat)) h => o = None -> h = true) (thr_top s t hs) hs) /\
    (forall sfs tfs hs, length hs = nlf sfs ->
        Forall2 (fun (o : option (list nat)) h => o = None -> h = true) (thr_top_fields sfs tfs hs) hs).
  Proof.
    assert (Hsome : forall (T : list (list nat)) (hs : list bool), length T = length hs ->
              Forall2 (fun (o : option (list nat)) h => o = None -> h = true) (map Some T) hs).
    { induction T as [|x T IH]; intros [|h hs] H; cbn in H; try lia; constructor; [discriminate|apply IH; lia]. }
    assert (Hrep : forall n (hs : list bool), n = length hs ->
              Forall2 (fun (o : option (list nat)) h => o = None -> h = true) (repeat (Some []) n) hs).
    { intros n hs ->. induction hs; cbn; constructor; [discriminate|assumption]. }
    assert (Hdead : forall l : list bool, Forall (fun h => h = true) l ->
              Forall2 (fun (o : option (list nat)) h => o = None -> h = true) (repeat None (length l)) l).
    { induction 1; cbn; constructor; auto. }
    apply nschema_both.
    - intros ty t hs H. destruct t; apply (Hrep 1); cbn in H; lia.
    - intros sfs IH [b|tfs] hs H; cbn [thr_top]; [apply Hrep; now rewrite H|now apply IH].
    - intros tfs [|h hs] H; cbn in H; try discriminate. constructor.
    - intros n r s IHs sfs' IHf tfs hs H. rewrite nlf_cons in H.
      destruct (firstn_skipn_len hs _ _ H) as [L1 L2].
      rewrite <- (firstn_skipn (nl s) hs) at 2.
      destruct tfs as [|m q t tfs'].
      + cbn [thr_top_fields]. apply Forall2_app; [apply Hrep; now rewrite L1|now apply IHf].
      + rewrite thr_top_fields_cons. apply Forall2_app; [|now apply IHf].
        apply thr_top_field_case.
        * intros _ _. now apply IHs.
        * intros _ _ E. apply all_true_forall in E. rewrite <- L1 at 1. now apply Hdead.
        * apply Hsome. now rewrite thr_field_length, L1.
  Qed.

  (** a schema widens itself, and nothing changes then *)
  Lemma widens_refl :
    (forall s, widens s s = true) /\ (forall fs, widens_fields fs fs = true).
  Proof.
    apply nschema_both; cbn; auto.
    - intros. apply N.eqb_refl.
    - intros n r s IHs fs IHf. rewrite N.eqb_refl, IHs, IHf.
      destruct r; reflexivity.
  Qed.

  Lemma widen_field_wfn_of n s t :
    (forall v : value, wfn n (erase s) v -> wfn n (erase t) (widen_val s t v)) ->
    forall r q (fv : value), rep_widens r q = true ->
    field_wfn V n r (erase s) fv -> field_wfn V n q (erase t) (widen_field r q s t fv).
  Proof.
    intros IH r q fv Hr H. destruct r, q; cbn in Hr; try discriminate; cbn in *.
    - now apply IH.
    - now apply IH.
    - destruct fv as [| |[x|]|]; auto.
    - destruct fv; auto. destruct H as [Hn Hl]. split; [now rewrite map_length|].
      apply Forall_map. eapply Forall_impl; [|exact Hl]. exact IH.
  Qed.

  Lemma widen_wfn n :
    (forall s t (v : value), widens s t = true -> wfn n (erase s) v -> wfn n (erase t) (widen_val s t v)) /\
    (forall sfs tfs (vs : list value), widens_fields sfs tfs = true -> wfn_fields n (erase_fields sfs) vs ->
        wfn_fields n (erase_fields tfs) (widen_vals sfs tfs vs)).
  Proof.
    apply nschema_both.
    - intros ty [b|tfs] v Hw Hv; cbn in Hw; [|discriminate]. destruct v; cbn in *; try contradiction; auto.
    - intros sfs IH [b|tfs] v Hw Hv; cbn in Hw; [discriminate|].
      destruct v as [|vs| |]; cbn in Hv; try contradiction.
      rewrite widen_val_group. cbn [erase]. change (wfn_fields n (erase_fields tfs) (widen_vals sfs tfs vs)).
      now apply IH.
    - intros [|m q t tfs'] vs Hw Hv; cbn in Hw; [|discriminate].
      destruct vs; cbn in *; try contradiction; auto.
    - intros nm rp s IHs sfs' IHf [|m q t tfs'] vs Hw Hv; [discriminate|].
      destruct (widens_fields_cons _ _ _ _ _ _ _ _ Hw) as (H2 & H3 & H4). cbn [erase_fields] in *.
      destruct vs as [|fv vs']; [destruct rp; contradiction|].
      apply wfn_fields_cons in Hv as [Hfv Hvs]. rewrite widen_vals_cons. apply wfn_fields_cons.
      split; [apply widen_field_wfn_of; auto|now apply IHf].
  Qed.

  Lemma widen_field_wfn n r q s t (fv : value) :
    rep_widens r q = true -> widens s t = true ->
    field_wfn V n r (erase s) fv -> field_wfn V n q (erase t) (widen_field r q s t fv).
  Proof. intros Hr Hw. apply widen_field_wfn_of; auto. intros v. now apply (proj1 (widen_wfn n)). Qed.

  Lemma widen_top_wfn n :
    (forall s t hs (v : value), widens s t = true -> wfn n (erase s) v -> wfn n (erase t) (widen_top s t hs v)) /\
    (forall sfs tfs hs (vs : list value), widens_fields sfs tfs = true -> wfn_fields n (erase_fields sfs) vs ->
        wfn_fields n (erase_fields tfs) (widen_top_fields sfs tfs hs vs)).
  Proof.
    apply nschema_both.
    - intros ty [b|tfs] hs v Hw Hv; cbn in Hw; [|discriminate]. destruct v; cbn in *; try contradiction; auto.
    - intros sfs IH [b|tfs] hs v Hw Hv; cbn in Hw; [discriminate|].
      destruct v as [|vs| |]; cbn in Hv; try contradiction.
      rewrite widen_top_group. cbn [erase].
      change (wfn_fields n (erase_fields tfs) (widen_top_fields sfs tfs hs vs)). now apply IH.
    - intros [|m q t tfs'] hs vs Hw Hv; cbn in Hw; [|discriminate].
      destruct vs; cbn in *; try contradiction; auto.
    - intros nm rp s IHs sfs' IHf [|m q t tfs'] hs vs Hw Hv; [discriminate|].
      destruct (widens_fields_cons _ _ _ _ _ _ _ _ Hw) as (H2 & H3 & H4). cbn [erase_fields] in *.
      destruct vs as [|fv vs']; [destruct rp; contradiction|].
      apply wfn_fields_cons in Hv as [Hfv Hvs]. rewrite widen_top_fields_cons. apply wfn_fields_cons.
      split; [|now apply IHf].
      apply (top_field_case rp q s t _ fv (fun _ x => field_wfn V n q (erase t) x)).
      + intros -> ->. now apply IHs.
      + intros -> -> _. exact I.
      + now apply widen_field_wfn.
  Qed.

  (** ** Convert + conversion.Convert through a target that reads required
         nodes of the source as optional ones *)
  Lemma conv_flat (acts : list (action V)) (C : list column) os :
    Forall2 (fun (o : option (list nat)) h => o = None -> h = true) os (map (is_hold V) acts) ->
    flat_at 0 os (conv V acts C).
  Proof.
    unfold conv. revert os. induction acts as [|a acts IH]; intros os H; cbn in H; inversion H; subst; cbn; constructor.
    - intros E. match goal with Hh : _ = None -> _ = true |- _ => specialize (Hh E) end.
      destruct a; cbn in *; try discriminate. eexists. reflexivity.
    - now apply IH.
  Qed.

  Theorem convert_widen_is_shred_project src tgtN tgt v n :
    compat src tgtN = true -> widens tgtN tgt = true ->
    wf_nschema src -> wf_nschema tgtN -> wfn n (erase src) v ->
    convert_widen_columns V zero src tgtN tgt (shred_row (erase src) v)
    = Some (shred_row (erase tgt) (project_widen V zero src tgtN tgt v)).
  Proof.
    intros Hc Hw Hs Ht Hv. unfold convert_widen_columns. rewrite Hw.
    assert (Hp : wf (erase tgtN) (project src tgtN v)).
    { eapply wfn_wf. eapply (proj1 (project_wfn V zero n)); eauto. }
    pose proof (convert_is_shred_project V zero src tgtN v n Hc Hs Hv) as Hgen.
    assert (Hout : convert_columns V zero src tgtN (shred_row (erase src) v)
                   = Some (shred_row (erase tgtN) (project src tgtN v))).
    { unfold convert_columns. destruct (nschema_eqb src tgtN) eqn:E.
      - apply (proj1 nschema_eqb_eq) in E. subst tgtN.
        now rewrite (proj1 (project_self V zero n)) by assumption.
      - now rewrite Hc, Hgen. }
    rewrite Hout. f_equal. unfold widen_columns_top, project_widen, shred_row. symmetry.
    apply (proj1 widen_top_shred); auto.
    fold (shred_row (erase tgtN) (project src tgtN v)). rewrite <- Hgen.
    apply conv_flat. apply (proj1 thr_top_flags).
    unfold hold_flags. rewrite map_length, <- (conv_length V (plan V zero src tgtN 0 0) (shred_row (erase src) v)).
    rewrite Hgen. unfold shred_row. apply shred_shape; [now apply wf_erase|exact Hp].
  Qed.

  (* assembling the converted columns with the target schema yields the
     record the target sees *)
  Theorem convert_widen_is_projection src tgtN tgt v n tails :
    compat src tgtN = true -> widens tgtN tgt = true ->
    wf_nschema src -> wf_nschema tgtN -> wf_nschema tgt -> wfn n (erase src) v ->
    length tails = nl tgt -> heads_le V 0 tails ->
    exists cols, convert_widen_columns V zero src tgtN tgt (shred_row (erase src) v) = Some cols /\
      asm (erase tgt) 0 0 (S n) (zipapp cols tails) = Some (project_widen V zero src tgtN tgt v, tails).
  Proof.
    intros Hc Hw Hs Ht Ht' Hv Hl Hh.
    eexists. split; [now apply (convert_widen_is_shred_project src tgtN tgt v n)|].
    unfold shred_row. apply asm_shred; auto.
    - now apply wf_erase.
    - unfold project_widen. apply (proj1 (widen_top_wfn n)); [exact Hw|].
      eapply (proj1 (project_wfn V zero n)); eauto.
  Qed.

  (* nothing is null when some column below every widened node is read from
     the source: then the record the target sees is the projection with the
     widened nodes present *)
  Lemma widen_top_no_hold :
    (forall s t hs (v : value), Forall (fun h => h = false) hs -> length hs = nl s -> wf_nschema s ->
        widen_top s t hs v = widen_val s t v) /\
    (forall sfs tfs hs (vs : list value), Forall (fun h => h = false) hs -> length hs = nlf sfs -> wf_nfields sfs ->
        widen_top_fields sfs tfs hs vs = widen_vals sfs tfs vs).
  Proof.
    apply nschema_both.
    - intros ty t hs v _ _ _. destruct t; reflexivity.
    - intros sfs IH [b|tfs] hs v Hh Hl [_ Hs]; [reflexivity|].
      destruct v as [|vs| |]; try reflexivity.
      rewrite widen_top_group, widen_val_group. f_equal. now apply IH.
    - intros [|m q t tfs'] hs vs _ _ _; destruct vs; reflexivity.
    - intros n r s IHs sfs' IHf [|m q t tfs'] hs vs Hh Hl [_ [Hs Hfs]]; [destruct vs; reflexivity|].
      destruct vs as [|fv vs']; [reflexivity|].
      rewrite widen_top_fields_cons, widen_vals_cons. rewrite nlf_cons in Hl.
      destruct (firstn_skipn_len hs _ _ Hl) as [L1 L2].
      pose proof Hh as Hh'. rewrite <- (firstn_skipn (nl s) hs) in Hh'.
      apply Forall_app in Hh'. destruct Hh' as [H1 H2].
      f_equal; [|now apply IHf].
      apply (top_field_case r q s t _ fv (fun _ x => x = widen_field r q s t fv)).
      + intros -> ->. rewrite IHs by assumption. reflexivity.
      + intros _ _ E. pose proof (nl_pos s Hs) as Hpos.
        destruct (firstn (nl s) hs) as [|h l]; [cbn in L1; lia|]. inversion H1; subst. discriminate E.
      + reflexivity.
  Qed.

  Lemma widened_same r : widened r r = false.
  Proof. destruct r; reflexivity. Qed.

  Lemma thr_self :
    (forall s d, thr s s d = repeat [] (nl s)) /\
    (forall fs d, thr_fields fs fs d = repeat [] (nlf fs)).
  Proof.
    apply nschema_both.
    - reflexivity.
    - intros fs IH d. cbn [thr]. apply IH.
    - reflexivity.
    - intros n r s IHs fs IHf d. cbn [thr_fields]. rewrite widened_same.
      rewrite (map_id_ext (fun ths : list nat => ths)) by reflexivity.
      rewrite IHs, IHf, nlf_cons. symmetry. apply repeat_app.
  Qed.

  Lemma lift_all_id n : forall (cols : list column), length cols = n -> lift_all 0 (repeat [] n) cols = cols.
  Proof.
    induction n as [|n IH]; intros [|c cols] H; cbn in H; try lia; [reflexivity|].
    cbn [repeat]. rewrite lift_all_cons. f_equal; [|apply IH; lia].
    apply map_id_ext. intros [[x r] d]. cbn. unfold count_le. cbn. now rewrite !Nat.add_0_r.
  Qed.

  Theorem widen_columns_self s (cols : list column) :
    length cols = nl s -> widen_columns s s cols = cols.
  Proof. intros H. unfold Widen.widen_columns. rewrite (proj1 thr_self). now apply lift_all_id. Qed.

  Lemma fill_plan_length :
    (forall t hold k d a, length (fill_plan V zero t hold k d a) = nl t) /\
    (forall fs hold k d a, length (fill_plan_fields V zero fs hold k d a) = nlf fs).
  Proof.
    split; intros;
      [destruct (proj1 (fill_plan_spec V zero hold k d) t a) as (zs & L & ->)
      |destruct (proj2 (fill_plan_spec V zero hold k d) fs a) as (zs & L & ->)]; now rewrite map_length.
  Qed.

  Lemma plan_length :
    (forall tgt src k d, compat src tgt = true -> length (plan V zero src tgt k d) = nl tgt) /\
    (forall tfs sfs k d, compat_fields sfs tfs = true -> length (plan_fields V zero sfs tfs k d) = nlf tfs).
  Proof.
    apply nschema_both.
    - intros ty src k d H. reflexivity.
    - intros tfs IH [b|sfs] k d H; cbn in H; [discriminate|]. now apply IH.
    - reflexivity.
    - intros n r t IHt tfs IHf sfs k d H. cbn [compat_fields] in H. apply andb_true_iff in H as [H1 H2].
      rewrite plan_fields_cons, app_length, (IHf _ _ _ H2), nlf_cons. f_equal.
      destruct (find_field n sfs 0 0) as [[[[off pos] rs] s0]|]; [|apply (proj1 fill_plan_length)].
      apply andb_true_iff in H1 as [_ H1].
      rewrite same_kind_match, map_length by now apply compat_same_kind. now apply IHt.
  Qed.

  Lemma hold_flags_length src tgtN : compat src tgtN = true -> length (hold_flags V zero src tgtN) = nl tgtN.
  Proof. intros H. unfold hold_flags. rewrite map_length. now apply (proj1 plan_length). Qed.

  (* no per-row placeholder at all: every widened node is present *)
  Theorem project_widen_present src tgtN tgt (v : value) :
    compat src tgtN = true -> wf_nschema tgtN ->
    Forall (fun h => h = false) (hold_flags V zero src tgtN) ->
    project_widen V zero src tgtN tgt v = widen_val tgtN tgt (project src tgtN v).
  Proof.
    intros Hc Ht Hh. unfold project_widen.
    apply (proj1 widen_top_no_hold); auto. now apply hold_flags_length.
  Qed.

  Lemma thr_top_self :
    (forall s hs, thr_top s s hs = repeat (Some []) (nl s)) /\
    (forall fs hs, thr_top_fields fs fs hs = repeat (Some []) (nlf fs)).
  Proof.
    apply nschema_both.
    - reflexivity.
    - intros fs IH hs. rewrite thr_top_group. apply IH.
    - reflexivity.
    - intros n r s IHs fs IHf hs. rewrite thr_top_fields_cons, IHf, nlf_cons, repeat_app. f_equal.
      assert (E : map Some (thr_field r r s s) = repeat (Some []) (nl s)).
      { unfold thr_field. rewrite widened_same, map_id, (proj1 thr_self). generalize (nl s). induction n0; cbn; [reflexivity|now f_equal]. }
      destruct r; try exact E. apply IHs.
  Qed.

  Lemma lift_all_top_id n : forall (cols : list column), length cols = n -> lift_all_top (repeat (Some []) n) cols = cols.
  Proof.
    unfold Widen.lift_all_top.
    induction n as [|n IH]; intros [|c cols] H; cbn in H; try lia; [reflexivity|].
    cbn. f_equal; [|apply IH; lia]. apply map_id_ext. apply lift_top_nil.
  Qed.

  Theorem widen_columns_top_self src s (cols : list column) :
    length cols = nl s -> widen_columns_top V zero src s s cols = cols.
  Proof. intros H. unfold widen_columns_top. rewrite (proj1 thr_top_self). now apply lift_all_top_id. Qed.
End WidenProofs.
