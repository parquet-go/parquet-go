(** Proofs about Cursor/Forward.v: for every number of rows, every policy of
    the reader underneath (how short it cuts each batch, when it says io.EOF)
    and every finite history of reads and seeks, the three forward-only
    seekers return what a single row position says ([sound]). *)
From Coq Require Import List Arith Bool Lia.
From PQ Require Import Cursor.Forward.
Import ListNotations.

Definition sound1 (N pos : nat) (o : fop) (out : fout) (pos' : nat) : Prop :=
  match o, out with
  | FRead n, FRows f c e =>
      c <= n /\
      (0 < c -> f = pos /\ pos + c <= N) /\
      (c = 0 -> n = 0 \/ (e = true /\ N <= pos)) /\
      (e = true -> N <= pos + c) /\
      pos' = pos + c
  | FSeek k, FSeekOk => pos' = k
  | FSeek k, FRefused => k < pos /\ pos' = pos
  | FSeek k, FSeekEOF => N <= k /\ pos <= N /\ pos' = N
  | _, _ => False
  end.

Lemma run_gen_sound : forall (S : Type) (step : S -> fop -> fout * S)
    (inv : S -> Prop) (posf : S -> nat) (N : nat),
  (forall s o out s', inv s -> step s o = (out, s') ->
     inv s' /\ sound1 N (posf s) o out (posf s')) ->
  forall ops s, inv s -> sound N (posf s) ops (run_gen step s ops).
Proof.
  intros S step inv posf N Hstep ops.
  induction ops as [|o ops IH]; intros s Hinv; simpl; auto.
  destruct (step s o) as [out s'] eqn:E.
  destruct (Hstep _ _ _ _ Hinv E) as [Hinv' H1].
  specialize (IH s' Hinv').
  destruct o as [n|k]; destruct out as [f c e| | |]; simpl in H1; try contradiction; simpl.
  - destruct H1 as (A & B & C & D & P). rewrite P in IH. repeat split; auto; apply B; auto.
  - rewrite H1 in IH. exact IH.
  - destruct H1 as [A P]. rewrite P in IH. auto.
  - destruct H1 as (A & B & P). rewrite P in IH. auto.
Qed.

Lemma capped_le : forall cap n, capped cap n <= n.
Proof. intros. unfold capped. destruct (cap =? 0); lia. Qed.

Lemma capped_zero : forall cap n, capped cap n = 0 -> n = 0.
Proof.
  intros cap n. unfold capped. destruct (cap =? 0) eqn:E; intro H; auto.
  apply Nat.eqb_neq in E. lia.
Qed.

Lemma under_read_spec : forall N eofl pol u n c eof u',
  upos u <= N ->
  under_read N eofl pol u n = (c, eof, u') ->
  upos u' = upos u + c /\ upos u' <= N /\ c <= n /\
  if eof then upos u' = N else (c = 0 -> n = 0).
Proof.
  intros N eofl pol u n c eof u' Hle. unfold under_read.
  destruct (Nat.leb_spec N (upos u)) as [E|E]; intro H; inversion H; subst; clear H; simpl.
  - lia.
  - pose proof (capped_le (pol (ucalls u)) n) as Hc.
    pose proof (capped_zero (pol (ucalls u)) n) as Hz.
    split; [lia|]. split; [lia|]. split; [lia|].
    destruct (eofl && (upos u + Nat.min (capped (pol (ucalls u)) n) (N - upos u) =? N)
              && (0 <? Nat.min (capped (pol (ucalls u)) n) (N - upos u))) eqn:He; [|lia].
    apply andb_true_iff in He. destruct He as [He _].
    apply andb_true_iff in He. destruct He as [_ He]. now apply Nat.eqb_eq in He.
Qed.

Lemma read_ok_intro : forall N pos n f c (e : bool) pos',
  c <= n ->
  (0 < c -> f = pos /\ pos + c <= N) ->
  (if e then N <= pos + c else (c = 0 -> n = 0)) ->
  pos' = pos + c ->
  sound1 N pos (FRead n) (FRows f c e) pos'.
Proof.
  intros N pos n f c e pos' H1 H2 H3 H4. simpl. repeat split; try tauto.
  - intros Hc. destruct e; [right; split; [reflexivity|lia]|left; auto].
  - intros ->. exact H3.
Qed.

Definition fws_inv (N : nat) (s : fws) : Prop := f_index s = upos (f_u s) /\ upos (f_u s) <= N.
Definition fws_pos (s : fws) : nat := Nat.max (f_index s) (f_seek s).

Lemma fws_read_ok : forall N eofl pol fuel s n out s',
  fws_inv N s -> N - f_index s < fuel ->
  fws_read fuel N eofl pol s n = (out, s') ->
  fws_inv N s' /\ sound1 N (fws_pos s) (FRead n) out (fws_pos s').
Proof.
  intros N eofl pol fuel. induction fuel as [|fuel IH]; intros s n out s' [Hi Hu] Hf; [lia|].
  simpl. destruct (under_read N eofl pol (f_u s) n) as [[c eof] u'] eqn:EU.
  destruct (under_read_spec _ _ _ _ _ _ _ _ Hu EU) as (P1 & P2 & P3 & P4).
  destruct ((0 <? c) && (f_index s <? f_seek s)) eqn:EC.
  - apply andb_true_iff in EC. destruct EC as [C1 C2].
    apply Nat.ltb_lt in C1. apply Nat.ltb_lt in C2.
    destruct (Nat.leb_spec c (f_seek s - f_index s)) as [ES|ES].
    + (* the whole batch is dropped *)
      destruct eof.
      * intro H. inversion H; subst; clear H. unfold fws_inv, fws_pos; simpl.
        split; [lia|]. apply read_ok_intro; lia.
      * intro H. apply IH in H; [|unfold fws_inv; simpl; lia|simpl; lia].
        replace (fws_pos (mkF u' (f_seek s) (f_index s + c))) with (fws_pos s) in H
          by (unfold fws_pos; simpl; lia).
        exact H.
    + intro H. inversion H; subst; clear H. unfold fws_inv, fws_pos; simpl.
      split; [lia|]. destruct eof; apply read_ok_intro; lia.
  - intro H. inversion H; subst; clear H. unfold fws_inv, fws_pos; simpl.
    split; [lia|].
    assert (c = 0 \/ f_seek s <= f_index s).
    { apply andb_false_iff in EC. destruct EC as [C|C]; apply Nat.ltb_ge in C; lia. }
    destruct eof; apply read_ok_intro; lia.
Qed.

Lemma fws_step_ok : forall N eofl pol s o out s',
  fws_inv N s -> fws_step N eofl pol s o = (out, s') ->
  fws_inv N s' /\ sound1 N (fws_pos s) o out (fws_pos s').
Proof.
  intros N eofl pol s o out s' Hinv. destruct o as [n|k]; unfold fws_step.
  - apply fws_read_ok; auto. lia.
  - unfold fws_seek. destruct (f_index s <=? k) eqn:E; intro H; inversion H; subst; clear H.
    + apply Nat.leb_le in E. destruct Hinv. unfold fws_inv, fws_pos; simpl. split; [auto|lia].
    + apply Nat.leb_gt in E. split; auto. unfold fws_pos; simpl. lia.
Qed.

Definition lz_inv (N : nat) (s : lzs) : Prop := l_index s = upos (l_u s) /\ upos (l_u s) <= N.
Definition lz_pos (s : lzs) : nat := Nat.max (l_index s) (l_seek s).

Lemma lz_skip_ok : forall N eofl pol fuel s n ok s1,
  lz_inv N s -> 0 < n -> N - l_index s < fuel ->
  lz_skip fuel N eofl pol s n = (ok, s1) ->
  lz_inv N s1 /\ lz_pos s1 = lz_pos s /\
  (ok = true -> l_index s1 = lz_pos s /\ l_seek s1 <= l_index s1) /\
  (ok = false -> N <= lz_pos s).
Proof.
  intros N eofl pol fuel. induction fuel as [|fuel IH]; intros s n ok s1 [Hi Hu] Hn Hf; [lia|].
  simpl. destruct (l_index s <? l_seek s) eqn:EL.
  - apply Nat.ltb_lt in EL.
    destruct (under_read N eofl pol (l_u s) (Nat.min (l_seek s - l_index s) n)) as [[c eof] u'] eqn:EU.
    destruct (under_read_spec _ _ _ _ _ _ _ _ Hu EU) as (P1 & P2 & P3 & P4).
    destruct eof.
    + intro H. inversion H; subst; clear H.
      unfold lz_inv, lz_pos; simpl.
      split; [lia|]. split; [lia|]. split; [intro; discriminate | intros _; lia].
    + intro H.
      assert (Hc : 0 < c) by lia.
      assert (HI : lz_inv N (mkL u' (l_index s + c) (l_seek s))) by (unfold lz_inv; simpl; lia).
      assert (HF : N - l_index (mkL u' (l_index s + c) (l_seek s)) < fuel) by (simpl; lia).
      destruct (IH _ _ _ _ HI Hn HF H) as (I' & Q & A & B).
      assert (EP : lz_pos (mkL u' (l_index s + c) (l_seek s)) = lz_pos s) by (unfold lz_pos; simpl; lia).
      rewrite EP in *. auto.
  - apply Nat.ltb_ge in EL. intro H. inversion H; subst; clear H.
    unfold lz_inv, lz_pos.
    split; [auto|]. split; [auto|]. split; [intros _; lia | intro; discriminate].
Qed.

Lemma lz_step_ok : forall N eofl pol s o out s',
  lz_inv N s -> lz_step N eofl pol s o = (out, s') ->
  lz_inv N s' /\ sound1 N (lz_pos s) o out (lz_pos s').
Proof.
  intros N eofl pol s o out s' Hinv. destruct o as [n|k]; unfold lz_step.
  - unfold lz_read, lz_read_fuel. destruct (n =? 0) eqn:En.
    + apply Nat.eqb_eq in En. intro H. inversion H; subst; clear H.
      split; auto.
      apply read_ok_intro; lia.
    + apply Nat.eqb_neq in En.
      destruct (lz_skip (S (S N)) N eofl pol s n) as [ok s1] eqn:ES.
      assert (Hn : 0 < n) by lia.
      assert (HF : N - l_index s < S (S N)) by lia.
      destruct (lz_skip_ok _ _ _ _ _ _ _ _ Hinv Hn HF ES) as (I1 & Q & A & B).
      destruct ok.
      * destruct (A eq_refl) as [A1 A2]. destruct I1 as [Hi Hu].
        destruct (under_read N eofl pol (l_u s1) n) as [[c eof] u'] eqn:EU.
        destruct (under_read_spec _ _ _ _ _ _ _ _ Hu EU) as (P1 & P2 & P3 & P4).
        intro H. inversion H; subst; clear H.
        unfold lz_inv; simpl. split; [lia|].
        rewrite <- A1. unfold lz_pos; simpl. destruct eof; apply read_ok_intro; lia.
      * intro H. inversion H; subst; clear H. specialize (B eq_refl).
        split; auto. rewrite Q. apply read_ok_intro; lia.
  - unfold lz_seek. destruct (l_index s <=? k) eqn:E; intro H; inversion H; subst; clear H.
    + apply Nat.leb_le in E. destruct Hinv. unfold lz_inv, lz_pos; simpl. split; [auto|lia].
    + apply Nat.leb_gt in E. split; auto. unfold lz_pos; simpl. lia.
Qed.

Definition eg_inv (N : nat) (s : egs) : Prop := e_index s = upos (e_u s) /\ upos (e_u s) <= N.

Lemma eg_seek_loop_ok : forall N eofl pol k fuel s out s',
  eg_inv N s -> e_index s <= k -> N - e_index s < fuel ->
  eg_seek_loop fuel N eofl pol s k = (out, s') ->
  eg_inv N s' /\ sound1 N (e_index s) (FSeek k) out (e_index s').
Proof.
  intros N eofl pol k fuel. induction fuel as [|fuel IH]; intros s out s' [Hi Hu] Hk Hf; [lia|].
  simpl. destruct (e_index s <? k) eqn:EL.
  - apply Nat.ltb_lt in EL.
    destruct (under_read N eofl pol (e_u s) (Nat.min (k - e_index s) 64)) as [[c eof] u'] eqn:EU.
    destruct (under_read_spec _ _ _ _ _ _ _ _ Hu EU) as (P1 & P2 & P3 & P4).
    destruct eof.
    + intro H. inversion H; subst; clear H.
      unfold eg_inv; simpl. split; [lia|]. split; [lia|]. split; lia.
    + intro H.
      assert (Hc : 0 < c) by lia.
      assert (HI : eg_inv N (mkE u' (e_index s + c))) by (unfold eg_inv; simpl; lia).
      assert (HK : e_index (mkE u' (e_index s + c)) <= k) by (simpl; lia).
      assert (HF : N - e_index (mkE u' (e_index s + c)) < fuel) by (simpl; lia).
      destruct (IH _ _ _ HI HK HF H) as [I' S'].
      split; auto.
      destruct out; simpl in *; try contradiction; try lia.
  - apply Nat.ltb_ge in EL. intro H. inversion H; subst; clear H.
    split; [split; auto|]. simpl. lia.
Qed.

Lemma eg_step_ok : forall N eofl pol s o out s',
  eg_inv N s -> eg_step N eofl pol s o = (out, s') ->
  eg_inv N s' /\ sound1 N (e_index s) o out (e_index s').
Proof.
  intros N eofl pol s o out s' Hinv. destruct o as [n|k]; unfold eg_step.
  - unfold eg_read. destruct Hinv as [Hi Hu].
    destruct (under_read N eofl pol (e_u s) n) as [[c eof] u'] eqn:EU.
    destruct (under_read_spec _ _ _ _ _ _ _ _ Hu EU) as (P1 & P2 & P3 & P4).
    intro H. inversion H; subst; clear H. unfold eg_inv; simpl.
    split; [lia|]. destruct eof; apply read_ok_intro; lia.
  - unfold eg_seek. destruct (k <? e_index s) eqn:E.
    + apply Nat.ltb_lt in E. intro H. inversion H; subst; clear H. split; auto. simpl. lia.
    + apply Nat.ltb_ge in E. apply eg_seek_loop_ok; auto. lia.
Qed.

(** After any history, a seek forward that succeeds followed by reads returns
    batches that start at k and follow one another: the case of [sound] the
    property is named after. *)
Lemma sound_app_seek_read : forall N ops outs pos k n f c e,
  sound N pos (ops ++ [FSeek k; FRead n]) (outs ++ [FSeekOk; FRows f c e]) ->
  length ops = length outs ->
  0 < c -> f = k /\ k + c <= N.
Proof.
  intros N ops. induction ops as [|o ops IH]; intros outs pos k n f c e H Hl Hc.
  - destruct outs; [|discriminate]. simpl in H. destruct H as (_ & B & _). apply B; auto.
  - destruct outs as [|out outs]; [discriminate|]. simpl in Hl. injection Hl as Hl.
    simpl in H. destruct o as [m|j]; destruct out as [f0 c0 e0| | |]; try contradiction.
    + destruct H as (_ & _ & _ & _ & H). eapply IH; eauto.
    + eapply IH; eauto.
    + destruct H as [_ H]. eapply IH; eauto.
    + destruct H as (_ & _ & H). eapply IH; eauto.
Qed.
