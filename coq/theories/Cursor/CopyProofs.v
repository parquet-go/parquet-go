(** Proofs about CopyRows as an operation of row-reader histories (Cursor/Copy.v). *)
From Coq Require Import List Arith Bool Lia.
From PQ Require Import Cursor.Model Cursor.Rows Cursor.Multi Cursor.MultiProofs Cursor.Copy.
Import ListNotations.

(** Histories with copies only look at the run function: two readers with the
    same outputs on every plain history have the same outputs on every history
    with copies. *)
Lemma copy_loop_ext : forall (A : Type) (read : nat -> A) (r1 r2 : list A -> list mout),
  (forall ops, r1 ops = r2 ops) ->
  forall fuel pre acc, copy_loop read r1 fuel pre acc = copy_loop read r2 fuel pre acc.
Proof.
  intros A read r1 r2 H. induction fuel as [|f IH]; intros pre acc; [reflexivity|].
  cbn. unfold last_out. rewrite H.
  destruct (List.last (r2 (pre ++ [read copy_batch])) MDone); try reflexivity.
  destruct eof; [reflexivity|]. destruct rows; [reflexivity|]. apply IH.
Qed.

Lemma run_k_ext : forall (A : Type) (read : nat -> A) (r1 r2 : list A -> list mout),
  (forall ops, r1 ops = r2 ops) ->
  forall fuel ops pre, run_k read r1 fuel pre ops = run_k read r2 fuel pre ops.
Proof.
  intros A read r1 r2 H fuel. induction ops as [|o ops IH]; intros pre; [reflexivity|].
  destruct o as [o|]; cbn.
  - unfold last_out. rewrite H. f_equal. apply IH.
  - rewrite (copy_loop_ext A read r1 r2 H). destruct (copy_loop read r2 fuel pre []) as [pre' out].
    f_equal. apply IH.
Qed.

(** The copy over the position specification: a machine whose state is one row
    position and whose ReadRows(42) is that of [mspec_step]. *)
Section SpecCopy.
  Variable A : Type.
  Variable read : nat -> A.
  Variable step : nat -> A -> nat * mout.
  Variables (strict : bool) (ncols N : nat).
  Hypothesis Hread : forall pos, step pos (read copy_batch) = mspec_step strict ncols N pos (RRead copy_batch).

  Let runf := run step 0.
  Definition wide (ids : list nat) : list (list nat) := map (fun i => repeat i ncols) ids.

  Lemma last_out_snoc : forall pre o, last_out runf (pre ++ [o]) = snd (step (exec step 0 pre) o).
  Proof.
    intros. unfold last_out, runf. rewrite run_app. cbn.
    destruct (step (exec step 0 pre) o) as [s' r]. cbn. apply last_last.
  Qed.

  Lemma exec_snoc : forall pre o, exec step 0 (pre ++ [o]) = fst (step (exec step 0 pre) o).
  Proof. intros. rewrite exec_app. reflexivity. Qed.

  (** CopyRows at position [pos] hands over the rows [pos .. N-1], ends on
      io.EOF, and leaves the reader at the end (where it was, when it stood
      beyond the end). *)
  Lemma spec_copy_loop : forall fuel pre acc pos,
    exec step 0 pre = pos -> N - pos < copy_batch * fuel ->
    exists pre', copy_loop read runf fuel pre acc = (pre', MRows (acc ++ wide (seq pos (N - pos))) true)
                 /\ exec step 0 pre' = Nat.max pos N.
  Proof.
    assert (Hb : 0 < copy_batch) by (unfold copy_batch; lia).
    induction fuel as [|f IH]; intros pre acc pos Hpos Hfuel; [lia|].
    assert (Hnext : exec step 0 (pre ++ [read copy_batch]) = pos + Nat.min copy_batch (N - pos)).
    { rewrite exec_snoc, Hpos, Hread. reflexivity. }
    cbn [copy_loop]. rewrite last_out_snoc, Hpos, Hread. cbn [mspec_step snd].
    replace (0 <? copy_batch) with true by (symmetry; now apply Nat.ltb_lt). cbn [andb].
    destruct (Nat.leb_spec (N - pos) copy_batch) as [Hle|Hle].
    - exists (pre ++ [read copy_batch]). rewrite Hnext, Nat.min_r by lia. split; [reflexivity|lia].
    - rewrite Nat.min_l in * by lia.
      destruct (map (fun i => repeat i ncols) (seq pos copy_batch)) as [|r0 rs] eqn:Hrows.
      { apply (f_equal (@length _)) in Hrows. rewrite map_length, seq_length in Hrows. cbn in Hrows. lia. }
      rewrite <- Hrows.
      destruct (IH _ (acc ++ wide (seq pos copy_batch)) _ Hnext) as [pre' [Hc He]]; [lia|].
      exists pre'. split; [|rewrite He; lia].
      unfold wide in *. rewrite Hc, <- app_assoc, <- map_app, <- seq_app. do 5 f_equal. lia.
  Qed.
End SpecCopy.

Arguments wide ncols ids : clear implicits.

Lemma reader1_noindex_k_refines : forall N cols fuel ops,
  layout_ok N cols -> run_reader1_noindex_k cols fuel ops = run_xspec_k (length cols) N fuel ops.
Proof.
  intros N cols fuel ops H. apply run_k_ext. intros ops'.
  exact (reader1_refines (noindex_cursor false) N cols ops' H (or_introl eq_refl)).
Qed.
