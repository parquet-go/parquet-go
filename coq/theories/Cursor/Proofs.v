(** Proofs about the page cursor model: the concrete machines refine the
    row-position specification, for every chunk layout and every history. *)
From Coq Require Import List Arith Bool Lia.
From PQ Require Import Base.ListExtra Cursor.Model Cursor.Spec.
Import ListNotations.

Definition positive (pages : chunk) : Prop := Forall (fun c => 0 < c) pages.

Lemma first_row_nil : forall i, first_row [] i = 0.
Proof. destruct i; reflexivity. Qed.

Lemma first_row_0 : forall pages, first_row pages 0 = 0.
Proof. destruct pages; reflexivity. Qed.

Lemma first_row_S : forall pages i c,
  nth_error pages i = Some c -> first_row pages (S i) = first_row pages i + c.
Proof.
  induction pages as [|d rest IH]; intros i c H.
  - destruct i; discriminate.
  - destruct i as [|i]; cbn in H.
    + inversion H; subst. cbn [first_row]. rewrite first_row_0. lia.
    + cbn [first_row]. rewrite (IH i c H). cbn [first_row]. lia.
Qed.

Lemma first_row_beyond : forall pages i,
  length pages <= i -> first_row pages i = total_rows pages.
Proof.
  unfold total_rows. induction pages as [|d rest IH]; intros i H.
  - now rewrite first_row_nil.
  - destruct i as [|i]; cbn in H; [lia|]. cbn [first_row length]. rewrite (IH i); lia.
Qed.

Lemma first_row_le_total : forall pages i, first_row pages i <= total_rows pages.
Proof.
  unfold total_rows. induction pages as [|d rest IH]; intros i.
  - rewrite first_row_nil. lia.
  - destruct i as [|i]; cbn [first_row length]; [lia|]. specialize (IH i). lia.
Qed.

Lemma page_end_in : forall rest base pos i c,
  nth_error rest i = Some c ->
  base + first_row rest i <= pos -> pos < base + first_row rest i + c ->
  page_end rest base pos = Some (base + first_row rest i + c).
Proof.
  induction rest as [|d rest IH]; intros base pos i c Hn Hlo Hhi.
  - destruct i; discriminate.
  - destruct i as [|i]; cbn in Hn.
    + inversion Hn; subst. cbn [first_row page_end] in *.
      destruct (Nat.ltb_spec pos (base + c)); [f_equal; lia|lia].
    + cbn [first_row] in *. cbn [page_end].
      replace (pos <? base + d) with false by (symmetry; apply Nat.ltb_ge; lia).
      rewrite (IH (base + d) pos i c Hn); [f_equal|..]; lia.
Qed.

Lemma page_end_beyond : forall rest base pos,
  base + total_rows rest <= pos -> page_end rest base pos = None.
Proof.
  unfold total_rows. induction rest as [|d rest IH]; intros base pos H; [reflexivity|].
  cbn [first_row length] in H. cbn [page_end].
  replace (pos <? base + d) with false by (symmetry; apply Nat.ltb_ge; lia).
  apply IH. lia.
Qed.

Lemma page_end_bounds : forall rest base pos e,
  page_end rest base pos = Some e -> pos < e /\ e <= base + total_rows rest.
Proof.
  unfold total_rows. induction rest as [|d rest IH]; intros base pos e H; [discriminate|].
  cbn [page_end] in H. cbn [first_row length].
  destruct (pos <? base + d) eqn:E.
  - inversion H; subst. apply Nat.ltb_lt in E. lia.
  - apply IH in H. lia.
Qed.

Lemma page_end_none : forall rest base pos,
  page_end rest base pos = None -> base <= pos -> base + total_rows rest <= pos.
Proof.
  unfold total_rows. induction rest as [|d rest IH]; intros base pos H Hb.
  - cbn. lia.
  - cbn [page_end] in H. cbn [first_row length].
    destruct (pos <? base + d) eqn:E; [discriminate|]. apply Nat.ltb_ge in E.
    specialize (IH (base + d) pos H E). lia.
Qed.

Lemma read_loop_spec : forall pages, positive pages ->
  forall fuel s s' o,
  length pages - stream s < fuel ->
  read_loop pages fuel s = (s', o) ->
  let pos := first_row pages (stream s) + skip s in
  serve_last s' = serve_last s /\
  index s' + stream s = stream s' + index s /\
  (last s' = last s \/
   exists d, last s' = Some (index s + d, stream s + d) /\ stream s + d < length pages) /\
  match page_end pages 0 pos with
  | Some e => o = Rows pos (e - pos) /\ first_row pages (stream s') = e /\ skip s' = 0
  | None => o = EOF /\ first_row pages (stream s') + skip s' = pos
  end.
Proof.
  intros pages Hp. induction fuel as [|fuel IH]; intros s s' o Hf H; [lia|].
  cbn [read_loop] in H.
  destruct (nth_error pages (stream s)) as [numRows|] eqn:En.
  - assert (Hlt : stream s < length pages) by (apply nth_error_Some; congruence).
    pose proof (Forall_nth_error _ _ _ _ _ Hp En) as Hc. cbv beta in Hc.
    pose proof (first_row_S _ _ _ En) as HS.
    destruct (skip s =? 0) eqn:E0.
    + apply Nat.eqb_eq in E0. inversion H; subst s' o; clear H. cbn.
      repeat split; try lia.
      * right. exists 0. rewrite !Nat.add_0_r. split; [reflexivity|lia].
      * rewrite E0, Nat.add_0_r.
        rewrite (page_end_in pages 0 (first_row pages (stream s)) (stream s) numRows En) by lia.
        cbn. repeat split; try lia. f_equal. lia.
    + apply Nat.eqb_neq in E0.
      destruct (numRows <=? skip s) eqn:E1.
      * apply Nat.leb_le in E1.
        apply IH in H; [|cbn; lia]. cbn in H.
        destruct H as (Hs & Hi & Hl & Hm).
        split; [exact Hs|]. split; [lia|]. split.
        -- destruct Hl as [Hl|(d & Hl & Hd)].
           ++ right. exists 0. rewrite !Nat.add_0_r. split; [exact Hl|lia].
           ++ right. exists (S d). rewrite <- !plus_n_Sm. split; [exact Hl|lia].
        -- replace (first_row pages (stream s) + skip s)
             with (first_row pages (S (stream s)) + (skip s - numRows)) by lia.
           exact Hm.
      * apply Nat.leb_gt in E1. inversion H; subst s' o; clear H. cbn.
        repeat split; try lia.
        -- right. exists 0. rewrite !Nat.add_0_r. split; [reflexivity|lia].
        -- rewrite (page_end_in pages 0 _ (stream s) numRows En) by lia.
           cbn. repeat split; try lia. f_equal. lia.
  - inversion H; subst s' o; clear H.
    apply nth_error_None in En.
    repeat split; try lia; [now left|].
    rewrite page_end_beyond; [split; reflexivity|].
    rewrite (first_row_beyond _ _ En). lia.
Qed.

Definition sim_at {S R P : Type} (I : S -> P -> Prop) (r : S * R) (q : P * R) : Prop :=
  snd r = snd q /\ I (fst r) (fst q).

Definition simulates {S O R P : Type} (step : S -> O -> S * R) (spec : P -> O -> P * R)
  (I : S -> P -> Prop) : Prop :=
  forall s p o, I s p -> sim_at I (step s o) (spec p o).

Lemma run_refines_on : forall (S O R P : Type) (A : O -> Prop)
  (step : S -> O -> S * R) (spec : P -> O -> P * R) (I : S -> P -> Prop),
  (forall s p o, A o -> I s p ->
     snd (step s o) = snd (spec p o) /\ I (fst (step s o)) (fst (spec p o))) ->
  forall ops s p, Forall A ops -> I s p -> run step s ops = run spec p ops.
Proof.
  intros S O R P A step spec I Hstep. induction ops as [|o ops IH]; intros s p Ha Hi; [reflexivity|].
  inversion Ha; subst. cbn [run]. destruct (Hstep s p o H1 Hi) as (Ho & Hi').
  destruct (step s o) as [s' r]; destruct (spec p o) as [p' r']. cbn in *. subst r'.
  f_equal. now apply IH.
Qed.

Lemma run_refines : forall (S O R P : Type) (step : S -> O -> S * R) (spec : P -> O -> P * R)
  (I : S -> P -> Prop),
  simulates step spec I -> forall ops s p, I s p -> run step s ops = run spec p ops.
Proof.
  intros S O R P step spec I Hstep ops s p.
  apply (run_refines_on _ _ _ _ (fun _ => True)); [intros s0 p0 o _; apply Hstep|].
  apply Forall_forall. auto.
Qed.

(** Cursor with an offset index (current code): the page counter and the
    stream agree, the cached page is the one its index says, and a pending
    re-serve happens only right after that page. *)
Definition last_ok (pages : chunk) (l : option (nat * nat)) : Prop :=
  match l with Some (li, lp) => li = lp /\ lp < length pages | None => True end.

Definition inv_indexed (pages : chunk) (s : state) (pos : nat) : Prop :=
  index s = stream s /\ last_ok pages (last s) /\
  if serve_last s
  then exists l, last s = Some (l, l) /\ index s = S l /\ pos = first_row pages l + skip s
  else pos = first_row pages (stream s) + skip s.

(** Cursor without an offset index: only the stream and the skip count matter. *)
Definition inv_stream (pages : chunk) (s : state) (pos : nat) : Prop :=
  serve_last s = false /\ pos = first_row pages (stream s) + skip s.

Lemma inv_indexed_init : forall pages, inv_indexed pages init 0.
Proof. intros. unfold inv_indexed, init; cbn. now rewrite first_row_0. Qed.

Lemma inv_stream_init : forall pages, inv_stream pages init 0.
Proof. intros. unfold inv_stream, init; cbn. now rewrite first_row_0. Qed.

Lemma inv_indexed_stream : forall pages s p,
  inv_indexed pages s p -> serve_last s = false -> inv_stream pages s p.
Proof. intros pages s p (_ & _ & H) Hs. rewrite Hs in H. now split. Qed.

Lemma spec_read_eq : forall pages pos,
  spec_step pages pos ReadPage =
  match page_end pages 0 pos with Some e => (e, Rows pos (e - pos)) | None => (pos, EOF) end.
Proof. reflexivity. Qed.

Lemma read_page_stream_sim : forall pages, positive pages -> forall s pos, inv_stream pages s pos ->
  sim_at (inv_stream pages) (read_page pages s) (spec_step pages pos ReadPage).
Proof.
  unfold sim_at.
  intros pages Hp s pos (Hsv & Hpos). unfold read_page. rewrite Hsv.
  destruct (read_loop pages (S (length pages)) s) as [s' o] eqn:H.
  apply (read_loop_spec pages Hp) in H; [|lia].
  destruct H as (Hs & _ & _ & Hm). rewrite <- Hpos in Hm.
  rewrite spec_read_eq. unfold inv_stream.
  destruct (page_end pages 0 pos) as [e|]; cbn.
  - destruct Hm as (-> & He & Hk). repeat split; [congruence|lia].
  - destruct Hm as (-> & He). repeat split; [congruence|lia].
Qed.

Lemma read_loop_sim : forall pages, positive pages -> forall t p,
  index t = stream t -> last_ok pages (last t) -> serve_last t = false ->
  p = first_row pages (stream t) + skip t ->
  sim_at (inv_indexed pages) (read_loop pages (S (length pages)) t) (spec_step pages p ReadPage).
Proof.
  unfold sim_at.
  intros pages Hp t p Hi Hlo Hsv Hp'.
  destruct (read_loop pages (S (length pages)) t) as [t' o'] eqn:HL.
  apply (read_loop_spec pages Hp) in HL; [|lia].
  destruct HL as (Hs & Hi' & Hl' & Hm). rewrite <- Hp' in Hm.
  assert (Hlo' : last_ok pages (last t')).
  { destruct Hl' as [->|(d & -> & Hd)]; [exact Hlo|]. cbn. split; lia. }
  rewrite spec_read_eq. unfold inv_indexed. cbn [fst snd]. rewrite Hs, Hsv.
  destruct (page_end pages 0 p) as [e|]; cbn.
  - destruct Hm as (-> & He & Hk). repeat split; try assumption; lia.
  - destruct Hm as (-> & He). repeat split; try assumption; lia.
Qed.

Lemma read_page_indexed_sim : forall pages, positive pages -> forall s pos, inv_indexed pages s pos ->
  sim_at (inv_indexed pages) (read_page pages s) (spec_step pages pos ReadPage).
Proof.
  unfold sim_at.
  intros pages Hp s pos (Hix & Hl & Hpos). unfold read_page.
  destruct (serve_last s) eqn:Esv.
  - destruct Hpos as (l & Hlast & Hidx & Hpos). rewrite Hlast in *.
    destruct Hl as (_ & Hlt).
    destruct (nth_error pages l) as [numRows|] eqn:En; [|apply nth_error_None in En; lia].
    rewrite (nth_error_nth _ _ 0 En).
    pose proof (first_row_S _ _ _ En) as HS.
    assert (Hst : stream s = S l) by lia.
    destruct (Nat.ltb_spec (skip s) numRows) as [Ek|Ek].
    + rewrite spec_read_eq, (page_end_in pages 0 pos l numRows En) by lia. cbn.
      split; [f_equal; lia|].
      unfold inv_indexed; cbn. rewrite Hst. repeat split; lia.
    + apply read_loop_sim; cbn; rewrite ?Hst; auto; lia.
  - apply read_loop_sim; assumption.
Qed.

Lemma search_gt_spec : forall rest base k t,
  search_gt rest base k = S t ->
  t < length rest /\ base + first_row rest t <= k.
Proof.
  induction rest as [|c rest IH]; intros base k t H; [discriminate|].
  cbn [search_gt] in H. destruct (k <? base) eqn:E; [discriminate|].
  apply Nat.ltb_ge in E. injection H as H.
  destruct (search_gt rest (base + c) k) as [|u] eqn:Eu.
  - subst t. cbn. split; lia.
  - subst t. apply IH in Eu. cbn [length first_row]. destruct Eu. split; lia.
Qed.

Lemma seek_indexed_sim : forall pages s pos k, inv_indexed pages s pos ->
  sim_at (inv_indexed pages) (seek_indexed false pages s k) (spec_step pages pos (SeekToRow k)).
Proof.
  unfold sim_at.
  intros pages s pos k (Hix & Hl & Hpos). unfold seek_indexed. cbn [spec_step].
  destruct pages as [|c rest].
  - (* no page at all: nothing was ever cached *)
    assert (Hnone : last s = None).
    { destruct (last s) as [[li lp]|]; [cbn in Hl; lia|reflexivity]. }
    assert (Hsv : serve_last s = false).
    { destruct (serve_last s); [|reflexivity]. destruct Hpos as (l & Hc & _). congruence. }
    rewrite Hsv, first_row_nil in Hpos.
    destruct (k =? 0); cbn [fst snd]; (split; [reflexivity|]); unfold inv_indexed;
      cbn [index stream skip last serve_last set_skip set_serve];
      rewrite Hnone, ?first_row_nil; repeat split; assumption.
  - set (pages := c :: rest) in *.
    destruct (search_gt pages 0 k) as [|target] eqn:Es; [discriminate|].
    apply search_gt_spec in Es. destruct Es as (Htl & Hle). cbn [Nat.add] in Hle.
    cbn [set_serve last index].
    (* the cached page is served again only when it is the target and was the last one read *)
    set (again := match last s with Some (li, _) => _ | None => false end).
    assert (Ha : again = true -> last s = Some (target, target) /\ index s = S target).
    { unfold again. destruct (last s) as [[li lp]|]; [|discriminate]. destruct Hl as (-> & _).
      intros E. apply andb_true_iff in E. destruct E as (E1 & E2).
      apply Nat.eqb_eq in E1. apply Nat.eqb_eq in E2. now subst lp. }
    destruct again.
    + destruct (Ha eq_refl) as (El & Ei). split; [reflexivity|].
      unfold inv_indexed; cbn [fst snd set_serve set_skip index stream skip last serve_last].
      repeat split; try assumption. exists target. repeat split; try assumption; lia.
    + destruct (Nat.eqb_spec (index s) target) as [<-|Et]; (split; [reflexivity|]);
        unfold inv_indexed; cbn [fst snd set_serve set_skip index stream skip last serve_last];
        rewrite <- ?Hix; repeat split; try assumption; lia.
Qed.

Lemma seek_noindex_sim : forall dict pages s pos k,
  sim_at (inv_stream pages) (seek_noindex dict s k) (spec_step_noindex pages pos (SeekToRow k)).
Proof.
  intros. cbn. split; [reflexivity|]. unfold inv_stream; cbn. now rewrite first_row_0.
Qed.

Lemma step_indexed_sim : forall pages, positive pages ->
  simulates (step_indexed pages) (spec_step pages) (inv_indexed pages).
Proof.
  intros pages Hp s p o Hi. destruct o as [|k]; cbn [step_indexed].
  - now apply read_page_indexed_sim.
  - now apply seek_indexed_sim.
Qed.

Lemma step_noindex_sim : forall dict pages, positive pages ->
  simulates (step_noindex dict pages) (spec_step_noindex pages) (inv_stream pages).
Proof.
  intros dict pages Hp s p o Hi. destruct o as [|k]; cbn [step_noindex].
  - now apply read_page_stream_sim.
  - apply seek_noindex_sim.
Qed.

Theorem noindex_refines_gen : forall dict pages ops, positive pages ->
  run_noindex_pinned dict pages ops = run_spec_noindex pages ops.
Proof.
  intros dict pages ops Hp.
  exact (run_refines _ _ _ _ _ _ _ (step_noindex_sim dict pages Hp) ops _ _ (inv_stream_init pages)).
Qed.

(** Lazily loaded index: correct because the index-less seek restarts the page
    counter at 0 (before 5c1fea6: only for a chunk without a dictionary page).
    Until the index is loaded the cursor satisfies both invariants. *)
Definition inv_lazy (pages : chunk) (sl : state * bool) (pl : nat * bool) : Prop :=
  snd sl = snd pl /\ inv_indexed pages (fst sl) (fst pl) /\
  (snd sl = false -> serve_last (fst sl) = false).

Lemma step_lazy_sim : forall pages, positive pages ->
  simulates (step_lazy false pages) (spec_step_lazy pages) (inv_lazy pages).
Proof.
  intros pages Hp [s b] [p b'] o (Hb & Hi & Hsv). cbn in Hb, Hi, Hsv. subst b'.
  destruct o as [o|]; cbn [step_lazy spec_step_lazy].
  - destruct b.
    + destruct (step_indexed_sim pages Hp s p o Hi) as (Ho & Hi').
      destruct (step_indexed pages s o) as [s' r]; destruct (spec_step pages p o) as [p' r'].
      cbn [fst snd] in *. split; [assumption|]. unfold inv_lazy; cbn [fst snd].
      split; [reflexivity|split; [exact Hi'|discriminate]].
    + specialize (Hsv eq_refl).
      destruct o as [|k]; cbn [step_noindex spec_step_noindex].
      * (* ReadPage: same function in both modes *)
        destruct (read_page_indexed_sim pages Hp s p Hi) as (Ho & Hi').
        destruct (read_page_stream_sim pages Hp s p (inv_indexed_stream _ _ _ Hi Hsv)) as (_ & Hsv' & _).
        destruct (read_page pages s) as [s' r]. destruct (spec_step pages p ReadPage) as [p' r'].
        cbn [fst snd] in *. split; [assumption|]. unfold inv_lazy; cbn [fst snd]. auto.
      * cbn [seek_noindex fst snd]. split; [reflexivity|].
        unfold inv_lazy, inv_indexed; cbn [fst snd set_serve set_skip index stream skip last serve_last].
        destruct Hi as (_ & Hl & _). rewrite first_row_0. auto.
  - cbn [fst snd]. split; [reflexivity|]. unfold inv_lazy; cbn [fst snd].
    split; [reflexivity|split; [exact Hi|discriminate]].
Qed.

Lemma inv_lazy_init : forall pages, inv_lazy pages (init, false) (0, false).
Proof. intros. unfold inv_lazy; cbn. repeat split. apply inv_indexed_init. Qed.
