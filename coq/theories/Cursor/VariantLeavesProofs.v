(** Proofs about Cursor/VariantLeaves.v: for every number of leaf columns,
    every number of rows and every finite history of cursor creations, Next
    and SeekToRow, every leaf that is read delivers the rows of the shared
    window, wherever in the history its cursor was created. *)
From Coq Require Import List Arith Bool Lia.
From PQ Require Import Cursor.VariantLeaves.
Import ListNotations.

(** what a leaf looks like when the reader stands at row [off] *)
Definition leaf_ok (off : nat) (l : leaf) : Prop :=
  (lf_in l = false -> lf_opened l = false) /\
  (if lf_opened l
   then match lf_pending l with Some p => p = off | None => lf_pos l = off end
   else lf_pending l = None /\ lf_pos l = 0).

Lemma leaf_read_ok : forall off n l,
  leaf_ok off l ->
  snd (leaf_read true off n l) = (if lf_in l then Some off else None) /\
  lf_in (fst (leaf_read true off n l)) = lf_in l /\
  leaf_ok (off + n) (fst (leaf_read true off n l)).
Proof.
  intros off n l [Hin Hok]. unfold leaf_read.
  destruct (lf_in l) eqn:Ein.
  - destruct (lf_opened l) eqn:Eop.
    + destruct (lf_pending l) as [p|] eqn:Ep; simpl.
      * subst p. split; auto. split; auto. split; [intro; discriminate|simpl; auto].
      * rewrite Hok. split; auto. split; auto. split; [intro; discriminate|simpl; auto].
    + destruct Hok as [Hp Hpos]. rewrite Hp, Hpos. simpl.
      destruct (0 <? off) eqn:E0; simpl.
      * split; auto. split; auto. split; [intro; discriminate|simpl; auto].
      * apply Nat.ltb_ge in E0. assert (off = 0) by lia. subst off.
        split; auto. split; auto. split; [intro; discriminate|simpl; auto].
  - simpl. split; auto. split; auto.
    split; auto. rewrite (Hin eq_refl) in *. exact Hok.
Qed.

Lemma set_in_spec : forall ls j off,
  Forall (leaf_ok off) ls ->
  map lf_in (set_in ls j) = set_true (map lf_in ls) j /\ Forall (leaf_ok off) (set_in ls j).
Proof.
  induction ls as [|l ls IH]; intros j off H; simpl.
  - destruct j; auto.
  - inversion H as [|? ? Hl Hls]; subst. destruct j; simpl.
    + split; auto. constructor; auto.
      destruct Hl as [A B]. split; simpl; auto. intro; discriminate.
    + destruct (IH j off Hls) as [E F]. rewrite E. split; auto.
Qed.

Definition vinv (s : vstate) : Prop := Forall (leaf_ok (v_off s)) (v_leaves s).

Lemma leaves_map_ok : forall (g : leaf -> leaf) off off',
  (forall l, leaf_ok off l -> lf_in (g l) = lf_in l /\ leaf_ok off' (g l)) ->
  forall ls, Forall (leaf_ok off) ls ->
  map lf_in (map g ls) = map lf_in ls /\ Forall (leaf_ok off') (map g ls).
Proof.
  intros g off off' Hg ls H. induction H as [|l ls Hl _ (E & F)]; cbn; [auto|].
  destruct (Hg l Hl) as (A & B). rewrite A, E. auto.
Qed.

Lemma leaf_mark_ok : forall off k l, leaf_ok off l ->
  let l' := if lf_in l && (lf_opened l || negb true)
            then mkLeaf (lf_in l) (lf_opened l) (Some k) (lf_pos l) else l in
  lf_in l' = lf_in l /\ leaf_ok k l'.
Proof.
  intros off k l (A & B). unfold leaf_ok in *.
  destruct (lf_in l) eqn:Ein; [destruct (lf_opened l) eqn:Eop|]; cbn; rewrite ?Ein, ?Eop; auto.
  rewrite (A eq_refl) in *. auto.
Qed.

Lemma variant_refines_gen : forall N ops s,
  vinv s -> vrun true N s ops = vspec N (v_off s) (map lf_in (v_leaves s)) ops.
Proof.
  intros N ops. induction ops as [|o ops IH]; intros s Hinv; simpl; auto.
  destruct o as [j|n|k]; simpl.
  - (* create *)
    destruct (set_in_spec (v_leaves s) j (v_off s) Hinv) as [E F].
    rewrite <- E. f_equal.
    apply (IH (mkV (v_off s) (set_in (v_leaves s) j))). exact F.
  - (* next *)
    unfold vnext. destruct (n =? 0) eqn:En.
    + rewrite map_map. f_equal. apply IH; auto.
    + destruct (N <=? v_off s) eqn:EN.
      * f_equal. apply IH; auto.
      * set (n' := Nat.min n (N - v_off s)).
        assert (E1 : map snd (map (leaf_read true (v_off s) n') (v_leaves s)) =
                     map (fun b : bool => if b then Some (v_off s) else None) (map lf_in (v_leaves s))).
        { rewrite !map_map. apply map_ext_in. intros l Hl.
          apply leaf_read_ok. exact (proj1 (Forall_forall _ _) Hinv l Hl). }
        destruct (leaves_map_ok (fun l => fst (leaf_read true (v_off s) n' l)) (v_off s) (v_off s + n'))
          with (ls := v_leaves s) as (E2 & E3); [intros l Hl; apply leaf_read_ok, Hl|exact Hinv|].
        rewrite E1, (map_map _ fst). f_equal. rewrite (IH (mkV _ _) E3). cbn [v_off v_leaves]. rewrite E2. reflexivity.
  - (* seek *)
    unfold vseek. destruct (N <? k) eqn:EN.
    + f_equal. apply IH; auto.
    + f_equal.
      destruct (leaves_map_ok _ (v_off s) k (leaf_mark_ok (v_off s) k) (v_leaves s) Hinv) as (E2 & E3).
      rewrite (IH (mkV _ _) E3). cbn [v_off v_leaves]. rewrite E2. reflexivity.
Qed.

Lemma repeat_leaf0_ok : forall n off, Forall (leaf_ok off) (repeat leaf0 n).
Proof.
  induction n; intro off; simpl; constructor; auto.
  split; simpl; auto.
Qed.

Lemma map_in_repeat : forall n, map lf_in (repeat leaf0 n) = repeat false n.
Proof. induction n; simpl; congruence. Qed.
