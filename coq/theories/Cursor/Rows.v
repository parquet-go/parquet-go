(** Above the page cursor: what a cursor that refines the position offers
    ([pos_spec]), the column reader and the one-column rows reader over any
    such cursor, and the rows returned after a seek. *)
From Coq Require Import List Arith Bool Lia.
From PQ Require Import Cursor.Model Cursor.Spec Cursor.Proofs Cursor.Multi.
Import ListNotations.

Definition seek_ok (strict : bool) (pages : chunk) (k : nat) : bool :=
  match pages with
  | [] => (k =? 0) || negb strict
  | _ :: _ => true
  end.

(** [strict]: a chunk without pages rejects every seek but the one to row 0
    (FilePages with an offset index). *)
Definition pos_spec (strict : bool) : chunk -> nat -> op -> nat * out :=
  if strict then spec_step else spec_step_noindex.

Lemma pos_spec_seek : forall strict pages pos k,
  pos_spec strict pages pos (SeekToRow k) =
  if seek_ok strict pages k then (k, SeekOk) else (pos, OutOfRange).
Proof.
  intros strict pages pos k. destruct strict, pages; cbn; rewrite ?orb_true_r, ?orb_false_r; try reflexivity.
  destruct (Nat.eqb_spec k 0) as [->|]; reflexivity.
Qed.

Lemma seek_ok_0 : forall strict pages, seek_ok strict pages 0 = true.
Proof. intros strict [|c rest]; reflexivity. Qed.

Lemma seek_ok_easy : forall strict pages k,
  pages <> [] \/ k = 0 \/ strict = false -> seek_ok strict pages k = true.
Proof.
  intros strict [|c rest] k [H|[->| ->]]; try reflexivity; [congruence|apply orb_true_r].
Qed.

Section CursorRefinesPosition.
  Variables (C : Type) (cstep : C -> op -> C * out) (CI : C -> nat -> Prop).
  Variables (strict : bool) (pages : chunk).
  Hypothesis Hsim : simulates cstep (pos_spec strict pages) CI.

  Lemma sim_read : forall c p, CI c p ->
    snd (cstep c ReadPage) = snd (spec_step pages p ReadPage) /\
    CI (fst (cstep c ReadPage)) (fst (spec_step pages p ReadPage)).
  Proof. intros c p Hc. generalize (Hsim c p ReadPage Hc). now destruct strict. Qed.

  Lemma sim_seek : forall c p k, CI c p ->
    if seek_ok strict pages k
    then snd (cstep c (SeekToRow k)) = SeekOk /\ CI (fst (cstep c (SeekToRow k))) k
    else snd (cstep c (SeekToRow k)) = OutOfRange /\ CI (fst (cstep c (SeekToRow k))) p.
  Proof.
    intros c p k Hc. generalize (Hsim c p (SeekToRow k) Hc). rewrite pos_spec_seek.
    now destruct (seek_ok strict pages k).
  Qed.

  Lemma sim_seek_ok : forall c p k, CI c p -> pages <> [] \/ k = 0 \/ strict = false ->
    snd (cstep c (SeekToRow k)) = SeekOk /\ CI (fst (cstep c (SeekToRow k))) k.
  Proof. intros c p k Hc Hk. generalize (sim_seek c p k Hc). now rewrite seek_ok_easy. Qed.
End CursorRefinesPosition.

(** A page cursor for every chunk layout, refining the position: FilePages
    with an offset index, or without. *)
Record chunk_cursor := {
  cc_step : chunk -> state -> op -> state * out;
  cc_inv : chunk -> state -> nat -> Prop;
  cc_strict : bool;
  cc_init : forall pg, cc_inv pg init 0;
  cc_sim : forall pg, positive pg -> simulates (cc_step pg) (pos_spec cc_strict pg) (cc_inv pg)
}.

Definition indexed_cursor : chunk_cursor :=
  {| cc_step := step_indexed; cc_inv := inv_indexed; cc_strict := true;
     cc_init := inv_indexed_init; cc_sim := step_indexed_sim |}.

Definition noindex_cursor (dict : bool) : chunk_cursor :=
  {| cc_step := step_noindex dict; cc_inv := inv_stream; cc_strict := false;
     cc_init := inv_stream_init; cc_sim := step_noindex_sim dict |}.

Lemma firstn_seq : forall j a b, firstn j (seq a b) = seq a (Nat.min j b).
Proof.
  induction j as [|j IH]; intros a b; [reflexivity|].
  destruct b as [|b]; [reflexivity|]. cbn. f_equal. apply IH.
Qed.

Lemma skipn_seq : forall j a b, skipn j (seq a b) = seq (a + j) (b - j).
Proof.
  induction j as [|j IH]; intros a b.
  - cbn. now rewrite Nat.add_0_r, Nat.sub_0_r.
  - destruct b as [|b]; [reflexivity|]. cbn. rewrite IH. f_equal. lia.
Qed.

Fixpoint exec {S O R : Type} (step : S -> O -> S * R) (s : S) (ops : list O) : S :=
  match ops with
  | [] => s
  | o :: rest => exec step (fst (step s o)) rest
  end.

Lemma run_app : forall (S O R : Type) (step : S -> O -> S * R) a b s,
  run step s (a ++ b) = run step s a ++ run step (exec step s a) b.
Proof.
  induction a as [|o a IH]; intros b s; [reflexivity|].
  cbn. destruct (step s o) as [s' r]. cbn. f_equal. apply IH.
Qed.

Lemma exec_app : forall (S O R : Type) (step : S -> O -> S * R) a b s,
  exec step s (a ++ b) = exec step (exec step s a) b.
Proof. induction a as [|o a IH]; intros; [reflexivity|]. cbn. apply IH. Qed.

Lemma run_after_cons : forall (St O R : Type) (step : St -> O -> St * R) h o rest s,
  skipn (S (length h)) (run step s (h ++ o :: rest)) = run step (fst (step (exec step s h) o)) rest.
Proof.
  induction h as [|x h IH]; intros o rest s; cbn [app length run exec].
  - destruct (step s o). reflexivity.
  - destruct (step s x) as [s' r]. apply IH.
Qed.

Section BatchReads.
  Variables (O R A : Type) (step : nat -> O -> nat * R) (rd : nat -> O) (sk : nat -> O).
  Variables (rows : R -> list A) (f : nat -> A) (N : nat).
  Hypothesis Hrd : forall pos n,
    fst (step pos (rd n)) = pos + Nat.min n (N - pos) /\
    rows (snd (step pos (rd n))) = map f (seq pos (Nat.min n (N - pos))).

  Lemma reads_rows : forall ns pos,
    concat (map rows (run step pos (map rd ns))) = map f (firstn (list_sum ns) (skipn pos (seq 0 N))).
  Proof.
    induction ns as [|n ns IH]; intros pos; [reflexivity|].
    cbn [map run]. destruct (Hrd pos n) as (Hp & Hr).
    destruct (step pos (rd n)) as [p' r]. cbn [fst snd concat map] in *. subst p'.
    rewrite Hr, IH, <- map_app. f_equal.
    rewrite !skipn_seq, !firstn_seq. cbn [Nat.add].
    change (list_sum (n :: ns)) with (n + list_sum ns).
    rewrite <- seq_app. f_equal. lia.
  Qed.

  Hypothesis Hsk : forall pos k, fst (step pos (sk k)) = k \/ N = 0.

  Lemma seek_then_reads : forall h k ns,
    concat (map rows (skipn (S (length h)) (run step 0 (h ++ sk k :: map rd ns)))) =
    map f (firstn (list_sum ns) (skipn k (seq 0 N))).
  Proof.
    intros h k ns. rewrite run_after_cons, reads_rows.
    destruct (Hsk (exec step 0 h) k) as [->|HN]; [reflexivity|].
    rewrite HN. cbn [seq]. now rewrite !skipn_nil.
  Qed.
End BatchReads.

Definition good_out (o : out) : Prop := o = EOF \/ exists f c, o = Rows f c /\ 0 < c.

Lemma spec_reads : forall pages m pos,
  exists pos',
    concat (map out_rows (run (spec_step pages) pos (repeat ReadPage m))) = seq pos (pos' - pos) /\
    pos <= pos' /\ (pos' <= total_rows pages \/ pos' = pos) /\
    (In EOF (run (spec_step pages) pos (repeat ReadPage m)) -> total_rows pages <= pos') /\
    Forall good_out (run (spec_step pages) pos (repeat ReadPage m)).
Proof.
  intros pages. induction m as [|m IH]; intros pos.
  - exists pos. cbn. rewrite Nat.sub_diag. repeat split; try lia; try constructor.
  - cbn [repeat run]. rewrite spec_read_eq.
    destruct (page_end pages 0 pos) as [e|] eqn:Ee.
    + apply page_end_bounds in Ee. cbn in Ee. destruct Ee as (Hlt & Hle).
      destruct (IH e) as (p' & Hrows & Hge & Hb & Heof & Hgood).
      exists p'. cbn [map concat out_rows]. rewrite Hrows.
      replace e with (pos + (e - pos)) at 2 by lia. rewrite <- seq_app.
      repeat split.
      * f_equal. lia.
      * lia.
      * lia.
      * intros [Hc|Hin]; [discriminate|]. now apply Heof.
      * constructor; [|exact Hgood]. right. exists pos, (e - pos). split; [reflexivity|lia].
    + apply page_end_none in Ee; [|lia]. cbn in Ee.
      destruct (IH pos) as (p' & Hrows & Hge & Hb & Heof & Hgood).
      exists p'. cbn [map concat out_rows app]. repeat split; try assumption.
      * intros _. lia.
      * constructor; [now left|exact Hgood].
Qed.

Lemma spec_reads_from : forall pages m p k, p = k \/ total_rows pages = 0 ->
  let after := run (spec_step pages) p (repeat ReadPage m) in
  let rows := concat (map out_rows after) in
  rows = firstn (length rows) (skipn k (seq 0 (total_rows pages))) /\
  (In EOF after -> rows = skipn k (seq 0 (total_rows pages))) /\
  Forall good_out after.
Proof.
  intros pages m p k Hp. cbv zeta.
  destruct (spec_reads pages m p) as (p' & Hrows & Hge & Hb & Heof & Hgood).
  rewrite Hrows, seq_length. split; [|split; [|exact Hgood]].
  - destruct Hp as [->|H0].
    + rewrite skipn_seq, firstn_seq. f_equal. lia.
    + rewrite H0 in *. replace (p' - p) with 0 by lia. cbn [seq]. now rewrite skipn_nil.
  - intros Hin. apply Heof in Hin. destruct Hp as [->|H0].
    + rewrite skipn_seq. f_equal. lia.
    + rewrite H0 in *. replace (p' - p) with 0 by lia. cbn [seq]. now rewrite skipn_nil.
Qed.

Lemma spec_seek_lands : forall pages p k,
  fst (spec_step pages p (SeekToRow k)) = k \/ total_rows pages = 0.
Proof. intros [|c rest] p k; [right|left]; reflexivity. Qed.

Lemma run_spec_noindex_reads : forall pages m pos,
  run (spec_step_noindex pages) pos (repeat ReadPage m) = run (spec_step pages) pos (repeat ReadPage m).
Proof.
  intros pages m pos. apply (run_refines_on _ _ _ _ (eq ReadPage) _ _ eq); [| |reflexivity].
  - intros s p o <- <-. split; reflexivity.
  - apply Forall_forall. intros o Ho. symmetry. exact (repeat_spec _ _ _ Ho).
Qed.

Section ColumnAt.
  Variables (C : Type) (CI : C -> nat -> Prop) (N : nat).

  (** The reader is at row [pos]; the unread rows of the current page are
      ([bf], [bc]), and the cursor stands behind them. *)
  Definition col_at (pos : nat) (c : C) (bf bc : nat) : Prop :=
    exists cp, CI c cp /\ cp = pos + bc /\ (0 < bc -> bf = pos /\ cp <= N).

  Lemma col_at_fresh : forall c k bf, CI c k -> col_at k c bf 0.
  Proof. intros c k bf Hc. exists k. repeat split; try assumption; lia. Qed.

  Lemma col_at_cursor : forall pos c bf bc, col_at pos c bf bc ->
    exists cp, CI c cp /\ forall c', CI c' cp -> col_at pos c' bf bc.
  Proof.
    intros pos c bf bc (cp & Hc & Hcp & Hb). exists cp. split; [exact Hc|].
    intros c' Hc'. now exists cp.
  Qed.
End ColumnAt.

Section GenColumnProofs.
  Variable C : Type.
  Variable pages : chunk.
  Variable cstep : C -> op -> C * out.
  Variable CI : C -> nat -> Prop.
  Variable fuel : nat.
  Hypothesis fuel_pos : 0 < fuel.
  Hypothesis Hread : forall c p, CI c p ->
    snd (cstep c ReadPage) = snd (spec_step pages p ReadPage) /\
    CI (fst (cstep c ReadPage)) (fst (spec_step pages p ReadPage)).
  Variable N : nat.
  Hypothesis HN : total_rows pages = N.
  Local Notation col_at := (col_at C CI N).

  Lemma gfill_spec : forall c cp c' r, CI c cp -> gfill cstep fuel c = (c', r) ->
    (cp < N /\ exists e, r = Some (cp, e - cp) /\ cp < e /\ e <= N /\ CI c' e) \/
    (N <= cp /\ r = None /\ CI c' cp).
  Proof.
    intros c cp c' r Hc H. destruct fuel as [|f]; [lia|]. cbn [gfill] in H.
    destruct (Hread c cp Hc) as (Ho & Hc'). rewrite spec_read_eq in Ho, Hc'.
    destruct (cstep c ReadPage) as [c1 o1]. cbn [fst snd] in *.
    destruct (page_end pages 0 cp) as [e|] eqn:Ee.
    - pose proof (page_end_bounds _ _ _ _ Ee) as (Hlt & Hle). cbn in Hle, Ho, Hc'.
      subst o1. replace (e - cp =? 0) with false in H by (symmetry; apply Nat.eqb_neq; lia).
      inversion H; subst c' r; clear H. left. split; [lia|].
      exists e. repeat split; try assumption; lia.
    - apply page_end_none in Ee; [|lia]. cbn in Ee, Ho, Hc'. subst o1.
      inversion H; subst c' r; clear H. right. repeat split; try assumption; lia.
  Qed.

  Lemma refill_spec : forall pos c bf bc c1 buf, col_at pos c bf bc ->
    (if bc =? 0 then gfill cstep fuel c else (c, Some (bf, bc))) = (c1, buf) ->
    (buf = None /\ N <= pos /\ CI c1 pos) \/
    (exists cnt, buf = Some (pos, cnt) /\ 0 < cnt /\ pos + cnt <= N /\ CI c1 (pos + cnt)).
  Proof.
    intros pos c bf bc c1 buf (cp & Hc & Hcp & Hb) Hf. destruct (Nat.eqb_spec bc 0) as [E0|E0].
    - subst bc. rewrite Nat.add_0_r in Hcp. subst cp.
      destruct (gfill_spec _ _ _ _ Hc Hf) as [(Hlt & e & -> & He1 & He2 & Hc')|(Hge & -> & Hc')].
      + right. exists (e - pos). replace (pos + (e - pos)) with e by lia.
        repeat split; try assumption; lia.
      + left. repeat split; assumption.
    - inversion Hf; subst c1 buf; clear Hf.
      destruct Hb as (-> & Hle); [lia|]. right. exists bc. subst cp.
      repeat split; try assumption; lia.
  Qed.

  Definition eof_flag (n pos : nat) : bool := (0 <? n) && (N - pos <=? n).

  Lemma eof_flag_step : forall n pos, pos + 2 <= N \/ 0 < n ->
    eof_flag (S n) pos = eof_flag n (S pos).
  Proof.
    intros n pos H. unfold eof_flag. destruct n as [|n].
    - cbn. destruct (Nat.leb_spec (N - pos) 1); [lia|reflexivity].
    - cbn [Nat.ltb Nat.leb andb].
      destruct (Nat.leb_spec (N - pos) (S (S n))), (Nat.leb_spec (N - S pos) (S n)); try reflexivity; lia.
  Qed.

  Lemma eof_flag_end : forall n pos, N <= pos + 1 -> eof_flag (S n) pos = true.
  Proof. intros. apply Nat.leb_le. lia. Qed.

  Lemma gread_rows_spec : forall n c bf bc pos c2 bf2 bc2 ids eof,
    col_at pos c bf bc ->
    gread_rows cstep fuel n c bf bc = (c2, bf2, bc2, ids, eof) ->
    let cnt := Nat.min n (N - pos) in
    ids = seq pos cnt /\ eof = eof_flag n pos /\ col_at (pos + cnt) c2 bf2 bc2.
  Proof.
    induction n as [|n IH]; intros c bf bc pos c2 bf2 bc2 ids eof Hc H; cbv zeta.
    - cbn in H. inversion H; subst; clear H. cbn [Nat.min seq]. rewrite Nat.add_0_r. auto.
    - cbn [gread_rows] in H.
      destruct (if bc =? 0 then gfill cstep fuel c else (c, Some (bf, bc))) as [c1 buf] eqn:Ebuf.
      destruct (refill_spec _ _ _ _ _ _ Hc Ebuf) as [(-> & Hge & Hc1)|(cnt & -> & Hcnt & Hle & Hc1)];
        clear Hc Ebuf.
      + inversion H; subst; clear H. replace (Nat.min (S n) (N - pos)) with 0 by lia.
        rewrite eof_flag_end, Nat.add_0_r by lia. auto using col_at_fresh.
      + replace (Nat.min (S n) (N - pos)) with (S (Nat.min n (N - S pos))) by lia.
        destruct (cnt <=? 1) eqn:E1.
        * (* the last row of the page: the next page is loaded to look for its continuation *)
          apply Nat.leb_le in E1. assert (cnt = 1) by lia. subst cnt.
          destruct (gfill cstep fuel c1) as [c2' r] eqn:Ef.
          destruct (gfill_spec _ _ _ _ Hc1 Ef) as [(Hlt & e & -> & He1 & He2 & Hc')|(Hge & -> & Hc')].
          -- destruct (gread_rows cstep fuel n c2' (pos + 1) (e - (pos + 1)))
               as [[[[c3 bf3] bc3] ids3] eof3] eqn:Er.
             inversion H; subst; clear H.
             apply (IH _ _ _ (S pos)) in Er; [|exists e; repeat split; try assumption; lia].
             cbv zeta in Er. destruct Er as (-> & -> & Hc3).
             rewrite eof_flag_step, <- Nat.add_succ_comm by lia. auto.
          -- inversion H; subst; clear H.
             replace (Nat.min n (N - S pos)) with 0 by lia.
             rewrite eof_flag_end by lia. auto using col_at_fresh.
        * apply Nat.leb_gt in E1.
          destruct (gread_rows cstep fuel n c1 (S pos) (cnt - 1))
            as [[[[c3 bf3] bc3] ids3] eof3] eqn:Er.
          inversion H; subst; clear H.
          apply (IH _ _ _ (S pos)) in Er; [|exists (pos + cnt); repeat split; try assumption; lia].
          cbv zeta in Er. destruct Er as (-> & -> & Hc3).
          rewrite eof_flag_step, <- Nat.add_succ_comm by lia. auto.
  Qed.
End GenColumnProofs.

Section RowsReaderProofs.
  Variable pages : chunk.
  Variable strict : bool.
  Variable cstep : state -> op -> state * out.
  Variable CI : state -> nat -> Prop.
  Variable fuel : nat.
  Hypothesis fuel_pos : 0 < fuel.
  Hypothesis Hsim : simulates cstep (pos_spec strict pages) CI.

  Let N := total_rows pages.

  Definition rinv (r : rstate) (pos : nat) : Prop :=
    col_at state CI N pos (cur r) (bfirst r) (bcount r) /\
    seek_ok strict pages pos = true /\
    match row_index r with Some i => i = pos | None => pos = 0 end.

  Lemma rspec_seek_eq : forall pos k, rspec_step strict pages pos (RSeek k) =
    if seek_ok strict pages k then (k, RSeekOk) else (pos, ROutOfRange).
  Proof. intros. unfold rspec_step, seek_ok. destruct pages; reflexivity. Qed.

  Lemma rr_seek_sim : forall r pos k, rinv r pos ->
    sim_at rinv (rr_seek cstep r k) (rspec_step strict pages pos (RSeek k)).
  Proof.
    unfold sim_at.
    intros r pos k (Hcol & Hok & Hri). unfold rr_seek. rewrite rspec_seek_eq.
    destruct (match row_index r with Some i => i =? k | None => false end) eqn:Esh.
    - destruct (row_index r) as [i|] eqn:Ei; [|discriminate]. apply Nat.eqb_eq in Esh. subst i k.
      rewrite Hok. cbn [fst snd]. split; [reflexivity|]. split; [exact Hcol|]. split; [exact Hok|].
      now rewrite Ei.
    - destruct (col_at_cursor _ _ _ _ _ _ _ Hcol) as (cp & Hc & Hmove).
      pose proof (sim_seek _ _ _ _ _ Hsim (cur r) cp k Hc) as Hs.
      destruct (cstep (cur r) (SeekToRow k)) as [c' o]. cbn [fst snd] in Hs.
      destruct (seek_ok strict pages k) eqn:Eok; destruct Hs as (-> & Hc'); cbn.
      + repeat split; [now apply col_at_fresh|exact Eok].
      + repeat split; [now apply Hmove|exact Hok|exact Hri].
  Qed.

  Lemma seek_ok_advance : forall pos n,
    seek_ok strict pages pos = true -> seek_ok strict pages (pos + Nat.min n (N - pos)) = true.
  Proof.
    intros pos n H. unfold seek_ok in *. unfold N, total_rows. destruct pages; [|reflexivity].
    cbn. now rewrite Nat.min_0_r, Nat.add_0_r.
  Qed.

  Lemma rr_read_some : forall r pos n i c bf bc ids eof, rinv r pos -> row_index r = Some i ->
    read_rows cstep fuel n (cur r) (bfirst r) (bcount r) = (c, bf, bc, ids, eof) ->
    RRows ids eof = snd (rspec_step strict pages pos (RRead n)) /\
    rinv (rmk c bf bc (Some (i + length ids))) (fst (rspec_step strict pages pos (RRead n))).
  Proof.
    intros r pos n i c bf bc ids eof (Hcol & Hok & Hri) Ei H.
    rewrite Ei in Hri. subst i.
    destruct (gread_rows_spec state pages cstep CI fuel fuel_pos (sim_read _ _ _ _ _ Hsim) N eq_refl
                n _ _ _ pos _ _ _ _ _ Hcol H) as (-> & -> & Hcol2).
    cbn [rspec_step fst snd]. fold N. split; [reflexivity|].
    rewrite seq_length. repeat split; [exact Hcol2|now apply seek_ok_advance].
  Qed.

  Lemma rr_read_sim : forall r pos n, rinv r pos ->
    sim_at rinv (rr_read cstep fuel r n) (rspec_step strict pages pos (RRead n)).
  Proof.
    intros r pos n Hr. unfold rr_read. destruct (row_index r) as [i|] eqn:Ei.
    - destruct (read_rows cstep fuel n (cur r) (bfirst r) (bcount r))
        as [[[[c bf] bc] ids] eof] eqn:Er.
      cbn [fst snd]. rewrite Ei. cbn [option_map]. exact (rr_read_some r pos n i c bf bc ids eof Hr Ei Er).
    - (* first call: SeekToRow(0) *)
      destruct Hr as (Hcol & _ & Hri). rewrite Ei in Hri. subst pos.
      unfold rr_seek. rewrite Ei.
      destruct (col_at_cursor _ _ _ _ _ _ _ Hcol) as (cp & Hc & _).
      destruct (sim_seek_ok _ _ _ _ _ Hsim (cur r) cp 0 Hc) as (Ho & Hc'); [auto|].
      destruct (cstep (cur r) (SeekToRow 0)) as [c' o]. cbn [fst snd] in Ho, Hc'. subst o.
      set (r1 := rmk c' 0 0 (Some 0)).
      assert (Hr1 : rinv r1 0) by (repeat split; [now apply col_at_fresh|apply seek_ok_0]).
      destruct (read_rows cstep fuel n (cur r1) (bfirst r1) (bcount r1))
        as [[[[c bf] bc] ids] eof] eqn:Er.
      cbn [fst snd option_map row_index r1].
      exact (rr_read_some r1 0 n 0 c bf bc ids eof Hr1 eq_refl Er).
  Qed.

  Lemma rr_reset_sim : forall r pos, rinv r pos ->
    sim_at rinv (rr_reset cstep true r) (rspec_step strict pages pos RReset).
  Proof.
    intros r pos (Hcol & _ & _). unfold rr_reset.
    destruct (col_at_cursor _ _ _ _ _ _ _ Hcol) as (cp & Hc & _).
    destruct (sim_seek_ok _ _ _ _ _ Hsim (cur r) cp 0 Hc) as (_ & Hc'); [auto|].
    destruct (cstep (cur r) (SeekToRow 0)) as [c' o]. cbn [fst snd] in *.
    repeat split; [now apply col_at_fresh|apply seek_ok_0].
  Qed.

  (** Reset is covered only for the reader that forgets its row index. *)
  Definition reset_allowed (clears : bool) (o : rop) : Prop :=
    match o with RReset => clears = true | _ => True end.

  Lemma rr_step_sim : forall clears r pos o, reset_allowed clears o -> rinv r pos ->
    sim_at rinv (rr_step cstep fuel clears r o) (rspec_step strict pages pos o).
  Proof.
    intros clears r pos o Ha Hr. destruct o as [n|k|]; cbn [rr_step].
    - now apply rr_read_sim.
    - now apply rr_seek_sim.
    - cbn in Ha. subst clears. now apply rr_reset_sim.
  Qed.

  Theorem rows_reader_refines : forall clears c0 ops, CI c0 0 -> Forall (reset_allowed clears) ops ->
    run (rr_step cstep fuel clears) (rmk c0 0 0 None) ops = run (rspec_step strict pages) 0 ops.
  Proof.
    intros clears c0 ops H0 Ha.
    apply (run_refines_on _ _ _ _ (reset_allowed clears) _ _ rinv); try assumption.
    - intros. now apply rr_step_sim.
    - repeat split; [now apply col_at_fresh|apply seek_ok_0].
  Qed.
End RowsReaderProofs.

Theorem rows_refines_gen : forall (cc : chunk_cursor) clears pages ops, positive pages ->
  Forall (reset_allowed clears) ops ->
  run (rr_step (cc_step cc pages) (S (length pages)) clears) rinit ops =
  run_rspec (cc_strict cc) pages ops.
Proof.
  intros cc clears pages ops Hp Ha.
  apply (rows_reader_refines pages _ _ (cc_inv cc pages)); try assumption.
  - lia.
  - now apply cc_sim.
  - apply cc_init.
Qed.

Lemma reset_always_allowed : forall ops, Forall (reset_allowed true) ops.
Proof. intros. apply Forall_forall. intros [n|k|] _; exact I || reflexivity. Qed.

Lemma rspec_seek_then_read : forall strict pages h k ns,
  concat (map rout_rows (skipn (S (length h))
    (run (rspec_step strict pages) 0 (h ++ RSeek k :: map RRead ns)))) =
  firstn (list_sum ns) (skipn k (seq 0 (total_rows pages))).
Proof.
  intros strict pages h k ns.
  rewrite (seek_then_reads _ _ _ _ RRead RSeek rout_rows (fun i => i) (total_rows pages)).
  - apply map_id.
  - intros pos n. split; [reflexivity|]. symmetry. apply map_id.
  - intros pos j. destruct pages; [right|left]; reflexivity.
Qed.
