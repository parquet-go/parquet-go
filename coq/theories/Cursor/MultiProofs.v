(** Proofs about the layers above the page cursor (Cursor/Multi.v): the
    multi-column rowGroupRows, multiPages and reader / Reader / GenericReader
    refine the row-position specification for every layout and every history. *)
From Coq Require Import List Arith Bool Lia.
From PQ Require Import Base.ListExtra Cursor.Model Cursor.Spec Cursor.Proofs Cursor.Rows Cursor.Multi.
Import ListNotations.

Lemma append_col_seq : forall d cnt pos tail,
  append_col (map (fun i => repeat i d) (seq pos cnt) ++ tail) (seq pos cnt) =
  map (fun i => repeat i (S d)) (seq pos cnt) ++ tail.
Proof.
  induction cnt as [|cnt IH]; intros pos tail.
  - cbn. destruct tail; reflexivity.
  - cbn [seq map app append_col]. rewrite <- repeat_cons, IH. reflexivity.
Qed.

Section MultiColumnProofs.
  Variables C P : Type.
  Variable cstep : P -> C -> op -> C * out.
  Variable cfuel : P -> nat.
  Variable cinit : C.
  Variable pages_of : P -> chunk.
  Variable CI : P -> C -> nat -> Prop.
  Variable strict : bool.
  Variable N : nat.

  (** What a column must satisfy: its cursor refines the position
      specification over its own page layout, and it has [N] rows. *)
  Record col_ok (p : P) : Prop := {
    ok_fuel : 0 < cfuel p;
    ok_positive : positive (pages_of p);
    ok_total : total_rows (pages_of p) = N;
    ok_init : CI p cinit 0;
    ok_read : forall c pos, CI p c pos ->
      snd (cstep p c ReadPage) = snd (spec_step (pages_of p) pos ReadPage) /\
      CI p (fst (cstep p c ReadPage)) (fst (spec_step (pages_of p) pos ReadPage));
    ok_seek : forall c pos k, CI p c pos ->
      if seek_ok strict (pages_of p) k
      then snd (cstep p c (SeekToRow k)) = SeekOk /\ CI p (fst (cstep p c (SeekToRow k))) k
      else snd (cstep p c (SeekToRow k)) = OutOfRange /\ CI p (fst (cstep p c (SeekToRow k))) pos
  }.

  Lemma col_ok_sim : forall p,
    0 < cfuel p -> positive (pages_of p) -> total_rows (pages_of p) = N -> CI p cinit 0 ->
    simulates (cstep p) (pos_spec strict (pages_of p)) (CI p) -> col_ok p.
  Proof.
    intros p Hf Hp Ht Hi Hsim. constructor; try assumption.
    - exact (sim_read _ _ _ _ _ Hsim).
    - exact (sim_seek _ _ _ _ _ Hsim).
  Qed.

  Definition seekable (k : nat) : bool := (0 <? N) || (k =? 0) || negb strict.

  Lemma seek_ok_seekable : forall p k, col_ok p -> seek_ok strict (pages_of p) k = seekable k.
  Proof.
    intros p k Hp. unfold seek_ok, seekable. pose proof (ok_total p Hp) as Ht.
    pose proof (ok_positive p Hp) as Hpos.
    destruct (pages_of p) as [|c rest].
    - cbn in Ht. rewrite <- Ht. reflexivity.
    - inversion Hpos; subst. unfold total_rows in Ht. cbn [first_row length] in Ht.
      replace (0 <? N) with true by (symmetry; apply Nat.ltb_lt; lia). reflexivity.
  Qed.

  Definition colinv (pos : nat) (p : P) (c : colst C) : Prop :=
    col_at C (CI p) N pos (ccur c) (cbf c) (cbc c).

  Definition minv (ps : list P) (m : mstate C) (pos : nat) : Prop :=
    Forall2 (colinv pos) ps (mcols m) /\ seekable pos = true /\
    match mrow m with Some i => i = pos | None => pos = 0 end.

  Lemma seek_cols_ok : forall ps cs pos k, Forall col_ok ps -> Forall2 (colinv pos) ps cs ->
    seekable k = true ->
    exists cs', seek_cols cstep ps cs k = (cs', true) /\ Forall2 (colinv k) ps (clear_cols cs').
  Proof.
    induction ps as [|p ps IH]; intros cs pos k Hok Hinv Hk;
      inversion Hinv as [|p0 y ps0 l' Hy Hrest]; subst.
    - exists []. split; [reflexivity|constructor].
    - inversion Hok as [|p0 ps0 Hp Hps]; subst. destruct (col_at_cursor _ _ _ _ _ _ _ Hy) as (cp & Hc & _).
      pose proof (ok_seek p Hp (ccur y) cp k Hc) as Hs. rewrite (seek_ok_seekable p k Hp), Hk in Hs.
      cbn [seek_cols]. destruct (cstep p (ccur y) (SeekToRow k)) as [c' o]. cbn [fst snd] in Hs.
      destruct Hs as (-> & Hc').
      destruct (IH l' pos k Hps Hrest Hk) as (cs' & -> & Hcs').
      eexists. split; [reflexivity|]. cbn [clear_cols map]. constructor; [|exact Hcs'].
      now apply col_at_fresh.
  Qed.

  Lemma seek_cols_fail : forall ps cs pos k, Forall col_ok ps -> ps <> [] -> Forall2 (colinv pos) ps cs ->
    seekable k = false ->
    exists cs', seek_cols cstep ps cs k = (cs', false) /\ Forall2 (colinv pos) ps cs'.
  Proof.
    intros ps cs pos k Hok Hne Hinv Hk. destruct ps as [|p ps]; [congruence|].
    inversion Hinv as [|p0 y ps0 l' Hy Hrest]; subst. inversion Hok as [|p0 ps0 Hp Hps]; subst.
    destruct (col_at_cursor _ _ _ _ _ _ _ Hy) as (cp & Hc & Hmove).
    pose proof (ok_seek p Hp (ccur y) cp k Hc) as Hs. rewrite (seek_ok_seekable p k Hp), Hk in Hs.
    cbn [seek_cols]. destruct (cstep p (ccur y) (SeekToRow k)) as [c' o]. cbn [fst snd] in Hs.
    destruct Hs as (-> & Hc'). eexists. split; [reflexivity|]. constructor; [|assumption].
    now apply Hmove.
  Qed.

  Lemma mr_seek_sim : forall ps m pos k, Forall col_ok ps -> ps <> [] -> minv ps m pos ->
    sim_at (minv ps) (mr_seek cstep ps m k) (mspec_step strict (length ps) N pos (RSeek k)).
  Proof.
    unfold sim_at.
    intros ps m pos k Hok Hne (Hcols & Hsk & Hri). unfold mr_seek. cbn [mspec_step].
    fold (seekable k).
    destruct (match mrow m with Some i => i =? k | None => false end) eqn:Esh.
    - destruct (mrow m) as [i|] eqn:Ei; [|discriminate]. apply Nat.eqb_eq in Esh. subst i k.
      rewrite Hsk. cbn. split; [reflexivity|].
      split; [exact Hcols|split; [exact Hsk|now rewrite Ei]].
    - destruct (seekable k) eqn:Ek.
      + destruct (seek_cols_ok ps (mcols m) pos k Hok Hcols Ek) as (cs' & -> & Hcs').
        cbn. split; [reflexivity|].
        split; [exact Hcs'|split; [exact Ek|reflexivity]].
      + destruct (seek_cols_fail ps (mcols m) pos k Hok Hne Hcols Ek) as (cs' & -> & Hcs').
        cbn. split; [reflexivity|].
        split; [exact Hcs'|split; [exact Hsk|exact Hri]].
  Qed.

  Local Notation eof_flag := (eof_flag N).

  Lemma read_cols_spec : forall ps cs n pos d tail rc ec cs' rows' rc' ec',
    Forall col_ok ps -> Forall2 (colinv pos) ps cs ->
    let cnt := Nat.min n (N - pos) in
    read_cols cstep cfuel ps cs n (map (fun i => repeat i d) (seq pos cnt) ++ tail) rc ec
      = (cs', rows', rc', ec') ->
    Forall2 (colinv (pos + cnt)) ps cs' /\
    rows' = map (fun i => repeat i (d + length ps)) (seq pos cnt) ++ tail /\
    rc' = match ps with [] => rc | _ => Nat.max rc cnt end /\
    ec' = ec + (if eof_flag n pos then length ps else 0).
  Proof.
    induction ps as [|p ps IH]; intros cs n pos d tail rc ec cs' rows' rc' ec' Hok Hinv cnt H;
      inversion Hinv as [|p0 y ps0 l' Hy Hrest]; subst.
    - cbn in H. inversion H; subst. rewrite Nat.add_0_r. repeat split; try constructor.
      cbn [length]. destruct (eof_flag n pos); lia.
    - inversion Hok as [|p0 ps0 H1 Hps]; subst.
      cbn [read_cols] in H.
      destruct (gread_rows (cstep p) (cfuel p) n (ccur y) (cbf y) (cbc y))
        as [[[[c1 bf1] bc1] ids] eof] eqn:Er.
      destruct (gread_rows_spec C (pages_of p) (cstep p) (CI p) (cfuel p) (ok_fuel p H1) (ok_read p H1)
                  N (ok_total p H1) n _ _ _ pos _ _ _ _ _ Hy Er) as (-> & -> & Hc2).
      fold cnt in Hc2, H. rewrite append_col_seq, seq_length in H.
      destruct (read_cols cstep cfuel ps l' n _ _ _) as [[[cs2 rows2] rc2] ec2] eqn:Erest in H.
      inversion H; subst cs' rows' rc' ec'; clear H.
      apply (IH l' n pos (S d)) in Erest; try assumption. fold cnt in Erest.
      destruct Erest as (Hcs2 & -> & -> & ->).
      split; [constructor; [exact Hc2|exact Hcs2]|].
      split.
      { replace (d + length (p :: ps)) with (S d + length ps) by (cbn [length]; lia). reflexivity. }
      split.
      { destruct ps; lia. }
      fold (eof_flag n pos). cbn [length]. destruct (eof_flag n pos); lia.
  Qed.

  Lemma seekable_advance : forall pos n, seekable pos = true -> seekable (pos + Nat.min n (N - pos)) = true.
  Proof.
    intros pos n H. unfold seekable in *. destruct N as [|N'].
    - cbn in *. now rewrite Nat.min_0_r, Nat.add_0_r.
    - reflexivity.
  Qed.

  Lemma mr_read_some : forall ps m pos n, Forall col_ok ps -> ps <> [] -> minv ps m pos -> mrow m <> None ->
    forall cs rows rowCount eofCount,
    read_cols cstep cfuel ps (mcols m) n (repeat [] n) 0 0 = (cs, rows, rowCount, eofCount) ->
    MRows (firstn rowCount rows) (0 <? eofCount) = snd (mspec_step strict (length ps) N pos (RRead n)) /\
    minv ps (mmk cs (option_map (fun i => i + rowCount) (mrow m))) (fst (mspec_step strict (length ps) N pos (RRead n))).
  Proof.
    intros ps m pos n Hok Hne (Hcols & Hsk & Hri) Hsome cs rows rowCount eofCount H.
    set (cnt := Nat.min n (N - pos)).
    assert (Hrep : repeat (@nil nat) n = map (fun i => repeat i 0) (seq pos cnt) ++ repeat [] (n - cnt)).
    { replace n with (cnt + (n - cnt)) at 1 by lia. rewrite repeat_app. f_equal.
      clear. generalize pos. induction cnt as [|c IH]; intros; [reflexivity|]. cbn. f_equal. apply IH. }
    rewrite Hrep in H.
    apply (read_cols_spec ps (mcols m) n pos 0) in H; try assumption. fold cnt in H.
    destruct H as (Hcs & -> & -> & ->). cbn [mspec_step fst snd]. fold cnt.
    assert (Hrc : match ps with [] => 0 | _ :: _ => Nat.max 0 cnt end = cnt) by (destruct ps; [congruence|lia]).
    rewrite Hrc. split.
    - f_equal.
      + rewrite firstn_app, firstn_all2 by (rewrite map_length, seq_length; lia).
        rewrite map_length, seq_length, Nat.sub_diag. cbn. now rewrite app_nil_r.
      + fold (eof_flag n pos). destruct (eof_flag n pos); [|reflexivity].
        destruct ps; [congruence|reflexivity].
    - split; [exact Hcs|]. split; [now apply seekable_advance|].
      cbn [mrow]. destruct (mrow m) as [i|]; [|congruence]. cbn. lia.
  Qed.

  Lemma mr_read_sim : forall ps m pos n, Forall col_ok ps -> ps <> [] -> minv ps m pos ->
    sim_at (minv ps) (mr_read cstep cfuel false ps m n) (mspec_step strict (length ps) N pos (RRead n)).
  Proof.
    intros ps m pos n Hok Hne Hm. unfold mr_read. destruct (mrow m) as [i|] eqn:Ei.
    - destruct (read_cols cstep cfuel ps (mcols m) n (repeat [] n) 0 0) as [[[cs rows] rc] ec] eqn:Er.
      cbn [andb fst snd].
      apply (mr_read_some ps m pos n Hok Hne Hm); [congruence|exact Er].
    - (* first call: SeekToRow(0) *)
      assert (Hp0 : pos = 0) by (destruct Hm as (_ & _ & Hri); now rewrite Ei in Hri). subst pos.
      destruct (mr_seek_sim ps m 0 0 Hok Hne Hm) as (Ho & Hm1).
      cbn [mspec_step fst snd] in Ho, Hm1.
      replace ((0 <? N) || (0 =? 0) || negb strict) with true in Ho, Hm1
        by (destruct (0 <? N); reflexivity).
      cbn [fst snd] in Ho, Hm1.
      destruct (mr_seek cstep ps m 0) as [m1 e] eqn:Es. cbn [fst snd] in Ho, Hm1. subst e.
      assert (Hrow : mrow m1 = Some 0).
      { unfold mr_seek in Es. rewrite Ei in Es.
        destruct (seek_cols cstep ps (mcols m) 0) as [cs [|]]; inversion Es; subst; reflexivity. }
      destruct (read_cols cstep cfuel ps (mcols m1) n (repeat [] n) 0 0) as [[[cs rows] rc] ec] eqn:Er.
      cbn [andb fst snd].
      apply (mr_read_some ps m1 0 n Hok Hne Hm1); [congruence|exact Er].
  Qed.

  Lemma seekable_0 : seekable 0 = true.
  Proof. unfold seekable. destruct (0 <? N); reflexivity. Qed.

  Lemma reset_cols_ok : forall ps cs pos, Forall col_ok ps -> Forall2 (colinv pos) ps cs ->
    Forall2 (colinv 0) ps (reset_cols cstep ps cs).
  Proof.
    induction ps as [|p ps IH]; intros cs pos Hok Hinv;
      inversion Hinv as [|p0 y ps0 l' Hy Hrest]; subst; [constructor|].
    inversion Hok as [|p0 ps0 H4 Hps]; subst. destruct (col_at_cursor _ _ _ _ _ _ _ Hy) as (cp & Hc & _).
    pose proof (ok_seek p H4 (ccur y) cp 0 Hc) as Hs.
    rewrite (seek_ok_seekable p 0 H4), seekable_0 in Hs. destruct Hs as (_ & Hc').
    cbn [reset_cols]. constructor; [|now apply (IH l' pos)].
    now apply col_at_fresh.
  Qed.

  Lemma mr_step_sim : forall ps m pos o, Forall col_ok ps -> ps <> [] -> minv ps m pos ->
    sim_at (minv ps) (mr_step cstep cfuel false ps m o) (mspec_step strict (length ps) N pos o).
  Proof.
    intros ps m pos o Hok Hne Hm. destruct o as [n|k|]; cbn [mr_step].
    - now apply mr_read_sim.
    - now apply mr_seek_sim.
    - cbn. split; [reflexivity|]. destruct Hm as (Hcols & _ & _).
      split; [now apply (reset_cols_ok ps (mcols m) pos)|]. split; [exact seekable_0|reflexivity].
  Qed.

  Lemma minv_init : forall ps, Forall col_ok ps -> minv ps (minit cinit ps) 0.
  Proof.
    intros ps Hok. split; [|split; [exact seekable_0|reflexivity]]. unfold minit; cbn [mcols].
    induction Hok as [|p ps Hp _ IH]; [constructor|]. cbn [map]. constructor; [|exact IH].
    apply col_at_fresh. exact (ok_init p Hp).
  Qed.

  Theorem multi_rows_refines : forall ps ops, Forall col_ok ps -> ps <> [] ->
    run (mr_step cstep cfuel false ps) (minit cinit ps) ops = run (mspec_step strict (length ps) N) 0 ops.
  Proof.
    intros ps ops Hok Hne.
    apply (run_refines _ _ _ _ _ _ (minv ps)).
    - intros m pos o Hm. now apply mr_step_sim.
    - now apply minv_init.
  Qed.
End MultiColumnProofs.

Lemma total_rows_cons : forall c rest, total_rows (c :: rest) = c + total_rows rest.
Proof. reflexivity. Qed.

Lemma total_rows_app : forall a b, total_rows (a ++ b) = total_rows a + total_rows b.
Proof.
  induction a as [|c a IH]; intros b; [reflexivity|].
  cbn [app]. rewrite !total_rows_cons, IH. lia.
Qed.

Lemma positive_concat : forall chunks, Forall positive chunks -> positive (concat chunks).
Proof.
  induction 1 as [|pg chunks Hp _ IH]; [constructor|]. cbn [concat]. apply Forall_app. now split.
Qed.

Lemma mp_offset_first_row : forall chunks j, mp_offset chunks j = first_row (map total_rows chunks) j.
Proof.
  induction chunks as [|c rest IH]; intros [|j]; cbn [mp_offset map first_row]; try reflexivity.
  now rewrite IH.
Qed.

Lemma mp_offset_0 : forall chunks, mp_offset chunks 0 = 0.
Proof. intros. now rewrite mp_offset_first_row, first_row_0. Qed.

Lemma mp_offset_S : forall chunks j pg, nth_error chunks j = Some pg ->
  mp_offset chunks (S j) = mp_offset chunks j + total_rows pg.
Proof.
  intros chunks j pg H. rewrite !mp_offset_first_row. apply first_row_S. now apply map_nth_error.
Qed.

Lemma mp_offset_all : forall chunks, mp_offset chunks (length chunks) = total_rows (concat chunks).
Proof.
  induction chunks as [|c rest IH]; [reflexivity|].
  cbn [mp_offset length concat]. rewrite total_rows_app, IH. reflexivity.
Qed.

Lemma page_end_shift : forall pg b1 b2 x,
  page_end pg (b1 + b2) (b1 + x) = option_map (Nat.add b1) (page_end pg b2 x).
Proof.
  induction pg as [|c rest IH]; intros b1 b2 x; [reflexivity|].
  cbn [page_end]. 
  replace (b1 + x <? b1 + b2 + c) with (x <? b2 + c)
    by (destruct (Nat.ltb_spec x (b2 + c)), (Nat.ltb_spec (b1 + x) (b1 + b2 + c)); try reflexivity; lia).
  destruct (x <? b2 + c).
  - cbn. f_equal. lia.
  - replace (b1 + b2 + c) with (b1 + (b2 + c)) by lia. apply IH.
Qed.

Lemma page_end_app : forall a b base pos,
  page_end (a ++ b) base pos =
  match page_end a base pos with Some e => Some e | None => page_end b (base + total_rows a) pos end.
Proof.
  induction a as [|c a IH]; intros b base pos.
  - cbn. now rewrite Nat.add_0_r.
  - cbn [app page_end]. destruct (pos <? base + c); [reflexivity|].
    rewrite IH, total_rows_cons. replace (base + c + total_rows a) with (base + (c + total_rows a)) by lia.
    reflexivity.
Qed.

Lemma page_end_concat : forall chunks j pg lp e base, nth_error chunks j = Some pg ->
  page_end pg 0 lp = Some e ->
  page_end (concat chunks) base (base + mp_offset chunks j + lp) = Some (base + mp_offset chunks j + e).
Proof.
  induction chunks as [|c rest IH]; intros j pg lp e base H He; [destruct j; discriminate|].
  destruct j as [|j]; cbn in H.
  - inversion H; subst. cbn [concat mp_offset]. rewrite page_end_app.
    replace (base + 0 + lp) with (base + lp) by lia.
    replace base with (base + 0) at 1 by lia. rewrite page_end_shift, He. cbn. f_equal; lia.
  - cbn [concat mp_offset]. rewrite page_end_app, page_end_beyond by lia.
    replace (base + (total_rows c + mp_offset rest j) + lp) with (base + total_rows c + mp_offset rest j + lp) by lia.
    rewrite (IH j pg lp e (base + total_rows c) H He). f_equal; lia.
Qed.

Lemma chunk_read : forall chunks j pg (C : Type) (cstep : C -> op -> C * out) (CI : C -> nat -> Prop) c lp,
  nth_error chunks j = Some pg ->
  (forall c p, CI c p -> snd (cstep c ReadPage) = snd (spec_step pg p ReadPage) /\
                         CI (fst (cstep c ReadPage)) (fst (spec_step pg p ReadPage))) ->
  CI c lp -> lp <= total_rows pg ->
  (snd (cstep c ReadPage) = EOF /\ lp = total_rows pg /\ CI (fst (cstep c ReadPage)) lp) \/
  (exists e, snd (cstep c ReadPage) = Rows lp (e - lp) /\ e <= total_rows pg /\
             CI (fst (cstep c ReadPage)) e /\
             spec_step (concat chunks) (mp_offset chunks j + lp) ReadPage =
             (mp_offset chunks j + e, shift_out (mp_offset chunks j) (Rows lp (e - lp)))).
Proof.
  intros chunks j pg C cstep CI c lp Hn Hread Hc Hlp.
  destruct (Hread c lp Hc) as (Ho & Hc'). rewrite spec_read_eq in Ho, Hc'.
  destruct (page_end pg 0 lp) as [e|] eqn:Ee.
  - right. exists e. pose proof (page_end_bounds _ _ _ _ Ee) as (Hlt & Hle).
    pose proof (page_end_concat chunks j pg lp e 0 Hn Ee) as Hpe. cbn [Nat.add] in Hpe.
    rewrite spec_read_eq, Hpe. cbn in *.
    repeat split; try assumption. do 2 f_equal. lia.
  - left. apply page_end_none in Ee; [|lia]. cbn in *. repeat split; try assumption; lia.
Qed.

Lemma read_beyond_chunks : forall chunks pos, mp_offset chunks (length chunks) <= pos ->
  spec_step (concat chunks) pos ReadPage = (pos, EOF).
Proof.
  intros chunks pos H. rewrite spec_read_eq, page_end_beyond; [reflexivity|].
  rewrite <- mp_offset_all. lia.
Qed.

Lemma mp_locate_spec : forall rest i k idx k',
  mp_locate (map total_rows rest) i k = (idx, k') ->
  exists d, idx = i + d /\ d <= length rest /\ k = mp_offset rest d + k' /\
            (d < length rest -> k' < total_rows (nth d rest [])).
Proof.
  induction rest as [|c rest IH]; intros i k idx k' H.
  - cbn in H. inversion H; subst. exists 0. cbn. repeat split; lia.
  - cbn [map mp_locate] in H. destruct (k <? total_rows c) eqn:E.
    + apply Nat.ltb_lt in E. inversion H; subst. exists 0. cbn. repeat split; try lia. intros _. exact E.
    + apply Nat.ltb_ge in E. apply IH in H. destruct H as (d & -> & Hd & Hk & Hlt).
      exists (S d). cbn [length mp_offset nth]. repeat split; lia.
Qed.

Section MultiPagesProofs.
  Variable cstep : chunk -> state -> op -> state * out.
  Variable CI : chunk -> state -> nat -> Prop.
  Hypothesis CI_init : forall pg, CI pg init 0.
  Hypothesis Hread : forall pg, positive pg -> forall c p, CI pg c p ->
    snd (cstep pg c ReadPage) = snd (spec_step pg p ReadPage) /\
    CI pg (fst (cstep pg c ReadPage)) (fst (spec_step pg p ReadPage)).
  Hypothesis Hseek : forall pg, positive pg -> pg <> [] -> forall c p k, CI pg c p ->
    snd (cstep pg c (SeekToRow k)) = SeekOk /\ CI pg (fst (cstep pg c (SeekToRow k))) k.

  Variable chunks : list chunk.
  Hypothesis Hpos : Forall positive chunks.

  Definition mp_inv (m : mpstate) (pos : nat) : Prop :=
    mp_index m <= length chunks /\
    match mp_pages m with
    | Some c => exists j pg lp, mp_index m = S j /\ nth_error chunks j = Some pg /\
                  CI pg c lp /\ lp <= total_rows pg /\ pos = mp_offset chunks j + lp
    | None => (mp_index m < length chunks -> pos = mp_offset chunks (mp_index m)) /\
              (mp_index m = length chunks -> mp_offset chunks (length chunks) <= pos)
    end.

  Local Notation mp_ok r pos := (sim_at mp_inv r (spec_step (concat chunks) pos ReadPage)).

  Definition mp_next (f : nat) (idx : nat) : mpstate * out :=
    if idx =? length chunks then (mpmk None idx, EOF)
    else mp_read cstep f chunks (mpmk (Some init) (S idx)).

  Lemma mp_read_unfold : forall f m,
    mp_read cstep (S f) chunks m =
    match mp_pages m with
    | Some c =>
        match cstep (nth (mp_index m - 1) chunks []) c ReadPage with
        | (_, EOF) => mp_next f (mp_index m)
        | (c', o) => (mpmk (Some c') (mp_index m), shift_out (mp_offset chunks (mp_index m - 1)) o)
        end
    | None => mp_next f (mp_index m)
    end.
  Proof.
    intros f [[c|] idx]; cbn [mp_read mp_pages mp_index]; unfold mp_next.
    - destruct (cstep (nth (idx - 1) chunks []) c ReadPage) as [c' [fr cnt| | | |]]; reflexivity.
    - reflexivity.
  Qed.

  Lemma mp_read_sim : forall f m pos, mp_inv m pos -> length chunks + 1 - mp_index m <= f ->
    mp_ok (mp_read cstep f chunks m) pos.
  Proof.
    induction f as [|f IH]; intros m pos (Hle & Hm) Hf; [lia|].
    assert (Next : forall idx p, idx <= length chunks ->
              (idx < length chunks -> p = mp_offset chunks idx) ->
              (idx = length chunks -> mp_offset chunks (length chunks) <= p) ->
              length chunks + 1 - idx <= S f -> mp_ok (mp_next f idx) p).
    { intros idx p Hi Hlt Heq Hfu. unfold mp_next. destruct (Nat.eqb_spec idx (length chunks)) as [E|E].
      - specialize (Heq E). rewrite read_beyond_chunks by exact Heq.
        split; [reflexivity|]. split; [cbn; lia|]. cbn. split; [lia|]. intros _. exact Heq.
      - assert (Hl : idx < length chunks) by lia. specialize (Hlt Hl).
        destruct (nth_error chunks idx) as [pg|] eqn:En; [|apply nth_error_None in En; lia].
        apply IH; [|cbn; lia]. split; [cbn; lia|]. cbn.
        exists idx, pg, 0. repeat split; try assumption; try lia. apply CI_init. }
    rewrite mp_read_unfold. destruct (mp_pages m) as [c|] eqn:Ep.
    - destruct Hm as (j & pg & lp & Hidx & Hn & Hc & Hlp & ->). rewrite Hidx.
      replace (S j - 1) with j by lia. rewrite (nth_error_nth chunks j [] Hn).
      destruct (chunk_read chunks j pg _ _ _ c lp Hn (Hread pg (Forall_nth_error _ _ _ _ _ Hpos Hn)) Hc Hlp)
        as [(Ho & -> & Hc')|(e & Ho & He & Hc' & ->)];
        destruct (cstep pg c ReadPage) as [c' o]; cbn [fst snd] in Ho, Hc'; subst o.
      + (* the chunk is exhausted: on to the next one *)
        rewrite <- (mp_offset_S _ _ _ Hn). apply Next; try lia; auto.
        intros E. rewrite E. lia.
      + split; [reflexivity|]. split; [cbn; lia|]. cbn.
        exists j, pg, e. repeat split; try assumption; lia.
    - destruct Hm as (H1 & H2). apply Next; try assumption; lia.
  Qed.

  Lemma mp_inv_init : mp_inv mpinit 0.
  Proof.
    split; [cbn; lia|]. cbn. split.
    - intros _. now rewrite mp_offset_0.
    - intros E. rewrite <- E. now rewrite mp_offset_0.
  Qed.

  Lemma mp_step_refines : forall m pos o, mp_inv m pos ->
    snd (mp_step cstep chunks m o) = snd (spec_step_noindex (concat chunks) pos o) /\
    mp_inv (fst (mp_step cstep chunks m o)) (fst (spec_step_noindex (concat chunks) pos o)).
  Proof.
    intros m pos o Hm. destruct o as [|k]; cbn [mp_step spec_step_noindex].
    - apply (mp_read_sim (S (length chunks)) m pos Hm). lia.
    - unfold mp_seek. destruct (mp_locate (map total_rows chunks) 0 k) as [idx k'] eqn:El.
      apply mp_locate_spec in El. destruct El as (d & -> & Hd & Hk & Hlt). cbn [Nat.add].
      destruct (Nat.ltb_spec d (length chunks)) as [Hl|Hl].
      + specialize (Hlt Hl).
        destruct (nth_error chunks d) as [pg|] eqn:En; [|apply nth_error_None in En; lia].
        rewrite (nth_error_nth chunks d [] En) in *.
        assert (Hne : pg <> []) by (intros ->; cbn in Hlt; lia).
        pose proof (CI_init pg) as Hc0.
        destruct (Hseek pg (Forall_nth_error _ _ _ _ _ Hpos En) Hne init 0 k' Hc0) as (Ho & Hc').
        destruct (cstep pg init (SeekToRow k')) as [c' o]. cbn [fst snd] in *. subst o.
        split; [reflexivity|]. split; [cbn; lia|]. cbn.
        exists d, pg, k'. repeat split; try assumption; lia.
      + cbn. split; [reflexivity|]. assert (d = length chunks) by lia. subst d.
        split; [cbn; lia|]. cbn. split; [lia|]. intros _. lia.
  Qed.
End MultiPagesProofs.

Section ReaderLayersProofs.
  Variable M : Type.
  Variable mstep : M -> rop -> M * mout.
  Variable mfresh : M.
  Variable MI : M -> nat -> Prop.
  Variables ncols N : nat.
  Hypothesis Hfresh : MI mfresh 0.
  Hypothesis Hm : forall m pos o, MI m pos ->
    snd (mstep m o) = snd (mspec_step false ncols N pos o) /\
    MI (fst (mstep m o)) (fst (mspec_step false ncols N pos o)).

  Definition rd_inv (r : rdstate M) : Prop :=
    match rd_rows r with Some m => MI m (rd_index r) | None => True end.

  Lemma mspec_seek_false : forall pos k, mspec_step false ncols N pos (RSeek k) = (k, MSeekOk).
  Proof. intros. cbn. now rewrite orb_true_r. Qed.

  Lemma rd_seek_spec : forall r k, rd_inv r ->
    snd (rd_seek mstep r k) = MSeekOk /\ rd_inv (fst (rd_seek mstep r k)) /\
    rd_index (fst (rd_seek mstep r k)) = k.
  Proof.
    intros r k Hr. unfold rd_seek. destruct (Nat.eqb_spec k (rd_index r)) as [E|E].
    - cbn. repeat split; [assumption|now symmetry].
    - unfold rd_inv in Hr. destruct (rd_rows r) as [m|] eqn:Em.
      + destruct (Hm m (rd_index r) (RSeek k) Hr) as (Ho & Hi). rewrite mspec_seek_false in Ho, Hi.
        destruct (mstep m (RSeek k)) as [m' e]. cbn [fst snd] in *. subst e.
        cbn. repeat split. exact Hi.
      + cbn. repeat split.
  Qed.

  Lemma rd_read_spec : forall r n, rd_inv r ->
    snd (rd_read mstep mfresh r n) = snd (mspec_step false ncols N (rd_index r) (RRead n)) /\
    rd_inv (fst (rd_read mstep mfresh r n)) /\
    rd_index (fst (rd_read mstep mfresh r n)) = rd_index r + Nat.min n (N - rd_index r).
  Proof.
    intros r n Hr. unfold rd_read.
    assert (Hpre : exists m,
              match rd_rows r with
              | Some m => (m, MSeekOk)
              | None => if 0 <? rd_index r then mstep mfresh (RSeek (rd_index r)) else (mfresh, MSeekOk)
              end = (m, MSeekOk) /\ MI m (rd_index r)).
    { unfold rd_inv in Hr. destruct (rd_rows r) as [m|].
      - exists m. now split.
      - destruct (Nat.ltb_spec 0 (rd_index r)) as [E|E].
        + destruct (Hm mfresh 0 (RSeek (rd_index r)) Hfresh) as (Ho & Hi).
          rewrite mspec_seek_false in Ho, Hi.
          destruct (mstep mfresh (RSeek (rd_index r))) as [m' e]. cbn [fst snd] in *. subst e.
          exists m'. now split.
        + exists mfresh. split; [reflexivity|]. replace (rd_index r) with 0 by lia. exact Hfresh. }
    destruct Hpre as (m & -> & Hmi).
    destruct (Hm m (rd_index r) (RRead n) Hmi) as (Ho & Hi).
    destruct (mstep m (RRead n)) as [m' o]. cbn [fst snd] in *. subst o.
    cbn [mspec_step fst snd mout_count] in *. rewrite map_length, seq_length.
    repeat split. exact Hi.
  Qed.

  Lemma rd_reset_spec : forall r, rd_inv r -> rd_inv (rd_reset mstep r) /\ rd_index (rd_reset mstep r) = 0.
  Proof.
    intros r Hr. unfold rd_reset, rd_inv in *. cbn. split; [|reflexivity].
    destruct (rd_rows r) as [m|]; [|exact I]. cbn.
    destruct (Hm m (rd_index r) RReset Hr) as (_ & Hi). exact Hi.
  Qed.

  Definition x_inv (x : xstate M) (pos : nat) : Prop :=
    rd_inv (x_file x) /\ rd_inv (x_read x) /\ x_index x = pos.

  Lemma x_readrows_sim : forall x pos n, x_inv x pos ->
    sim_at x_inv (x_readrows mstep mfresh x n) (mspec_step false ncols N pos (RRead n)).
  Proof.
    intros x pos n (Hf & Hr & Hi). unfold x_readrows. rewrite Hi.
    destruct (rd_seek_spec (x_file x) pos Hf) as (He & Hf1 & Hidx).
    destruct (rd_seek mstep (x_file x) pos) as [f e]. cbn [fst snd] in *. subst e.
    destruct (rd_read_spec f n Hf1) as (Ho & Hf2 & Hidx2).
    destruct (rd_read mstep mfresh f n) as [f' o]. cbn [fst snd] in *. subst o.
    rewrite Hidx. split; [reflexivity|]. cbn [mspec_step fst snd mout_count].
    rewrite map_length, seq_length. repeat split; assumption.
  Qed.

  Lemma x_step_sim : forall x pos o, x_inv x pos ->
    sim_at x_inv (x_step mstep mfresh x o) (xspec_step ncols N pos o).
  Proof.
    intros x pos o Hx. destruct o as [n| |n|k|]; cbn [x_step xspec_step].
    - now apply x_readrows_sim.
    - (* Reader.Read *)
      destruct Hx as (Hf & Hr & Hi). unfold x_read1. rewrite Hi.
      destruct (rd_seek_spec (x_read x) pos Hr) as (He & Hr1 & Hidx).
      destruct (rd_seek mstep (x_read x) pos) as [r e]. cbn [fst snd] in *. subst e.
      destruct (rd_read_spec r 1 Hr1) as (Ho & Hr2 & _).
      destruct (rd_read mstep mfresh r 1) as [r' o]. cbn [fst snd] in *. subst o.
      rewrite Hidx. cbn [mspec_step snd].
      destruct (Nat.ltb_spec pos N) as [E|E].
      + replace (Nat.min 1 (N - pos)) with 1 by lia. cbn [seq map fst snd].
        repeat split; assumption.
      + replace (Nat.min 1 (N - pos)) with 0 by lia. cbn [seq map fst snd].
        replace (N - pos <=? 1) with true by (symmetry; apply Nat.leb_le; lia).
        cbn. repeat split; assumption.
    - (* GenericReader.Read: the first ReadRows ends the loop *)
      cbn [x_gread_loop].
      destruct (x_readrows_sim x pos n Hx) as (Ho & Hx').
      destruct (x_readrows mstep mfresh x n) as [x' o]. cbn [fst snd] in Ho, Hx'. subst o.
      cbn [mspec_step snd fst] in *. rewrite map_length, seq_length.
      assert (Hstop : (Nat.min n (N - pos) =? 0) || (Nat.min n (N - pos) =? n)
                      || ((0 <? n) && (N - pos <=? n)) = true).
      { destruct (Nat.eqb_spec (Nat.min n (N - pos)) n) as [E|E]; [now rewrite orb_true_r|].
        replace (0 <? n) with true by (symmetry; apply Nat.ltb_lt; lia).
        replace (N - pos <=? n) with true by (symmetry; apply Nat.leb_le; lia).
        now rewrite orb_true_r. }
      rewrite Hstop. cbn [app fst snd]. split; [reflexivity|exact Hx'].
    - destruct Hx as (Hf & Hr & Hi). unfold x_seek.
      destruct (rd_seek_spec (x_file x) k Hf) as (He & Hf1 & Hidx).
      destruct (rd_seek mstep (x_file x) k) as [f e]. cbn [fst snd] in *. subst e.
      cbn. repeat split; assumption.
    - destruct Hx as (Hf & Hr & Hi). cbn. split; [reflexivity|].
      split; [apply rd_reset_spec; assumption|]. split; [apply rd_reset_spec; assumption|reflexivity].
  Qed.

  Theorem reader_layers_refine : forall ops,
    run (x_step mstep mfresh) xinit ops = run (xspec_step ncols N) 0 ops.
  Proof.
    intros ops. apply (run_refines _ _ _ _ _ _ x_inv x_step_sim). repeat split.
  Qed.
End ReaderLayersProofs.

Lemma mspec_strict_irrelevant : forall strict ncols N pos o, strict = false \/ 0 < N ->
  mspec_step strict ncols N pos o = mspec_step false ncols N pos o.
Proof.
  intros strict ncols N pos o [->|HN]; [reflexivity|]. destruct o as [n|k|]; try reflexivity.
  cbn [mspec_step]. replace (0 <? N) with true by (symmetry; apply Nat.ltb_lt; lia). reflexivity.
Qed.

(** The side condition: no seek is rejected when the table has rows. *)
Theorem reader_rows_refine : forall (C P : Type) (cstep : P -> C -> op -> C * out) (cfuel : P -> nat)
    (cinit : C) (pages_of : P -> chunk) (CI : P -> C -> nat -> Prop) (strict : bool) (N : nat) ps ops,
  Forall (col_ok C P cstep cfuel cinit pages_of CI strict N) ps -> ps <> [] ->
  strict = false \/ 0 < N ->
  run (x_step (mr_step cstep cfuel false ps) (minit cinit ps)) xinit ops =
  run (xspec_step (length ps) N) 0 ops.
Proof.
  intros C P cstep cfuel cinit pages_of CI strict N ps ops Hok Hne Hs.
  apply (reader_layers_refine _ _ _ (minv C P CI strict N ps)).
  - now apply (minv_init C P cstep cfuel cinit pages_of).
  - intros m pos o Hi. rewrite <- (mspec_strict_irrelevant strict) by exact Hs.
    now apply (mr_step_sim C P cstep cfuel cinit pages_of).
Qed.

Definition layout_ok (N : nat) (cols : list chunk) : Prop :=
  cols <> [] /\ Forall (fun pg => positive pg /\ total_rows pg = N) cols.

(** A file: for every column, the page layout of its chunk in every row
    group; [rg_rows]: the number of rows of every row group. *)
Definition file_ok (rg_rows : list nat) (cols : list (list chunk)) : Prop :=
  cols <> [] /\ Forall (fun col => Forall positive col /\ map total_rows col = rg_rows) cols.

Lemma total_rows_concat : forall col, total_rows (concat col) = list_sum (map total_rows col).
Proof.
  induction col as [|pg col IH]; [reflexivity|]. cbn [concat map list_sum].
  now rewrite total_rows_app, IH.
Qed.

Section ChunkCursors.
  Variable cc : chunk_cursor.
  Let cstep := cc_step cc.
  Let CI := cc_inv cc.
  Let strict := cc_strict cc.

  Lemma layout_cols_ok : forall N cols, layout_ok N cols ->
    Forall (col_ok state chunk cstep page_fuel init (fun pg => pg) CI strict N) cols.
  Proof.
    intros N cols (_ & Hall). eapply Forall_impl; [|exact Hall]. intros pg (Hp & Ht).
    apply col_ok_sim; try assumption; [unfold page_fuel; lia|apply cc_init|now apply cc_sim].
  Qed.

  Lemma mp_step_sim : forall chunks, Forall positive chunks ->
    simulates (mp_step cstep chunks) (pos_spec false (concat chunks)) (mp_inv CI chunks).
  Proof.
    intros chunks Hp m pos o Hm. apply (mp_step_refines cstep CI (cc_init cc)); try assumption.
    - intros pg Hpg. exact (sim_read _ _ _ _ _ (cc_sim cc pg Hpg)).
    - intros pg Hpg Hne c p k Hc. apply (sim_seek_ok _ _ _ _ _ (cc_sim cc pg Hpg) c p k Hc). now left.
  Qed.

  Theorem mpages_refines : forall chunks ops, Forall positive chunks ->
    run (mp_step cstep chunks) mpinit ops = run_spec_noindex (concat chunks) ops.
  Proof.
    intros chunks ops Hp. apply (run_refines _ _ _ _ _ _ _ (mp_step_sim chunks Hp)). apply mp_inv_init.
  Qed.

  Lemma file_cols_ok : forall rg_rows cols, file_ok rg_rows cols ->
    Forall (col_ok mpstate (list chunk) (mp_step cstep) chunks_fuel mpinit (@concat nat)
              (mp_inv CI) false (list_sum rg_rows)) cols.
  Proof.
    intros rg_rows cols (_ & Hall). eapply Forall_impl; [|exact Hall]. intros col (Hp & Ht).
    apply col_ok_sim.
    - unfold chunks_fuel. lia.
    - now apply positive_concat.
    - now rewrite total_rows_concat, Ht.
    - apply mp_inv_init.
    - now apply mp_step_sim.
  Qed.

  Theorem mrows_refines : forall N cols ops, layout_ok N cols ->
    run (mr_step cstep page_fuel false cols) (minit init cols) ops = run_mspec strict (length cols) N ops.
  Proof.
    intros N cols ops H.
    exact (multi_rows_refines _ _ _ _ _ _ _ _ _ cols ops (layout_cols_ok N cols H) (proj1 H)).
  Qed.

  Theorem mgrows_refines : forall rg_rows cols ops, file_ok rg_rows cols ->
    run (mr_step (mp_step cstep) chunks_fuel false cols) (minit mpinit cols) ops =
    run_mspec false (length cols) (list_sum rg_rows) ops.
  Proof.
    intros rg_rows cols ops H.
    exact (multi_rows_refines _ _ _ _ _ _ _ _ _ cols ops (file_cols_ok rg_rows cols H) (proj1 H)).
  Qed.

  Theorem reader_refines : forall rg_rows cols ops, file_ok rg_rows cols ->
    run (x_step (mr_step (mp_step cstep) chunks_fuel false cols) (minit mpinit cols)) xinit ops =
    run_xspec (length cols) (list_sum rg_rows) ops.
  Proof.
    intros rg_rows cols ops H.
    exact (reader_rows_refine _ _ _ _ _ _ _ _ _ cols ops (file_cols_ok rg_rows cols H) (proj1 H)
             (or_introl eq_refl)).
  Qed.

  Theorem reader1_refines : forall N cols ops, layout_ok N cols -> strict = false \/ 0 < N ->
    run (x_step (mr_step cstep page_fuel false cols) (minit init cols)) xinit ops =
    run_xspec (length cols) N ops.
  Proof.
    intros N cols ops H.
    exact (reader_rows_refine _ _ _ _ _ _ _ _ _ cols ops (layout_cols_ok N cols H) (proj1 H)).
  Qed.
End ChunkCursors.

Theorem mgrows_noindex_refines : forall rg_rows cols ops, file_ok rg_rows cols ->
  run_mgrows_noindex cols ops = run_mspec false (length cols) (list_sum rg_rows) ops.
Proof. exact (mgrows_refines (noindex_cursor false)). Qed.

Definition mout_rows (o : mout) : list (list nat) :=
  match o with MRows rows _ => rows | _ => [] end.

Definition widen (ncols : nat) (ids : list nat) : list (list nat) :=
  map (fun i => repeat i ncols) ids.

Lemma mspec_seek_then_read : forall strict ncols N h k ns,
  concat (map mout_rows (skipn (S (length h))
    (run (mspec_step strict ncols N) 0 (h ++ RSeek k :: map RRead ns)))) =
  widen ncols (firstn (list_sum ns) (skipn k (seq 0 N))).
Proof.
  intros. apply (seek_then_reads _ _ _ _ RRead RSeek mout_rows).
  - intros. split; reflexivity.
  - (* a table without rows may reject the seek *)
    intros pos j. destruct N; [right|left]; reflexivity.
Qed.

Lemma xspec_seek_then_read : forall ncols N h k ns,
  concat (map mout_rows (skipn (S (length h))
    (run (xspec_step ncols N) 0 (h ++ XSeek k :: map XReadRows ns)))) =
  widen ncols (firstn (list_sum ns) (skipn k (seq 0 N))).
Proof.
  intros. apply (seek_then_reads _ _ _ _ XReadRows XSeek mout_rows).
  - intros. split; reflexivity.
  - intros. left; reflexivity.
Qed.
