(** Proofs about Cursor/Nested.v: whatever the nesting, the chunks of a multi
    row group are the chunks of the files in order, rowCounts holds the rows
    of each of them, and multiPages over it is multiPages over the flat list. *)
From Coq Require Import List Arith Bool Lia.
From PQ Require Import Cursor.Model Cursor.Spec Cursor.Proofs Cursor.Rows Cursor.Multi Cursor.MultiProofs
  Cursor.Nested.
Import ListNotations.

(* every application of MultiRowGroup has at least one argument *)
Fixpoint rg_wf (t : rgtree) : Prop :=
  match t with
  | RGLeaf _ => True
  | RGNode ts => ts <> [] /\ (fix all (l : list rgtree) : Prop := match l with [] => True | x :: r => rg_wf x /\ all r end) ts
  end.

Lemma rg_wf_node : forall ts, rg_wf (RGNode ts) <-> ts <> [] /\ Forall rg_wf ts.
Proof.
  intros ts. cbn [rg_wf]. split; intros [Hn H]; split; try exact Hn.
  - induction ts as [|x r IH]; [constructor|]. destruct H as [Hx Hr]. constructor; [exact Hx|].
    destruct r; [constructor|]. apply IH; [discriminate|exact Hr].
  - clear Hn. induction H; [exact I|]. split; assumption.
Qed.

Lemma rgtree_ind' : forall P : rgtree -> Prop,
  (forall c, P (RGLeaf c)) ->
  (forall ts, Forall P ts -> P (RGNode ts)) ->
  forall t, P t.
Proof.
  intros P Hl Hn. fix IH 1. intros [c|ts]; [apply Hl|]. apply Hn.
  induction ts as [|x r IHr]; constructor; [apply IH|exact IHr].
Qed.

Definition val_chunks (v : rgval) : list chunk :=
  match v with VFile c => [c] | VMulti ch _ _ => ch end.

Definition val_ok (v : rgval) : Prop :=
  match v with
  | VFile _ => True
  | VMulti ch cnt _ => cnt = map total_rows ch /\ ch <> []
  end.

Lemma init_append_ok : forall g, val_ok g ->
  init_append false g = (val_chunks g, map total_rows (val_chunks g)).
Proof.
  intros [c|ch cnt gs] H; cbn; [reflexivity|]. destruct H as [-> Hne].
  destruct ch; [congruence|]. reflexivity.
Qed.

Lemma val_chunks_nonempty : forall v, val_ok v -> val_chunks v <> [].
Proof. intros [c|ch cnt gs] H; cbn; [discriminate|]. exact (proj2 H). Qed.

Lemma multi_init_ok : forall gs, gs <> [] -> Forall val_ok gs ->
  val_chunks (multi_init false gs) = concat (map val_chunks gs) /\ val_ok (multi_init false gs).
Proof.
  intros gs Hne H. unfold multi_init. cbn [val_chunks val_ok].
  assert (E1 : map (fun g => fst (init_append false g)) gs = map val_chunks gs).
  { apply map_ext_in. intros g Hg. rewrite init_append_ok; [reflexivity|].
    rewrite Forall_forall in H. now apply H. }
  assert (E2 : map (fun g => snd (init_append false g)) gs = map (map total_rows) (map val_chunks gs)).
  { rewrite map_map. apply map_ext_in. intros g Hg. rewrite init_append_ok; [reflexivity|].
    rewrite Forall_forall in H. now apply H. }
  rewrite E1, E2, <- concat_map. split; [reflexivity|]. split; [reflexivity|].
  destruct gs as [|g r]; [congruence|]. cbn. inversion H; subst.
  intros E. apply app_eq_nil in E. destruct E as [E _]. now apply (val_chunks_nonempty g).
Qed.

(** the flattening: the chunks are the chunks of the files in the order of the
    expression, and rowCounts[j] is the number of rows of chunk j *)
Theorem nested_flatten : forall t, rg_wf t ->
  val_chunks (rg_eval false t) = rg_leaves t /\ val_ok (rg_eval false t).
Proof.
  induction t as [c|ts IH] using rgtree_ind'; intros Hwf; [cbn; auto|].
  apply rg_wf_node in Hwf. destruct Hwf as [Hne Hwf].
  assert (Hargs : Forall val_ok (map (rg_eval false) ts) /\
                  map val_chunks (map (rg_eval false) ts) = map rg_leaves ts).
  { clear Hne. induction IH as [|x r Hx _ IHr]; [split; constructor|].
    inversion Hwf as [|? ? Wx Wr]; subst. destruct (Hx Wx) as (E & Ho). destruct (IHr Wr) as (Hok & Hch).
    cbn [map]. rewrite E, Hch. split; [constructor; assumption|reflexivity]. }
  destruct Hargs as (Hok & Hch).
  cbn [rg_eval rg_leaves]. unfold multi_row_group. rewrite <- Hch.
  destruct ts as [|t0 [|t1 r]]; [congruence| |].
  - (* one argument is returned as it is *)
    cbn [map concat val_chunks]. rewrite app_nil_r. inversion Hok; subst. auto.
  - apply multi_init_ok; [discriminate|exact Hok].
Qed.

Lemma map_nth_seq_default : forall (l : list nat) (f : nat -> nat),
  map (fun i => nth i l (f i)) (seq 0 (length l)) = l.
Proof.
  induction l as [|a l IH]; intros f; [reflexivity|]. cbn [length seq map nth]. f_equal.
  rewrite <- seq_shift, map_map. apply (IH (fun i => f (S i))).
Qed.

Lemma eff_counts_ok : forall ch gs, eff_counts (length ch) (map total_rows ch) gs = map total_rows ch.
Proof.
  intros. unfold eff_counts. rewrite <- (map_length total_rows ch) at 1.
  apply (map_nth_seq_default (map total_rows ch) (fun i => rg_rows (nth i gs (VFile [])))).
Qed.

Lemma mpv_step_flat : forall cstep ch m o,
  mpv_step cstep ch (map total_rows ch) m o = mp_step cstep ch m o.
Proof. intros. destruct o; reflexivity. Qed.

(** multiPages over a multi row group, whatever its nesting, is multiPages over
    the chunks of the files *)
Theorem nested_pages_flat : forall cstep t ch cnt gs ops, rg_wf t ->
  rg_eval false t = VMulti ch cnt gs ->
  run_value_pages cstep (rg_eval false t) ops = run (mp_step cstep (rg_leaves t)) mpinit ops.
Proof.
  intros cstep t ch cnt gs ops Hwf E. destruct (nested_flatten t Hwf) as [Hc Ho].
  rewrite E in *. cbn [val_chunks val_ok run_value_pages] in *. destruct Ho as [-> _]. subst ch.
  rewrite eff_counts_ok. apply (run_refines _ _ _ _ _ _ eq); [|reflexivity].
  intros m ? o <-. rewrite mpv_step_flat. split; reflexivity.
Qed.

Theorem nested_refines : forall (cc : chunk_cursor) t ch cnt gs ops, rg_wf t ->
  rg_eval false t = VMulti ch cnt gs -> Forall positive (rg_leaves t) ->
  run_value_pages (cc_step cc) (rg_eval false t) ops = run_spec_noindex (concat (rg_leaves t)) ops.
Proof.
  intros cc t ch cnt gs ops Hwf E Hp. rewrite (nested_pages_flat _ _ _ _ _ _ Hwf E).
  now apply mpages_refines.
Qed.
