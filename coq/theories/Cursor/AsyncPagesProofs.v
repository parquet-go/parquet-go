(** asyncPages over a real page cursor (Cursor/AsyncPages.v) delivers, under
    EVERY interleaving of consumer and producer, what the synchronous cursor
    returns for the same calls.  Built on the protocol theorems of property C15
    (Conc/AsyncProofs.v: the version check, deadlock freedom) and on the
    refinement of the page cursor (Cursor/Proofs.v). *)
From Coq Require Import List Arith Bool Lia.
From PQ Require Import Conc.Sem Conc.SemProofs Conc.Async Conc.AsyncProofs.
From PQ Require Import Base.ListExtra Cursor.Model Cursor.Spec Cursor.Proofs Cursor.Rows Cursor.AsyncPages.
Import ListNotations.

(** position of the specification after [n] ReadPage from row [o] *)
Fixpoint adv (pages : chunk) (o n : nat) : nat :=
  match n with
  | 0 => o
  | S n' => fst (spec_step pages (adv pages o n') ReadPage)
  end.

(** the output of the synchronous position specification for one event of the
    protocol: page number [i] of the sequence that starts at row [o] is what
    ReadPage returns after [i] earlier reads from row [o] *)
Definition obs (pages : chunk) (ev : cev) : out :=
  match ev with
  | EvSeek _ => SeekOk
  | EvPage o i => snd (spec_step pages (adv pages o i) ReadPage)
  end.

Definition call_of_ev (ev : cev) : cop :=
  match ev with EvSeek k => CSeek k | EvPage _ _ => CRead end.

Lemma hist_ok_outputs : forall pages h o i, hist_ok o i h ->
  map (obs pages) h =
  Model.run (spec_step_noindex pages) (adv pages o i) (map op_of_call (map call_of_ev h)).
Proof.
  intros pages. induction h as [|[k|o' i'] h IH]; intros o i H; [reflexivity| |].
  - cbn [map obs call_of_ev op_of_call Model.run spec_step_noindex hist_ok] in *.
    f_equal. exact (IH k 0 H).
  - cbn [hist_ok] in H. destruct H as (-> & -> & H).
    cbn [map obs call_of_ev op_of_call Model.run spec_step_noindex].
    destruct (spec_step pages (adv pages o i) ReadPage) as [p r] eqn:E. cbn [snd].
    f_equal. rewrite (IH o (S i) H). cbn [adv]. now rewrite E.
Qed.

Section AsyncOverCursorProofs.
  Variable U : Type.
  Variable ustep : U -> op -> U * out.
  Variable CI : U -> nat -> Prop.
  Variable pages : chunk.
  (* the cursor underneath accepts every seek *)
  Hypothesis Hsim : simulates ustep (spec_step_noindex pages) CI.

  Record XInv (x : axstate U) : Prop := mkXInv {
    xi_u : CI (xu x) (adv pages (u_origin (pr (xa x))) (u_next (pr (xa x))));
    xi_held : forall o i, pp (pr (xa x)) = P3 o i -> xheld x = obs pages (EvPage o i);
    xi_outs : xouts x = map (obs pages) (hist (gh (xa x)))
  }.

  Ltac xfin := constructor; cbn in *; unfold new_events; cbn;
    rewrite ?skipn_all, ?skipn_app_exact, ?map_app, ?app_nil_r; cbn; auto; try congruence; try discriminate.

  Lemma axstep_inv : forall x l x', XInv x -> axstep ustep x l = Some x' -> XInv x'.
  Proof.
    intros [a u held outs] l x' [Hu Hh Ho] Hstep. unfold axstep in Hstep. cbn [xa xu xheld xouts] in *.
    destruct (astep a l) as [a'|] eqn:Ea; [|discriminate].
    destruct a as [[prog cp vc sn] [ic dc sc rc] [pp sr pv uo un] [eo ei hi]]. cbn in Hu, Hh, Ho.
    destruct l as [|choice]; cbn in Ea.
    - (* consumer *)
      unfold cstep in Ea; cbn in Ea.
      destruct cp as [| |k| | |].
      + destruct prog as [|[|k|] rest]; [discriminate| | |].
        * inversion Ea; subst a'; clear Ea. cbn in Hstep. inversion Hstep; subst x'. xfin.
        * destruct sn.
          -- inversion Ea; subst a'; clear Ea. cbn in Hstep. inversion Hstep; subst x'. xfin.
          -- destruct sc as [[k0 v0]|]; inversion Ea; subst a'; clear Ea;
               cbn in Hstep; inversion Hstep; subst x'; xfin.
        * inversion Ea; subst a'; clear Ea. cbn in Hstep. inversion Hstep; subst x'. xfin.
      + destruct rc; [|discriminate]. inversion Ea; subst a'; clear Ea.
        cbn in Hstep. inversion Hstep; subst x'. xfin.
      + destruct sc as [y|]; [discriminate|]. inversion Ea; subst a'; clear Ea.
        cbn in Hstep. inversion Hstep; subst x'. xfin.
      + inversion Ea; subst a'; clear Ea. cbn in Hstep. inversion Hstep; subst x'. xfin.
      + inversion Ea; subst a'; clear Ea. cbn in Hstep. inversion Hstep; subst x'. xfin.
      + destruct rc; [|discriminate]. inversion Ea; subst a'; clear Ea.
        cbn in Hstep. inversion Hstep; subst x'. xfin.
    - (* producer *)
      unfold pstep in Ea; cbn in Ea.
      destruct pp as [| | |o i| | |].
      + destruct choice.
        * destruct ic; [|discriminate]. inversion Ea; subst a'; clear Ea.
          cbn in Hstep. inversion Hstep; subst x'. xfin.
        * destruct dc; [|discriminate]. inversion Ea; subst a'; clear Ea.
          cbn in Hstep. inversion Hstep; subst x'. xfin.
      + destruct sc as [[k v]|]; inversion Ea; subst a'; clear Ea;
          cbn in Hstep; inversion Hstep; subst x'; xfin.
      + (* P2: the underlying cursor moves *)
        destruct sr as [k|].
        * inversion Ea; subst a'; clear Ea. cbn in Hstep.
          destruct (Hsim u _ (SeekToRow k) Hu) as (_ & Hc'). inversion Hstep; subst x'. xfin.
        * inversion Ea; subst a'; clear Ea. cbn in Hstep.
          destruct (Hsim u _ ReadPage Hu) as (Hr & Hc').
          destruct (ustep u ReadPage) as [u' r]. cbn [fst snd] in *.
          inversion Hstep; subst x'. xfin.
          intros o i E. inversion E; subst o i. exact Hr.
      + destruct choice as [|[|c2]].
        * unfold crecv in Ea; cbn in Ea.
          destruct cp as [| |k| | |]; try discriminate.
          -- destruct (Nat.eqb pv vc).
             ++ inversion Ea; subst a'; clear Ea. cbn in Hstep. inversion Hstep; subst x'. xfin.
                rewrite (Hh o i eq_refl), Ho. reflexivity.
             ++ inversion Ea; subst a'; clear Ea. cbn in Hstep. inversion Hstep; subst x'. xfin.
          -- inversion Ea; subst a'; clear Ea. cbn in Hstep. inversion Hstep; subst x'. xfin.
        * destruct sc as [[k v]|]; [|discriminate]. inversion Ea; subst a'; clear Ea.
          cbn in Hstep. inversion Hstep; subst x'. xfin.
        * destruct dc; [|discriminate]. inversion Ea; subst a'; clear Ea.
          cbn in Hstep. inversion Hstep; subst x'. xfin.
      + unfold crecv in Ea; cbn in Ea.
        destruct cp as [| |k| | |]; try discriminate;
          inversion Ea; subst a'; clear Ea; cbn in Hstep; inversion Hstep; subst x'; xfin.
      + inversion Ea; subst a'; clear Ea. cbn in Hstep. inversion Hstep; subst x'. xfin.
      + discriminate.
  Qed.
End AsyncOverCursorProofs.

(** * A program without Close: the events of the protocol are the calls made *)

Definition noclose (c : cop) : Prop := c <> CClose.

Definition pending (c : cons) : list cop :=
  match cp c with CS1 _ | CS2 => tl (prog c) | _ => prog c end.

Record PInv (calls : list cop) (a : astate) : Prop := mkPInv {
  p_calls : calls = map call_of_ev (hist (gh a)) ++ pending (co a);
  p_noclose : Forall noclose (prog (co a));
  p_cp : cp (co a) <> CC1 /\ cp (co a) <> CC2;
  p_sn : seek_nil (co a) = false;
  p_dc : done_closed (ch a) = false;
  p_rc : read_closed (ch a) = false;
  p_pp : pp (pr a) <> PExit /\ pp (pr a) <> PClose /\ pp (pr a) <> PDone;
  p_cr : cp (co a) = CR1 -> exists rest, prog (co a) = CRead :: rest
}.

Lemma Forall_tl : forall (A : Type) (P : A -> Prop) l, Forall P l -> Forall P (tl l).
Proof. intros A P l H. destruct H; [constructor|assumption]. Qed.

Lemma pinv_init : forall calls, Forall noclose calls -> PInv calls (ainit calls).
Proof.
  intros calls H. constructor; cbn; auto; try (split; discriminate); try discriminate.
  repeat split; discriminate.
Qed.

Ltac pfin := constructor; cbn in *; rewrite ?map_app, <- ?app_assoc; cbn;
  auto using Forall_tl; try congruence; try discriminate;
  try (split; discriminate); try (repeat split; discriminate).

Lemma astep_pinv : forall calls a l a', PInv calls a -> astep a l = Some a' -> PInv calls a'.
Proof.
  intros calls [[prog cp vc sn] [ic dc sc rc] [pp sr pv uo un] [eo ei hi]] l a'
         [Hc Hn [Hc1 Hc2] Hs Hd Hr [Hp1 [Hp2 Hp3]] Hcr] Hstep; cbn in *. subst sn dc rc.
  destruct l as [|choice]; cbn in Hstep.
  - unfold cstep in Hstep; cbn in Hstep.
    destruct cp as [| |k| | |]; try congruence; cbn in Hstep.
    + destruct prog as [|[|k|] rest]; [discriminate| | |].
      * inversion Hstep; subst a'; clear Hstep. pfin. intros _. eauto.
      * destruct sc as [[k0 v0]|]; inversion Hstep; subst a'; clear Hstep; pfin.
      * inversion Hn as [|x y Hx Hy]; subst. exfalso. now apply Hx.
    + destruct sc as [y|]; [discriminate|]. inversion Hstep; subst a'; clear Hstep. pfin.
    + inversion Hstep; subst a'; clear Hstep. pfin.
  - unfold pstep in Hstep; cbn in Hstep.
    destruct pp as [| | |o i| | |]; try congruence; cbn in Hstep.
    + destruct choice; cbn in Hstep.
      * destruct ic; [|discriminate]. inversion Hstep; subst a'; clear Hstep. pfin.
      * discriminate.
    + destruct sc as [[k v]|]; inversion Hstep; subst a'; clear Hstep; pfin.
    + destruct sr as [k|]; inversion Hstep; subst a'; clear Hstep; pfin.
    + destruct choice as [|[|c2]]; cbn in Hstep.
      * unfold crecv in Hstep; cbn in Hstep.
        destruct cp as [| |k| | |]; try discriminate; try congruence; cbn in Hstep.
        destruct (Nat.eqb pv vc).
        -- inversion Hstep; subst a'; clear Hstep.
           destruct (Hcr eq_refl) as (rest & ->). pfin.
           inversion Hn; assumption.
        -- inversion Hstep; subst a'; clear Hstep. pfin.
      * destruct sc as [[k v]|]; [|discriminate]. inversion Hstep; subst a'; clear Hstep. pfin.
      * discriminate.
Qed.

Lemma reach_pinv : forall calls sched a, Forall noclose calls ->
  Sem.run astep (ainit calls) sched = Some a -> PInv calls a.
Proof.
  intros calls sched a Hn Hrun.
  eapply (invariant_run _ _ astep (PInv calls)); [|apply pinv_init; exact Hn|exact Hrun].
  intros c l c' Hc Hs. eapply astep_pinv; eauto.
Qed.

Lemma spec_step_nonempty : forall pages, pages <> [] -> forall p o,
  spec_step_noindex pages p o = spec_step pages p o.
Proof. intros [|c rest] Hne p [|k]; congruence || reflexivity. Qed.

Section AsyncEqualsSync.
  Variable U : Type.
  Variable ustep : U -> op -> U * out.
  Variable CI : U -> nat -> Prop.
  Variable pages : chunk.
  Variable u0 : U.
  Hypothesis Hinit : CI u0 0.
  Hypothesis Hsim : simulates ustep (spec_step_noindex pages) CI.

  Lemma ax_project : forall sched x x',
    Sem.run (axstep ustep) x sched = Some x' -> Sem.run astep (xa x) sched = Some (xa x').
  Proof.
    induction sched as [|l r IH]; intros x x' H; cbn in *.
    - now inversion H.
    - destruct (axstep ustep x l) as [x1|] eqn:E; [|discriminate].
      unfold axstep in E. destruct (astep (xa x) l) as [a'|]; [|discriminate].
      destruct (match l with LC => _ | LP _ => _ end) as [u' h'] in E.
      inversion E; subst x1. cbn in IH. specialize (IH _ _ H). exact IH.
  Qed.

  Lemma ax_xinv_init : forall calls, XInv U CI pages (axinit u0 calls).
  Proof. intros. constructor; cbn; auto. discriminate. Qed.

  Lemma ax_reach_xinv : forall calls sched x,
    Sem.run (axstep ustep) (axinit u0 calls) sched = Some x -> XInv U CI pages x.
  Proof.
    intros calls sched x H.
    eapply (invariant_run _ _ (axstep ustep) (XInv U CI pages)); [|apply ax_xinv_init|exact H].
    intros c l c' Hc Hs. eapply (axstep_inv U ustep CI pages Hsim); eauto.
  Qed.

  (** Safety, every interleaving: what the consumer's calls returned so far is
      what the position specification returns for those calls; the calls made
      are a prefix of the program. *)
  Theorem async_outputs_spec : forall calls sched x, Forall noclose calls ->
    Sem.run (axstep ustep) (axinit u0 calls) sched = Some x ->
    let ref := Model.run (spec_step_noindex pages) 0 (map op_of_call calls) in
    xouts x = firstn (length (xouts x)) ref /\
    (ax_finished x = true -> xouts x = ref).
  Proof.
    intros calls sched x Hn Hrun. cbv zeta.
    pose proof (ax_reach_xinv calls sched x Hrun) as [_ _ Houts].
    pose proof (ax_project _ _ _ Hrun) as Hrun'. cbn [xa axinit] in Hrun'.
    pose proof (async_versioned _ _ _ Hrun') as Hok.
    pose proof (reach_pinv _ _ _ Hn Hrun') as HP.
    pose proof (hist_ok_outputs pages _ 0 0 Hok) as Ho. cbn [adv] in Ho.
    rewrite <- Houts in Ho.
    rewrite (p_calls _ _ HP), !map_app, run_app. rewrite <- Ho. split.
    - rewrite firstn_app, Nat.sub_diag, firstn_all. cbn. now rewrite app_nil_r.
    - intros Hfin. unfold ax_finished in Hfin.
      assert (Hpend : pending (co (xa x)) = []).
      { unfold pending. destruct (prog (co (xa x))); [|discriminate].
        destruct (cp (co (xa x))); try discriminate. reflexivity. }
      rewrite Hpend. cbn. now rewrite app_nil_r.
  Qed.

  (** Progress, every interleaving: while the consumer has a call to make or
      to finish, some step is enabled. *)
  Theorem async_progress : forall calls sched x,
    Sem.run (axstep ustep) (axinit u0 calls) sched = Some x -> wants (xa x) ->
    exists l x', axstep ustep x l = Some x'.
  Proof.
    intros calls sched x Hrun Hw. pose proof (ax_project _ _ _ Hrun) as Hrun'. cbn [xa axinit] in Hrun'.
    destruct (async_no_deadlock _ _ _ Hrun' Hw) as (l & a' & Ha).
    exists l. unfold axstep. rewrite Ha.
    destruct (match l with LC => _ | LP _ => _ end) as [u' h']. eauto.
  Qed.

  Theorem async_equals_sync : forall calls sched x, Forall noclose calls ->
    Sem.run (axstep ustep) (axinit u0 calls) sched = Some x ->
    let sync := Model.run ustep u0 (map op_of_call calls) in
    xouts x = firstn (length (xouts x)) sync /\
    (ax_finished x = true -> xouts x = sync) /\
    (wants (xa x) -> exists l x', axstep ustep x l = Some x').
  Proof.
    intros calls sched x Hn Hrun. cbv zeta. rewrite (run_refines _ _ _ _ _ _ _ Hsim _ _ _ Hinit).
    destruct (async_outputs_spec calls sched x Hn Hrun) as (H1 & H2).
    split; [exact H1|split; [exact H2|]]. exact (async_progress calls sched x Hrun).
  Qed.
End AsyncEqualsSync.
