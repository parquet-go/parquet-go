(** Proofs about columnPages (Cursor/ColumnPages.v): the page reader of
    Column.Pages() refines the row-position specification over the
    concatenation of the row groups, for every layout and every history. *)
From Coq Require Import List Arith Bool Lia.
From PQ Require Import Base.ListExtra Cursor.Model Cursor.Spec Cursor.Proofs Cursor.Rows Cursor.Multi
  Cursor.MultiProofs Cursor.ColumnPages.
Import ListNotations.

Lemma set_nth_middle : forall (A : Type) (pre : list A) c post x,
  set_nth (pre ++ c :: post) (length pre) x = pre ++ x :: post.
Proof. induction pre as [|y pre IH]; intros; cbn; [reflexivity|now rewrite IH]. Qed.

Lemma split_nth_error : forall (A : Type) (l : list A) d x, nth_error l d = Some x ->
  l = firstn d l ++ x :: skipn (S d) l.
Proof.
  induction l as [|y l IH]; intros d x H; [destruct d; discriminate|].
  destruct d as [|d]; cbn in H.
  - inversion H; subst. reflexivity.
  - cbn [firstn skipn app]. f_equal. now apply IH.
Qed.

Lemma Forall2_cut : forall (A B : Type) (R : A -> B -> Prop) l l', Forall2 R l l' ->
  forall d x, nth_error l d = Some x ->
  exists y, nth_error l' d = Some y /\ R x y /\
            Forall2 R (firstn d l) (firstn d l') /\ Forall2 R (skipn (S d) l) (skipn (S d) l').
Proof.
  intros A B R l l' F. induction F as [|a b l l' Hab F IH]; intros d x Hx; [destruct d; discriminate|].
  destruct d as [|d]; cbn in Hx.
  - inversion Hx; subst. exists b. repeat split; [assumption|constructor|assumption].
  - destruct (IH d x Hx) as (y & Hy & Hxy & Hf & Hs). exists y. repeat split; try assumption.
    now constructor.
Qed.

Lemma Forall2_weaken : forall (A B : Type) (R1 R2 : A -> B -> Prop),
  (forall a b, R1 a b -> R2 a b) -> forall l l', Forall2 R1 l l' -> Forall2 R2 l l'.
Proof. intros A B R1 R2 H l l' F. induction F; constructor; auto. Qed.

(** The first loop of columnPages.SeekToRow: the row group where it stops and
    the row number within it, which may be the number of rows of that row
    group (the comparison is strict). *)
Lemma cp_locate_spec : forall rest i k idx k',
  cp_locate (map total_rows rest) i k = (idx, k') ->
  exists d, idx = i + d /\ d <= length rest /\ k = mp_offset rest d + k' /\
            (d < length rest -> k' <= total_rows (nth d rest [])).
Proof.
  induction rest as [|c rest IH]; intros i k idx k' H.
  - cbn in H. inversion H; subst. exists 0. cbn. repeat split; lia.
  - cbn [map cp_locate] in H. destruct (total_rows c <? k) eqn:E.
    + apply Nat.ltb_lt in E. apply IH in H. destruct H as (d & -> & Hd & Hk & Hlt).
      exists (S d). cbn [length mp_offset nth]. repeat split; try lia.
    + apply Nat.ltb_ge in E. inversion H; subst. exists 0. cbn. repeat split; try lia. intros _. exact E.
Qed.

Section ColumnPagesProofs.
  Variable cc : chunk_cursor.

  Variable chunks : list chunk.
  Hypothesis Hpos : Forall positive chunks.

  Definition Rany (pg : chunk) (c : state) : Prop := exists p, cc_inv cc pg c p.
  Definition R0 (pg : chunk) (c : state) : Prop := cc_inv cc pg c 0.

  (** From the row group being read on: it is at its row [lp], the later ones
      at their first row; beyond the last row group [lp] is how far beyond. *)
  Inductive here (lp : nat) : list chunk -> list state -> Prop :=
  | here_end : here lp [] []
  | here_in : forall pg c cpost post, cc_inv cc pg c lp -> lp <= total_rows pg -> Forall2 R0 cpost post ->
      here lp (pg :: cpost) (c :: post).

  Definition cp_inv (m : cpstate) (pos : nat) : Prop :=
    exists cpre crest pre rest lp,
      chunks = cpre ++ crest /\ cp_pages m = pre ++ rest /\ cp_index m = length cpre /\
      Forall2 Rany cpre pre /\ here lp crest rest /\ pos = mp_offset chunks (length cpre) + lp.

  Lemma R0_any : forall l l', Forall2 R0 l l' -> Forall2 Rany l l'.
  Proof. apply Forall2_weaken. intros a b H. exists 0. exact H. Qed.

  Lemma here_first : forall l l', Forall2 R0 l l' -> here 0 l l'.
  Proof. intros l l' [|pg c cpost post H F]; constructor; [exact H|lia|exact F]. Qed.

  Lemma here_any : forall lp l l', here lp l l' -> Forall2 Rany l l'.
  Proof. intros lp l l' [|pg c cpost post H _ F]; constructor; [now exists lp|now apply R0_any]. Qed.

  Lemma cp_inv_all : forall m pos, cp_inv m pos -> Forall2 Rany chunks (cp_pages m).
  Proof.
    intros m pos (cpre & crest & pre & rest & lp & -> & -> & _ & Hpre & Hrest & _).
    apply Forall2_app; [exact Hpre|exact (here_any _ _ _ Hrest)].
  Qed.

  Local Notation cp_ok r pos := (sim_at cp_inv r (spec_step (concat chunks) pos ReadPage)).

  Lemma cp_read_sim : forall f m pos, cp_inv m pos -> length chunks + 1 - cp_index m <= f ->
    cp_ok (cp_read (cc_step cc) f chunks m) pos.
  Proof.
    induction f as [|f IH]; intros [pages idx] pos Hm Hf;
      destruct Hm as (cpre & crest & pre & rest & lp & Hch & Hpg & Hidx & Hpre & Hrest & ->);
      cbn [cp_pages cp_index] in *; subst pages idx;
      pose proof (Forall2_len _ _ _ Hpre) as Hlen.
    { rewrite Hch, app_length in Hf. lia. }
    cbn [cp_read cp_pages cp_index].
    destruct Hrest as [|pg c cpost post Hc Hlp Hpost].
    - rewrite app_nil_r in *. subst cpre. rewrite <- Hlen, Nat.leb_refl, read_beyond_chunks by lia.
      split; [reflexivity|].
      exists chunks, [], pre, [], lp. rewrite !app_nil_r. repeat split; try assumption. constructor.
    - assert (Hn : nth_error chunks (length cpre) = Some pg).
      { rewrite Hch, nth_error_app2, Nat.sub_diag by lia. reflexivity. }
      rewrite Hlen in *.
      replace (length (pre ++ c :: post) <=? length pre) with false
        by (symmetry; apply Nat.leb_gt; rewrite app_length; cbn; lia).
      rewrite (nth_error_nth chunks (length pre) [] Hn), nth_middle.
      destruct (chunk_read chunks _ pg _ _ _ c lp Hn
                  (sim_read _ _ _ _ _ (cc_sim cc pg (Forall_nth_error _ _ _ _ _ Hpos Hn))) Hc Hlp)
        as [(Ho & -> & Hc')|(e & Ho & He & Hc' & ->)];
        destruct (cc_step cc pg c ReadPage) as [c' o]; cbn [fst snd] in Ho, Hc'; subst o;
        rewrite set_nth_middle.
      + (* the next row group is at its first row *)
        apply IH; [|cbn [cp_index]; lia].
        exists (cpre ++ [pg]), cpost, (pre ++ [c']), post, 0. rewrite <- !app_assoc, app_length.
        cbn [app length cp_pages cp_index]. rewrite Hlen, Nat.add_1_r, (mp_offset_S _ _ _ Hn).
        repeat split; try assumption; try lia; [|now apply here_first].
        apply Forall2_app; [assumption|]. constructor; [now exists (total_rows pg)|constructor].
      + split; [reflexivity|]. exists cpre, (pg :: cpost), pre, (c' :: post), e.
        cbn [fst cp_pages cp_index]. rewrite Hlen. repeat split; try assumption; try lia. now constructor.
  Qed.

  Lemma cp_inv_init : cp_inv (cpinit chunks) 0.
  Proof.
    exists [], chunks, [], (map (fun _ => init) chunks), 0. rewrite mp_offset_0.
    repeat split; [constructor|]. apply here_first.
    generalize chunks as l. induction l; cbn; constructor; [apply cc_init|assumption].
  Qed.

  Lemma cp_rewind_ok : forall n cpost post, Forall positive cpost -> Forall2 Rany cpost post ->
    length cpost <= n ->
    exists post', cp_rewind (cc_step cc) n cpost post = (post', SeekOk) /\ Forall2 R0 cpost post'.
  Proof.
    induction n as [|n IH]; intros cpost post Hp Hall Hn.
    - destruct Hall; [|cbn in Hn; lia]. exists []. split; [reflexivity|constructor].
    - destruct Hall as [|pg c cpost post (p & Hc) Hall].
      + exists []. split; [reflexivity|constructor].
      + cbn [cp_rewind]. inversion Hp as [|? ? Hpg Hp']; subst.
        destruct (sim_seek_ok _ _ _ _ _ (cc_sim cc pg Hpg) c p 0 Hc) as (Ho & Hc'); [auto|].
        destruct (cc_step cc pg c (SeekToRow 0)) as [c' o]. cbn [fst snd] in Ho, Hc'. subst o.
        destruct (IH cpost post Hp' Hall) as (post' & -> & H0); [cbn in Hn; lia|].
        exists (c' :: post'). split; [reflexivity|]. constructor; assumption.
  Qed.

  Lemma cp_step_sim : forall m pos o, cp_inv m pos ->
    sim_at cp_inv (cp_step (cc_step cc) false chunks m o) (spec_step_noindex (concat chunks) pos o).
  Proof.
    intros m pos o Hm. destruct o as [|k]; cbn [cp_step spec_step_noindex].
    - apply (cp_read_sim (S (length chunks)) m pos Hm). lia.
    - pose proof (cp_inv_all m pos Hm) as Hall. pose proof (Forall2_len _ _ _ Hall) as Hlen.
      unfold cp_seek. destruct (cp_locate (map total_rows chunks) 0 k) as [idx k'] eqn:El.
      apply cp_locate_spec in El. destruct El as (d & -> & Hd & Hk & Hle). cbn [Nat.add].
      rewrite <- Hlen.
      destruct (Nat.ltb_spec d (length chunks)) as [Hl|Hl].
      + specialize (Hle Hl).
        destruct (nth_error chunks d) as [pg|] eqn:En; [|apply nth_error_None in En; lia].
        destruct (Forall2_cut _ _ _ _ _ Hall d pg En) as (c & Ec & (p & Hc) & Hpre & Hpost).
        rewrite (nth_error_nth chunks d [] En) in *. rewrite (nth_error_nth (cp_pages m) d init Ec).
        pose proof (split_nth_error _ _ _ _ En) as Sch.
        pose proof (Forall_nth_error _ _ _ _ _ Hpos En) as Hpgpos.
        (* a chunk without pages is sought at its row 0 only *)
        assert (Hne : pg <> [] \/ k' = 0 \/ cc_strict cc = false).
        { destruct pg; [right; left; cbn in Hle; lia|left; discriminate]. }
        destruct (sim_seek_ok _ _ _ _ _ (cc_sim cc pg Hpgpos) c p k' Hc Hne) as (Ho & Hc').
        destruct (cc_step cc pg c (SeekToRow k')) as [c' o]. cbn [fst snd] in Ho, Hc'. subst o.
        assert (Hpp : Forall positive (skipn (S d) chunks)).
        { rewrite Sch in Hpos. apply Forall_app in Hpos. destruct Hpos as (_ & H).
          now inversion H. }
        destruct (cp_rewind_ok (length chunks) _ _ Hpp Hpost) as (post' & -> & H0).
        { rewrite skipn_length. lia. }
        cbn [fst snd]. split; [reflexivity|].
        exists (firstn d chunks), (pg :: skipn (S d) chunks), (firstn d (cp_pages m)), (c' :: post'), k'.
        cbn [cp_pages cp_index]. rewrite firstn_length_le by lia.
        repeat split; try assumption. constructor; try assumption.
      + assert (d = length chunks) by lia. subst d. cbn [fst snd]. split; [reflexivity|].
        exists chunks, [], (cp_pages m), [], k'. cbn [cp_pages cp_index]. rewrite !app_nil_r.
        repeat split; try assumption. constructor.
  Qed.

  Theorem cpages_refines : forall ops,
    run (cp_step (cc_step cc) false chunks) (cpinit chunks) ops = run_spec_noindex (concat chunks) ops.
  Proof. intros ops. exact (run_refines _ _ _ _ _ _ _ cp_step_sim ops _ _ cp_inv_init). Qed.
End ColumnPagesProofs.
