(** repeatedColumnBuffer (column_buffer_repeated.go), proofs about the model of
    Sort/Repeated.v:

    - WriteValues / writeRow append the levels, the non-null values and one row
      entry for each value of repetition level 0 ([flat_write]);
    - the representation invariant [rcol_ok] holds after every history of
      writes of whole rows, exchanges and pages;
    - Swap exchanges two whole rows, Page keeps the rows (in buffer order, with
      all their values), the page read sequentially and cut at repetition
      level 0 delivers the same rows;
    - Less i j is the comparator of compare.go on the value sequences of the
      rows i and j (descending flag, null ordering, shorter sequence first);
    - Less is a strict weak order, so the contract of sort.Sort applies. *)
From Coq Require Import List ZArith NArith Bool Arith Lia Permutation.
From PQ Require Import Base.Order Base.ListExtra Sort.Model Sort.ListLemmas Sort.CmpProofs Sort.Repeated.
Import ListNotations.

Section SliceLemmas.
  Context {A : Type}.

  Lemma slice_length (l : list A) o n : o + n <= length l -> length (slice l o n) = n.
  Proof. intros H. unfold slice. rewrite firstn_length, skipn_length. lia. Qed.

  Lemma slice_app_l (l p : list A) o n : o + n <= length l -> slice (l ++ p) o n = slice l o n.
  Proof.
    intros H. unfold slice. rewrite skipn_app, firstn_app, skipn_length.
    replace (n - (length l - o)) with 0 by lia. rewrite firstn_O. apply app_nil_r.
  Qed.

  Lemma slice_app_r (l p : list A) n : slice (l ++ p) (length l) n = firstn n p.
  Proof.
    unfold slice. rewrite skipn_app, skipn_all2 by lia. rewrite Nat.sub_diag. reflexivity.
  Qed.

  Lemma slice_S (l : list A) o n d : o < length l ->
    slice l o (S n) = nth o l d :: slice l (S o) n.
  Proof. intros H. unfold slice. rewrite (skipn_nth_cons l o d H). reflexivity. Qed.

  Lemma firstn_slice (l : list A) o n m : m <= n -> firstn m (slice l o n) = slice l o m.
  Proof. intros H. unfold slice. rewrite firstn_firstn. f_equal. lia. Qed.

  Lemma skipn_slice_base (l : list A) o n : skipn o l = slice l o n ++ skipn (o + n) l.
  Proof. unfold slice. rewrite skipn_add. symmetry. apply firstn_skipn. Qed.
End SliceLemmas.

Section RepeatedSwap.
  Variable V : Type.

  Theorem rcol_swap_rows (c : rcol V) i j :
    rcol_rows V (rcol_swap V c i j) = swapl (rcol_rows V c) i j.
  Proof. unfold rcol_rows, rcol_swap; simpl. apply map_swapl. Qed.

  Theorem rcol_swap_perm (c : rcol V) i j :
    Permutation (rcol_rows V (rcol_swap V c i j)) (rcol_rows V c).
  Proof. rewrite rcol_swap_rows. apply swapl_perm. Qed.
End RepeatedSwap.

Section RepeatedProofs.
  Variable V : Type.
  Variable lt : V -> V -> bool.
  Variable cmp : V -> V -> Z.
  Hypothesis lt_cmp : forall a b, lt a b = true <-> (cmp a b < 0)%Z.
  Hypothesis cmp_opp : forall a b, (cmp a b < 0 <-> cmp b a > 0)%Z.
  Hypothesis cmp_trans : forall a b d, (cmp a b <= 0 -> cmp b d <= 0 -> cmp a d <= 0)%Z.

  Notation rval := (rval V).
  Notation rcol := (rcol V).

  (* number of levels equal to the maximum: the non-null values *)
  Definition cnt (md : N) (ds : list N) : nat := length (filter (fun d => N.eqb d md) ds).

  Lemma cnt_app md a b : cnt md (a ++ b) = cnt md a + cnt md b.
  Proof. unfold cnt. now rewrite filter_app, app_length. Qed.

  Lemma cnt_cons md d t : cnt md (d :: t) = (if N.eqb d md then 1 else 0) + cnt md t.
  Proof. unfold cnt. simpl. destruct (N.eqb d md); reflexivity. Qed.

  Lemma cnt_split md n l : cnt md l = cnt md (firstn n l) + cnt md (skipn n l).
  Proof. rewrite <- cnt_app, firstn_skipn. reflexivity. Qed.

  Lemma cnt_firstn_le md n l : cnt md (firstn n l) <= cnt md l.
  Proof. rewrite (cnt_split md n l). lia. Qed.

  Lemma cnt_slice_le md l o n : cnt md (firstn o l) + cnt md (slice l o n) <= cnt md l.
  Proof.
    rewrite (cnt_split md o l). unfold slice.
    assert (H := cnt_firstn_le md n (skipn o l)). lia.
  Qed.

  Definition hd_zero (reps : list N) : Prop :=
    match reps with r :: _ => r = 0%N | [] => True end.

  Definition nonzero (r : N) : Prop := r <> 0%N.

  Lemma until_zero_le t : until_zero t <= length t.
  Proof. induction t as [|r t IH]; simpl; auto. destruct (N.eqb r 0); simpl; lia. Qed.

  Lemma until_zero_firstn t : Forall nonzero (firstn (until_zero t) t).
  Proof.
    induction t as [|r t IH]; simpl; [constructor|].
    destruct (N.eqb_spec r 0); simpl; constructor; auto.
  Qed.

  Lemma until_zero_skipn t : hd_zero (skipn (until_zero t) t).
  Proof.
    induction t as [|r t IH]; simpl; auto.
    destruct (N.eqb_spec r 0); simpl; auto.
  Qed.

  Lemma until_zero_app t p : hd_zero p -> until_zero (t ++ p) = until_zero t.
  Proof.
    intros Hp. induction t as [|r t IH]; simpl.
    - destruct p as [|q p]; simpl in *; auto. subst. reflexivity.
    - destruct (N.eqb r 0); auto.
  Qed.

  Lemma until_zero_nonzero t p : Forall nonzero t -> until_zero (t ++ p) = length t + until_zero p.
  Proof.
    induction 1 as [|r t Hr Ht IH]; simpl; auto.
    destruct (N.eqb_spec r 0); [contradiction|]. now rewrite IH.
  Qed.

  Lemma row_length_skipn reps off :
    row_length reps off = match skipn off reps with [] => 0 | _ :: t => S (until_zero t) end.
  Proof. reflexivity. Qed.

  Lemma row_length_bound reps off : off < length reps ->
    1 <= row_length reps off /\ off + row_length reps off <= length reps.
  Proof.
    intros H. unfold row_length. rewrite (skipn_nth_cons reps off 0%N H).
    assert (L := until_zero_le (skipn (S off) reps)). rewrite skipn_length in L. lia.
  Qed.

  Lemma row_length_app reps p off : off < length reps -> hd_zero p ->
    row_length (reps ++ p) off = row_length reps off.
  Proof.
    intros H Hp. unfold row_length. rewrite skipn_app.
    replace (off - length reps) with 0 by lia.
    rewrite (skipn_nth_cons reps off 0%N H). simpl. now rewrite until_zero_app.
  Qed.

  Lemma row_length_app_r reps p : row_length (reps ++ p) (length reps) = row_length p 0.
  Proof.
    unfold row_length. rewrite skipn_app, skipn_all2, Nat.sub_diag by lia. reflexivity.
  Qed.

  (* a row: a value of repetition level 0, then values of other levels *)
  Lemma row_shape reps off : off < length reps ->
    exists nz, slice reps off (row_length reps off) = nth off reps 0%N :: nz /\ Forall nonzero nz /\
               hd_zero (skipn (off + row_length reps off) reps).
  Proof.
    intros H. unfold row_length, slice. rewrite (skipn_nth_cons reps off 0%N H).
    exists (firstn (until_zero (skipn (S off) reps)) (skipn (S off) reps)).
    split; [reflexivity|]. split; [apply until_zero_firstn|].
    replace (off + S (until_zero (skipn (S off) reps))) with (S off + until_zero (skipn (S off) reps)) by lia.
    rewrite skipn_add. apply until_zero_skipn.
  Qed.

  Lemma row_length_zero_nonzero nz p : Forall nonzero nz -> hd_zero p ->
    row_length (0%N :: nz ++ p) 0 = S (length nz).
  Proof.
    intros Hn Hp. unfold row_length. simpl. rewrite until_zero_nonzero by auto.
    destruct p as [|q p]; simpl in *; [lia|]. subst. simpl. lia.
  Qed.

  Section WithMd.
  Variable md : N.

  Lemma rpage_values_length rs : forall ds b, length rs = length ds ->
    length (rpage_values V md rs ds b) = length rs.
  Proof.
    induction rs as [|r rs IH]; intros [|d ds] b H; simpl in *; try lia; auto.
    destruct (N.eqb d md); [destruct b|]; simpl; rewrite IH; auto.
  Qed.

  Lemma rpage_values_reps rs : forall ds b, length rs = length ds ->
    map (rv_rep V) (rpage_values V md rs ds b) = rs.
  Proof.
    induction rs as [|r rs IH]; intros [|d ds] b H; simpl in *; try lia; auto.
    destruct (N.eqb d md); [destruct b|]; simpl; rewrite IH; auto.
  Qed.

  (* the values beyond those the levels call for are not read *)
  Lemma rpage_values_enough rs : forall ds x y, cnt md ds <= length x ->
    rpage_values V md rs ds (x ++ y) = rpage_values V md rs ds x.
  Proof.
    induction rs as [|r rs IH]; intros [|d ds] x y H; simpl; auto.
    rewrite cnt_cons in H. destruct (N.eqb d md).
    - destruct x as [|v x]; simpl in *; [lia|]. f_equal. apply IH. lia.
    - f_equal. apply IH. simpl in H. lia.
  Qed.

  Lemma rpage_values_nil rs : forall ds,
    rpage_values V md rs ds [] = map (fun rd => mkRval (fst rd) (snd rd) None) (combine rs ds).
  Proof.
    induction rs as [|r rs IH]; intros [|d ds]; simpl; auto.
    destruct (N.eqb d md); f_equal; apply IH.
  Qed.

  Lemma rpage_values_app r1 : forall d1 r2 d2 b, length r1 = length d1 ->
    rpage_values V md (r1 ++ r2) (d1 ++ d2) b =
    rpage_values V md r1 d1 b ++ rpage_values V md r2 d2 (skipn (cnt md d1) b).
  Proof.
    induction r1 as [|r r1 IH]; intros [|d d1] r2 d2 b H; simpl in *; try lia; auto.
    rewrite cnt_cons. destruct (N.eqb d md).
    - destruct b as [|v b]; simpl.
      + f_equal. rewrite IH by lia. now rewrite skipn_nil.
      + f_equal. apply IH. lia.
    - simpl. f_equal. apply IH. lia.
  Qed.

  (** the option values of a sequence of levels read against the base values *)
  Fixpoint vals_at (ds : list N) (b : list V) : list (option V) :=
    match ds with
    | [] => []
    | d :: t =>
        if N.eqb d md then
          match b with
          | v :: b' => Some v :: vals_at t b'
          | [] => None :: vals_at t []
          end
        else None :: vals_at t b
    end.

  Lemma rpage_values_vals rs : forall ds b, length rs = length ds ->
    map (rv_val V) (rpage_values V md rs ds b) = vals_at ds b.
  Proof.
    induction rs as [|r rs IH]; intros [|d ds] b H; simpl in *; try lia; auto.
    destruct (N.eqb d md); [destruct b|]; simpl; rewrite IH; auto.
  Qed.

  Lemma vals_at_length ds : forall b, length (vals_at ds b) = length ds.
  Proof. induction ds as [|d ds IH]; intros b; simpl; auto. destruct (N.eqb d md); [destruct b|]; simpl; auto. Qed.

  Lemma vals_at_firstn ds : forall m b, firstn m (vals_at ds b) = vals_at (firstn m ds) b.
  Proof.
    induction ds as [|d ds IH]; intros [|m] b; simpl; auto.
    destruct (N.eqb d md); [destruct b|]; simpl; now rewrite IH.
  Qed.

  Definition wvals (vs : list rval) : list V :=
    flat_map (fun v => if N.eqb (rv_def V v) md
                       then match rv_val V v with Some x => [x] | None => [] end
                       else []) vs.

  (* a value: present exactly at the maximum definition level *)
  Definition rval_ok (v : rval) : Prop := rv_def V v = md <-> rv_val V v <> None.

  Lemma wvals_app a b : wvals (a ++ b) = wvals a ++ wvals b.
  Proof. apply flat_map_app. Qed.

  Lemma wvals_length vs : Forall rval_ok vs -> length (wvals vs) = cnt md (map (rv_def V) vs).
  Proof.
    induction 1 as [|v vs Hv _ IH]; simpl; auto. rewrite cnt_cons, app_length, IH. f_equal.
    unfold rval_ok in Hv. destruct (N.eqb_spec (rv_def V v) md) as [E|E].
    - destruct (rv_val V v); simpl; auto. exfalso. now apply Hv.
    - reflexivity.
  Qed.

  (* reading back what was written *)
  Lemma rpage_values_written vs : Forall rval_ok vs -> forall rest,
    rpage_values V md (map (rv_rep V) vs) (map (rv_def V) vs) (wvals vs ++ rest) = vs.
  Proof.
    induction 1 as [|v vs Hv _ IH]; intros rest; simpl; auto.
    unfold rval_ok in Hv. destruct v as [r d o]; simpl in *.
    destruct (N.eqb_spec d md) as [E|E].
    - destruct o as [x|]; [|exfalso; now apply Hv]. simpl. now rewrite IH.
    - destruct o as [x|]; [exfalso; apply E, Hv; discriminate|]. now rewrite IH.
  Qed.

  (** the row entries of the values of repetition level 0 *)
  Fixpoint entries (off boff : nat) (vs : list rval) : list (nat * nat) :=
    match vs with
    | [] => []
    | v :: t => (if N.eqb (rv_rep V v) 0 then [(off, boff)] else []) ++
                entries (S off) (boff + length (wvals [v])) t
    end.

  Lemma entries_app a : forall off boff b,
    entries off boff (a ++ b) =
    entries off boff a ++ entries (off + length a) (boff + length (wvals a)) b.
  Proof.
    induction a as [|v a IH]; intros off boff b; simpl.
    - now rewrite !Nat.add_0_r.
    - rewrite IH, <- app_assoc. f_equal.
      rewrite app_nil_r, app_length.
      replace (S off + length a) with (off + S (length a)) by lia.
      now rewrite Nat.add_assoc.
  Qed.

  Lemma entries_nonzero r : Forall (fun v => rv_rep V v <> 0%N) r -> forall off boff, entries off boff r = [].
  Proof.
    induction 1 as [|v r Hv _ IH]; intros off boff; simpl; auto.
    destruct (N.eqb_spec (rv_rep V v) 0); [contradiction|]. apply IH.
  Qed.

  Lemma row_tail_spec t : forall r rest, row_tail V t = (r, rest) ->
    t = r ++ rest /\ Forall (fun v => rv_rep V v <> 0%N) r /\ length rest <= length t.
  Proof.
    induction t as [|v t IH]; intros r rest E; simpl in E.
    - inversion E; subst. repeat split; auto.
    - destruct (N.eqb_spec (rv_rep V v) 0) as [Z|Z].
      + inversion E; subst. repeat split; auto.
      + destruct (row_tail V t) as [r' rest'] eqn:E'. inversion E; subst.
        destruct (IH _ _ eq_refl) as (H1 & H2 & H3). subst t. repeat split; simpl; auto.
  Qed.
  End WithMd.

  Definition flat_write (c : rcol) (vs : list rval) : rcol :=
    mkRcol V (rbase V c ++ wvals (rmaxdef V c) vs)
           (rrows V c ++ entries (rmaxdef V c) (length (rreps V c)) (length (rbase V c)) vs)
           (rreps V c ++ map (rv_rep V) vs) (rdefs V c ++ map (rv_def V) vs)
           (rmaxdef V c) (rnulls_first V c) (rdescending V c) (rreordered V c).

  Lemma flat_write_nil c : flat_write c [] = c.
  Proof. destruct c. unfold flat_write. simpl. now rewrite !app_nil_r. Qed.

  Lemma flat_write_app c a b : flat_write (flat_write c a) b = flat_write c (a ++ b).
  Proof.
    unfold flat_write. simpl. rewrite wvals_app, entries_app, !map_app, !app_length, !map_length, !app_assoc.
    reflexivity.
  Qed.

  (* writeRow on a row in the sense of WriteValues: values of non-zero
     repetition level after the first *)
  Lemma write_row_flat c v r : Forall (fun v => rv_rep V v <> 0%N) r ->
    write_row V c (v :: r) = flat_write c (v :: r).
  Proof.
    intros Hr. unfold write_row, flat_write. f_equal.
    cbn [entries]. rewrite (entries_nonzero (rmaxdef V c) r Hr).
    destruct (N.eqb (rv_rep V v) 0); now rewrite ?app_nil_r.
  Qed.

  Theorem write_rvalues_flat fuel : forall c vs, length vs <= fuel ->
    write_rvalues V fuel c vs = flat_write c vs.
  Proof.
    induction fuel as [|f IH]; intros c vs Hlen.
    - destruct vs; simpl in *; [|lia]. now rewrite flat_write_nil.
    - destruct vs as [|v t]; [simpl; now rewrite flat_write_nil|].
      cbn [write_rvalues]. destruct (N.eqb_spec (rv_rep V v) 0) as [Z|Z].
      + destruct (row_tail V t) as [r rest] eqn:E.
        destruct (row_tail_spec t r rest E) as (Ht & Hr & Hl). simpl in Hlen.
        rewrite IH by lia. rewrite write_row_flat by auto. rewrite flat_write_app. now rewrite Ht.
      + assert (E : row_tail V (v :: t) = let (r, rest) := row_tail V t in (v :: r, rest)).
        { simpl. destruct (N.eqb_spec (rv_rep V v) 0); [contradiction|reflexivity]. }
        rewrite E. destruct (row_tail V t) as [r rest] eqn:E'.
        destruct (row_tail_spec t r rest E') as (Ht & Hr & Hl). simpl in Hlen.
        rewrite IH by lia. rewrite write_row_flat by auto. rewrite flat_write_app. now rewrite Ht.
  Qed.

  Corollary rcol_write_flat c vs : rcol_write V c vs = flat_write c vs.
  Proof. apply write_rvalues_flat. auto. Qed.

  Fixpoint canon_from (md : N) (off boff : nat) (reps defs : list N) : list (nat * nat) :=
    match reps, defs with
    | r :: reps', d :: defs' =>
        (if N.eqb r 0 then [(off, boff)] else []) ++
        canon_from md (S off) (boff + (if N.eqb d md then 1 else 0)) reps' defs'
    | _, _ => []
    end.

  Lemma entries_canon md vs : Forall (rval_ok md) vs -> forall off boff,
    entries md off boff vs = canon_from md off boff (map (rv_rep V) vs) (map (rv_def V) vs).
  Proof.
    induction 1 as [|v vs Hv _ IH]; intros off boff; simpl; auto.
    f_equal. rewrite IH. f_equal. f_equal. rewrite app_nil_r.
    unfold rval_ok in Hv. destruct (N.eqb_spec (rv_def V v) md) as [E|E]; auto.
    destruct (rv_val V v); auto. exfalso. now apply Hv.
  Qed.

  Lemma canon_from_app md r1 : forall d1 r2 d2 off boff, length r1 = length d1 ->
    canon_from md off boff (r1 ++ r2) (d1 ++ d2) =
    canon_from md off boff r1 d1 ++ canon_from md (off + length r1) (boff + cnt md d1) r2 d2.
  Proof.
    induction r1 as [|r r1 IH]; intros [|d d1] r2 d2 off boff H; simpl in *; try lia.
    - now rewrite !Nat.add_0_r.
    - rewrite IH by lia. rewrite <- app_assoc. f_equal. rewrite cnt_cons.
      replace (S off + length r1) with (off + S (length r1)) by lia.
      now rewrite Nat.add_assoc.
  Qed.

  Lemma canon_from_nonzero md r : Forall nonzero r -> forall d off boff, canon_from md off boff r d = [].
  Proof.
    induction 1 as [|x r Hx _ IH]; intros [|d ds] off boff; simpl; auto.
    destruct (N.eqb_spec x 0); [contradiction|]. apply IH.
  Qed.

  (* one row: level 0 then other levels *)
  Lemma canon_from_row md nz ds off boff : Forall nonzero nz -> length ds = S (length nz) ->
    canon_from md off boff (0%N :: nz) ds = [(off, boff)].
  Proof.
    intros Hn Hl. destruct ds as [|d ds]; simpl in *; [lia|].
    now rewrite canon_from_nonzero.
  Qed.

  (** a row read through its entry *)
  Definition entry_row' (md : N) (reps defs : list N) (base : list V) (r : nat * nat) : list rval :=
    let len := row_length reps (fst r) in
    rpage_values V md (slice reps (fst r) len) (slice defs (fst r) len) (skipn (snd r) base).

  Lemma entry_row_eq (c : rcol) r :
    rcol_entry_row V c r = entry_row' (rmaxdef V c) (rreps V c) (rdefs V c) (rbase V c) r.
  Proof. reflexivity. Qed.

  Lemma row_tail_app a b : Forall (fun v => rv_rep V v <> 0%N) a ->
    hd_zero (map (rv_rep V) b) -> row_tail V (a ++ b) = (a, b).
  Proof.
    intros Ha Hb. induction Ha as [|v a Hv _ IH]; simpl.
    - destruct b as [|w b]; simpl in *; auto. rewrite Hb. reflexivity.
    - destruct (N.eqb_spec (rv_rep V v) 0); [contradiction|]. now rewrite IH.
  Qed.

  Lemma cut_rows_nil n : cut_rows V n (@nil rval) = [].
  Proof. destruct n; reflexivity. Qed.

  Lemma cut_rows_row md fuel s nz ds b rest :
    s = 0%N :: nz -> Forall nonzero nz -> length s = length ds -> hd_zero (map (rv_rep V) rest) ->
    cut_rows V (S fuel) (rpage_values V md s ds b ++ rest) =
    rpage_values V md s ds b :: cut_rows V fuel rest.
  Proof.
    intros Hs Hnz Hl Hz.
    assert (R : map (rv_rep V) (rpage_values V md s ds b) = s) by (apply rpage_values_reps; exact Hl).
    destruct (rpage_values V md s ds b) as [|v r1]; rewrite Hs in R; [discriminate|].
    injection R as _ R. cbn [app cut_rows]. rewrite row_tail_app; [reflexivity| |exact Hz].
    rewrite <- R in Hnz. rewrite Forall_map in Hnz. exact Hnz.
  Qed.

  (** The page read sequentially and cut at the values of repetition level 0
      delivers, row by row, what the entries in level order designate.  [pre],
      [dpre], [bpre] is what precedes in the column. *)
  Lemma cut_canon md fuel : forall pre dpre bpre suf dsuf bsuf,
    length suf <= fuel -> length pre = length dpre -> length suf = length dsuf ->
    length bpre = cnt md dpre -> length bsuf = cnt md dsuf -> hd_zero suf ->
    cut_rows V fuel (rpage_values V md suf dsuf bsuf) =
    map (entry_row' md (pre ++ suf) (dpre ++ dsuf) (bpre ++ bsuf))
        (canon_from md (length pre) (length bpre) suf dsuf).
  Proof.
    induction fuel as [|f IH]; intros pre dpre bpre suf dsuf bsuf Hf Hp Hs Hb Hbs Hz.
    - destruct suf; simpl in *; [|lia]. destruct dsuf; reflexivity.
    - destruct suf as [|r t]; [destruct dsuf; reflexivity|].
      simpl in Hz. subst r. destruct dsuf as [|d dt]; [simpl in Hs; lia|].
      set (suf := 0%N :: t) in *. set (dsuf := d :: dt) in *.
      set (len := row_length suf 0).
      assert (Hlen : 1 <= len /\ 0 + len <= length suf) by (apply row_length_bound; simpl; lia).
      destruct (row_shape suf 0) as (nz & Hsh & Hnz & Hrest); [simpl; lia|]. fold len in Hsh, Hrest.
      simpl in Hrest. unfold slice in Hsh. simpl skipn in Hsh. simpl nth in Hsh.
      set (s1 := firstn len suf) in *. set (s2 := skipn len suf) in *.
      set (e1 := firstn len dsuf). set (e2 := skipn len dsuf).
      assert (Es : suf = s1 ++ s2) by (symmetry; apply firstn_skipn).
      assert (Ee : dsuf = e1 ++ e2) by (symmetry; apply firstn_skipn).
      assert (L1 : length s1 = len) by (apply firstn_length_le; lia).
      assert (L1' : length e1 = len) by (apply firstn_length_le; lia).
      assert (Lnz : len = S (length nz)) by (rewrite <- L1, Hsh; reflexivity).
      set (b1 := firstn (cnt md e1) bsuf). set (b2 := skipn (cnt md e1) bsuf).
      assert (Cs : cnt md dsuf = cnt md e1 + cnt md e2) by (rewrite Ee at 1; apply cnt_app).
      assert (Lb1 : length b1 = cnt md e1) by (apply firstn_length_le; lia).
      assert (Lb2 : length b2 = cnt md e2) by (unfold b2; rewrite skipn_length; lia).
      assert (Eb : bsuf = b1 ++ b2) by (symmetry; apply firstn_skipn).
      (* the page: the first row, then the rest *)
      assert (Epage : rpage_values V md suf dsuf bsuf =
                      rpage_values V md s1 e1 bsuf ++ rpage_values V md s2 e2 b2).
      { rewrite Es at 1. rewrite Ee at 1. apply rpage_values_app. lia. }
      assert (Ecanon : canon_from md (length pre) (length bpre) suf dsuf =
                       (length pre, length bpre) ::
                       canon_from md (length (pre ++ s1)) (length (bpre ++ b1)) s2 e2).
      { rewrite Es at 1. rewrite Ee at 1. rewrite canon_from_app by lia.
        rewrite Hsh at 1. rewrite canon_from_row by (auto; lia).
        rewrite !app_length, L1, Lb1. reflexivity. }
      rewrite Epage, Ecanon. cbn [map].
      (* the first row *)
      assert (R1 : rpage_values V md s1 e1 bsuf =
                   entry_row' md (pre ++ suf) (dpre ++ dsuf) (bpre ++ bsuf) (length pre, length bpre)).
      { unfold entry_row'. cbn [fst snd]. rewrite row_length_app_r. fold len.
        rewrite slice_app_r. rewrite Hp, slice_app_r.
        rewrite skipn_app, skipn_all2, Nat.sub_diag by lia. reflexivity. }
      rewrite <- R1, (cut_rows_row md f s1 nz e1 bsuf _ Hsh Hnz); [|lia|].
      + f_equal.
        rewrite (IH (pre ++ s1) (dpre ++ e1) (bpre ++ b1) s2 e2 b2).
        * rewrite <- !app_assoc, <- Es, <- Ee, <- Eb. reflexivity.
        * assert (length s2 = length suf - len) by apply skipn_length. lia.
        * rewrite !app_length. lia.
        * unfold s2, e2. rewrite !skipn_length. lia.
        * rewrite app_length, cnt_app. lia.
        * exact Lb2.
        * exact Hrest.
      + rewrite rpage_values_reps; [exact Hrest|]. unfold s2, e2. rewrite !skipn_length. lia.
  Qed.

  Definition entry_ok (md : N) (reps defs : list N) (r : nat * nat) : Prop :=
    fst r < length reps /\ nth (fst r) reps 0%N = 0%N /\ snd r = cnt md (firstn (fst r) defs).

  Record rcol_ok (c : rcol) : Prop := mkRcolOk {
    ok_len : length (rreps V c) = length (rdefs V c);
    ok_base : length (rbase V c) = cnt (rmaxdef V c) (rdefs V c);
    ok_rows : Forall (entry_ok (rmaxdef V c) (rreps V c) (rdefs V c)) (rrows V c);
    ok_hd : hd_zero (rreps V c);
    ok_canon : rreordered V c = false ->
               rrows V c = canon_from (rmaxdef V c) 0 0 (rreps V c) (rdefs V c) }.

  Lemma canon_entries_ok md reps : forall defs pre dpre,
    length reps = length defs -> length pre = length dpre ->
    Forall (entry_ok md (pre ++ reps) (dpre ++ defs)) (canon_from md (length pre) (cnt md dpre) reps defs).
  Proof.
    induction reps as [|r reps IH]; intros [|d defs] pre dpre Hl Hp; simpl in *; try lia; [constructor|].
    apply Forall_app. split.
    - destruct (N.eqb_spec r 0) as [->|]; constructor; [|constructor].
      unfold entry_ok; cbn [fst snd]. rewrite app_length. simpl. split; [lia|]. split.
      + rewrite app_nth2, Nat.sub_diag by lia. reflexivity.
      + rewrite Hp, firstn_app, Nat.sub_diag, firstn_all2 by lia. simpl. now rewrite app_nil_r.
    - specialize (IH defs (pre ++ [r]) (dpre ++ [d])).
      rewrite <- !app_assoc in IH. simpl in IH.
      rewrite app_length, cnt_app, cnt_cons in IH. simpl in IH.
      replace (length pre + 1) with (S (length pre)) in IH by lia.
      replace (cnt md dpre + ((if N.eqb d md then 1 else 0) + cnt md [])) with
              (cnt md dpre + (if N.eqb d md then 1 else 0)) in IH by (unfold cnt; simpl; lia).
      apply IH; [lia|rewrite !app_length; simpl; lia].
  Qed.

  Lemma entry_ok_app md reps defs r2 d2 e : length reps = length defs ->
    entry_ok md reps defs e -> entry_ok md (reps ++ r2) (defs ++ d2) e.
  Proof.
    intros Hl (H1 & H2 & H3). unfold entry_ok. rewrite app_length. split; [lia|]. split.
    - now rewrite app_nth1.
    - rewrite firstn_app. replace (fst e - length defs) with 0 by lia. now rewrite firstn_O, app_nil_r.
  Qed.

  (* the values the levels of a row call for are in the base column *)
  Lemma entry_base_enough c e : rcol_ok c -> In e (rrows V c) ->
    fst e + row_length (rreps V c) (fst e) <= length (rreps V c) /\
    1 <= row_length (rreps V c) (fst e) /\
    snd e + cnt (rmaxdef V c) (slice (rdefs V c) (fst e) (row_length (rreps V c) (fst e))) <= length (rbase V c).
  Proof.
    intros Hok Hin. assert (He := ok_rows c Hok). rewrite Forall_forall in He.
    destruct (He e Hin) as (H1 & H2 & H3).
    destruct (row_length_bound _ _ H1) as [B1 B2]. repeat split; auto.
    rewrite H3, (ok_base c Hok). apply cnt_slice_le.
  Qed.

  Definition append_levels (c : rcol) (rs ds : list N) (bs : list V) (reord : bool) : rcol :=
    mkRcol V (rbase V c ++ bs)
           (rrows V c ++ canon_from (rmaxdef V c) (length (rreps V c)) (length (rbase V c)) rs ds)
           (rreps V c ++ rs) (rdefs V c ++ ds)
           (rmaxdef V c) (rnulls_first V c) (rdescending V c) reord.

  Lemma hd_zero_app a b : hd_zero a -> hd_zero b -> hd_zero (a ++ b).
  Proof. destruct a; simpl; auto. Qed.

  Lemma append_ok c rs ds bs reord :
    rcol_ok c -> length rs = length ds -> length bs = cnt (rmaxdef V c) ds -> hd_zero rs ->
    (reord = false -> rreordered V c = false) ->
    rcol_ok (append_levels c rs ds bs reord).
  Proof.
    intros Hok Hl Hb Hz Hre. assert (Hlen := ok_len c Hok). assert (Hbase := ok_base c Hok).
    constructor; unfold append_levels; simpl.
    - rewrite !app_length. lia.
    - rewrite app_length, cnt_app. lia.
    - apply Forall_app. split.
      + eapply Forall_impl; [|exact (ok_rows c Hok)]. intros e He. now apply entry_ok_app.
      + rewrite Hbase. apply canon_entries_ok; auto.
    - apply hd_zero_app; auto. exact (ok_hd c Hok).
    - intros E. rewrite (ok_canon c Hok (Hre E)), canon_from_app by auto. simpl. now rewrite Hbase.
  Qed.

  Lemma append_old_rows c rs ds bs reord e :
    rcol_ok c -> hd_zero rs -> In e (rrows V c) ->
    rcol_entry_row V (append_levels c rs ds bs reord) e = rcol_entry_row V c e.
  Proof.
    intros Hok Hz Hin. destruct (entry_base_enough c e Hok Hin) as (B1 & B2 & B3).
    assert (Hlen := ok_len c Hok).
    rewrite !entry_row_eq. unfold entry_row', append_levels. simpl.
    rewrite row_length_app by (auto; lia).
    rewrite !slice_app_l by lia.
    rewrite skipn_app. replace (snd e - length (rbase V c)) with 0 by lia. rewrite skipn_O.
    apply rpage_values_enough. rewrite skipn_length. lia.
  Qed.

  Lemma append_rows c rs ds bs reord :
    rcol_ok c -> length rs = length ds -> length bs = cnt (rmaxdef V c) ds -> hd_zero rs ->
    rcol_rows V (append_levels c rs ds bs reord) =
    rcol_rows V c ++ cut_rows V (length rs) (rpage_values V (rmaxdef V c) rs ds bs).
  Proof.
    intros Hok Hl Hb Hz. unfold rcol_rows at 1. unfold append_levels at 2. cbn [rrows].
    rewrite map_app. f_equal.
    - apply map_ext_in. intros e He. now apply append_old_rows.
    - rewrite (cut_canon (rmaxdef V c) (length rs) (rreps V c) (rdefs V c) (rbase V c) rs ds bs);
        auto using ok_len, ok_base.
  Qed.

  Definition batch_ok (md : N) (vs : list rval) : Prop :=
    Forall (rval_ok md) vs /\ hd_zero (map (rv_rep V) vs).

  Lemma flat_write_append c vs : Forall (rval_ok (rmaxdef V c)) vs ->
    flat_write c vs = append_levels c (map (rv_rep V) vs) (map (rv_def V) vs)
                                    (wvals (rmaxdef V c) vs) (rreordered V c).
  Proof. intros H. unfold flat_write, append_levels. now rewrite entries_canon. Qed.

  Theorem write_ok c vs : rcol_ok c -> batch_ok (rmaxdef V c) vs ->
    rcol_ok (rcol_write V c vs) /\
    rcol_rows V (rcol_write V c vs) = rcol_rows V c ++ cut_rows V (length vs) vs.
  Proof.
    intros Hok [Hv Hz]. rewrite rcol_write_flat, flat_write_append by auto. split.
    - apply append_ok; auto; rewrite ?map_length; auto. now apply wvals_length.
    - rewrite append_rows; auto; rewrite ?map_length; auto; [|now apply wvals_length].
      f_equal. f_equal.
      rewrite <- (app_nil_r (wvals (rmaxdef V c) vs)). now apply rpage_values_written.
  Qed.

  Theorem swap_ok c i j : rcol_ok c -> rcol_ok (rcol_swap V c i j).
  Proof.
    intros Hok. constructor; unfold rcol_swap; simpl; try apply Hok.
    - eapply Permutation_Forall; [apply Permutation_sym, swapl_perm|]. apply Hok.
    - discriminate.
  Qed.

  Definition page_init (c : rcol) : rcol :=
    mkRcol V [] [] [] [] (rmaxdef V c) (rnulls_first V c) (rdescending V c) false.

  Definition page_step (c acc : rcol) (r : nat * nat) : rcol :=
    let len := row_length (rreps V c) (fst r) in
    let defs := slice (rdefs V c) (fst r) len in
    let nvals := length (filter (fun d => N.eqb d (rmaxdef V c)) defs) in
    mkRcol V (rbase V acc ++ slice (rbase V c) (snd r) nvals)
           (rrows V acc ++ [(length (rreps V acc), length (rbase V acc))])
           (rreps V acc ++ slice (rreps V c) (fst r) len)
           (rdefs V acc ++ defs)
           (rmaxdef V c) (rnulls_first V c) (rdescending V c) false.

  Lemma rcol_page_eq c :
    rcol_page V c = if rreordered V c then fold_left (page_step c) (rrows V c) (page_init c) else c.
  Proof. reflexivity. Qed.

  Definition same_cfg (c acc : rcol) : Prop :=
    rmaxdef V acc = rmaxdef V c /\ rnulls_first V acc = rnulls_first V c /\
    rdescending V acc = rdescending V c.

  Lemma page_step_ok c acc r : rcol_ok c -> In r (rrows V c) ->
    rcol_ok acc -> rreordered V acc = false -> same_cfg c acc ->
    let acc' := page_step c acc r in
    rcol_ok acc' /\ rreordered V acc' = false /\ same_cfg c acc' /\
    rcol_rows V acc' = rcol_rows V acc ++ [rcol_entry_row V c r].
  Proof.
    intros Hok Hin Hacc Hre (Hmd & Hnf & Hds).
    destruct (entry_base_enough c r Hok Hin) as (B1 & B2 & B3).
    assert (He := ok_rows c Hok). rewrite Forall_forall in He. destruct (He r Hin) as (E1 & E2 & E3).
    assert (Hlen := ok_len c Hok).
    set (len := row_length (rreps V c) (fst r)) in *.
    set (rs := slice (rreps V c) (fst r) len).
    set (ds := slice (rdefs V c) (fst r) len) in *.
    set (bs := slice (rbase V c) (snd r) (cnt (rmaxdef V c) ds)).
    destruct (row_shape (rreps V c) (fst r) E1) as (nz & Hsh & Hnz & _). fold len in Hsh. fold rs in Hsh.
    rewrite E2 in Hsh.
    assert (Lrs : length rs = len) by (apply slice_length; lia).
    assert (Lds : length ds = len) by (apply slice_length; lia).
    assert (Lbs : length bs = cnt (rmaxdef V c) ds) by (apply slice_length; lia).
    assert (Lnz : len = S (length nz)) by (rewrite <- Lrs, Hsh; reflexivity).
    assert (Hz : hd_zero rs) by (rewrite Hsh; reflexivity).
    assert (Eacc : page_step c acc r = append_levels acc rs ds bs false).
    { unfold page_step, append_levels. fold len. fold ds. fold rs. unfold cnt in bs. fold bs.
      rewrite Hmd, Hnf, Hds. f_equal. f_equal.
      rewrite Hsh. rewrite canon_from_row by (auto; lia). reflexivity. }
    cbv zeta. rewrite Eacc. split; [|split; [|split]].
    - apply append_ok; auto; rewrite ?Hmd; lia.
    - reflexivity.
    - unfold same_cfg, append_levels. simpl. auto.
    - rewrite append_rows by (auto; rewrite ?Hmd; lia). f_equal.
      rewrite Hmd, Lrs, Lnz, <- (app_nil_r (rpage_values _ _ _ _ _)).
      rewrite (cut_rows_row _ _ rs nz ds bs [] Hsh Hnz), cut_rows_nil; [|lia|exact I]. f_equal.
      rewrite entry_row_eq. unfold entry_row'. fold len. fold rs. fold ds.
      rewrite (skipn_slice_base (rbase V c) (snd r) (cnt (rmaxdef V c) ds)). fold bs.
      now rewrite rpage_values_enough by lia.
  Qed.

  Lemma page_fold_ok c : rcol_ok c -> forall L acc, incl L (rrows V c) ->
    rcol_ok acc -> rreordered V acc = false -> same_cfg c acc ->
    let acc' := fold_left (page_step c) L acc in
    rcol_ok acc' /\ rreordered V acc' = false /\ same_cfg c acc' /\
    rcol_rows V acc' = rcol_rows V acc ++ map (rcol_entry_row V c) L.
  Proof.
    intros Hok. induction L as [|r L IH]; intros acc Hincl Hacc Hre Hcfg; cbn [fold_left map].
    - rewrite app_nil_r. cbv zeta. auto.
    - destruct (page_step_ok c acc r Hok (Hincl r (or_introl eq_refl)) Hacc Hre Hcfg) as (S1 & S2 & S3 & S4).
      destruct (IH (page_step c acc r)) as (I1 & I2 & I3 & I4); auto.
      { intros x Hx. apply Hincl. now right. }
      cbv zeta. split; [exact I1|]. split; [exact I2|]. split; [exact I3|].
      rewrite I4, S4, <- app_assoc. reflexivity.
  Qed.

  Theorem page_ok c : rcol_ok c ->
    rcol_ok (rcol_page V c) /\ rreordered V (rcol_page V c) = false /\ same_cfg c (rcol_page V c) /\
    rcol_rows V (rcol_page V c) = rcol_rows V c.
  Proof.
    intros Hok. rewrite rcol_page_eq. destruct (rreordered V c) eqn:Ere.
    - destruct (page_fold_ok c Hok (rrows V c) (page_init c)) as (I1 & I2 & I3 & I4).
      + apply incl_refl.
      + constructor; simpl; auto.
      + reflexivity.
      + unfold same_cfg, page_init; simpl; auto.
      + split; [exact I1|]. split; [exact I2|]. split; [exact I3|]. exact I4.
    - split; [exact Hok|]. split; [exact Ere|]. split; [|reflexivity]. unfold same_cfg. auto.
  Qed.

  (* the page read sequentially, cut at repetition level 0 *)
  Theorem page_rows_ok c : rcol_ok c -> rcol_page_rows V c = rcol_rows V c.
  Proof.
    intros Hok. destruct (page_ok c Hok) as (P1 & P2 & P3 & P4).
    unfold rcol_page_rows. set (c' := rcol_page V c) in *. rewrite <- P4.
    assert (Hl := ok_len c' P1).
    rewrite rpage_values_length by auto.
    rewrite (cut_canon (rmaxdef V c') (length (rreps V c')) [] [] [] (rreps V c') (rdefs V c') (rbase V c'));
      auto using ok_base, ok_hd.
    unfold rcol_rows. rewrite (ok_canon c' P1 P2). apply map_ext. intros e. now rewrite entry_row_eq.
  Qed.

  Section CmpValues.
    Variable c : option V -> option V -> Z.
    Hypothesis c_opp : forall a b, (c a b < 0 <-> c b a > 0)%Z.
    Hypothesis c_trans : forall a b d, (c a b <= 0 -> c b d <= 0 -> c a d <= 0)%Z.

    Lemma cmp_values_opp a : forall b, (cmp_values V c a b < 0 <-> cmp_values V c b a > 0)%Z.
    Proof.
      induction a as [|x a IH]; intros [|y b]; simpl; try lia.
      apply (lexz_opp _ c c_opp), IH.
    Qed.

    Lemma cmp_values_trans a : forall b d,
      (cmp_values V c a b <= 0 -> cmp_values V c b d <= 0 -> cmp_values V c a d <= 0)%Z.
    Proof.
      induction a as [|x a IH]; intros [|y b] [|z d]; simpl; try lia.
      apply (lexz_trans _ c c_opp (fun _ => True) (fun a b d _ _ _ => c_trans a b d)); auto. apply IH.
    Qed.

    (* first pair of elements that differs, then the shorter sequence first *)
    Fixpoint first_diff (a b : list (option V)) : Z :=
      match a, b with
      | x :: a', y :: b' => let r := c x y in if Z.eqb r 0 then first_diff a' b' else r
      | _, _ => 0%Z
      end.

    Definition len_cmp (n m : nat) : Z := if n <? m then (-1)%Z else if m <? n then 1%Z else 0%Z.

    Lemma cmp_values_first_diff a : forall b,
      cmp_values V c a b =
      (let r := first_diff a b in if Z.eqb r 0 then len_cmp (length a) (length b) else r).
    Proof.
      induction a as [|x a IH]; intros [|y b]; simpl; try reflexivity.
      rewrite IH. cbv zeta. destruct (Z.eqb_spec (c x y) 0) as [E|E]; [reflexivity|].
      destruct (Z.eqb_spec (c x y) 0); [contradiction|reflexivity].
    Qed.

    Lemma first_diff_min a : forall b,
      first_diff a b = first_diff (firstn (Nat.min (length a) (length b)) a)
                                  (firstn (Nat.min (length a) (length b)) b).
    Proof.
      induction a as [|x a IH]; intros [|y b]; simpl; try reflexivity.
      now rewrite <- IH.
    Qed.
  End CmpValues.

  Lemma skipn_cons_inv {A} (l : list A) : forall x v t,
    skipn x l = v :: t -> nth_error l x = Some v /\ skipn (S x) l = t.
  Proof.
    induction l as [|a l IH]; intros [|x] v t H; simpl in *; try discriminate.
    - inversion H; subst. auto.
    - apply IH. exact H.
  Qed.

  Lemma vals_at_cons md d ds x (base : list V) : (d = md -> x < length base) ->
    vals_at md (d :: ds) (skipn x base) =
    (if N.eqb d md then nth_error base x else None) ::
    vals_at md ds (skipn (if N.eqb d md then S x else x) base).
  Proof.
    intros Hx. cbn [vals_at]. destruct (N.eqb_spec d md) as [E|E]; [|reflexivity].
    destruct (skipn x base) as [|vx t] eqn:Es.
    - exfalso. specialize (Hx E). assert (L := skipn_length x base). rewrite Es in L. simpl in L. lia.
    - destruct (skipn_cons_inv _ _ _ _ Es) as [N1 N2]. now rewrite N1, N2.
  Qed.

  Lemma decide_step (r r' fd : Z) (rest : option bool) :
    (r' < 0 <-> r > 0)%Z ->
    rest = (if (fd =? 0)%Z then None else Some (fd <? 0)%Z) ->
    (if (r <? 0)%Z then Some true else if (r' <? 0)%Z then Some false else rest) =
    (let q := if (r =? 0)%Z then fd else r in if (q =? 0)%Z then None else Some (q <? 0)%Z).
  Proof.
    intros O2 ->. cbv zeta.
    destruct (Z.eqb_spec r 0) as [E|E].
    - subst r. simpl. destruct (Z.ltb_spec r' 0); [lia|reflexivity].
    - destruct (Z.eqb_spec r 0); [contradiction|].
      destruct (Z.ltb_spec r 0); [reflexivity|]. destruct (Z.ltb_spec r' 0); [reflexivity|lia].
  Qed.

  Section Less.
    (* the sorting column: max definition level, nulls first, descending.
       Buffer.configure hands the column the null ordering [xorb nf desc]
       and sets its descending flag. *)
    Variable md : N.
    Variables nf desc : bool.

    Definition cfg_is (c : rcol) (nfo : bool) : Prop :=
      rmaxdef V c = md /\ rnulls_first V c = nfo /\ rdescending V c = desc.

    Notation cc := (cmp_col V cmp true desc nf).

    Lemma less_step (base : list V) (d1 d2 : N) (x y : nat) :
      (d1 = md -> x < length base) -> (d2 = md -> y < length base) ->
      let a := if N.eqb d1 md then nth_error base x else None in
      let b := if N.eqb d2 md then nth_error base y else None in
      let less := if xorb nf desc then nulls_go_first V lt else nulls_go_last V lt in
      let before0 := less base (Z.of_nat x) (Z.of_nat y) md d1 d2 in
      let after0 := less base (Z.of_nat y) (Z.of_nat x) md d2 d1 in
      (if desc then after0 else before0) = (cc a b <? 0)%Z /\
      (if desc then before0 else after0) = (cc b a <? 0)%Z.
    Proof.
      intros Hx Hy. cbv zeta.
      rewrite !(nulls_less_spec V lt cmp lt_cmp (xorb nf desc)), !Nat2Z.id
        by (rewrite Nat2Z.id; intros E; apply nth_error_Some; auto).
      split; apply (ocol_cmp_dir V cmp cmp_opp).
    Qed.

    Lemma less_loop_spec (c : rcol) : cfg_is c (xorb nf desc) -> forall n k off1 off2 x y,
      off1 + k + n <= length (rdefs V c) -> off2 + k + n <= length (rdefs V c) ->
      x + cnt md (slice (rdefs V c) (off1 + k) n) <= length (rbase V c) ->
      y + cnt md (slice (rdefs V c) (off2 + k) n) <= length (rbase V c) ->
      less_loop V lt c k n off1 off2 (Z.of_nat x) (Z.of_nat y) =
      (let r := first_diff cc (vals_at md (slice (rdefs V c) (off1 + k) n) (skipn x (rbase V c)))
                              (vals_at md (slice (rdefs V c) (off2 + k) n) (skipn y (rbase V c))) in
       if (r =? 0)%Z then None else Some (r <? 0)%Z).
    Proof.
      intros (Hmd & Hnf & Hds). induction n as [|n IH]; intros k off1 off2 x y H1 H2 Hx Hy.
      - reflexivity.
      - cbn [less_loop]. rewrite Hmd, Hnf, Hds.
        set (d1 := nth (off1 + k) (rdefs V c) 0%N). set (d2 := nth (off2 + k) (rdefs V c) 0%N).
        rewrite (slice_S (rdefs V c) (off1 + k) n 0%N) in Hx |- * by lia.
        rewrite (slice_S (rdefs V c) (off2 + k) n 0%N) in Hy |- * by lia.
        fold d1 d2 in Hx, Hy |- *. rewrite cnt_cons in Hx, Hy.
        assert (Bx : d1 = md -> x < length (rbase V c)).
        { intros E. apply N.eqb_eq in E. rewrite E in Hx. lia. }
        assert (By : d2 = md -> y < length (rbase V c)).
        { intros E. apply N.eqb_eq in E. rewrite E in Hy. lia. }
        destruct (less_step (rbase V c) d1 d2 x y Bx By) as [S1 S2]. cbv zeta in S1, S2.
        rewrite S1, S2.
        set (a := if N.eqb d1 md then nth_error (rbase V c) x else None) in *.
        set (b := if N.eqb d2 md then nth_error (rbase V c) y else None) in *.
        set (x' := if N.eqb d1 md then S x else x).
        set (y' := if N.eqb d2 md then S y else y).
        assert (Ex' : (if N.eqb d1 md then Z.of_nat x + 1 else Z.of_nat x)%Z = Z.of_nat x')
          by (unfold x'; destruct (N.eqb d1 md); lia).
        assert (Ey' : (if N.eqb d2 md then Z.of_nat y + 1 else Z.of_nat y)%Z = Z.of_nat y')
          by (unfold y'; destruct (N.eqb d2 md); lia).
        rewrite Ex', Ey'.
        rewrite (vals_at_cons md d1 _ x _ Bx), (vals_at_cons md d2 _ y _ By). fold a b x' y'. cbn [first_diff].
        apply decide_step.
        + apply (cmp_col_opp V cmp cmp_opp).
        + rewrite <- !Nat.add_succ_r. apply IH; rewrite ?Nat.add_succ_r; try lia.
          * unfold x'. destruct (N.eqb d1 md); lia.
          * unfold y'. destruct (N.eqb d2 md); lia.
    Qed.

    Lemma nth_rcol_rows (c : rcol) i : i < length (rrows V c) ->
      nth i (rcol_rows V c) [] = rcol_entry_row V c (nth i (rrows V c) (0, 0)).
    Proof.
      intros Hi. unfold rcol_rows.
      rewrite (nth_indep _ [] (rcol_entry_row V c (0, 0))) by (now rewrite map_length).
      apply map_nth.
    Qed.

    Lemma entry_vals (c : rcol) e : rcol_ok c -> In e (rrows V c) ->
      map (rv_val V) (rcol_entry_row V c e) =
      vals_at (rmaxdef V c) (slice (rdefs V c) (fst e) (row_length (rreps V c) (fst e)))
              (skipn (snd e) (rbase V c)).
    Proof.
      intros Hok Hin. destruct (entry_base_enough c e Hok Hin) as (B1 & B2 & B3).
      assert (Hl := ok_len c Hok). rewrite entry_row_eq. unfold entry_row'.
      apply rpage_values_vals. rewrite !slice_length; lia.
    Qed.

    (** Less i j  =  (comparator (values of row i) (values of row j) < 0) *)
    Theorem rcol_less_spec (c : rcol) i j :
      rcol_ok c -> cfg_is c (xorb nf desc) -> i < length (rrows V c) -> j < length (rrows V c) ->
      rcol_less V lt c i j =
      (cmp_values V cc (map (rv_val V) (nth i (rcol_rows V c) []))
                       (map (rv_val V) (nth j (rcol_rows V c) [])) <? 0)%Z.
    Proof.
      intros Hok Hcfg Hi Hj. assert (Hmd : rmaxdef V c = md) by apply Hcfg.
      rewrite !nth_rcol_rows by auto.
      set (r1 := nth i (rrows V c) (0, 0)). set (r2 := nth j (rrows V c) (0, 0)).
      assert (In1 : In r1 (rrows V c)) by (apply nth_In; auto).
      assert (In2 : In r2 (rrows V c)) by (apply nth_In; auto).
      rewrite !entry_vals by auto. rewrite Hmd.
      destruct (entry_base_enough c r1 Hok In1) as (A1 & A2 & A3).
      destruct (entry_base_enough c r2 Hok In2) as (B1 & B2 & B3).
      rewrite Hmd in A3, B3. assert (Hl := ok_len c Hok).
      unfold rcol_less. fold r1 r2.
      set (l1 := row_length (rreps V c) (fst r1)) in *. set (l2 := row_length (rreps V c) (fst r2)) in *.
      set (m := Nat.min l1 l2).
      assert (C1 : cnt md (slice (rdefs V c) (fst r1) m) <= cnt md (slice (rdefs V c) (fst r1) l1)).
      { rewrite <- (firstn_slice (rdefs V c) (fst r1) l1 m) by lia. apply cnt_firstn_le. }
      assert (C2 : cnt md (slice (rdefs V c) (fst r2) m) <= cnt md (slice (rdefs V c) (fst r2) l2)).
      { rewrite <- (firstn_slice (rdefs V c) (fst r2) l2 m) by lia. apply cnt_firstn_le. }
      rewrite (less_loop_spec c Hcfg m 0 (fst r1) (fst r2) (snd r1) (snd r2))
        by (rewrite ?Nat.add_0_r; lia).
      rewrite !Nat.add_0_r. cbv zeta.
      set (A := vals_at md (slice (rdefs V c) (fst r1) l1) (skipn (snd r1) (rbase V c))).
      set (B := vals_at md (slice (rdefs V c) (fst r2) l2) (skipn (snd r2) (rbase V c))).
      assert (LA : length A = l1) by (unfold A; rewrite vals_at_length, slice_length; lia).
      assert (LB : length B = l2) by (unfold B; rewrite vals_at_length, slice_length; lia).
      assert (EA : first_diff cc A B =
                   first_diff cc (vals_at md (slice (rdefs V c) (fst r1) m) (skipn (snd r1) (rbase V c)))
                                 (vals_at md (slice (rdefs V c) (fst r2) m) (skipn (snd r2) (rbase V c)))).
      { rewrite (first_diff_min cc A B), LA, LB. fold m. unfold A, B.
        rewrite !vals_at_firstn, !firstn_slice by lia. reflexivity. }
      rewrite cmp_values_first_diff. cbv zeta. rewrite EA, LA, LB.
      set (r := first_diff cc _ _). destruct (Z.eqb_spec r 0) as [E|E].
      - unfold len_cmp. destruct (Nat.ltb_spec l1 l2); [reflexivity|].
        destruct (l2 <? l1); reflexivity.
      - reflexivity.
    Qed.

    Lemma cc_opp a b : (cc a b < 0 <-> cc b a > 0)%Z.
    Proof. apply (cmp_col_opp V cmp cmp_opp). Qed.

    Lemma cc_trans a b d : (cc a b <= 0 -> cc b d <= 0 -> cc a d <= 0)%Z.
    Proof. apply (cmp_col_trans V cmp cmp_opp cmp_trans); left; reflexivity. Qed.

    Definition row_vals (c : rcol) (i : nat) : list (option V) :=
      map (rv_val V) (nth i (rcol_rows V c) []).

    (** Less is a strict weak order on the rows of the column *)
    Definition rless_swo (c : rcol) (n : nat) : Prop :=
      (forall i, i < n -> rcol_less V lt c i i = false) /\
      (forall i j k, i < n -> j < n -> k < n ->
         rcol_less V lt c i j = true -> rcol_less V lt c j k = true -> rcol_less V lt c i k = true) /\
      (forall i j k, i < n -> j < n -> k < n ->
         rcol_less V lt c i j = false -> rcol_less V lt c j i = false ->
         rcol_less V lt c j k = false -> rcol_less V lt c k j = false ->
         rcol_less V lt c i k = false /\ rcol_less V lt c k i = false).

    Theorem rcol_less_swo (c : rcol) :
      rcol_ok c -> cfg_is c (xorb nf desc) -> rless_swo c (length (rrows V c)).
    Proof.
      intros Hok Hcfg.
      apply (swo_of_cmp _ _ (cmp_values_opp cc cc_opp) (fun _ => True)
                        (fun a b d _ _ _ => cmp_values_trans cc cc_opp cc_trans a b d) _ (row_vals c)); auto.
      intros i j. apply rcol_less_spec; assumption.
    Qed.

    (** no adjacent inversion for Less: the rows are ordered by the comparator *)
    Definition rsorted_by_less (c : rcol) (n : nat) : Prop :=
      forall i, S i < n -> rcol_less V lt c (S i) i = false.

    Theorem rsorted_rows_ordered (c : rcol) :
      rcol_ok c -> cfg_is c (xorb nf desc) -> rsorted_by_less c (length (rrows V c)) ->
      forall i j, i <= j -> j < length (rrows V c) ->
        (cmp_values V cc (row_vals c i) (row_vals c j) <= 0)%Z.
    Proof.
      intros Hok Hcfg.
      apply (ordered_of_adjacent _ _ (cmp_values_opp cc cc_opp) (fun _ => True)
                                 (fun a b d _ _ _ => cmp_values_trans cc cc_opp cc_trans a b d) _ (row_vals c)); auto.
      intros i j. apply rcol_less_spec; assumption.
    Qed.

    Definition rop_ok (o : rop V) : Prop :=
      match o with RWrite vs => batch_ok md vs | _ => True end.

    (* the same operations on a plain list of rows *)
    Definition rspec_step (rows : list (list rval)) (o : rop V) : list (list rval) :=
      match o with
      | RWrite vs => rows ++ cut_rows V (length vs) vs
      | RSwap i j => swapl rows i j
      | RPage => rows
      end.

    Definition rspec_run (ops : list (rop V)) : list (list rval) := fold_left rspec_step ops [].

    Definition rwritten (ops : list (rop V)) : list (list rval) :=
      flat_map (fun o => match o with RWrite vs => cut_rows V (length vs) vs | _ => [] end) ops.

    Definition rreach (nfo : bool) (ops : list (rop V)) : rcol :=
      fold_left (rcol_apply V) ops (new_rcol V md nfo desc).

    Lemma apply_inv nfo c o : rcol_ok c -> cfg_is c nfo -> rop_ok o ->
      rcol_ok (rcol_apply V c o) /\ cfg_is (rcol_apply V c o) nfo /\
      rcol_rows V (rcol_apply V c o) = rspec_step (rcol_rows V c) o.
    Proof.
      intros Hok (Hmd & Hnf & Hds) Ho. destruct o as [vs|i j|]; cbn [rcol_apply rspec_step].
      - simpl in Ho. rewrite <- Hmd in Ho. destruct (write_ok c vs Hok Ho) as [W1 W2].
        split; [exact W1|]. split; [|exact W2].
        rewrite rcol_write_flat. unfold cfg_is, flat_write. simpl. auto.
      - split; [now apply swap_ok|]. split; [unfold cfg_is, rcol_swap; simpl; auto|apply rcol_swap_rows].
      - destruct (page_ok c Hok) as (P1 & _ & (Q1 & Q2 & Q3) & P4).
        split; [exact P1|]. split; [|exact P4]. unfold cfg_is. rewrite Q1, Q2, Q3. auto.
    Qed.

    Lemma run_inv nfo ops : forall c, rcol_ok c -> cfg_is c nfo -> Forall rop_ok ops ->
      let c' := fold_left (rcol_apply V) ops c in
      rcol_ok c' /\ cfg_is c' nfo /\ rcol_rows V c' = fold_left rspec_step ops (rcol_rows V c).
    Proof.
      induction ops as [|o ops IH]; intros c Hok Hcfg Hops; cbn [fold_left].
      - cbv zeta. auto.
      - inversion Hops as [|? ? Ho Hops']; subst.
        destruct (apply_inv nfo c o Hok Hcfg Ho) as (A1 & A2 & A3).
        destruct (IH _ A1 A2 Hops') as (I1 & I2 & I3). cbv zeta.
        split; [exact I1|]. split; [exact I2|]. now rewrite I3, A3.
    Qed.

    Lemma new_rcol_ok nfo : rcol_ok (new_rcol V md nfo desc) /\ cfg_is (new_rcol V md nfo desc) nfo.
    Proof. split; [constructor; simpl; auto|unfold cfg_is; simpl; auto]. Qed.

    Theorem rreach_inv nfo ops : Forall rop_ok ops ->
      rcol_ok (rreach nfo ops) /\ cfg_is (rreach nfo ops) nfo /\
      rcol_rows V (rreach nfo ops) = rspec_run ops.
    Proof.
      intros Hops. destruct (new_rcol_ok nfo) as [N1 N2].
      exact (run_inv nfo ops _ N1 N2 Hops).
    Qed.

    Lemma rspec_perm ops : forall rows w, Permutation rows w ->
      Permutation (fold_left rspec_step ops rows) (w ++ rwritten ops).
    Proof.
      induction ops as [|o ops IH]; intros rows w Hp; cbn [fold_left].
      - unfold rwritten. simpl. now rewrite app_nil_r.
      - unfold rwritten. cbn [flat_map]. fold (rwritten ops). destruct o as [vs|i j|]; cbn [rspec_step].
        + rewrite app_assoc. apply IH. now apply Permutation_app_tail.
        + simpl. apply IH. eapply perm_trans; [apply swapl_perm|exact Hp].
        + simpl. now apply IH.
    Qed.

    (** For every history of writes of whole rows, exchanges and pages: the
        logical rows are what the operations do to a plain list of rows, so are
        the rows read from the page, and they are a permutation of the rows
        written. *)
    Theorem repeated_rows_preserved nfo ops : Forall rop_ok ops ->
      rcol_rows V (rreach nfo ops) = rspec_run ops /\
      rcol_page_rows V (rreach nfo ops) = rspec_run ops /\
      rcol_rows V (rcol_page V (rreach nfo ops)) = rspec_run ops /\
      Permutation (rspec_run ops) (rwritten ops).
    Proof.
      intros Hops. destruct (rreach_inv nfo ops Hops) as (R1 & R2 & R3).
      split; [exact R3|]. split; [now rewrite page_rows_ok|].
      split; [destruct (page_ok _ R1) as (_ & _ & _ & P); now rewrite P|].
      exact (rspec_perm ops [] [] (perm_nil _)).
    Qed.

    Definition rswap_ops (l : list (nat * nat)) : list (rop V) :=
      map (fun p => RSwap (fst p) (snd p)) l.

    Lemma rswap_ops_ok l : Forall rop_ok (rswap_ops l).
    Proof. unfold rswap_ops. apply Forall_map. apply Forall_forall. intros; exact I. Qed.

    Lemma rwritten_swaps ops l : rwritten (ops ++ rswap_ops l) = rwritten ops.
    Proof.
      unfold rwritten. rewrite flat_map_app.
      assert (E : flat_map (fun o : rop V => match o with
                    | RWrite vs => cut_rows V (length vs) vs | _ => [] end) (rswap_ops l) = []).
      { induction l; simpl; auto. }
      rewrite E. apply app_nil_r.
    Qed.

    Lemma swaps_rows_length l : forall c : rcol,
      length (rrows V (fold_left (rcol_apply V) (rswap_ops l) c)) = length (rrows V c).
    Proof.
      induction l as [|p l IH]; intros c; simpl; auto.
      rewrite IH. unfold rcol_swap. simpl. apply swapl_length.
    Qed.

    (** whatever exchanges a sort routine performs after any history: if the
        result has no adjacent inversion for Less, the rows are a permutation of
        the rows written, each intact, ordered by the comparator *)
    Theorem repeated_sorted_after_swaps ops l : Forall rop_ok ops ->
      let c := rreach (xorb nf desc) ops in
      let c' := rreach (xorb nf desc) (ops ++ rswap_ops l) in
      rsorted_by_less c' (length (rrows V c')) ->
      Permutation (rcol_rows V c') (rcol_rows V c) /\
      Permutation (rcol_rows V c') (rwritten ops) /\
      forall i j, i <= j -> j < length (rcol_rows V c') ->
        (cmp_values V cc (row_vals c' i) (row_vals c' j) <= 0)%Z.
    Proof.
      intros Hops c c' Hs.
      assert (Hops' : Forall rop_ok (ops ++ rswap_ops l))
        by (apply Forall_app; split; auto; apply rswap_ops_ok).
      destruct (rreach_inv (xorb nf desc) _ Hops') as (R1 & R2 & R3). fold c' in R1, R2, R3.
      destruct (rreach_inv (xorb nf desc) _ Hops) as (S1 & S2 & S3). fold c in S1, S2, S3.
      assert (P1 := rspec_perm (ops ++ rswap_ops l) [] [] (perm_nil _)).
      assert (P2 := rspec_perm ops [] [] (perm_nil _)).
      rewrite rwritten_swaps in P1. simpl in P1, P2. fold (rspec_run (ops ++ rswap_ops l)) in P1.
      fold (rspec_run ops) in P2. rewrite R3, S3.
      split; [eapply perm_trans; [exact P1|apply Permutation_sym; exact P2]|].
      split; [exact P1|]. intros i j Hij Hj. rewrite <- R3 in Hj. unfold rcol_rows in Hj.
      rewrite map_length in Hj. apply rsorted_rows_ordered; auto.
    Qed.

    Section SortContract.
      (* sort.Sort only calls Len, Less and Swap; when Less is a strict weak
         order on the n rows, the exchanges it performs leave no adjacent
         inversion *)
      Variable sort_swaps : rcol -> list (nat * nat).
      Hypothesis sort_sorts : forall c n, n = length (rrows V c) -> rless_swo c n ->
        rsorted_by_less (fold_left (rcol_apply V) (rswap_ops (sort_swaps c)) c) n.

      Theorem repeated_sorted_after_sort ops : Forall rop_ok ops ->
        let c := rreach (xorb nf desc) ops in
        let c' := fold_left (rcol_apply V) (rswap_ops (sort_swaps c)) c in
        Permutation (rcol_rows V c') (rcol_rows V c) /\
        Permutation (rcol_rows V c') (rwritten ops) /\
        forall i j, i <= j -> j < length (rcol_rows V c') ->
          (cmp_values V cc (row_vals c' i) (row_vals c' j) <= 0)%Z.
      Proof.
        intros Hops c c'.
        destruct (rreach_inv (xorb nf desc) _ Hops) as (S1 & S2 & S3). fold c in S1, S2, S3.
        assert (Hs := sort_sorts c _ eq_refl (rcol_less_swo c S1 S2)). fold c' in Hs.
        assert (Ec' : c' = rreach (xorb nf desc) (ops ++ rswap_ops (sort_swaps c))).
        { unfold c', c, rreach. now rewrite fold_left_app. }
        assert (Hl : length (rrows V c') = length (rrows V c)) by apply swaps_rows_length.
        rewrite <- Hl in Hs. rewrite Ec' in *.
        apply (repeated_sorted_after_swaps ops (sort_swaps c) Hops Hs).
      Qed.
    End SortContract.
  End Less.
End RepeatedProofs.

(** * Buffer.Less over any mix of sorting columns

    Buffer.Less walks the sorting columns: "case col.Less(i, j): return true;
    case col.Less(j, i): return false" and goes on to the next column.  When
    the Less of every column is "its comparator < 0" (required and optional
    columns: [sorted_less_spec]; repeated columns: [rcol_less_spec]) the walk
    is the lexicographic comparator of compare.go: the first column whose
    comparator is not 0 decides. *)
Fixpoint less_walk (ls : list (nat -> nat -> bool)) (i j : nat) : bool :=
  match ls with
  | [] => false
  | l :: t => if l i j then true else if l j i then false else less_walk t i j
  end.

Fixpoint lex_cmp (cs : list (nat -> nat -> Z)) (i j : nat) : Z :=
  match cs with
  | [] => 0%Z
  | c :: t => if (c i j =? 0)%Z then lex_cmp t i j else c i j
  end.

Theorem less_walk_lexicographic ls cs i j :
  Forall2 (fun (l : nat -> nat -> bool) (c : nat -> nat -> Z) =>
             l i j = (c i j <? 0)%Z /\ l j i = (c j i <? 0)%Z /\
             (c i j < 0 <-> c j i > 0)%Z /\ (c j i < 0 <-> c i j > 0)%Z) ls cs ->
  less_walk ls i j = (lex_cmp cs i j <? 0)%Z.
Proof.
  induction 1 as [|l c ls cs (E1 & E2 & O1 & O2) _ IH]; simpl; [reflexivity|].
  rewrite E1, E2, IH. apply lexz_ltb, O2.
Qed.
