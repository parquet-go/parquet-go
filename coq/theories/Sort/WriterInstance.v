(** The comparator the SortingWriter model of the oracle runs with
    ([cmp_rows_opt], Sort/Writer.v) is a total preorder on all rows and is the
    row comparator of compare.go ([compare_rows]) on rows whose required sorting
    cells hold values; so the theorems of Sort/WriterProofs.v apply to the model
    the oracle runs ([sw_model]). *)
From Coq Require Import List ZArith NArith Bool Arith Lia Sorting.Sorted Permutation.
From PQ Require Import Sort.Model Sort.CmpProofs Sort.OrderProofs Sort.Instances Sort.Writer.
Import ListNotations.
Local Open Scope nat_scope.

Lemma nth_repeat_lt {X} (a d : X) : forall m n, n < m -> nth n (repeat a m) d = a.
Proof. induction m as [|m IH]; intros [|n] H; simpl; try lia; auto. apply IH. lia. Qed.

Lemma opt_schema_nth sorting s : In s sorting -> nth (sc_col s) (opt_schema sorting) 0%N = 1%N.
Proof.
  intros Hin. unfold opt_schema. apply nth_repeat_lt.
  assert (H : Forall (fun k => k <= list_max (map sc_col sorting)) (map sc_col sorting))
    by (apply list_max_le; lia).
  rewrite Forall_forall in H. specialize (H (sc_col s) (in_map _ _ _ Hin)). lia.
Qed.

Section Opt.
  Variable V : Type.
  Variable cmp : V -> V -> Z.
  Hypothesis cmp_opp : forall a b, (cmp a b < 0 <-> cmp b a > 0)%Z.
  Hypothesis cmp_trans : forall a b d, (cmp a b <= 0 -> cmp b d <= 0 -> cmp a d <= 0)%Z.

  Lemma opt_row_wf sorting ss (r : row V) : incl ss sorting -> row_wf V (opt_schema sorting) ss r.
  Proof.
    intros Hi. unfold row_wf. apply Forall_forall. intros s Hs.
    rewrite (opt_schema_nth sorting s (Hi s Hs)). left. reflexivity.
  Qed.

  Lemma cmp_rows_opt_opp sorting r1 r2 :
    (cmp_rows_opt V cmp sorting r1 r2 < 0 <-> cmp_rows_opt V cmp sorting r2 r1 > 0)%Z.
  Proof. apply (compare_rows_opp V cmp cmp_opp). Qed.

  Lemma cmp_rows_opt_trans sorting r1 r2 r3 :
    (cmp_rows_opt V cmp sorting r1 r2 <= 0 -> cmp_rows_opt V cmp sorting r2 r3 <= 0 ->
     cmp_rows_opt V cmp sorting r1 r3 <= 0)%Z.
  Proof.
    apply (compare_rows_trans V cmp cmp_opp cmp_trans); apply opt_row_wf, incl_refl.
  Qed.

  (* on rows whose required sorting cells hold values the null wrapper of a
     required column is never consulted *)
  Lemma compare_rows_opt_gen schema sorting r1 r2 : forall ss, incl ss sorting ->
    row_wf V schema ss r1 -> row_wf V schema ss r2 ->
    compare_rows V cmp schema ss r1 r2 = compare_rows V cmp (opt_schema sorting) ss r1 r2.
  Proof.
    induction ss as [|s ss IH]; intros Hi W1 W2; cbn [compare_rows]; auto.
    unfold row_wf in W1, W2. inversion W1 as [|? ? Wa W1']; subst. inversion W2 as [|? ? Wb W2']; subst.
    rewrite (opt_schema_nth sorting s (Hi s (or_introl eq_refl))).
    rewrite IH; auto; [|intros x Hx; apply Hi; now right].
    set (a := fst (nth (sc_col s) r1 (dcell V))) in *. set (b := fst (nth (sc_col s) r2 (dcell V))) in *.
    assert (E : cmp_col V cmp (negb (N.eqb (nth (sc_col s) schema 0%N) 0)) (sc_desc s) (sc_nf s) a b =
                cmp_col V cmp (negb (N.eqb 1 0)) (sc_desc s) (sc_nf s) a b).
    { destruct (negb (N.eqb (nth (sc_col s) schema 0%N) 0)); [reflexivity|].
      unfold cell_wf in Wa, Wb. destruct Wa as [Wa|Wa]; [discriminate|]. destruct Wb as [Wb|Wb]; [discriminate|].
      destruct a as [x|]; [|contradiction]. destruct b as [y|]; [|contradiction].
      unfold cmp_col, cmp_nf, cmp_nl. simpl. destruct (sc_desc s), (sc_nf s); reflexivity. }
    now rewrite E.
  Qed.

  Theorem compare_rows_opt_eq schema sorting r1 r2 :
    row_wf V schema sorting r1 -> row_wf V schema sorting r2 ->
    compare_rows V cmp schema sorting r1 r2 = cmp_rows_opt V cmp sorting r1 r2.
  Proof. intros W1 W2. apply compare_rows_opt_gen; auto. apply incl_refl. Qed.
End Opt.

(** the comparator of the oracle's writer model *)
Lemma cmpW_opp sorting a b : (cmpW sorting a b < 0 <-> cmpW sorting b a > 0)%Z.
Proof. apply (cmp_rows_opt_opp sval cmp_sval cmp_sval_opp). Qed.

Lemma cmpW_trans sorting a b d :
  (cmpW sorting a b <= 0 -> cmpW sorting b d <= 0 -> cmpW sorting a d <= 0)%Z.
Proof. apply (cmp_rows_opt_trans sval cmp_sval cmp_sval_opp cmp_sval_trans). Qed.

