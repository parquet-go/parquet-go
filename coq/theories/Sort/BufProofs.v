(** The buffer (all columns together) refines a list of whole rows: Write
    appends rows, Swap exchanges two rows in every column, Page changes
    nothing that a reader or the comparison can see. *)
From Coq Require Import List ZArith NArith Bool Arith Lia Permutation.
From PQ Require Import Base.ListExtra Sort.Model Sort.ListLemmas Sort.ColProofs Sort.PageProofs
     Sort.TypedProofs Sort.CmpProofs.
Import ListNotations.

Section BufProofs.
  Variable V : Type.

  Notation row := (row V).
  Notation dcell := (dcell V).
  Notation dcol := (dcol V).

  (** the logical row a written row stands for *)
  Definition row_of (schema : list N) (wrow : list (wval V)) : row :=
    map (fun mw => cell_of V (fst mw) (snd mw)) (combine schema wrow).

  (* a null may only be written to an optional column, with a level below the maximum *)
  Definition wv_col_ok (md : N) (w : wval V) : Prop :=
    match w with WNull d => md <> 0%N /\ d <> md | WVal _ => True end.

  Definition wrow_ok (schema : list N) (wrow : list (wval V)) : Prop :=
    length wrow = length schema /\
    Forall (fun mw => wv_col_ok (fst mw) (snd mw)) (combine schema wrow).

  Definition op_ok (schema : list N) (o : op V) : Prop :=
    match o with OWrite _ batch => Forall (wrow_ok schema) batch | _ => True end.

  (** the specification: a list of rows *)
  Definition spec_step (schema : list N) (rows : list row) (o : op V) : list row :=
    match o with
    | OWrite _ batch => rows ++ map (row_of schema) batch
    | OSwap i j => swapl rows i j
    | OPage => rows
    | OPageCol _ => rows
    end.

  Definition spec_run (schema : list N) (ops : list (op V)) : list row :=
    fold_left (spec_step schema) ops [].

  Definition written (schema : list N) (ops : list (op V)) : list row :=
    flat_map (fun o => match o with OWrite _ batch => map (row_of schema) batch | _ => [] end) ops.

  (** the invariant tying a buffer to the rows it holds *)
  Definition buf_inv (schema : list N) (sorting : list sortcol) (b : buffer V) (rows : list row) : Prop :=
    sorted b = map (fun s => (sc_col s, sc_desc s)) sorting /\
    length (columns b) = length schema /\
    Forall (fun r => length r = length schema) rows /\
    forall k, k < length schema ->
      col_ok V (nth k schema 0%N) (null_ordering sorting k) (nth k (columns b) dcol) /\
      col_cells V (nth k (columns b) dcol) = map (fun r => nth k r dcell) rows.

  Lemma nth_row_of schema wrow k :
    length wrow = length schema -> k < length schema ->
    nth k (row_of schema wrow) dcell = cell_of V (nth k schema 0%N) (nth k wrow (WNull 0%N)).
  Proof.
    intros Hl Hk. unfold row_of.
    rewrite (nth_map' _ _ _ _ (0%N, WNull 0%N)) by (rewrite combine_length; lia).
    rewrite combine_nth by auto. reflexivity.
  Qed.

  Lemma nth_wv_ok schema wrow k :
    wrow_ok schema wrow -> k < length schema ->
    wv_col_ok (nth k schema 0%N) (nth k wrow (WNull 0%N)).
  Proof.
    intros [Hl Hf] Hk. rewrite Forall_forall in Hf.
    specialize (Hf (nth k schema 0%N, nth k wrow (WNull 0%N))). apply Hf.
    rewrite <- combine_nth by auto. apply nth_In. rewrite combine_length; lia.
  Qed.

  Lemma row_of_length schema wrow : length wrow = length schema -> length (row_of schema wrow) = length schema.
  Proof. intros H. unfold row_of. rewrite map_length, combine_length. lia. Qed.

  Lemma inv_configure schema sorting : buf_inv schema sorting (configure V schema sorting) [].
  Proof.
    unfold buf_inv, configure; simpl. split; auto. split; [apply mapi_from_length|].
    split; auto. intros k Hk.
    rewrite (nth_mapi_from _ _ _ _ 0%N) by auto. simpl.
    destruct (N.eqb_spec (nth k schema 0%N) 0); simpl; auto.
    split; auto. split; auto. split; auto. split; auto.
    unfold ocol_ok, st_ok; simpl. split; [constructor|]. split; auto.
  Qed.

  Lemma col_write_spec schema typed k (c : col V) nfo batch :
    k < length schema -> Forall (wrow_ok schema) batch ->
    col_ok V (nth k schema 0%N) nfo c ->
    col_ok V (nth k schema 0%N) nfo (col_write V typed c (column_batch V k batch)) /\
    col_cells V (col_write V typed c (column_batch V k batch)) =
    col_cells V c ++ map (fun wrow => nth k (row_of schema wrow) dcell) batch.
  Proof.
    intros Hk Hb Hc. destruct c as [vals|o]; simpl in *.
    - split; auto. rewrite map_app. f_equal. subst.
      induction Hb as [|wrow batch Hw Hb IH]; simpl; auto.
      rewrite map_app, IH. rewrite nth_row_of by (auto; apply Hw).
      assert (Hwv := nth_wv_ok _ _ _ Hw Hk). rewrite Hc in *.
      destruct (nth k wrow (WNull 0%N)) as [d|v]; simpl in *; auto.
      destruct Hwv; contradiction.
    - destruct Hc as (Hmd & Emd & Enf & Hok).
      assert (Hvs : Forall (wv_ok V (maxdef o)) (column_batch V k batch)).
      { unfold column_batch. apply Forall_map. eapply Forall_impl; [|exact Hb].
        intros wrow Hw. assert (Hwv := nth_wv_ok _ _ _ Hw Hk).
        destruct (nth k wrow (WNull 0%N)); simpl in *; auto. rewrite Emd. apply Hwv. }
      assert (Heq : (if typed then write_typed V o (column_batch V k batch)
                     else write_values V o (column_batch V k batch))
                    = write_values V o (column_batch V k batch))
        by (destruct typed; auto; apply write_typed_eq).
      rewrite Heq.
      destruct (write_values_spec V o _ Hok Hvs) as (Hok' & Hcells & Emd' & Enf').
      split.
      + split; auto. split; [congruence|]. split; [congruence|auto].
      + rewrite Hcells. f_equal. unfold column_batch. rewrite map_map.
        apply map_ext_in. intros wrow Hin. rewrite Forall_forall in Hb.
        rewrite nth_row_of by (auto; apply (Hb _ Hin)). congruence.
  Qed.

  Lemma col_swap_spec md nfo (c : col V) i j :
    col_ok V md nfo c ->
    col_ok V md nfo (col_swap V c i j) /\
    col_cells V (col_swap V c i j) = swapl (col_cells V c) i j.
  Proof.
    destruct c as [vals|o]; simpl.
    - intros H; split; auto. apply map_swapl.
    - intros (Hmd & Emd & Enf & Hok).
      destruct (ocol_swap_spec V o i j Hok) as (Hok' & Hc & Emd' & Enf').
      split; [|exact Hc]. split; [exact Hmd|]. split; [congruence|]. split; [congruence|exact Hok'].
  Qed.

  Lemma col_page_spec md nfo (c : col V) :
    col_ok V md nfo c ->
    col_ok V md nfo (col_page V c) /\
    col_cells V (col_page V c) = col_cells V c /\
    col_page_values V c = col_cells V c.
  Proof.
    destruct c as [vals|o]; simpl; auto.
    intros (Hmd & Emd & Enf & Hok).
    destruct (ocol_page_spec V o Hok) as (Hok' & Hc & Hp & _ & _ & Emd' & Enf').
    split; [|split; [exact Hc|exact Hp]].
    split; [exact Hmd|]. split; [congruence|]. split; [congruence|exact Hok'].
  Qed.

  Lemma inv_step schema sorting b rows o :
    buf_inv schema sorting b rows -> op_ok schema o ->
    buf_inv schema sorting (apply_op V b o) (spec_step schema rows o).
  Proof.
    intros (Hs & Hl & Hr & Hc) Ho. unfold buf_inv.
    destruct o as [typed batch|i j| |kc]; simpl in *;
      unfold buffer_write, buffer_swap, buffer_page, buffer_page_col; simpl.
    - split; auto. split; [rewrite mapi_from_length; auto|]. split.
      + apply Forall_app; split; auto. apply Forall_map. eapply Forall_impl; [|exact Ho].
        intros wrow [Hw _]. apply row_of_length; auto.
      + intros k Hk. rewrite (nth_mapi_from _ _ _ _ dcol) by lia. simpl.
        destruct (Hc k Hk) as [Hok Hcells].
        destruct (col_write_spec schema typed k _ _ batch Hk Ho Hok) as [Hok' Hcells'].
        split; auto. rewrite Hcells', Hcells, map_app, map_map. reflexivity.
    - split; auto. split; [rewrite map_length; auto|]. split.
      + eapply Permutation_Forall; [apply Permutation_sym, swapl_perm|auto].
      + intros k Hk. rewrite (nth_map' _ _ _ _ dcol) by lia.
        destruct (Hc k Hk) as [Hok Hcells].
        destruct (col_swap_spec _ _ _ i j Hok) as [Hok' Hcells'].
        split; auto. rewrite Hcells', Hcells. symmetry. apply map_swapl.
    - split; auto. split; [rewrite map_length; auto|]. split; auto.
      intros k Hk. rewrite (nth_map' _ _ _ _ dcol) by lia.
      destruct (Hc k Hk) as [Hok Hcells].
      destruct (col_page_spec _ _ _ Hok) as (Hok' & Hcells' & _).
      split; auto. congruence.
    - split; auto. split; [rewrite mapi_from_length; auto|]. split; auto.
      intros k Hk. rewrite (nth_mapi_from _ _ _ _ dcol) by lia. simpl.
      destruct (Hc k Hk) as [Hok Hcells].
      destruct (Nat.eqb k kc); [|split; auto].
      destruct (col_page_spec _ _ _ Hok) as (Hok' & Hcells' & _).
      split; auto. congruence.
  Qed.

  Lemma inv_run schema sorting ops : forall b rows,
    buf_inv schema sorting b rows -> Forall (op_ok schema) ops ->
    buf_inv schema sorting (run_ops V b ops) (fold_left (spec_step schema) ops rows).
  Proof.
    induction ops as [|o ops IH]; intros b rows Hi Ho; simpl; auto.
    inversion Ho; subst. apply IH; auto. apply inv_step; auto.
  Qed.

  Lemma col_len_cells md nfo (c : col V) :
    col_ok V md nfo c -> col_len V c = length (col_cells V c).
  Proof.
    destruct c as [vals|o]; simpl.
    - now rewrite map_length.
    - intros (_ & _ & _ & (Hl & _)). unfold ocol_cells.
      rewrite map_length, combine_length. apply Forall2_len in Hl. lia.
  Qed.

  Lemma inv_col_len schema sorting b rows k :
    buf_inv schema sorting b rows -> k < length schema ->
    col_len V (nth k (columns b) dcol) = length rows.
  Proof.
    intros (_ & _ & _ & Hc) Hk. destruct (Hc k Hk) as [Hok Hcells].
    rewrite (col_len_cells _ _ _ Hok), Hcells. apply map_length.
  Qed.

  Lemma inv_len schema sorting b rows :
    buf_inv schema sorting b rows -> schema <> [] -> buffer_len V b = length rows.
  Proof.
    intros Hi Hne. assert (H0 : 0 < length schema) by (destruct schema; simpl; [congruence|lia]).
    assert (H := inv_col_len _ _ _ _ 0 Hi H0). destruct Hi as (_ & Hl & _).
    unfold buffer_len. destruct (columns b); simpl in *; auto.
  Qed.

  Lemma inv_row schema sorting b rows i :
    buf_inv schema sorting b rows -> i < length rows ->
    buffer_row V b i = nth i rows [].
  Proof.
    intros (_ & Hl & Hr & Hc) Hi. unfold buffer_row.
    assert (Hri : length (nth i rows []) = length schema).
    { rewrite Forall_forall in Hr. apply Hr, nth_In; auto. }
    apply nth_ext with (d := dcell) (d' := dcell).
    - rewrite map_length. congruence.
    - rewrite map_length. intros k Hk. rewrite (nth_map' _ _ _ _ dcol) by auto.
      destruct (Hc k) as [_ Hcells]; [lia|]. rewrite Hcells.
      rewrite (nth_map' _ _ _ _ []) by auto. reflexivity.
  Qed.

  Lemma map_nth_seq {A} (l : list A) d : map (fun i => nth i l d) (seq 0 (length l)) = l.
  Proof.
    apply nth_ext with (d := d) (d' := d).
    - now rewrite map_length, seq_length.
    - rewrite map_length, seq_length. intros k Hk.
      rewrite (nth_map' _ _ _ _ 0) by (rewrite seq_length; auto). now rewrite seq_nth.
  Qed.

  Theorem inv_rows schema sorting b rows :
    buf_inv schema sorting b rows -> schema <> [] ->
    buffer_rows V b = rows /\ buffer_page_rows V b = rows.
  Proof.
    intros Hi Hne. assert (Hn := inv_len _ _ _ _ Hi Hne).
    unfold buffer_rows, buffer_page_rows. rewrite Hn. split.
    - rewrite <- (map_nth_seq rows []) at 2. apply map_ext_in. intros i Hin.
      apply in_seq in Hin. eapply inv_row; eauto. lia.
    - rewrite <- (map_nth_seq rows []) at 2. apply map_ext_in. intros i Hin.
      apply in_seq in Hin. rewrite <- (inv_row _ _ _ _ i Hi) by lia.
      unfold buffer_row. destruct Hi as (_ & Hl & _ & Hc).
      apply nth_ext with (d := dcell) (d' := dcell); [now rewrite !map_length|].
      rewrite map_length. intros k Hk. rewrite !(nth_map' _ _ _ _ dcol) by auto.
      destruct (Hc k) as [Hok _]; [lia|].
      destruct (col_page_spec _ _ _ Hok) as (_ & _ & Hp). now rewrite Hp.
  Qed.

  Lemma spec_perm schema ops : forall rows,
    Permutation (fold_left (spec_step schema) ops rows) (rows ++ written schema ops).
  Proof.
    induction ops as [|o ops IH]; intros rows; simpl.
    - now rewrite app_nil_r.
    - eapply perm_trans; [apply IH|]. destruct o as [typed batch|i j| |kc]; simpl.
      + now rewrite app_assoc.
      + apply Permutation_app_tail, swapl_perm.
      + auto.
      + auto.
  Qed.

  Definition reach (schema : list N) (sorting : list sortcol) (ops : list (op V)) : buffer V :=
    run_ops V (configure V schema sorting) ops.

  Lemma reach_inv schema sorting ops :
    Forall (op_ok schema) ops ->
    buf_inv schema sorting (reach schema sorting ops) (spec_run schema ops).
  Proof. intros H. apply inv_run; auto. apply inv_configure. Qed.

  Lemma reach_app schema sorting ops o :
    reach schema sorting (ops ++ [o]) = apply_op V (reach schema sorting ops) o.
  Proof. unfold reach, run_ops. now rewrite fold_left_app. Qed.

  Lemma spec_run_app schema ops o :
    spec_run schema (ops ++ [o]) = spec_step schema (spec_run schema ops) o.
  Proof. unfold spec_run. now rewrite fold_left_app. Qed.

  Theorem swaps_preserve_rows schema sorting ops :
    schema <> [] -> Forall (op_ok schema) ops ->
    buffer_rows V (reach schema sorting ops) = spec_run schema ops /\
    buffer_page_rows V (reach schema sorting ops) = spec_run schema ops /\
    Permutation (spec_run schema ops) (written schema ops).
  Proof.
    intros Hne Hops. destruct (inv_rows _ _ _ _ (reach_inv schema sorting ops Hops) Hne) as [H1 H2].
    split; auto. split; auto. apply (spec_perm schema ops []).
  Qed.

  Theorem swap_exchanges_rows schema sorting ops i j :
    schema <> [] -> Forall (op_ok schema) ops ->
    buffer_rows V (reach schema sorting (ops ++ [OSwap i j])) =
    swapl (buffer_rows V (reach schema sorting ops)) i j.
  Proof.
    intros Hne Hops.
    assert (Hops' : Forall (op_ok schema) (ops ++ [OSwap i j]))
      by (apply Forall_app; split; auto; repeat constructor).
    destruct (swaps_preserve_rows schema sorting _ Hne Hops') as (H1 & _).
    destruct (swaps_preserve_rows schema sorting _ Hne Hops) as (H2 & _).
    rewrite H1, H2, spec_run_app. reflexivity.
  Qed.

  Theorem page_in_row_order schema sorting ops k o :
    Forall (op_ok schema) ops -> k < length schema ->
    nth k (columns (reach schema sorting (ops ++ [OPage]))) dcol = COpt o ->
    nn (rows o) = seq 0 (length (base o)) /\
    reordered o = false /\
    ocol_ok V o /\
    page_values V (maxdef o) (deflevels o) (base o) = ocol_cells V o /\
    ocol_cells V o = map (fun r => nth k r dcell) (spec_run schema ops).
  Proof.
    intros Hops Hk. rewrite reach_app. simpl.
    destruct (reach_inv schema sorting ops Hops) as (_ & Hl & _ & Hc).
    rewrite (nth_map' _ _ _ _ dcol) by lia.
    destruct (Hc k Hk) as [Hok Hcells].
    destruct (nth k (columns (reach schema sorting ops)) dcol) as [vals|o0]; [simpl; discriminate|].
    cbn [col_page]. intros E. injection E as E. subst o.
    destruct Hok as (_ & _ & _ & Hok).
    destruct (ocol_page_spec V o0 Hok) as (Hok' & Hcs & Hpv & Hnn & Hre & _).
    split; [exact Hnn|]. split; [exact Hre|]. split; [exact Hok'|]. split.
    - rewrite Hcs. exact Hpv.
    - rewrite Hcs. exact Hcells.
  Qed.
End BufProofs.
