(** Proofs about the optional column buffer: every operation refines the
    corresponding operation on the list of logical cells. *)
From Coq Require Import List ZArith NArith Bool Arith Lia Permutation.
From PQ Require Import Base.ListExtra Sort.Model Sort.ListLemmas.
Import ListNotations.

Section ColProofs.
  Variable V : Type.

  Notation cell := (cell V).

  (** the base indexes of the non-null rows, in row order *)
  Definition nn (r : list Z) : list nat := map Z.to_nat (filter nonneg r).

  (** a row is null exactly when its definition level is not the maximum *)
  Definition rd_ok (md : N) (r : Z) (d : N) : Prop :=
    (r = (-1)%Z /\ d <> md) \/ ((0 <= r)%Z /\ d = md).

  (** the representation invariant of optionalColumnBuffer *)
  Definition st_ok (md : N) (b : list V) (r : list Z) (dl : list N) (re : bool) : Prop :=
    Forall2 (rd_ok md) r dl /\
    Permutation (nn r) (seq 0 (length b)) /\
    (re = false -> nn r = seq 0 (length b)).

  Definition ocol_ok (c : ocol V) : Prop :=
    st_ok (maxdef c) (base c) (rows c) (deflevels c) (reordered c).

  Definition cells_of (b : list V) (r : list Z) (dl : list N) : list cell :=
    map (fun rd => (lookup V b (fst rd), snd rd)) (combine r dl).

  Lemma ocol_cells_eq c : ocol_cells V c = cells_of (base c) (rows c) (deflevels c).
  Proof. reflexivity. Qed.

  Lemma nn_app r1 r2 : nn (r1 ++ r2) = nn r1 ++ nn r2.
  Proof. unfold nn. now rewrite filter_app, map_app. Qed.

  Lemma nn_in_range (b : list V) r x :
    Permutation (nn r) (seq 0 (length b)) -> In x r -> (0 <= x)%Z -> (Z.to_nat x < length b)%nat.
  Proof.
    intros Hp Hin Hx.
    assert (In (Z.to_nat x) (nn r)).
    { unfold nn. apply in_map, filter_In. split; auto. unfold nonneg. now apply Z.leb_le. }
    eapply Permutation_in in H; eauto. apply in_seq in H. lia.
  Qed.

  Lemma lookup_app1 (b x : list V) r :
    ((0 <= r)%Z -> (Z.to_nat r < length b)%nat) -> lookup V (b ++ x) r = lookup V b r.
  Proof.
    intros H. unfold lookup. destruct (Z.ltb_spec r 0); auto.
    apply nth_error_app1. apply H; lia.
  Qed.

  Lemma cells_of_base_app (b x : list V) r dl :
    Permutation (nn r) (seq 0 (length b)) -> cells_of (b ++ x) r dl = cells_of b r dl.
  Proof.
    intros Hp. unfold cells_of. apply map_ext_in. intros [r0 d0] Hin. simpl. f_equal.
    apply lookup_app1. intros. eapply nn_in_range; eauto. eapply in_combine_l; eauto.
  Qed.

  Lemma cells_of_app (b : list V) r1 r2 dl1 dl2 :
    length r1 = length dl1 ->
    cells_of b (r1 ++ r2) (dl1 ++ dl2) = cells_of b r1 dl1 ++ cells_of b r2 dl2.
  Proof. intros H. unfold cells_of. now rewrite combine_app', map_app. Qed.

  Lemma Forall2_combine {A B} (P : A -> B -> Prop) l1 l2 :
    Forall2 P l1 l2 <-> length l1 = length l2 /\ Forall (fun p => P (fst p) (snd p)) (combine l1 l2).
  Proof.
    split.
    - induction 1; simpl; split; auto; destruct IHForall2; auto.
    - revert l2; induction l1; intros [|b l2] [Hl Hf]; simpl in *; try discriminate; auto.
      inversion Hf; subst. constructor; auto.
  Qed.

  Definition wv_ok (md : N) (w : wval V) : Prop :=
    match w with WNull d => d <> md | WVal _ => True end.

  Definition cell_of (md : N) (w : wval V) : cell :=
    match w with WNull d => (None, d) | WVal v => (Some v, md) end.

  Lemma write_values_from_spec md re vs : forall b r dl,
    st_ok md b r dl re -> Forall (wv_ok md) vs ->
    match write_values_from V b r dl md (Z.of_nat (length b)) vs with
    | (b', r', dl') =>
        st_ok md b' r' dl' re /\
        cells_of b' r' dl' = cells_of b r dl ++ map (cell_of md) vs
    end.
  Proof.
    induction vs as [|w vs IH]; intros b r dl Hok Hvs.
    - simpl. split; auto. now rewrite app_nil_r.
    - inversion Hvs as [|? ? Hw Hvs']; subst. destruct Hok as (Hl & Hp & Ho).
      assert (Hlen : length r = length dl) by (eapply Forall2_len; eauto).
      destruct w as [d|v]; simpl.
      + specialize (IH b (r ++ [(-1)%Z]) (dl ++ [d])).
        destruct (write_values_from V b (r ++ [(-1)%Z]) (dl ++ [d]) md (Z.of_nat (length b)) vs)
          as [[b' r'] dl'].
        destruct IH as [Hok' Hc]; auto.
        { split; [|split].
          - apply Forall2_app; auto. constructor; auto. left; auto.
          - rewrite nn_app. simpl. now rewrite app_nil_r.
          - intros E. rewrite nn_app. simpl. rewrite app_nil_r. auto. }
        split; auto. rewrite Hc, cells_of_app by auto. rewrite <- app_assoc. reflexivity.
      + specialize (IH (b ++ [v]) (r ++ [Z.of_nat (length b)]) (dl ++ [md])).
        replace (Z.of_nat (length b) + 1)%Z with (Z.of_nat (length (b ++ [v]))) by
            (rewrite app_length; simpl; lia).
        destruct (write_values_from V (b ++ [v]) (r ++ [Z.of_nat (length b)]) (dl ++ [md]) md
                                    (Z.of_nat (length (b ++ [v]))) vs) as [[b' r'] dl'].
        assert (Hnn : nn (r ++ [Z.of_nat (length b)]) = nn r ++ [length b]).
        { rewrite nn_app. f_equal. unfold nn. simpl.
          replace (nonneg (Z.of_nat (length b))) with true
            by (symmetry; apply Z.leb_le; lia). simpl. now rewrite Nat2Z.id. }
        destruct IH as [Hok' Hc]; auto.
        { split; [|split].
          - apply Forall2_app; auto. constructor; auto. right; split; auto; lia.
          - rewrite Hnn, app_length. simpl. rewrite Nat.add_1_r, seq_S. simpl.
            apply Permutation_app_tail; auto.
          - intros E. rewrite Hnn, app_length. simpl. rewrite Nat.add_1_r, seq_S. simpl.
            f_equal; auto. }
        split; auto. rewrite Hc, cells_of_app by auto. rewrite <- app_assoc. f_equal.
        * apply cells_of_base_app; auto.
        * simpl. f_equal. unfold cells_of. simpl. f_equal. f_equal.
          unfold lookup. destruct (Z.ltb_spec (Z.of_nat (length b)) 0); try lia.
          rewrite Nat2Z.id, nth_error_app2, Nat.sub_diag; auto.
  Qed.

  Lemma write_values_spec (c : ocol V) vs :
    ocol_ok c -> Forall (wv_ok (maxdef c)) vs ->
    ocol_ok (write_values V c vs) /\
    ocol_cells V (write_values V c vs) = ocol_cells V c ++ map (cell_of (maxdef c)) vs /\
    maxdef (write_values V c vs) = maxdef c /\
    nulls_first (write_values V c vs) = nulls_first c.
  Proof.
    intros Hok Hvs. unfold write_values.
    assert (H := write_values_from_spec (maxdef c) (reordered c) vs _ _ _ Hok Hvs).
    destruct (write_values_from V (base c) (rows c) (deflevels c) (maxdef c)
                                (Z.of_nat (length (base c))) vs) as [[b r] dl].
    destruct H as [H1 H2]. split; [exact H1|]. split; [exact H2|]. split; reflexivity.
  Qed.

  Lemma nn_swapl r i j : Permutation (nn (swapl r i j)) (nn r).
  Proof. unfold nn. apply Permutation_map, filter_perm, swapl_perm. Qed.

  Lemma Forall2_swapl {A B} (P : A -> B -> Prop) l1 l2 i j :
    Forall2 P l1 l2 -> Forall2 P (swapl l1 i j) (swapl l2 i j).
  Proof.
    intros H. apply Forall2_combine in H. destruct H as [Hl Hf].
    apply Forall2_combine. rewrite !swapl_length. split; auto.
    rewrite combine_swapl by auto.
    eapply Permutation_Forall; [|exact Hf]. apply Permutation_sym, swapl_perm.
  Qed.

  Lemma ocol_swap_spec (c : ocol V) i j :
    ocol_ok c ->
    ocol_ok (ocol_swap V c i j) /\
    ocol_cells V (ocol_swap V c i j) = swapl (ocol_cells V c) i j /\
    maxdef (ocol_swap V c i j) = maxdef c /\
    nulls_first (ocol_swap V c i j) = nulls_first c.
  Proof.
    intros (Hl & Hp & Ho). split; [|split; [|split; reflexivity]].
    - unfold ocol_ok, ocol_swap; simpl. split; [|split].
      + apply Forall2_swapl; auto.
      + eapply perm_trans; [apply nn_swapl|auto].
      + discriminate.
    - rewrite !ocol_cells_eq. unfold ocol_swap, cells_of; simpl.
      rewrite combine_swapl by (eapply Forall2_len; eauto). apply map_swapl.
  Qed.
End ColProofs.
