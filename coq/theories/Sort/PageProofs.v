(** Proofs about optionalColumnBuffer.Page: the cyclic sort moves each base
    value to the position of its row, the renumbering keeps the row -> value
    map, and the page (read sequentially) shows the logical content. *)
From Coq Require Import List ZArith NArith Bool Arith Lia Permutation.
From PQ Require Import Sort.Model Sort.ListLemmas Sort.ColProofs.
Import ListNotations.

Section PageProofs.
  Variable V : Type.

  Lemma count_nulls_spec md r dl :
    Forall2 (rd_ok md) r dl -> length (nn r) + count_nulls md dl = length r.
  Proof.
    unfold nn, count_nulls. induction 1 as [|x d r dl Hrd H IH]; simpl; auto.
    destruct Hrd as [[-> Hd]|[Hx ->]].
    - simpl. destruct (N.eqb_spec d md); try contradiction. simpl. lia.
    - replace (nonneg x) with true by (symmetry; apply Z.leb_le; auto).
      rewrite N.eqb_refl. simpl. lia.
  Qed.

  Lemma fill_spec r : forall s i,
    NoDup (nn r) -> (forall p, In p (nn r) -> p < length s) ->
    length (fill_sort_index s i r) = length s /\
    (forall t, t < length (nn r) ->
               nth_error (fill_sort_index s i r) (nth t (nn r) 0) = Some (i + t)) /\
    (forall p, ~ In p (nn r) -> nth_error (fill_sort_index s i r) p = nth_error s p).
  Proof.
    induction r as [|x r IH]; intros s i Hnd Hb; simpl.
    - split; auto. split; auto. intros t Ht; simpl in Ht; lia.
    - unfold nn in *. simpl in *. destruct (nonneg x) eqn:Ex; simpl in *.
      + inversion Hnd as [|? ? Hnotin Hnd']; subst.
        destruct (IH (upd s (Z.to_nat x) i) (S i) Hnd') as (Hl & Hv & Ho).
        { intros p Hp. rewrite upd_length. apply Hb; auto. }
        rewrite upd_length in Hl. split; auto. split.
        * intros [|t] Ht.
          -- rewrite Ho by auto. rewrite nth_error_upd_eq; [f_equal; lia|apply Hb; auto].
          -- rewrite Hv by lia. f_equal; lia.
        * intros p Hp. rewrite Ho by (intros Hin; apply Hp; auto).
          apply nth_error_upd_neq. intros E; apply Hp; auto.
      + apply IH; auto.
  Qed.

  Section Cyclic.
    Variable b0 : list V.
    Variable s0 : list nat.
    Let n := length b0.

    Definition inj_on (s : list nat) : Prop :=
      forall a c x, a < n -> c < n -> nth_error s a = Some x -> nth_error s c = Some x -> a = c.
    Definition bounded (s : list nat) : Prop :=
      forall a x, nth_error s a = Some x -> x < n.

    Hypothesis Hlen : length s0 = n.
    Hypothesis Hinj : inj_on s0.
    Hypothesis Hbnd : bounded s0.

    Definition cinv (i : nat) (b : list V) (s : list nat) : Prop :=
      length b = n /\ length s = n /\ i <= n /\ inj_on s /\ bounded s /\
      (forall k, k < n -> exists p, p < n /\ nth_error b k = nth_error b0 p /\
                                    nth_error s k = nth_error s0 p) /\
      (forall k, k < i -> nth_error s k = Some k).

    Definition nfx (s : list nat) (k : nat) : bool :=
      match nth_error s k with Some x => negb (Nat.eqb x k) | None => false end.
    Definition nonfixed (s : list nat) : nat := length (filter (nfx s) (seq 0 n)).

    Lemma cyclic_inv fuel : forall i b s,
      cinv i b s -> (n - i) + nonfixed s < fuel ->
      cinv n (fst (cyclic V fuel i b s)) (snd (cyclic V fuel i b s)).
    Proof.
      induction fuel as [|f IH]; intros i b s Hc Hm; [lia|].
      destruct Hc as (Hlb & Hls & Hi & Hin & Hbd & Hct & Hfx).
      simpl. destruct (nth_error s i) as [j|] eqn:Ej.
      - assert (Hin' : i < n) by (rewrite <- Hls; apply nth_error_Some; congruence).
        assert (Hj : j < n) by (eapply Hbd; eauto).
        destruct (Nat.eqb_spec i j) as [->|Hne].
        + apply IH; [|lia]. repeat split; auto; try lia.
          intros k Hk. destruct (Nat.eq_dec k j) as [->|]; auto. apply Hfx; lia.
        + assert (Hsj : nth_error s j <> Some j).
          { intros E. apply Hne. eapply Hin; eauto. }
          assert (Hnf : forall k, k < i -> sw i j k = k).
          { intros k Hk. unfold sw. destruct (Nat.eqb_spec k i); try lia.
            destruct (Nat.eqb_spec k j); auto. subst. exfalso. apply Hsj. apply Hfx; auto. }
          assert (Hs' : forall k, nth_error (swapl s i j) k = nth_error s (sw i j k))
            by (intros; apply nth_error_swapl; lia).
          assert (Hb' : forall k, nth_error (swapl b i j) k = nth_error b (sw i j k))
            by (intros; apply nth_error_swapl; lia).
          apply IH.
          * split; [rewrite swapl_length; auto|]. split; [rewrite swapl_length; auto|].
            split; auto. split; [|split; [|split]].
            -- intros a c x Ha Hc0 E1 E2. rewrite Hs' in E1, E2.
               assert (sw i j a = sw i j c) by (eapply Hin; eauto; apply sw_lt; auto).
               rewrite <- (sw_invol i j a), <- (sw_invol i j c). congruence.
            -- intros a x E. rewrite Hs' in E. eapply Hbd; eauto.
            -- intros k Hk. rewrite Hs', Hb'. apply Hct. apply sw_lt; auto.
            -- intros k Hk. rewrite Hs', Hnf by auto. apply Hfx; auto.
          * assert (nonfixed (swapl s i j) < nonfixed s); [|lia].
            unfold nonfixed. apply filter_length_lt with (x := j).
            -- intros k Hk. apply in_seq in Hk. unfold nfx. rewrite Hs'.
               destruct (nth_error s k) as [x|] eqn:Ek;
                 [|apply nth_error_None in Ek; lia].
               destruct (Nat.eqb_spec x k) as [->|]; auto. simpl.
               assert (sw i j k = k).
               { unfold sw. destruct (Nat.eqb_spec k i); [subst; congruence|].
                 destruct (Nat.eqb_spec k j); auto. subst. contradiction. }
               rewrite H, Ek, Nat.eqb_refl. auto.
            -- apply in_seq; lia.
            -- unfold nfx. destruct (nth_error s j) as [x|] eqn:Ex;
                 [|apply nth_error_None in Ex; lia].
               destruct (Nat.eqb_spec x j) as [->|]; [contradiction|reflexivity].
            -- unfold nfx. rewrite Hs'. unfold sw.
               destruct (Nat.eqb_spec j i); [subst; contradiction|].
               rewrite Nat.eqb_refl, Ej, Nat.eqb_refl. auto.
      - apply nth_error_None in Ej. assert (i = n) by lia. subst i.
        repeat split; auto.
    Qed.

    Lemma nonfixed_le s : nonfixed s <= n.
    Proof.
      unfold nonfixed. etransitivity; [apply filter_len_le|]. now rewrite seq_length.
    Qed.

    Lemma cyclic_correct fuel :
      2 * n < fuel ->
      let b' := fst (cyclic V fuel 0 b0 s0) in
      length b' = n /\
      forall p k, p < n -> nth_error s0 p = Some k -> nth_error b' k = nth_error b0 p.
    Proof.
      intros Hf.
      assert (H0 : cinv 0 b0 s0).
      { split; [reflexivity|]. split; [exact Hlen|]. split; [lia|]. split; [exact Hinj|].
        split; [exact Hbnd|]. split.
        - intros k Hk. exists k; auto.
        - intros k Hk; lia. }
      assert (H := cyclic_inv fuel 0 b0 s0 H0).
      assert (Hn := nonfixed_le s0).
      destruct H as (Hlb & _ & _ & _ & _ & Hct & Hfx); [lia|].
      split; auto. intros p k Hp Ek.
      assert (Hk : k < n) by (eapply Hbnd; eauto).
      destruct (Hct k Hk) as (p' & Hp' & Eb & Es).
      rewrite Hfx in Es by auto.
      assert (p' = p) by (eapply Hinj; eauto). subst. auto.
    Qed.
  End Cyclic.

  Lemma reorder_base_spec (c : ocol V) :
    ocol_ok V c ->
    map Some (reorder_base V c) = map (nth_error (base c)) (nn (rows c)).
  Proof.
    intros (Hl & Hp & _).
    set (b := base c) in *. set (r := rows c) in *. set (m := length b).
    assert (Hcnt := count_nulls_spec _ _ _ Hl).
    assert (Hlen : length (nn r) = m)
      by (unfold m; rewrite (Permutation_length Hp); apply seq_length).
    unfold reorder_base. fold b r.
    replace (length r - count_nulls (maxdef c) (deflevels c)) with m by lia.
    destruct (Nat.ltb_spec 0 m) as [Hm|Hm].
    - assert (Hnd : NoDup (nn r))
        by (eapply Permutation_NoDup; [apply Permutation_sym; eauto|apply seq_NoDup]).
      assert (Hrange : forall p, In p (nn r) -> p < m).
      { intros p Hin. eapply Permutation_in in Hin; eauto. apply in_seq in Hin. lia. }
      destruct (fill_spec r (repeat 0 m) 0 Hnd) as (Hsl & Hsv & _).
      { intros p Hin. rewrite repeat_length. auto. }
      rewrite repeat_length in Hsl.
      set (s0 := fill_sort_index (repeat 0 m) 0 r) in *.
      assert (Hsurj : forall a, a < m -> exists t, t < m /\ nth t (nn r) 0 = a).
      { intros a Ha. assert (In a (nn r)).
        { eapply Permutation_in; [apply Permutation_sym; eauto|]. apply in_seq; lia. }
        destruct (In_nth _ _ 0 H) as (t & Ht & E). exists t; split; auto; lia. }
      destruct (cyclic_correct b s0 Hsl) with (fuel := 2 * m + 1) as (Hlb & Hmove).
      + intros a c0 x Ha Hc0 E1 E2.
        destruct (Hsurj a Ha) as (ta & Hta & <-). destruct (Hsurj c0 Hc0) as (tc & Htc & <-).
        rewrite Hsv in E1, E2 by lia. simpl in *. congruence.
      + intros a x E.
        assert (Ha : a < m) by (rewrite <- Hsl; apply nth_error_Some; congruence).
        destruct (Hsurj a Ha) as (ta & Hta & <-). rewrite Hsv in E by lia. simpl in E.
        inversion E; subst; auto.
      + fold m; lia.
      + fold m in Hlb, Hmove.
        set (b' := fst (cyclic V (2 * m + 1) 0 b s0)) in *.
        apply nth_error_ext. intros t.
        rewrite !nth_error_map.
        destruct (Nat.ltb_spec t m) as [Ht|Ht].
        * rewrite (nth_error_nth' (nn r) 0) by lia. cbn [option_map].
          assert (Hx : nth t (nn r) 0 < m) by (apply Hrange, nth_In; lia).
          rewrite <- (Hmove (nth t (nn r) 0) t Hx) by (rewrite Hsv; auto; lia).
          destruct (nth_error b' t) eqn:E; [reflexivity|].
          apply nth_error_None in E. lia.
        * assert (E1 : nth_error b' t = None) by (apply nth_error_None; lia).
          assert (E2 : nth_error (nn r) t = None) by (apply nth_error_None; lia).
          rewrite E1, E2. reflexivity.
    - assert (m = 0) by lia. destruct (nn r); simpl in *; try lia.
      destruct b; simpl in *; auto. unfold m in *; simpl in *; lia.
  Qed.

  Lemma renumber_nn r : forall t, nn (renumber (Z.of_nat t) r) = seq t (length (nn r)).
  Proof.
    unfold nn. induction r as [|x r IH]; intros t; simpl; auto.
    destruct (nonneg x) eqn:Ex; simpl.
    - replace (nonneg (Z.of_nat t)) with true by (symmetry; apply Z.leb_le; lia).
      simpl. rewrite Nat2Z.id. f_equal.
      replace (Z.of_nat t + 1)%Z with (Z.of_nat (S t)) by lia. apply IH.
    - rewrite Ex. apply IH.
  Qed.

  Lemma renumber_levels md r dl : forall t,
    Forall2 (rd_ok md) r dl -> Forall2 (rd_ok md) (renumber (Z.of_nat t) r) dl.
  Proof.
    intros t H; revert t. induction H as [|x d r dl Hrd H IH]; intros t; simpl; auto.
    destruct Hrd as [[-> Hd]|[Hx ->]].
    - simpl. constructor; auto. left; auto.
    - replace (nonneg x) with true by (symmetry; apply Z.leb_le; auto).
      constructor.
      + right; split; auto; lia.
      + replace (Z.of_nat t + 1)%Z with (Z.of_nat (S t)) by lia. apply IH.
  Qed.

  Lemma renumber_cells md (b b' : list V) r dl :
    Forall2 (rd_ok md) r dl -> forall t bs,
    map Some bs = map (nth_error b) (nn r) ->
    (forall k, nth_error b' (t + k) = nth_error bs k) ->
    cells_of V b' (renumber (Z.of_nat t) r) dl = cells_of V b r dl.
  Proof.
    unfold cells_of, nn. induction 1 as [|x d r dl Hrd H IH]; intros t bs Hbs Hsuf; simpl; auto.
    destruct Hrd as [[-> Hd]|[Hx ->]].
    - simpl in *. f_equal. eapply IH; eauto.
    - simpl in *. replace (nonneg x) with true in * by (symmetry; apply Z.leb_le; auto).
      simpl in *. destruct bs as [|v bs]; [discriminate Hbs|]. injection Hbs as Hv Hbs'.
      f_equal.
      + f_equal. unfold lookup.
        destruct (Z.ltb_spec (Z.of_nat t) 0); try lia.
        destruct (Z.ltb_spec x 0); try lia.
        rewrite Nat2Z.id, <- Hv. specialize (Hsuf 0). rewrite Nat.add_0_r in Hsuf. auto.
      + replace (Z.of_nat t + 1)%Z with (Z.of_nat (S t)) by lia.
        eapply IH; eauto. intros k. specialize (Hsuf (S k)).
        rewrite Nat.add_succ_r in Hsuf. auto.
  Qed.

  Lemma page_values_cells md (b : list V) r dl :
    Forall2 (rd_ok md) r dl -> forall bs,
    map Some bs = map (nth_error b) (nn r) ->
    page_values V md dl bs = cells_of V b r dl.
  Proof.
    unfold cells_of, nn. induction 1 as [|x d r dl Hrd H IH]; intros bs Hbs; simpl; auto.
    destruct Hrd as [[-> Hd]|[Hx ->]].
    - simpl in *. destruct (N.eqb_spec d md); try contradiction. f_equal. auto.
    - simpl in *. replace (nonneg x) with true in * by (symmetry; apply Z.leb_le; auto).
      simpl in *. rewrite N.eqb_refl. destruct bs as [|v bs]; [discriminate Hbs|].
      injection Hbs as Hv Hbs'. f_equal.
      + f_equal. unfold lookup. destruct (Z.ltb_spec x 0); try lia. auto.
      + auto.
  Qed.

  Lemma map_nth_error_seq (p b : list V) :
    map (nth_error (p ++ b)) (seq (length p) (length b)) = map Some b.
  Proof.
    revert p; induction b as [|v b IH]; intros p; simpl; auto. f_equal.
    - rewrite nth_error_app2, Nat.sub_diag; auto.
    - specialize (IH (p ++ [v])). rewrite <- app_assoc, app_length in IH. simpl in IH.
      rewrite Nat.add_1_r in IH. auto.
  Qed.

  Theorem ocol_page_spec (c : ocol V) :
    ocol_ok V c ->
    let c' := ocol_page V c in
    ocol_ok V c' /\
    ocol_cells V c' = ocol_cells V c /\
    ocol_page_values V c = ocol_cells V c /\
    nn (rows c') = seq 0 (length (base c')) /\
    reordered c' = false /\
    maxdef c' = maxdef c /\ nulls_first c' = nulls_first c.
  Proof.
    intros Hok. assert (Hok0 := Hok). destruct Hok as (Hl & Hp & Ho).
    unfold ocol_page_values. unfold ocol_page. destruct (reordered c) eqn:Er; simpl.
    - assert (Hb := reorder_base_spec c Hok0).
      set (b' := reorder_base V c) in *.
      assert (Hlen : length b' = length (nn (rows c))).
      { rewrite <- (map_length Some b'), Hb, map_length. auto. }
      assert (Hnn : nn (renumber 0 (rows c)) = seq 0 (length b')).
      { rewrite Hlen. apply (renumber_nn (rows c) 0). }
      split; [|split; [|split; [|split; [|repeat split]]]]; auto.
      + split; [|split]; simpl.
        * apply (renumber_levels _ _ _ 0); auto.
        * rewrite Hnn. auto.
        * auto.
      + rewrite !ocol_cells_eq. simpl.
        apply (renumber_cells (maxdef c) (base c) b' (rows c) (deflevels c) Hl 0 b'); auto.
      + rewrite ocol_cells_eq. eapply page_values_cells; eauto.
    - split; auto. split; auto. specialize (Ho eq_refl).
      split; [|repeat split; auto].
      rewrite ocol_cells_eq. eapply page_values_cells; eauto.
      rewrite Ho. symmetry. apply (map_nth_error_seq [] (base c)).
  Qed.
End PageProofs.
