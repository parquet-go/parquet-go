(** The column-level API of a buffer: ReadValuesAt of a column delivers the
    window [off, off+n) of the logical cells of the column (the column of the
    rows of the specification), and leaves the column in the state Page leaves
    it in.  (Page of one column alone is the operation OPageCol of the
    histories of Sort/BufProofs.v; a clone is the column itself.) *)
From Coq Require Import List ZArith NArith Bool Arith Lia Permutation.
From PQ Require Import Sort.Model Sort.ColProofs Sort.PageProofs Sort.CmpProofs Sort.BufProofs.
Import ListNotations.

Section ViewProofs.
  Variable V : Type.

  Lemma page_values_length md : forall dl b, length (page_values V md dl b) = length dl.
  Proof.
    induction dl as [|d t IH]; intros b; simpl; auto.
    destruct (N.eqb d md); [destruct b|]; simpl; now rewrite IH.
  Qed.

  Lemma page_values_firstn md : forall dl b len,
    page_values V md (firstn len dl) b = firstn len (page_values V md dl b).
  Proof.
    induction dl as [|d t IH]; intros b len; destruct len; simpl; auto.
    destruct (N.eqb d md); [destruct b|]; simpl; now rewrite IH.
  Qed.

  Lemma count_nulls_cons md d t :
    count_nulls md (d :: t) = ((if N.eqb d md then 0 else 1) + count_nulls md t)%nat.
  Proof. unfold count_nulls. simpl. destruct (N.eqb d md); reflexivity. Qed.

  Lemma count_nulls_le md l : (count_nulls md l <= length l)%nat.
  Proof.
    induction l as [|d t IH]; [auto|]. rewrite count_nulls_cons. simpl.
    destruct (N.eqb d md); lia.
  Qed.

  (** the window of the levels, read like a page whose base starts after the
      values of the rows before the window, is the window of the page *)
  Lemma page_values_window md : forall dl b off len,
    page_values V md (firstn len (skipn off dl)) (skipn (off - count_nulls md (firstn off dl)) b)
    = firstn len (skipn off (page_values V md dl b)).
  Proof.
    induction dl as [|d t IH]; intros b off len.
    - rewrite skipn_nil, firstn_nil. simpl. now rewrite skipn_nil, firstn_nil.
    - destruct off as [|o].
      + simpl skipn. simpl firstn at 2. cbn [Nat.sub skipn]. apply page_values_firstn.
      + cbn [firstn skipn]. rewrite count_nulls_cons.
        assert (Hle := count_nulls_le md (firstn o t)).
        assert (Hlf : (length (firstn o t) <= o)%nat) by apply firstn_le_length.
        cbn [page_values]. destruct (N.eqb d md).
        * replace (S o - (0 + count_nulls md (firstn o t)))%nat
            with (S (o - count_nulls md (firstn o t))) by lia.
          destruct b as [|v b'].
          -- cbn [skipn]. specialize (IH [] o len). rewrite skipn_nil in IH. exact IH.
          -- cbn [skipn]. apply IH.
        * replace (S o - (1 + count_nulls md (firstn o t)))%nat
            with (o - count_nulls md (firstn o t))%nat by lia.
          cbn [skipn]. apply IH.
  Qed.

  Lemma firstn_min_all {A} (l : list A) n m :
    (length l <= m)%nat -> firstn (Nat.min n m) l = firstn n l.
  Proof.
    intros H. rewrite <- firstn_firstn. now rewrite (firstn_all2 (n:=m)) by exact H.
  Qed.

  (** optionalColumnBuffer.ReadValuesAt *)
  Theorem ocol_read_values_at_spec (c : ocol V) off n :
    ocol_ok V c ->
    fst (ocol_read_values_at V c off n) = ocol_page V c /\
    snd (ocol_read_values_at V c off n) = firstn n (skipn off (ocol_cells V c)).
  Proof.
    intros Hok. split; [reflexivity|].
    destruct (ocol_page_spec V c Hok) as (_ & _ & Hpv & _).
    unfold ocol_read_values_at. cbn [snd]. unfold ocol_page_values in Hpv.
    set (c' := ocol_page V c) in *.
    rewrite page_values_window, Hpv.
    apply firstn_min_all. rewrite skipn_length, <- Hpv, page_values_length. lia.
  Qed.

  Theorem col_read_values_at_spec md nfo (c : col V) off n :
    col_ok V md nfo c ->
    fst (col_read_values_at V c off n) = col_page V c /\
    snd (col_read_values_at V c off n) = firstn n (skipn off (col_cells V c)).
  Proof.
    destruct c as [vals|o].
    - intros _. simpl. split; auto. now rewrite skipn_map, firstn_map.
    - intros (_ & _ & _ & Hok). destruct (ocol_read_values_at_spec o off n Hok) as [H1 H2].
      unfold col_read_values_at. cbn [fst snd col_page col_cells]. rewrite H1, H2. split; reflexivity.
  Qed.

  (** After EVERY history (Write | Swap | Page | Page of one column), reading n
      values of column k at offset off delivers the cells [off, off+n) of
      column k of the rows of the specification, whether or not the values of
      the column had been moved into row order before; the column is left as
      Page leaves it. *)
  Theorem read_values_at_rows schema sorting ops k off n :
    Forall (op_ok V schema) ops -> (k < length schema)%nat ->
    buffer_read_values_at V (reach V schema sorting ops) k off n
      = firstn n (skipn off (map (fun r => nth k r (dcell V)) (spec_run V schema ops))) /\
    fst (col_read_values_at V (nth k (columns (reach V schema sorting ops)) (dcol V)) off n)
      = col_page V (nth k (columns (reach V schema sorting ops)) (dcol V)).
  Proof.
    intros Hops Hk.
    destruct (reach_inv V schema sorting ops Hops) as (_ & _ & _ & Hc).
    destruct (Hc k Hk) as [Hok Hcells].
    destruct (col_read_values_at_spec _ _ _ off n Hok) as [H1 H2].
    split; [|exact H1]. unfold buffer_read_values_at. now rewrite H2, Hcells.
  Qed.
End ViewProofs.
