(** Less of the column buffers against the comparator of compare.go, and the
    order properties of the comparator. *)
From Coq Require Import List ZArith NArith Bool Arith Lia Permutation.
From PQ Require Import Base.Order Base.ListExtra Sort.Model Sort.ColProofs.
Import ListNotations.
Local Open Scope Z_scope.

Section CmpProofs.
  Variable V : Type.
  Variable lt : V -> V -> bool.
  Variable cmp : V -> V -> Z.
  Hypothesis lt_cmp : forall a b, lt a b = true <-> cmp a b < 0.
  Hypothesis cmp_opp : forall a b, cmp a b < 0 <-> cmp b a > 0.
  Hypothesis cmp_trans : forall a b d, cmp a b <= 0 -> cmp b d <= 0 -> cmp a d <= 0.

  Notation cell := (cell V).
  Notation cmp_col := (cmp_col V cmp).

  Lemma lt_ltb a b : lt a b = (cmp a b <? 0).
  Proof.
    destruct (Z.ltb_spec (cmp a b) 0) as [H|H].
    - now apply lt_cmp.
    - destruct (lt a b) eqn:E; auto. apply lt_cmp in E. lia.
  Qed.

  (* a cell of a required column is never null *)
  Definition cell_wf (optional : bool) (a : option V) : Prop := optional = true \/ a <> None.

  Notation nonnull := (fun a : option V => a <> None).

  Lemma cmp_raw_opp a b : cmp_raw V cmp a b < 0 <-> cmp_raw V cmp b a > 0.
  Proof. destruct a, b; cbn; try lia. apply cmp_opp. Qed.

  Lemma cmp_raw_trans a b d : nonnull a -> nonnull b -> nonnull d ->
    cmp_raw V cmp a b <= 0 -> cmp_raw V cmp b d <= 0 -> cmp_raw V cmp a d <= 0.
  Proof. destruct a, b, d; cbn; try congruence. intros _ _ _. apply cmp_trans. Qed.

  Section Nulls.
    Variable c : option V -> option V -> Z.
    Hypothesis c_opp : forall a b, c a b < 0 <-> c b a > 0.
    Hypothesis c_trans : forall a b d, nonnull a -> nonnull b -> nonnull d ->
      c a b <= 0 -> c b d <= 0 -> c a d <= 0.

    Lemma cmp_nf_opp a b : cmp_nf V c a b < 0 <-> cmp_nf V c b a > 0.
    Proof. destruct a, b; cbn; try lia. apply c_opp. Qed.
    Lemma cmp_nl_opp a b : cmp_nl V c a b < 0 <-> cmp_nl V c b a > 0.
    Proof. destruct a, b; cbn; try lia. apply c_opp. Qed.

    Lemma cmp_nf_trans a b d : cmp_nf V c a b <= 0 -> cmp_nf V c b d <= 0 -> cmp_nf V c a d <= 0.
    Proof. destruct a, b, d; cbn; try lia. apply c_trans; discriminate. Qed.
    Lemma cmp_nl_trans a b d : cmp_nl V c a b <= 0 -> cmp_nl V c b d <= 0 -> cmp_nl V c a d <= 0.
    Proof. destruct a, b, d; cbn; try lia. apply c_trans; discriminate. Qed.
  End Nulls.

  Notation cmp_dir d := (if d then cmp_desc V (cmp_raw V cmp) else cmp_raw V cmp).

  Lemma cmp_dir_opp (d : bool) a b : cmp_dir d a b < 0 <-> cmp_dir d b a > 0.
  Proof. destruct d; [apply neg_opp|]; apply cmp_raw_opp. Qed.

  Lemma cmp_dir_trans (d : bool) a b e : nonnull a -> nonnull b -> nonnull e ->
    cmp_dir d a b <= 0 -> cmp_dir d b e <= 0 -> cmp_dir d a e <= 0.
  Proof. destruct d; [apply (neg_trans _ _ nonnull cmp_raw_opp)|]; apply cmp_raw_trans. Qed.

  Lemma cmp_col_opp o d n a b : cmp_col o d n a b < 0 <-> cmp_col o d n b a > 0.
  Proof.
    unfold Model.cmp_col.
    destruct o; [destruct n; [apply cmp_nf_opp|apply cmp_nl_opp]|]; apply cmp_dir_opp.
  Qed.

  Lemma cmp_col_trans o d n a b c :
    cell_wf o a -> cell_wf o b -> cell_wf o c ->
    cmp_col o d n a b <= 0 -> cmp_col o d n b c <= 0 -> cmp_col o d n a c <= 0.
  Proof.
    unfold cell_wf, Model.cmp_col. destruct o.
    - intros _ _ _. destruct n; [apply cmp_nf_trans|apply cmp_nl_trans]; apply cmp_dir_trans.
    - intros [|Ha] [|Hb] [|Hc]; try discriminate. apply cmp_dir_trans; assumption.
  Qed.

  Lemma nth_cells_of (b : list V) r dl i :
    length r = length dl -> (i < length r)%nat ->
    nth i (cells_of V b r dl) (dcell V) = (lookup V b (nth i r (-1)), nth i dl 0%N).
  Proof.
    intros Hl Hi. unfold cells_of.
    set (f := fun rd : Z * N => (lookup V b (fst rd), snd rd)).
    rewrite (nth_indep _ (dcell V) (f (-1, 0%N)))
      by (rewrite map_length, combine_length; lia).
    rewrite (map_nth f), combine_nth by auto. reflexivity.
  Qed.

  (* the comparison an optional column buffer implements: ascending values,
     nulls where its null ordering puts them *)
  Definition ocol_cmp (nfo : bool) : option V -> option V -> Z :=
    if nfo then cmp_nf V (cmp_raw V cmp) else cmp_nl V (cmp_raw V cmp).

  Lemma nulls_less_spec (nfo : bool) (b : list V) x y md d1 d2 :
    (d1 = md -> nth_error b (Z.to_nat x) <> None) -> (d2 = md -> nth_error b (Z.to_nat y) <> None) ->
    (if nfo then nulls_go_first V lt else nulls_go_last V lt) b x y md d1 d2 =
    (ocol_cmp nfo (if N.eqb d1 md then nth_error b (Z.to_nat x) else None)
                  (if N.eqb d2 md then nth_error b (Z.to_nat y) else None) <? 0).
  Proof.
    intros Hx Hy. unfold ocol_cmp.
    (* the null ordering and whether each level is the maximum: only two values
       leave a comparison, [lt] against [cmp] *)
    destruct nfo; unfold nulls_go_first, nulls_go_last, base_less;
      (destruct (N.eqb_spec d1 md) as [E1|E1]; [destruct (nth_error b (Z.to_nat x)); [|now destruct Hx]|]);
      (destruct (N.eqb_spec d2 md) as [E2|E2]; [destruct (nth_error b (Z.to_nat y)); [|now destruct Hy]|]);
      cbn; try reflexivity; apply lt_ltb.
  Qed.

  Lemma ocol_cmp_dir (d n : bool) a b :
    (if d then ocol_cmp (xorb n d) b a <? 0 else ocol_cmp (xorb n d) a b <? 0) =
    (cmp_col true d n a b <? 0).
  Proof.
    unfold ocol_cmp, Model.cmp_col, cmp_nf, cmp_nl, cmp_desc.
    destruct d, n, a as [x|], b as [y|]; cbn [xorb]; try reflexivity;
      apply (cmp_ltb_flip _ _ cmp_raw_opp).
  Qed.

  Lemma lookup_cell md (b : list V) r d : rd_ok md r d ->
    lookup V b r = if N.eqb d md then nth_error b (Z.to_nat r) else None.
  Proof.
    unfold lookup. intros [[-> Hd]|[Hr ->]].
    - destruct (N.eqb_spec d md); [contradiction|reflexivity].
    - rewrite N.eqb_refl. destruct (Z.ltb_spec r 0); [lia|reflexivity].
  Qed.

  Lemma ocol_less_spec (c : ocol V) i j :
    ocol_ok V c -> (i < length (rows c))%nat -> (j < length (rows c))%nat ->
    ocol_less V lt c i j =
    (ocol_cmp (nulls_first c) (fst (nth i (ocol_cells V c) (dcell V)))
              (fst (nth j (ocol_cells V c) (dcell V))) <? 0).
  Proof.
    intros (Hl & Hp & _) Hi Hj.
    assert (Hlen : length (rows c) = length (deflevels c)) by (eapply Forall2_len; eauto).
    rewrite ocol_cells_eq, !nth_cells_of by auto. cbn [fst].
    assert (Hr : forall k, (k < length (rows c))%nat ->
              rd_ok (maxdef c) (nth k (rows c) (-1)) (nth k (deflevels c) 0%N))
      by (intros k Hk; apply (Forall2_nth _ _ _ k (-1) 0%N Hl Hk)).
    assert (Hb : forall k, (k < length (rows c))%nat -> nth k (deflevels c) 0%N = maxdef c ->
              nth_error (base c) (Z.to_nat (nth k (rows c) (-1))) <> None).
    { intros k Hk E. destruct (Hr k Hk) as [[_ Hd]|[Hk0 _]]; [contradiction|].
      apply nth_error_Some, (nn_in_range V (base c) (rows c) _ Hp (nth_In _ _ Hk) Hk0). }
    rewrite (lookup_cell _ _ _ _ (Hr i Hi)), (lookup_cell _ _ _ _ (Hr j Hj)).
    unfold ocol_less. apply nulls_less_spec; auto.
  Qed.

  (** a column as Buffer.configure sets it up for the leaf [md] and the null
      ordering [nfo] *)
  Definition col_ok (md : N) (nfo : bool) (c : col V) : Prop :=
    match c with
    | CReq _ => md = 0%N
    | COpt o => md <> 0%N /\ maxdef o = md /\ nulls_first o = nfo /\ ocol_ok V o
    end.

  Lemma col_cells_wf md nfo c i :
    col_ok md nfo c -> (i < col_len V c)%nat ->
    cell_wf (negb (N.eqb md 0)) (fst (nth i (col_cells V c) (dcell V))).
  Proof.
    destruct c as [vals|o]; simpl.
    - intros -> Hi. right.
      destruct (nth_error vals i) as [x|] eqn:Ei; [|apply nth_error_None in Ei; lia].
      erewrite nth_error_nth; [|rewrite nth_error_map, Ei; reflexivity]. discriminate.
    - intros (Hmd & _) _. left. destruct (N.eqb_spec md 0); auto; contradiction.
  Qed.

  (** The decision rule.  For the sorting column (descending [d], nulls first
      [n]) the buffer's column is set up with the null ordering [xorb n d] and
      wrapped in reversedColumnBuffer when [d]; its Less is the comparator of
      compare.go for the same (d, n). *)
  Theorem sorted_less_spec (cols : list (col V)) k md d n i j :
    col_ok md (xorb n d) (nth k cols (dcol V)) ->
    (i < col_len V (nth k cols (dcol V)))%nat -> (j < col_len V (nth k cols (dcol V)))%nat ->
    sorted_less V lt cols (k, d) i j =
    (cmp_col (negb (N.eqb md 0)) d n
             (fst (nth i (col_cells V (nth k cols (dcol V))) (dcell V)))
             (fst (nth j (col_cells V (nth k cols (dcol V))) (dcell V))) <? 0).
  Proof.
    unfold sorted_less; simpl. destruct (nth k cols (dcol V)) as [vals|o]; simpl.
    - intros -> Hi Hj. simpl.
      destruct (nth_error vals i) as [x|] eqn:Ei; [|apply nth_error_None in Ei; lia].
      destruct (nth_error vals j) as [y|] eqn:Ej; [|apply nth_error_None in Ej; lia].
      erewrite (nth_error_nth _ i); [|rewrite nth_error_map, Ei; reflexivity].
      erewrite (nth_error_nth _ j); [|rewrite nth_error_map, Ej; reflexivity].
      unfold Model.cmp_col, cmp_desc, cmp_raw. simpl.
      destruct d.
      + rewrite lt_ltb. apply (cmp_ltb_flip _ _ cmp_opp).
      + apply lt_ltb.
    - intros (Hmd & Emd & Enf & Hok) Hi Hj.
      destruct (N.eqb_spec md 0) as [|_]; [contradiction|]. cbn [negb].
      rewrite <- ocol_cmp_dir, <- Enf, <- !ocol_less_spec by auto. reflexivity.
  Qed.
End CmpProofs.
