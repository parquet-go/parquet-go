(** The orders of the kinds of sorting columns.

    The theorems of Properties/C10.v hold of any value type whose Compare is a
    total preorder and whose base column buffer Less is "Compare < 0".  Every
    numeric kind of sorting column the correspondence runs generate
    (harness/c10/types.go) compares two values as the integers they denote:

      BOOLEAN                               false < true
      INT32 / INT64 / INT(8|16|32|64, signed) / DATE / TIME / TIMESTAMP /
      DECIMAL on INT32 / INT64               the two's complement value of the bits
      INT(8|16|32|64, unsigned)              the bits as a natural number
      FLOAT / DOUBLE without NaN             sign and magnitude of the bits, -0 = +0
                                             (the IEEE 754 numeric order on non-NaN values)
      DECIMAL on (FIXED_LEN_)BYTE_ARRAY      the big-endian two's complement value of the bytes

    so its Compare is [cmp_key key] and its Less [lt_key key] for the [key]
    below, and any comparison of that form meets the hypotheses (Section Keyed).
    The byte string kinds (BYTE_ARRAY, STRING, ENUM, FIXED_LEN_BYTE_ARRAY, UUID)
    compare as unsigned bytes, lexicographically: [Search.Model.cmp_bytes], the
    [VB] half of the oracle's value type ([sval], Sort/Model.v).

    That the Go code compares each kind so is not proved here: the
    correspondence runs decide it with the harness's own comparator on the
    decoded values. *)
From Coq Require Import List ZArith NArith Bool Arith Lia.
From PQ Require Search.Model Search.Proofs.
Import ListNotations.
Local Open Scope Z_scope.

Section Keyed.
  Variable V : Type.
  Variable key : V -> Z.

  Definition cmp_key (a b : V) : Z := Search.Model.cmpZ (key a) (key b).
  Definition lt_key (a b : V) : bool := (key a <? key b).

  Lemma lt_key_cmp a b : lt_key a b = true <-> cmp_key a b < 0.
  Proof.
    unfold lt_key, cmp_key, Search.Model.cmpZ. rewrite Z.ltb_lt.
    destruct (Z.compare_spec (key a) (key b)); lia.
  Qed.

  Lemma cmp_key_opp a b : cmp_key a b < 0 <-> cmp_key b a > 0.
  Proof. apply Search.Proofs.cmpZ_opp. Qed.

  Lemma cmp_key_trans a b d : cmp_key a b <= 0 -> cmp_key b d <= 0 -> cmp_key a d <= 0.
  Proof. apply Search.Proofs.cmpZ_trans. Qed.
End Keyed.

(** * The keys *)
Definition key_bool (b : bool) : Z := if b then 1 else 0.

(* the two's complement value of the low [w] bits *)
Definition key_signed (w : Z) (bits : N) : Z :=
  let u := Z.of_N bits mod 2 ^ w in
  if u <? 2 ^ (w - 1) then u else u - 2 ^ w.

Definition key_unsigned (w : Z) (bits : N) : Z := Z.of_N bits mod 2 ^ w.

(* IEEE 754 binary32 / binary64 bit patterns other than NaN: the sign bit and
   the magnitude (exponent and fraction read as a natural number order the
   finite values and the infinities of one sign by magnitude) *)
Definition key_float (w : Z) (bits : N) : Z :=
  let u := Z.of_N bits mod 2 ^ w in
  let m := u mod 2 ^ (w - 1) in
  if u <? 2 ^ (w - 1) then m else - m.

(* big-endian two's complement byte strings (DECIMAL) *)
Definition be_value (b : list N) : Z := fold_left (fun acc x => acc * 256 + Z.of_N x) b 0.

Definition key_decimal (b : list N) : Z :=
  match b with
  | [] => 0
  | h :: _ => if (128 <=? h)%N then be_value b - 2 ^ (8 * Z.of_nat (length b)) else be_value b
  end.
