(** Buffer.Less against the row comparator, the order properties of both, and
    the consequence of the contract of sort.Sort. *)
From Coq Require Import List ZArith NArith Bool Arith Lia Permutation.
From PQ Require Import Base.Order Base.ListExtra Sort.Model Sort.CmpProofs Sort.BufProofs.
Import ListNotations.

Section OrderProofs.
  Variable V : Type.
  Variable lt : V -> V -> bool.
  Variable cmp : V -> V -> Z.
  Hypothesis lt_cmp : forall a b, lt a b = true <-> (cmp a b < 0)%Z.
  Hypothesis cmp_opp : forall a b, (cmp a b < 0 <-> cmp b a > 0)%Z.
  Hypothesis cmp_trans : forall a b d, (cmp a b <= 0 -> cmp b d <= 0 -> cmp a d <= 0)%Z.

  Notation row := (row V).
  Notation dcell := (dcell V).
  Notation dcol := (dcol V).
  Notation compare_rows := (compare_rows V cmp).
  Notation cmp_col := (cmp_col V cmp).

  (** the sorting columns name distinct leaves of the schema *)
  Definition sorting_ok (schema : list N) (sorting : list sortcol) : Prop :=
    NoDup (map sc_col sorting) /\ Forall (fun s => sc_col s < length schema) sorting.

  Lemma search_sorting_nodup sorting s :
    NoDup (map sc_col sorting) -> In s sorting ->
    search_sorting sorting (sc_col s) = Some s.
  Proof.
    unfold search_sorting. induction sorting as [|s0 t IH]; intros Hnd Hin; [destruct Hin|].
    simpl in *. inversion Hnd; subst. destruct Hin as [->|Hin].
    - now rewrite Nat.eqb_refl.
    - destruct (Nat.eqb_spec (sc_col s0) (sc_col s)) as [E|]; auto.
      exfalso. apply H1. rewrite E. now apply in_map.
  Qed.

  Lemma less_by_spec schema sorting (b : buffer V) rows i j : forall ss,
    buf_inv V schema sorting b rows -> i < length rows -> j < length rows ->
    (forall s, In s ss -> sc_col s < length schema /\
                          null_ordering sorting (sc_col s) = xorb (sc_nf s) (sc_desc s)) ->
    less_by V lt (columns b) (map (fun s => (sc_col s, sc_desc s)) ss) i j =
    (compare_rows schema ss (nth i rows []) (nth j rows []) <? 0)%Z.
  Proof.
    intros ss Hinv Hi Hj. induction ss as [|s ss IH]; intros Hss; simpl; auto.
    destruct (Hss s (or_introl eq_refl)) as [Hk Hno].
    assert (Hlen := inv_col_len V _ _ _ _ _ Hinv Hk).
    destruct Hinv as (Hsorted & Hl & Hr & Hc). destruct (Hc _ Hk) as [Hok Hcells].
    rewrite Hno in Hok.
    rewrite (sorted_less_spec V lt cmp lt_cmp cmp_opp (columns b) (sc_col s)
                              (nth (sc_col s) schema 0%N) (sc_desc s) (sc_nf s) i j Hok)
      by lia.
    rewrite (sorted_less_spec V lt cmp lt_cmp cmp_opp (columns b) (sc_col s)
                              (nth (sc_col s) schema 0%N) (sc_desc s) (sc_nf s) j i Hok)
      by lia.
    rewrite Hcells, !(nth_map' _ _ _ _ []) by auto.
    rewrite IH by (intros; apply Hss; right; auto).
    apply lexz_ltb; apply (cmp_col_opp V cmp cmp_opp).
  Qed.

  Theorem buffer_less_spec schema sorting (b : buffer V) rows i j :
    buf_inv V schema sorting b rows -> sorting_ok schema sorting ->
    i < length rows -> j < length rows ->
    buffer_less V lt b i j = (compare_rows schema sorting (nth i rows []) (nth j rows []) <? 0)%Z.
  Proof.
    intros Hinv [Hnd Hrange] Hi Hj. unfold buffer_less.
    assert (Hs := Hinv). destruct Hs as (Hs & _). rewrite Hs.
    apply (less_by_spec schema sorting b rows i j sorting Hinv Hi Hj). intros s Hin. rewrite Forall_forall in Hrange. split; auto.
    unfold null_ordering. now rewrite search_sorting_nodup.
  Qed.

  (* a row whose required sorting cells hold values *)
  Definition row_wf (schema : list N) (sorting : list sortcol) (r : row) : Prop :=
    Forall (fun s => cell_wf V (negb (N.eqb (nth (sc_col s) schema 0%N) 0))
                             (fst (nth (sc_col s) r dcell))) sorting.

  Notation cmp_at schema s :=
    (fun r1 r2 : row => cmp_col (negb (N.eqb (nth (sc_col s) schema 0%N) 0)) (sc_desc s) (sc_nf s)
                                (fst (nth (sc_col s) r1 dcell)) (fst (nth (sc_col s) r2 dcell))).

  Lemma compare_rows_opp schema sorting r1 r2 :
    (compare_rows schema sorting r1 r2 < 0 <-> compare_rows schema sorting r2 r1 > 0)%Z.
  Proof.
    induction sorting as [|s t IH]; simpl; [lia|].
    apply (lexz_opp _ (cmp_at schema s)); [|exact IH].
    intros a b. apply (cmp_col_opp V cmp cmp_opp).
  Qed.

  Lemma compare_rows_trans schema sorting r1 r2 r3 :
    row_wf schema sorting r1 -> row_wf schema sorting r2 -> row_wf schema sorting r3 ->
    (compare_rows schema sorting r1 r2 <= 0 -> compare_rows schema sorting r2 r3 <= 0 ->
     compare_rows schema sorting r1 r3 <= 0)%Z.
  Proof.
    unfold row_wf. induction sorting as [|s t IH]; simpl; intros W1 W2 W3; [lia|].
    apply Forall_cons_iff in W1, W2, W3.
    apply (lexz_trans _ (cmp_at schema s) (fun a b => cmp_col_opp V cmp cmp_opp _ _ _ _ _)
                     (fun r => cell_wf V (negb (N.eqb (nth (sc_col s) schema 0%N) 0))
                                       (fst (nth (sc_col s) r dcell)))).
    - intros a b d. apply (cmp_col_trans V cmp cmp_opp cmp_trans).
    - apply W1.
    - apply W2.
    - apply W3.
    - apply IH; [apply W1|apply W2|apply W3].
  Qed.

  Lemma inv_row_wf schema sorting (b : buffer V) rows i :
    buf_inv V schema sorting b rows -> sorting_ok schema sorting -> i < length rows ->
    row_wf schema sorting (nth i rows []).
  Proof.
    intros Hinv [_ Hrange] Hi. unfold row_wf. rewrite Forall_forall in *. intros s Hin.
    assert (Hk := Hrange _ Hin). assert (Hlen := inv_col_len V _ _ _ _ _ Hinv Hk).
    destruct Hinv as (_ & _ & _ & Hc). destruct (Hc _ Hk) as [Hok Hcells].
    assert (H := col_cells_wf V _ _ _ i Hok). rewrite Hlen in H. specialize (H Hi).
    rewrite Hcells, (nth_map' _ _ _ _ []) in H by auto. exact H.
  Qed.

  Definition less_swo (b : buffer V) (n : nat) : Prop :=
    (forall i, i < n -> buffer_less V lt b i i = false) /\
    (forall i j k, i < n -> j < n -> k < n ->
       buffer_less V lt b i j = true -> buffer_less V lt b j k = true -> buffer_less V lt b i k = true) /\
    (forall i j k, i < n -> j < n -> k < n ->
       buffer_less V lt b i j = false -> buffer_less V lt b j i = false ->
       buffer_less V lt b j k = false -> buffer_less V lt b k j = false ->
       buffer_less V lt b i k = false /\ buffer_less V lt b k i = false).

  Theorem buffer_less_swo schema sorting (b : buffer V) rows :
    buf_inv V schema sorting b rows -> sorting_ok schema sorting -> less_swo b (length rows).
  Proof.
    intros Hinv Hso.
    apply (swo_of_cmp _ _ (compare_rows_opp schema sorting) _ (compare_rows_trans schema sorting)
                      _ (fun i => nth i rows [])).
    - intros i j. apply buffer_less_spec; assumption.
    - intros i. apply inv_row_wf with (b := b); assumption.
  Qed.

  Definition sorted_by_less (b : buffer V) (n : nat) : Prop :=
    forall i, S i < n -> buffer_less V lt b (S i) i = false.

  Theorem sorted_rows_ordered schema sorting (b : buffer V) rows :
    buf_inv V schema sorting b rows -> sorting_ok schema sorting ->
    sorted_by_less b (length rows) ->
    forall i j, i <= j -> j < length rows ->
      (compare_rows schema sorting (nth i rows []) (nth j rows []) <= 0)%Z.
  Proof.
    intros Hinv Hso.
    apply (ordered_of_adjacent _ _ (compare_rows_opp schema sorting) _ (compare_rows_trans schema sorting)
                               _ (fun i => nth i rows [])).
    - intros i j. apply buffer_less_spec; assumption.
    - intros i. apply inv_row_wf with (b := b); assumption.
  Qed.

  Theorem less_is_comparator schema sorting ops i j :
    schema <> [] -> sorting_ok schema sorting -> Forall (op_ok V schema) ops ->
    let b := reach V schema sorting ops in
    i < buffer_len V b -> j < buffer_len V b ->
    (buffer_less V lt b i j = true <->
     (compare_rows schema sorting (buffer_row V b i) (buffer_row V b j) < 0)%Z).
  Proof.
    intros Hne Hso Hops b Hi Hj.
    assert (Hinv := reach_inv V schema sorting ops Hops). fold b in Hinv.
    rewrite (inv_len V _ _ _ _ Hinv Hne) in Hi, Hj.
    rewrite (buffer_less_spec schema sorting b _ i j Hinv Hso Hi Hj).
    rewrite !(inv_row V _ _ _ _ _ Hinv) by auto. apply Z.ltb_lt.
  Qed.

  Theorem less_strict_weak_order schema sorting ops :
    schema <> [] -> sorting_ok schema sorting -> Forall (op_ok V schema) ops ->
    let b := reach V schema sorting ops in less_swo b (buffer_len V b).
  Proof.
    intros Hne Hso Hops b.
    assert (Hinv := reach_inv V schema sorting ops Hops). fold b in Hinv.
    rewrite (inv_len V _ _ _ _ Hinv Hne). apply (buffer_less_swo schema sorting b _ Hinv Hso).
  Qed.

  Definition swap_ops (l : list (nat * nat)) : list (op V) :=
    map (fun p => OSwap (fst p) (snd p)) l.

  Lemma swap_ops_ok schema l : Forall (op_ok V schema) (swap_ops l).
  Proof. unfold swap_ops. apply Forall_map. apply Forall_forall. intros; exact I. Qed.

  Lemma written_swaps schema ops l : written V schema (ops ++ swap_ops l) = written V schema ops.
  Proof.
    unfold written. rewrite flat_map_app.
    assert (flat_map (fun o : op V => match o with
              | OWrite _ batch => map (row_of V schema) batch | _ => [] end) (swap_ops l) = []).
    { induction l; simpl; auto. }
    rewrite H. apply app_nil_r.
  Qed.

  (** whatever exchanges a sort routine performs: if the result has no
      adjacent inversion for Less, the rows are the rows written, ordered by
      the comparator *)
  Theorem sorted_after_swaps schema sorting ops l :
    schema <> [] -> sorting_ok schema sorting -> Forall (op_ok V schema) ops ->
    let b' := reach V schema sorting (ops ++ swap_ops l) in
    sorted_by_less b' (buffer_len V b') ->
    Permutation (buffer_rows V b') (buffer_rows V (reach V schema sorting ops)) /\
    Permutation (buffer_rows V b') (written V schema ops) /\
    forall i j, i <= j -> j < length (buffer_rows V b') ->
      (compare_rows schema sorting (nth i (buffer_rows V b') []) (nth j (buffer_rows V b') []) <= 0)%Z.
  Proof.
    intros Hne Hso Hops b' Hsorted.
    assert (Hops' : Forall (op_ok V schema) (ops ++ swap_ops l))
      by (apply Forall_app; split; auto; apply swap_ops_ok).
    assert (Hinv := reach_inv V schema sorting _ Hops'). fold b' in Hinv.
    destruct (swaps_preserve_rows V schema sorting _ Hne Hops') as (H1 & _ & Hp1).
    destruct (swaps_preserve_rows V schema sorting _ Hne Hops) as (H2 & _ & Hp2).
    fold b' in H1. rewrite written_swaps in Hp1.
    rewrite (inv_len V _ _ _ _ Hinv Hne) in Hsorted.
    rewrite H1, H2. split; [|split]; auto.
    - eapply perm_trans; [exact Hp1|]. apply Permutation_sym; exact Hp2.
    - intros i j Hij Hj. eapply sorted_rows_ordered; eauto.
  Qed.

  (** the contract of sort.Sort: when Less is a strict weak order on the n
      elements, the exchanges it performs leave no adjacent inversion *)
  Definition sort_contract (sort_swaps : buffer V -> list (nat * nat)) : Prop :=
    forall b n, n = buffer_len V b -> less_swo b n ->
                sorted_by_less (run_ops V b (swap_ops (sort_swaps b))) n.

  Theorem sorted_after_sort sort_swaps schema sorting ops :
    sort_contract sort_swaps ->
    schema <> [] -> sorting_ok schema sorting -> Forall (op_ok V schema) ops ->
    let b := reach V schema sorting ops in
    let b' := run_ops V b (swap_ops (sort_swaps b)) in
    Permutation (buffer_rows V b') (buffer_rows V b) /\
    Permutation (buffer_rows V b') (written V schema ops) /\
    forall i j, i <= j -> j < length (buffer_rows V b') ->
      (compare_rows schema sorting (nth i (buffer_rows V b') []) (nth j (buffer_rows V b') []) <= 0)%Z.
  Proof.
    intros Hc Hne Hso Hops b b'.
    assert (Eb' : b' = reach V schema sorting (ops ++ swap_ops (sort_swaps b))).
    { unfold b', b, reach, run_ops. now rewrite fold_left_app. }
    assert (Hs := Hc b (buffer_len V b) eq_refl (less_strict_weak_order schema sorting ops Hne Hso Hops)).
    fold b' in Hs.
    assert (Hlen : buffer_len V b' = buffer_len V b).
    { assert (Hops' : Forall (op_ok V schema) (ops ++ swap_ops (sort_swaps b)))
        by (apply Forall_app; split; auto; apply swap_ops_ok).
      assert (I1 := reach_inv V schema sorting _ Hops'). rewrite <- Eb' in I1.
      assert (I2 := reach_inv V schema sorting _ Hops). fold b in I2.
      rewrite (inv_len V _ _ _ _ I1 Hne), (inv_len V _ _ _ _ I2 Hne).
      destruct (swaps_preserve_rows V schema sorting _ Hne Hops') as (_ & _ & P1).
      destruct (swaps_preserve_rows V schema sorting _ Hne Hops) as (_ & _ & P2).
      rewrite written_swaps in P1.
      rewrite (Permutation_length P1), (Permutation_length P2). reflexivity. }
    rewrite <- Hlen in Hs. rewrite Eb' in *.
    apply sorted_after_swaps; auto.
  Qed.
End OrderProofs.
