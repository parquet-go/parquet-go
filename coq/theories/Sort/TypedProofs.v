(** The typed write path (writeValues with runs of rows sharing a definition
    level, the row indexes of a non-null run filled by broadcastRangeInt32)
    leaves the column in the same state as WriteValues. *)
From Coq Require Import List ZArith NArith Bool Arith Lia.
From PQ Require Import Sort.Model.
Import ListNotations.

Section TypedProofs.
  Variable V : Type.

  Lemma wvf_nulls md d n : forall (b : list V) r dl ri,
    write_values_from V b r dl md ri (repeat (WNull d) n) =
    (b, r ++ repeat (-1)%Z n, dl ++ repeat d n).
  Proof.
    induction n; intros; simpl.
    - now rewrite !app_nil_r.
    - rewrite IHn, <- !app_assoc. reflexivity.
  Qed.

  Lemma broadcast_range_S n b : broadcast_range (S n) b = b :: broadcast_range n (b + 1)%Z.
  Proof.
    unfold broadcast_range. simpl. f_equal; [lia|].
    rewrite <- seq_shift, map_map. apply map_ext. intros; lia.
  Qed.

  Lemma wvf_vals md vs : forall (b : list V) r dl ri,
    write_values_from V b r dl md ri (map WVal vs) =
    (b ++ vs, r ++ broadcast_range (length vs) ri, dl ++ repeat md (length vs)).
  Proof.
    induction vs as [|v vs IH]; intros; simpl.
    - unfold broadcast_range. simpl. now rewrite !app_nil_r.
    - rewrite IH, broadcast_range_S, <- !app_assoc. reflexivity.
  Qed.

  Lemma wvf_app md a : forall (b : list V) r dl b2,
    write_values_from V b r dl md (Z.of_nat (length b)) (a ++ b2) =
    match write_values_from V b r dl md (Z.of_nat (length b)) a with
    | (b', r', dl') => write_values_from V b' r' dl' md (Z.of_nat (length b')) b2
    end.
  Proof.
    induction a as [|w a IH]; intros; simpl; auto.
    destruct w as [d|v]; auto.
    replace (Z.of_nat (length b) + 1)%Z with (Z.of_nat (length (b ++ [v])))
      by (rewrite app_length; simpl; lia).
    apply IH.
  Qed.

  Lemma write_values_app (c : ocol V) a b2 :
    write_values V c (a ++ b2) = write_values V (write_values V c a) b2.
  Proof.
    unfold write_values. rewrite wvf_app.
    destruct (write_values_from V (base c) (rows c) (deflevels c) (maxdef c)
                                (Z.of_nat (length (base c))) a) as [[b r] dl].
    simpl. reflexivity.
  Qed.

  Definition run_wvals (r : run V) : list (wval V) :=
    match r with RNull d n => repeat (WNull d) n | RVals vs => map WVal vs end.

  Definition run_wf (r : run V) : Prop :=
    match r with RNull _ n => n <> 0 | RVals vs => vs <> [] end.

  Lemma write_run_eq (c : ocol V) r :
    run_wf r -> write_run V c r = write_values V c (run_wvals r).
  Proof.
    destruct r as [d n|vs]; simpl; intros H.
    - destruct n; [contradiction|]. unfold write_values. rewrite wvf_nulls. reflexivity.
    - destruct vs as [|v vs]; [contradiction|]. unfold write_values. rewrite wvf_vals. reflexivity.
  Qed.

  Lemma write_runs_eq rs : forall (c : ocol V),
    Forall run_wf rs ->
    fold_left (write_run V) rs c = write_values V c (flat_map run_wvals rs).
  Proof.
    induction rs as [|r rs IH]; intros c H; simpl.
    - unfold write_values; simpl. destruct c; reflexivity.
    - inversion H; subst. rewrite write_values_app, <- write_run_eq by auto. apply IH; auto.
  Qed.

  Lemma runs_of_spec (vs : list (wval V)) :
    Forall run_wf (runs_of V vs) /\ flat_map run_wvals (runs_of V vs) = vs.
  Proof.
    induction vs as [|w vs [IHw IHf]]; simpl; auto.
    destruct w as [d|v].
    - destruct (runs_of V vs) as [|[d' n|vs'] rest] eqn:E.
      + split; [repeat constructor; simpl; lia|]. simpl in *. now rewrite <- IHf.
      + destruct (N.eqb_spec d d') as [->|]; simpl.
        * destruct (Nat.eqb_spec n 0); simpl.
          -- inversion IHw; subst. simpl in *. contradiction.
          -- split.
             ++ inversion IHw; subst. constructor; simpl; auto.
             ++ simpl in *. now rewrite IHf.
        * split; [constructor; simpl; auto|]. simpl in *. now rewrite IHf.
      + split; [constructor; simpl; auto|]. simpl in *. now rewrite IHf.
    - destruct (runs_of V vs) as [|[d' n|vs'] rest] eqn:E.
      + split; [repeat constructor; simpl; congruence|]. simpl in *. now rewrite <- IHf.
      + split; [constructor; simpl; auto; congruence|]. simpl in *. now rewrite IHf.
      + split.
        * inversion IHw; subst. constructor; simpl; auto; congruence.
        * simpl in *. now rewrite IHf.
  Qed.

  Theorem write_typed_eq (c : ocol V) vs : write_typed V c vs = write_values V c vs.
  Proof.
    unfold write_typed. destruct (runs_of_spec vs) as [Hw Hf].
    rewrite write_runs_eq by auto. now rewrite Hf.
  Qed.
End TypedProofs.
