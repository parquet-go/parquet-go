(** SortingWriter (Sort/Writer.v): every closed file holds a sorted permutation
    of the rows written to it; with DropDuplicatedRows exactly one row for each
    key written, whatever the size of the sort runs, the batching of the
    writes, the flushes, and whatever files the writer produced before.

    The proofs compose
    - the contract of sort.Sort on a run (a sorted permutation of the run:
      what C10_sorted_after_sort gives for the row buffer),
    - what C09 proves of the merged readers: the rows they deliver are a
      complete run of the abstract merge scheduler (C09_mergeK_refines:
      [mergek_all_contract] below), hence sorted and a
      permutation of the row groups (C09_merge_abstract_correct),
    - the deduplication theorems of Merge/DedupeProofs.v (C09_dedupe_one_per_key). *)
From Coq Require Import List ZArith Bool Arith Lia Sorting.Sorted Permutation.
From PQ Require Import Merge.Model Merge.Instance Merge.AbstractProofs Merge.DedupeProofs
     Merge.InstanceProofs Sort.Writer.
From PQ Require Import Base.Insertion.
From PQ Require Base.Order Sort.Model Sort.ListLemmas Sort.CmpProofs Merge.TreeProofs Merge.ProgressProofs.
Import ListNotations.
Local Open Scope nat_scope.

Lemma StronglySorted_map {X Y} (f : X -> Y) (R : Y -> Y -> Prop) (l : list X) :
  StronglySorted (fun a b => R (f a) (f b)) l -> StronglySorted R (map f l).
Proof.
  induction 1 as [|x l Hs IH Hf]; simpl; constructor; auto.
  rewrite Forall_forall in *. intros y Hy. apply in_map_iff in Hy. destruct Hy as [z [<- Hz]]. auto.
Qed.

Lemma StronglySorted_impl {X} (R R' : X -> X -> Prop) (l : list X) :
  (forall a b, R a b -> R' a b) -> StronglySorted R l -> StronglySorted R' l.
Proof.
  intros H. induction 1 as [|x l Hs IH Hf]; constructor; auto.
  eapply Forall_impl; [|exact Hf]. auto.
Qed.

Section WriterProofs.
  Variable A : Type.
  Variable cmp : A -> A -> Z.
  Hypothesis cmp_opp : forall a b, (cmp a b < 0 <-> cmp b a > 0)%Z.
  Hypothesis cmp_trans : forall a b d, (cmp a b <= 0 -> cmp b d <= 0 -> cmp a d <= 0)%Z.
  Variable sortf : list A -> list A.
  Variable merge : list (list (row A)) -> list (row A).
  Variable maxrows : nat.
  Hypothesis maxrows_pos : 1 <= maxrows.

  Notation row := (row A).
  Notation sorted := (sorted A cmp).
  Notation tagged := (tagged A).
  Notation sw := (sw A).

  Definition le_sorted (l : list A) : Prop := StronglySorted (fun a b => (cmp a b <= 0)%Z) l.
  Definition lt_sorted (l : list A) : Prop := StronglySorted (fun a b => (cmp a b < 0)%Z) l.

  (** the contract of sort.Sort on the row buffer: a sorted permutation *)
  Definition sort_contract : Prop := forall l, Permutation (sortf l) l /\ le_sorted (sortf l).

  (** what C09 proves of the merged readers (run to io.EOF): the rows they
      deliver are a complete run of the abstract scheduler on the row groups *)
  Definition merge_contract : Prop :=
    forall st, Forall sorted st -> exists st', sched cmp st (merge st) st' /\ all_empty A st'.

  Hypothesis sort_ok : sort_contract.
  Hypothesis merge_ok : merge_contract.

  Lemma map_key_tag_from i : forall s (l : list A), map (@key A) (tag_from i s l) = l.
  Proof. intros s l; revert s; induction l as [|x l IH]; intros s; simpl; auto. now rewrite IH. Qed.

  Lemma tag_from_length i : forall s (l : list A), length (tag_from i s l) = length l.
  Proof. intros s l; revert s; induction l as [|x l IH]; intros s; simpl; auto. Qed.

  Lemma sorted_tag_from i : forall s l, le_sorted l -> sorted (tag_from i s l).
  Proof.
    intros s l H. revert s. induction H as [|x l Hs IH Hf]; intros s; simpl; constructor; [apply IH|].
    rewrite Forall_forall in *. intros r Hr.
    assert (Hk : In (key r) l) by (rewrite <- (map_key_tag_from i (S s) l); now apply in_map).
    unfold rle, rcmp. simpl. auto.
  Qed.

  Lemma sorted_keys m : sorted m -> le_sorted (map (@key A) m).
  Proof. intros H. apply StronglySorted_map. exact H. Qed.

  Lemma strict_keys m : StronglySorted (rlt A cmp) m -> lt_sorted (map (@key A) m).
  Proof. intros H. apply StronglySorted_map. exact H. Qed.

  Lemma strict_sorted m : StronglySorted (rlt A cmp) m -> sorted m.
  Proof. apply StronglySorted_impl. unfold rlt, rle. intros; lia. Qed.

  Lemma tagged_nil : tagged [].
  Proof. intros i l r Hi. destruct i; discriminate. Qed.

  Definition snoc_run (runs : list (list row)) (kept : list row) : list (list row) :=
    match kept with [] => runs | _ => runs ++ [kept] end.

  Lemma concat_snoc runs kept : concat (snoc_run runs kept) = concat runs ++ kept.
  Proof.
    unfold snoc_run. destruct kept; [now rewrite app_nil_r|].
    rewrite concat_app. simpl. now rewrite app_nil_r.
  Qed.

  Lemma Forall_snoc (Q : list row -> Prop) runs kept :
    Forall Q runs -> Q kept -> Forall Q (snoc_run runs kept).
  Proof.
    intros H1 H2. unfold snoc_run. destruct kept; auto. apply Forall_app. split; auto.
  Qed.

  Lemma tagged_snoc runs kept : tagged runs -> (forall r, In r kept -> input r = length runs) ->
    tagged (snoc_run runs kept).
  Proof.
    intros Ht Hk. unfold snoc_run. destruct kept as [|k0 kept]; auto.
    intros i l r Hi Hr. destruct (Nat.lt_ge_cases i (length runs)) as [Hlt|Hge].
    - rewrite nth_error_app1 in Hi by auto. eapply Ht; eauto.
    - rewrite nth_error_app2 in Hi by auto.
      destruct (i - length runs) as [|d] eqn:Ed; simpl in Hi.
      + inversion Hi; subst l. rewrite (Hk r Hr). lia.
      + destruct d; discriminate.
  Qed.

  Lemma sw_flush_buf dedupe keep_last (s : sw) : sw_buf A (sw_flush A cmp sortf dedupe keep_last s) = [].
  Proof.
    unfold sw_flush. destruct (sw_buf A s) eqn:E; [exact E|].
    destruct (if dedupe then _ else _). reflexivity.
  Qed.

  Lemma sw_flush_eq dedupe keep_last (s : sw) : sw_buf A s <> [] ->
    sw_flush A cmp sortf dedupe keep_last s =
    let run := tag (length (sw_runs A s)) (sortf (sw_buf A s)) in
    let kl := if dedupe then dedupe_batch cmp (sw_last A s) run else (run, sw_last A s) in
    mkSW A [] (snoc_run (sw_runs A s) (fst kl))
         (if dedupe then (if keep_last then snd kl else None) else sw_last A s)
         (sw_num A s + length (fst kl)).
  Proof.
    intros H. unfold sw_flush. destruct (sw_buf A s) eqn:E; [contradiction|].
    cbv zeta. destruct (if dedupe then _ else _) as [kept last']. reflexivity.
  Qed.

  Section Generic.
    Variables dedupe keep_last : bool.
    Variable I : sw -> list A -> Prop.     (* state, rows written to the current file *)
    Variable P : list A -> list A -> Prop. (* output file, rows written to it *)

    Notation flush := (sw_flush A cmp sortf dedupe keep_last).
    Notation write := (sw_write A cmp sortf maxrows dedupe keep_last).
    Notation close := (sw_close A cmp sortf merge dedupe keep_last).
    Notation apply := (sw_apply A cmp sortf merge maxrows dedupe keep_last).

    Hypothesis I_flush : forall s p, I s p -> I (flush s) p.
    Hypothesis I_buf : forall s p x, I s p ->
      I (mkSW A (sw_buf A s ++ x) (sw_runs A s) (sw_last A s) (sw_num A s)) (p ++ x).
    Hypothesis I_close : forall s p, I s p -> P (fst (close s)) p /\ I (snd (close s)) [].
    Hypothesis I_reset : forall s p, I s p -> I (sw_reset A s) [].

    Lemma sw_write_inv : forall fuel s b p, length b <= fuel -> I s p -> I (write fuel s b) (p ++ b).
    Proof.
      induction fuel as [|f IH]; intros s b p Hl Hi.
      - destruct b; simpl in *; [now rewrite app_nil_r|lia].
      - destruct b as [|a b]; [simpl; now rewrite app_nil_r|].
        cbn [sw_write].
        set (s1 := if maxrows <=? length (sw_buf A s) then flush s else s).
        assert (H1 : I s1 p) by (unfold s1; destruct (maxrows <=? length (sw_buf A s)); auto).
        set (n := maxrows - length (sw_buf A s1)).
        assert (Hn : 1 <= n).
        { unfold n, s1. destruct (Nat.leb_spec maxrows (length (sw_buf A s))).
          - rewrite sw_flush_buf. simpl. lia.
          - lia. }
        replace (p ++ a :: b) with ((p ++ firstn n (a :: b)) ++ skipn n (a :: b))
          by (now rewrite <- app_assoc, firstn_skipn).
        apply IH; [|now apply I_buf].
        rewrite skipn_length. cbn [length] in *. clearbody n. lia.
    Qed.

    (* the files closed so far satisfy P against the rows written to them *)
    Theorem sw_fold_inv ops : forall s files p spec,
      I s p -> Forall2 P files spec ->
      let st := fold_left apply ops (s, files) in
      Forall2 P (snd st) (spec ++ sw_written A p ops) /\ exists p', I (fst st) p'.
    Proof.
      induction ops as [|o ops IH]; intros s files p spec Hi Hf; cbn [fold_left sw_written].
      - cbv zeta. rewrite app_nil_r. split; [exact Hf|]. exists p. exact Hi.
      - destruct o as [b| | |]; cbn [sw_apply].
        + apply IH; auto. apply sw_write_inv; auto.
        + apply IH; auto.
        + destruct (I_close s p Hi) as [C1 C2]. destruct (close s) as [out s'] eqn:E.
          simpl in C1, C2.
          replace (spec ++ p :: sw_written A [] ops) with ((spec ++ [p]) ++ sw_written A [] ops)
            by (now rewrite <- app_assoc).
          apply IH; auto. apply Forall2_app; auto.
        + apply IH; auto. eapply I_reset; eauto.
    Qed.
  End Generic.

  Section Plain.
    Variable keep_last : bool.

    Definition inv_plain (s : sw) (p : list A) : Prop :=
      Permutation (sw_buf A s ++ map (@key A) (concat (sw_runs A s))) p /\
      Forall sorted (sw_runs A s) /\ tagged (sw_runs A s) /\
      sw_num A s = length (concat (sw_runs A s)).

    Definition out_plain (out w : list A) : Prop := le_sorted out /\ Permutation out w.

    Lemma plain_flush s p : inv_plain s p -> inv_plain (sw_flush A cmp sortf false keep_last s) p.
    Proof.
      intros (Hp & Hs & Ht & Hn). destruct (sw_buf A s) as [|a l] eqn:Eb.
      - unfold sw_flush. rewrite Eb. unfold inv_plain. rewrite Eb. auto.
      - rewrite sw_flush_eq by (rewrite Eb; discriminate). cbv zeta. cbn [fst snd].
        destruct (sort_ok (sw_buf A s)) as [Sp Ss]. unfold inv_plain. cbn [sw_buf sw_runs sw_num].
        rewrite concat_snoc. split; [|split; [|split]].
        + simpl. rewrite map_app. unfold tag. rewrite map_key_tag_from.
          eapply perm_trans; [|exact Hp]. rewrite Eb.
          eapply perm_trans; [apply Permutation_app_comm|]. apply Permutation_app_tail.
          rewrite <- Eb. exact Sp.
        + apply Forall_snoc; auto. apply sorted_tag_from. exact Ss.
        + apply tagged_snoc; auto. intros r Hr. eapply tag_from_input; eauto.
        + rewrite app_length. lia.
    Qed.

    Lemma plain_buf s p x : inv_plain s p ->
      inv_plain (mkSW A (sw_buf A s ++ x) (sw_runs A s) (sw_last A s) (sw_num A s)) (p ++ x).
    Proof.
      intros (Hp & Hs & Ht & Hn). unfold inv_plain. cbn [sw_buf sw_runs sw_num].
      split; [|auto]. rewrite <- app_assoc.
      eapply perm_trans; [apply Permutation_app_head, Permutation_app_comm|].
      rewrite app_assoc. now apply Permutation_app_tail.
    Qed.

    Lemma plain_empty last : inv_plain (mkSW A [] [] last 0) [].
    Proof. unfold inv_plain. simpl. auto using tagged_nil. Qed.

    Lemma plain_close s p : inv_plain s p ->
      out_plain (fst (sw_close A cmp sortf merge false keep_last s)) p /\
      inv_plain (snd (sw_close A cmp sortf merge false keep_last s)) [].
    Proof.
      intros Hi. apply plain_flush in Hi. unfold sw_close. cbn [fst snd].
      set (s1 := sw_flush A cmp sortf false keep_last s) in *.
      assert (Eb : sw_buf A s1 = []) by apply sw_flush_buf.
      destruct Hi as (Hp & Hs & Ht & Hn). rewrite Eb in Hp. simpl in Hp. split.
      - destruct (sw_num A s1) eqn:En.
        + assert (Ec : concat (sw_runs A s1) = []) by (apply length_zero_iff_nil; lia).
          rewrite Ec in Hp. simpl in Hp. split; [constructor|exact Hp].
        + destruct (merge_ok _ Hs) as [st' [Hrun He]].
          destruct (sched_complete_correct A cmp cmp_opp cmp_trans _ _ _ Hrun He Hs Ht) as (M1 & M2 & _).
          split; [now apply sorted_keys|].
          eapply perm_trans; [|exact Hp]. apply Permutation_map. now apply Permutation_sym.
      - rewrite Eb. apply plain_empty.
    Qed.

    Lemma plain_reset s p : inv_plain s p -> inv_plain (sw_reset A s) [].
    Proof. intros _. apply plain_empty. Qed.

    (** every file closed holds a sorted permutation of the rows written to it *)
    Theorem sorting_writer_sorted_permutation ops :
      Forall2 out_plain (sw_run A cmp sortf merge maxrows false keep_last ops) (sw_written A [] ops).
    Proof.
      unfold sw_run, sw_exec.
      destruct (sw_fold_inv false keep_last inv_plain out_plain plain_flush plain_buf plain_close plain_reset
                            ops (sw_init A) [] [] [] (plain_empty None) (Forall2_nil _)) as [H _].
      exact H.
    Qed.

    (** stability, as the code has it: sort.Sort is not stable, the merge is
        stable per row group -- the rows of one sorted run reach the output in
        the order of the run *)
    Theorem sorting_writer_runs_keep_order ops :
      let s1 := sw_flush A cmp sortf false keep_last
                  (fst (sw_exec A cmp sortf merge maxrows false keep_last ops)) in
      let m := merge (sw_runs A s1) in
      sorted m /\ Permutation (concat (sw_runs A s1)) m /\
      forall i, of_input A i m = nth i (sw_runs A s1) [].
    Proof.
      unfold sw_exec.
      destruct (sw_fold_inv false keep_last inv_plain out_plain plain_flush plain_buf plain_close plain_reset
                            ops (sw_init A) [] [] [] (plain_empty None) (Forall2_nil _)) as [_ [p Hi]].
      cbv zeta. apply plain_flush in Hi. destruct Hi as (_ & Hs & Ht & _).
      destruct (merge_ok _ Hs) as [st' [Hrun He]].
      exact (sched_complete_correct A cmp cmp_opp cmp_trans _ _ _ Hrun He Hs Ht).
    Qed.
  End Plain.

  Definition eqk (a b : A) : Prop := cmp a b = 0%Z.

  Lemma eqk_refl a : eqk a a.
  Proof. apply (Base.Order.cmp_refl A cmp cmp_opp). Qed.

  Lemma eqk_sym a b : eqk a b -> eqk b a.
  Proof. apply (Base.Order.cmp_eq_sym A cmp cmp_opp). Qed.

  Lemma eqk_trans a b d : eqk a b -> eqk b d -> eqk a d.
  Proof. apply (cmp_eq_trans A cmp cmp_opp cmp_trans). Qed.

  Definition inv_dedupe (s : sw) (p : list A) : Prop :=
    (forall a, In a p -> In a (sw_buf A s) \/ exists r, In r (concat (sw_runs A s)) /\ eqk a (key r)) /\
    (forall a, In a (sw_buf A s) -> In a p) /\
    (forall r, In r (concat (sw_runs A s)) -> In (key r) p) /\
    Forall sorted (sw_runs A s) /\ tagged (sw_runs A s) /\
    sw_num A s = length (concat (sw_runs A s)) /\ sw_last A s = None.

  (* exactly one row for each key written: strictly increasing, every key
     written is represented, every row is one of the rows written *)
  Definition out_dedupe (out w : list A) : Prop :=
    lt_sorted out /\
    (forall a, In a w -> exists b, In b out /\ eqk a b) /\
    (forall b, In b out -> In b w).

  (* the deduplication of one sorted sequence (Merge/DedupeProofs.v) *)
  Lemma dedupe_spec_props m : sorted m ->
    let u := dedupe_spec cmp m in
    StronglySorted (rlt A cmp) u /\
    (forall x, In x m -> exists y, In y u /\ rcmp cmp x y = 0%Z) /\
    (forall y, In y u -> In y m).
  Proof.
    intros Hs u. unfold u. rewrite (dedupe_first_of_runs A cmp cmp_opp cmp_trans).
    split; [now apply (firsts_sorted A cmp cmp_opp cmp_trans)|]. split.
    - intros x Hx. destruct (firsts_from_complete A cmp cmp_opp cmp_trans m None x Hx) as [[q [Eq _]]|H];
        [discriminate|exact H].
    - intros y Hy. eapply subseq_in; [apply firsts_from_subseq|exact Hy].
  Qed.

  Lemma dedupe_flush s p : inv_dedupe s p -> inv_dedupe (sw_flush A cmp sortf true false s) p.
  Proof.
    intros (Hc & Hb & Hr & Hs & Ht & Hn & Hl). destruct (sw_buf A s) as [|a l] eqn:Eb.
    - unfold sw_flush. rewrite Eb. unfold inv_dedupe. rewrite Eb. repeat split; auto.
    - rewrite sw_flush_eq by (rewrite Eb; discriminate). cbv zeta. rewrite Hl.
      set (run := tag (length (sw_runs A s)) (sortf (sw_buf A s))).
      destruct (sort_ok (sw_buf A s)) as [Sp Ss].
      assert (Srun : sorted run) by (apply sorted_tag_from; exact Ss).
      change (fst (dedupe_batch cmp None run)) with (dedupe_spec cmp run).
      destruct (dedupe_spec_props run Srun) as (D1 & D2 & D3). cbv zeta in D1, D2, D3.
      set (kept := dedupe_spec cmp run) in *.
      assert (Krun : forall r, In r run -> In (key r) (sw_buf A s)).
      { intros r Hr0. apply (Permutation_in _ Sp). rewrite <- (map_key_tag_from (length (sw_runs A s)) 0).
        now apply in_map. }
      unfold inv_dedupe. cbn [sw_buf sw_runs sw_num sw_last]. rewrite concat_snoc.
      split; [|split; [|split; [|split; [|split; [|split]]]]].
      + intros x Hx. right. destruct (Hc x Hx) as [Hin|[r [Hin He]]].
        * assert (Hx' : In x (sortf (sw_buf A s))) by (apply (Permutation_in _ (Permutation_sym Sp)); now rewrite Eb).
          assert (exists r0, In r0 run /\ key r0 = x) as [r0 [Hr0 Ek]].
          { rewrite <- (map_key_tag_from (length (sw_runs A s)) 0 (sortf (sw_buf A s))) in Hx'.
            apply in_map_iff in Hx'. destruct Hx' as [r0 [E0 H0]]. eauto. }
          destruct (D2 r0 Hr0) as [y [Hy Ey]]. exists y. split; [apply in_or_app; now right|].
          unfold eqk. rewrite <- Ek. exact Ey.
        * exists r. split; [apply in_or_app; now left|exact He].
      + intros x [].
      + intros r Hin. apply in_app_or in Hin. destruct Hin as [Hin|Hin]; [auto|].
        apply Hb. rewrite <- Eb. apply Krun. now apply D3.
      + apply Forall_snoc; auto. now apply strict_sorted.
      + apply tagged_snoc; auto. intros r Hin. apply D3 in Hin. eapply tag_from_input; eauto.
      + rewrite app_length. lia.
      + reflexivity.
  Qed.

  Lemma dedupe_buf s p x : inv_dedupe s p ->
    inv_dedupe (mkSW A (sw_buf A s ++ x) (sw_runs A s) (sw_last A s) (sw_num A s)) (p ++ x).
  Proof.
    intros (Hc & Hb & Hr & Hs & Ht & Hn & Hl). unfold inv_dedupe. cbn [sw_buf sw_runs sw_num sw_last].
    split; [|split; [|split]]; auto.
    - intros a Ha. apply in_app_or in Ha. destruct Ha as [Ha|Ha].
      + destruct (Hc a Ha) as [H|H]; [left; apply in_or_app; now left|now right].
      + left. apply in_or_app. now right.
    - intros a Ha. apply in_app_or in Ha. apply in_or_app. destruct Ha; [left|right]; auto.
    - intros r Hin. apply in_or_app. left. auto.
  Qed.

  Lemma dedupe_empty_state : inv_dedupe (mkSW A [] [] None 0) [].
  Proof.
    unfold inv_dedupe. simpl.
    split; [intros a []|]. split; [intros a []|]. split; [intros r []|].
    split; [constructor|]. split; [apply tagged_nil|auto].
  Qed.

  Lemma dedupe_close s p : inv_dedupe s p ->
    out_dedupe (fst (sw_close A cmp sortf merge true false s)) p /\
    inv_dedupe (snd (sw_close A cmp sortf merge true false s)) [].
  Proof.
    intros Hi. apply dedupe_flush in Hi. unfold sw_close. cbn [fst snd].
    set (s1 := sw_flush A cmp sortf true false s) in *.
    assert (Eb : sw_buf A s1 = []) by apply sw_flush_buf.
    destruct Hi as (Hc & Hb & Hr & Hs & Ht & Hn & Hl). split.
    - destruct (sw_num A s1) eqn:En.
      + assert (Ec : concat (sw_runs A s1) = []) by (apply length_zero_iff_nil; lia).
        split; [constructor|]. split; [|intros b []].
        intros a Ha. exfalso. destruct (Hc a Ha) as [H|[r [H _]]].
        * now rewrite Eb in H.
        * now rewrite Ec in H.
      + destruct (merge_ok _ Hs) as [st' [Hrun He]].
        destruct (sched_complete_correct A cmp cmp_opp cmp_trans _ _ _ Hrun He Hs Ht) as (M1 & M2 & _).
        destruct (dedupe_spec_props _ M1) as (D1 & D2 & D3). cbv zeta in D1, D2, D3.
        split; [now apply strict_keys|]. split.
        * intros a Ha. destruct (Hc a Ha) as [H|[r [H E]]]; [now rewrite Eb in H|].
          assert (Hm : In r (merge (sw_runs A s1))) by (apply (Permutation_in _ M2); exact H).
          destruct (D2 r Hm) as [y [Hy Ey]]. exists (key y). split; [now apply in_map|].
          eapply eqk_trans; [exact E|exact Ey].
        * intros b Hb'. apply in_map_iff in Hb'. destruct Hb' as [y [<- Hy]].
          apply Hr. apply (Permutation_in _ (Permutation_sym M2)). now apply D3.
    - rewrite Eb, Hl. apply dedupe_empty_state.
  Qed.

  Lemma dedupe_reset s p : inv_dedupe s p -> inv_dedupe (sw_reset A s) [].
  Proof. intros (_ & _ & _ & _ & _ & _ & Hl). unfold sw_reset. rewrite Hl. apply dedupe_empty_state. Qed.

  (** with DropDuplicatedRows every file closed holds exactly one row for each
      key written to it (and no other row), in order -- whatever the run size,
      the batching, the flushes and the files written before *)
  Theorem sorting_writer_dedupe_one_per_key ops :
    Forall2 out_dedupe (sw_run A cmp sortf merge maxrows true false ops) (sw_written A [] ops).
  Proof.
    unfold sw_run, sw_exec.
    destruct (sw_fold_inv true false inv_dedupe out_dedupe dedupe_flush dedupe_buf dedupe_close dedupe_reset
                          ops (sw_init A) [] [] [] dedupe_empty_state (Forall2_nil _)) as [H _].
    exact H.
  Qed.

  Lemma lt_le_trans' a b d : (cmp a b < 0)%Z -> (cmp b d <= 0)%Z -> (cmp a d < 0)%Z.
  Proof. apply (cmp_lt_le_trans A cmp cmp_opp cmp_trans). Qed.

  Lemma le_lt_trans' a b d : (cmp a b <= 0)%Z -> (cmp b d < 0)%Z -> (cmp a d < 0)%Z.
  Proof. apply (cmp_le_lt_trans A cmp cmp_opp cmp_trans). Qed.

  (** the rows of the output are determined up to the choice among rows of
      equal keys: two strictly increasing sequences that represent the same
      keys carry equal keys at equal positions *)
  Lemma strict_cover_unique l1 : forall l2, lt_sorted l1 -> lt_sorted l2 ->
    (forall a, In a l1 -> exists b, In b l2 /\ eqk a b) ->
    (forall b, In b l2 -> exists a, In a l1 /\ eqk b a) ->
    Forall2 eqk l1 l2.
  Proof.
    clear maxrows_pos sort_ok merge_ok.
    induction l1 as [|x t1 IH]; intros l2 S1 S2 C1 C2.
    - destruct l2 as [|y t2]; [constructor|]. destruct (C2 y (or_introl eq_refl)) as [a [[] _]].
    - destruct l2 as [|y t2]; [destruct (C1 x (or_introl eq_refl)) as [b [[] _]]|].
      inversion S1 as [|? ? S1' F1]; subst. inversion S2 as [|? ? S2' F2]; subst.
      rewrite Forall_forall in F1, F2.
      assert (Exy : eqk x y).
      { destruct (C1 x (or_introl eq_refl)) as [b [[<-|Hb] Eb]]; [exact Eb|].
        assert (Hyb : (cmp y b < 0)%Z) by auto.
        assert (Hyx : (cmp y x < 0)%Z).
        { apply lt_le_trans' with b; auto. apply eqk_sym in Eb. unfold eqk in Eb. lia. }
        destruct (C2 y (or_introl eq_refl)) as [a [[<-|Ha] Ea]].
        - unfold eqk in Ea. lia.
        - assert (Hxa : (cmp x a < 0)%Z) by auto.
          assert (Hxy : (cmp x y < 0)%Z).
          { apply lt_le_trans' with a; auto. apply eqk_sym in Ea. unfold eqk in Ea. lia. }
          assert (O := cmp_opp x y). lia. }
      constructor; [exact Exy|]. apply IH; auto.
      + intros a Ha. destruct (C1 a (or_intror Ha)) as [b [[<-|Hb] Eb]]; [|eauto].
        exfalso. assert (Hxa : (cmp x a < 0)%Z) by auto.
        assert (eqk a x) by (eapply eqk_trans; [exact Eb|apply eqk_sym; exact Exy]).
        apply eqk_sym in H. unfold eqk in H. lia.
      + intros b Hb. destruct (C2 b (or_intror Hb)) as [a [[<-|Ha] Ea]]; [|eauto].
        exfalso. assert (Hyb : (cmp y b < 0)%Z) by auto.
        assert (eqk b y) by (eapply eqk_trans; [exact Ea|exact Exy]).
        apply eqk_sym in H. unfold eqk in H. lia.
  Qed.

  Theorem out_dedupe_unique out1 w1 out2 w2 :
    out_dedupe out1 w1 -> out_dedupe out2 w2 ->
    (forall a, In a w1 -> exists b, In b w2 /\ eqk a b) ->
    (forall b, In b w2 -> exists a, In a w1 /\ eqk b a) ->
    Forall2 eqk out1 out2.
  Proof.
    clear maxrows_pos sort_ok merge_ok.
    intros (S1 & C1 & I1) (S2 & C2 & I2) H12 H21. apply strict_cover_unique; auto.
    - intros a Ha. destruct (H12 a (I1 a Ha)) as [b [Hb E]]. destruct (C2 b Hb) as [d [Hd E']].
      exists d. split; auto. eapply eqk_trans; eauto.
    - intros b Hb. destruct (H21 b (I2 b Hb)) as [a [Ha E]]. destruct (C1 a Ha) as [d [Hd E']].
      exists d. split; auto. eapply eqk_trans; eauto.
  Qed.
End WriterProofs.

Lemma Forall2_compose {X} (P Q R : X -> X -> Prop) :
  (forall o1 w1 o2 w2, P o1 w1 -> P o2 w2 -> Q w1 w2 -> R o1 o2) ->
  forall o1s w1s, Forall2 P o1s w1s -> forall o2s w2s, Forall2 P o2s w2s ->
  Forall2 Q w1s w2s -> Forall2 R o1s o2s.
Proof.
  intros H o1s w1s H1. induction H1 as [|o1 w1 o1s w1s Hp _ IH]; intros o2s w2s H2 Hq.
  - inversion Hq; subst. inversion H2; subst. constructor.
  - inversion Hq as [|? w2 ? w2s' Hq1 Hq2]; subst. inversion H2 as [|o2 ? o2s' ? Hp2 H2']; subst.
    constructor; eauto.
Qed.

(** With DropDuplicatedRows the keys of a file do not depend on the size of the
    sort runs, on the sort routine, on the merge, on the batching or on what the
    writer wrote before: two writers, two histories -- if the rows written to
    the k-th closed files carry the same keys, the k-th files carry equal keys
    at equal positions. *)
Definition same_keys {A : Type} (cmp : A -> A -> Z) (w1 w2 : list A) : Prop :=
  (forall a, In a w1 -> exists b, In b w2 /\ cmp a b = 0%Z) /\
  (forall b, In b w2 -> exists a, In a w1 /\ cmp b a = 0%Z).

Theorem sorting_writer_dedupe_independent (A : Type) (cmp : A -> A -> Z) :
  (forall a b, (cmp a b < 0 <-> cmp b a > 0)%Z) ->
  (forall a b d, (cmp a b <= 0 -> cmp b d <= 0 -> cmp a d <= 0)%Z) ->
  forall sortf1 merge1 maxrows1 ops1 sortf2 merge2 maxrows2 ops2,
  1 <= maxrows1 -> sort_contract A cmp sortf1 -> merge_contract A cmp merge1 ->
  1 <= maxrows2 -> sort_contract A cmp sortf2 -> merge_contract A cmp merge2 ->
  Forall2 (same_keys cmp) (sw_written A [] ops1) (sw_written A [] ops2) ->
  Forall2 (Forall2 (fun a b => cmp a b = 0%Z))
          (sw_run A cmp sortf1 merge1 maxrows1 true false ops1)
          (sw_run A cmp sortf2 merge2 maxrows2 true false ops2).
Proof.
  intros Ho Ht sortf1 merge1 maxrows1 ops1 sortf2 merge2 maxrows2 ops2 M1 S1 G1 M2 S2 G2 Hw.
  assert (H1 := sorting_writer_dedupe_one_per_key A cmp Ho Ht sortf1 merge1 maxrows1 M1 S1 G1 ops1).
  assert (H2 := sorting_writer_dedupe_one_per_key A cmp Ho Ht sortf2 merge2 maxrows2 M2 S2 G2 ops2).
  refine (Forall2_compose (out_dedupe A cmp) (same_keys cmp) _ _ _ _ H1 _ _ H2 Hw).
  intros o1 w1 o2 w2 P1 P2 [Q1 Q2]. exact (out_dedupe_unique A cmp Ho Ht o1 w1 o2 w2 P1 P2 Q1 Q2).
Qed.

Section RowBufferSort.
  Variable A : Type.
  Variable cmp : A -> A -> Z.
  Hypothesis cmp_opp : forall a b, (cmp a b < 0 <-> cmp b a > 0)%Z.
  Hypothesis cmp_trans : forall a b d, (cmp a b <= 0 -> cmp b d <= 0 -> cmp a d <= 0)%Z.

  (* RowBuffer.Less is a strict weak order on the rows of the buffer *)
  Definition rb_swo_n (l : list A) (n : nat) : Prop :=
    (forall i, i < n -> rb_less A cmp l i i = false) /\
    (forall i j k, i < n -> j < n -> k < n ->
       rb_less A cmp l i j = true -> rb_less A cmp l j k = true -> rb_less A cmp l i k = true) /\
    (forall i j k, i < n -> j < n -> k < n ->
       rb_less A cmp l i j = false -> rb_less A cmp l j i = false ->
       rb_less A cmp l j k = false -> rb_less A cmp l k j = false ->
       rb_less A cmp l i k = false /\ rb_less A cmp l k i = false).

  Definition rb_swo (l : list A) : Prop := rb_swo_n l (length l).

  Lemma rb_less_swo l : rb_swo l.
  Proof.
    apply (Base.Order.swo_of_cmp _ _ (Sort.CmpProofs.cmp_raw_opp A cmp cmp_opp) _
                                 (Sort.CmpProofs.cmp_raw_trans A cmp cmp_trans) _ (nth_error l)).
    - intros i j _ _. unfold rb_less. destruct (nth_error l i), (nth_error l j); reflexivity.
    - intros i. apply nth_error_Some.
  Qed.

  Lemma rb_swaps_perm sws : forall l, Permutation (rb_swaps A l sws) l.
  Proof.
    induction sws as [|p sws IH]; intros l; simpl; auto.
    eapply perm_trans; [apply IH|]. apply Sort.ListLemmas.swapl_perm.
  Qed.

  Lemma adjacent_sorted l :
    (forall i a b, nth_error l i = Some a -> nth_error l (S i) = Some b -> (cmp a b <= 0)%Z) ->
    le_sorted A cmp l.
  Proof.
    induction l as [|x t IH]; intros H; [constructor|].
    assert (Ht : le_sorted A cmp t) by (apply IH; intros i a b Ha Hb; apply (H (S i)); auto).
    constructor; auto.
    destruct t as [|y t']; [constructor|].
    assert (Hxy : (cmp x y <= 0)%Z) by (apply (H 0); reflexivity).
    constructor; auto. inversion Ht as [|? ? _ Hf]; subst.
    eapply Forall_impl; [|exact Hf]. intros z Hz. simpl in Hz. eapply cmp_trans; eauto.
  Qed.

  (* sort.Sort only calls Len, Less and Swap; when Less is a strict weak order
     the exchanges it performs leave no adjacent inversion *)
  Variable sort_swaps : list A -> list (nat * nat).
  Hypothesis sort_sorts : forall l, rb_swo l ->
    forall i, S i < length l -> rb_less A cmp (rb_swaps A l (sort_swaps l)) (S i) i = false.

  Theorem rb_sort_contract : sort_contract A cmp (fun l => rb_swaps A l (sort_swaps l)).
  Proof.
    intros l. split; [apply rb_swaps_perm|]. apply adjacent_sorted. intros i a b Ha Hb.
    assert (Hlen : length (rb_swaps A l (sort_swaps l)) = length l)
      by (apply Permutation_length, rb_swaps_perm).
    assert (Hi : S i < length l).
    { rewrite <- Hlen. apply nth_error_Some. congruence. }
    assert (H := sort_sorts l (rb_less_swo l) i Hi). unfold rb_less in H. rewrite Ha, Hb in H.
    apply Z.ltb_ge in H. assert (O := cmp_opp a b). assert (O' := cmp_opp b a). lia.
  Qed.
End RowBufferSort.

Lemma isort_contract (A : Type) (cmp : A -> A -> Z) :
  (forall a b, (cmp a b < 0 <-> cmp b a > 0)%Z) ->
  (forall a b d, (cmp a b <= 0 -> cmp b d <= 0 -> cmp a d <= 0)%Z) ->
  sort_contract A cmp (isort A cmp).
Proof.
  intros Ho Ht l. split.
  - symmetry. apply (isort_perm (fun x y => (cmp x y <=? 0)%Z) (insert_sorted A cmp)); reflexivity.
  - apply (isort_sorted (fun x y => (cmp x y <=? 0)%Z) (insert_sorted A cmp)); try reflexivity.
    + intros x y. apply Z.leb_le.
    + intros x y E. apply Z.leb_gt in E. pose proof (Ho y x). lia.
    + intros x y z. apply Ht.
Qed.

Lemma ref_merge_contract (A : Type) (cmp : A -> A -> Z) :
  (forall a b, (cmp a b < 0 <-> cmp b a > 0)%Z) ->
  (forall a b d, (cmp a b <= 0 -> cmp b d <= 0 -> cmp a d <= 0)%Z) ->
  merge_contract A cmp (ref_merge_all cmp).
Proof.
  intros Ho Ht st _. unfold ref_merge_all. apply (ref_merge_sched A cmp Ho Ht). lia.
Qed.

(** the merged reader of merge.go (any number of row groups, any chunking of
    the sources, slices of [b] rows), read to io.EOF, meets the contract:
    C09_mergeK_refines and C09_mergeK_terminates *)
Definition mergek_all {A : Type} (cmp : A -> A -> Z) (chunks : list (list (row A)) -> list (list nat))
           (b : nat) (st : list (list (row A))) : list (row A) :=
  concat (fst (fst (mergek cmp st (chunks st) (repeat b (length (concat st) + 2))))).

Lemma mergek_all_contract (A : Type) (cmp : A -> A -> Z) chunks b :
  (forall a b, (cmp a b < 0 <-> cmp b a > 0)%Z) ->
  (forall a b d, (cmp a b <= 0 -> cmp b d <= 0 -> cmp a d <= 0)%Z) ->
  1 <= b -> merge_contract A cmp (mergek_all cmp chunks b).
Proof.
  intros Ho Ht Hb st Hs. unfold mergek_all.
  destruct (mergek cmp st (chunks st) (repeat b (length (concat st) + 2))) as [[outs eof] m'] eqn:E.
  assert (Eof : eof = true).
  { eapply (Merge.ProgressProofs.mergek_terminates A cmp Ho Ht); [exact Hs| | |exact E].
    - apply Forall_forall. intros n Hn. apply repeat_spec in Hn. subst n. exact Hb.
    - rewrite repeat_length. lia. }
  destruct (Merge.TreeProofs.mergek_refines A cmp Ho Ht _ _ _ _ _ _ Hs E) as [R1 R2].
  cbn [fst]. eexists. split; [exact R1|exact (R2 Eof)].
Qed.
