(** The module envelope under an idealised AEAD (Aad/Model.v Section Envelope).

    AES-GCM is NOT modelled.  [seal] / [open_] are parameters and everything
    here is conditional on [aead_ok] and [aad_unique]:
    - [seal_length_ok]: the ciphertext is the plaintext length plus the tag;
    - correctness: what an honest writer sealed opens to its plaintext under
      the same key, nonce and AAD;
    - idealised authenticity (INT-CTXT): whatever opens was produced by one of
      the recorded Seal calls with exactly that key, nonce and AAD (no
      forgeries; nobody else holds a key the readers use);
    - [sealed_shape] of every recorded call;
    - [aad_unique]: no two recorded Seal calls used the same AAD (discharged
      for the writer model by [entries_aad_unique] below).
    Confidentiality (ciphertexts reveal nothing about plaintexts) is not
    stated or used anywhere. *)
From Coq Require Import List ZArith NArith Bool Lia.
From PQ Require Import Base.Bytes Base.ListExtra Aad.Model Aad.Proofs.
Import ListNotations.

Lemma nonce_size_eq : nonce_size = 12%nat. Proof. reflexivity. Qed.
Lemma tag_size_eq : tag_size = 16%nat. Proof. reflexivity. Qed.

Section Aead.
  Variable key : Type.
  Variable seal : key -> bytes -> bytes -> bytes -> bytes.
  Variable open_ : key -> bytes -> bytes -> bytes -> option bytes.

  (** One Seal call of a writer. *)
  Record sealed_mod := mkSealed { s_key : key; s_nonce : bytes; s_aad : bytes; s_plain : bytes }.

  Definition s_cipher (s : sealed_mod) : bytes := seal (s_key s) (s_nonce s) (s_aad s) (s_plain s).

  Definition envelope_of (s : sealed_mod) : bytes :=
    encrypt_module key seal (s_key s) (s_nonce s) (s_aad s) (s_plain s).

  (** Shape of real modules: 12-byte nonces, module length below 2^32. *)
  Definition sealed_shape (s : sealed_mod) : Prop :=
    length (s_nonce s) = nonce_size /\
    (N.of_nat (nonce_size + length (s_cipher s)) < 256 ^ N.of_nat 4)%N.

  Definition seal_length_ok : Prop := forall k n a p, length (seal k n a p) = (length p + tag_size)%nat.

  Lemma envelope_length s : sealed_shape s ->
    length (envelope_of s) = (4 + nonce_size + length (s_cipher s))%nat.
  Proof.
    intros [Hn _]. unfold envelope_of, encrypt_module. fold (s_cipher s).
    rewrite !app_length, to_le_length, Hn. lia.
  Qed.

  (** ** Parsing an envelope the writer produced (possibly followed by more bytes) *)
  Lemma decrypt_envelope k a s rest : seal_length_ok -> sealed_shape s ->
    decrypt_module key open_ k a (envelope_of s ++ rest) = open_ k (s_nonce s) a (s_cipher s).
  Proof.
    intros seal_length [Hn Hlen]. unfold decrypt_module, envelope_of, encrypt_module. fold (s_cipher s).
    set (ct := s_cipher s) in *. set (n := s_nonce s) in *.
    set (x := N.of_nat (nonce_size + length ct)) in *.
    assert (Hct : length ct = (length (s_plain s) + tag_size)%nat) by apply seal_length.
    rewrite nonce_size_eq, tag_size_eq in *.
    assert (L4 : length (to_le 4 x) = 4%nat) by apply to_le_length.
    assert (E : (to_le 4 x ++ n ++ ct) ++ rest = to_le 4 x ++ n ++ ct ++ rest) by now rewrite <- !app_assoc.
    rewrite E.
    assert (F4 : firstn 4 (to_le 4 x ++ n ++ ct ++ rest) = to_le 4 x) by (apply firstn_app_len; exact L4).
    assert (S4 : skipn 4 (to_le 4 x ++ n ++ ct ++ rest) = n ++ ct ++ rest) by (apply skipn_app_len; exact L4).
    assert (S16 : skipn (4 + 12) (to_le 4 x ++ n ++ ct ++ rest) = ct ++ rest).
    { rewrite (app_assoc (to_le 4 x) n). apply skipn_app_len. rewrite app_length. lia. }
    assert (LL : length (to_le 4 x ++ n ++ ct ++ rest) = (4 + 12 + length ct + length rest)%nat).
    { rewrite !app_length. lia. }
    rewrite F4, S4, S16, LL.
    rewrite (of_le_to_le 4 x Hlen). unfold x. rewrite Nat2N.id. rewrite nonce_size_eq.
    destruct (Nat.ltb_spec (4 + 12 + length ct + length rest) 4); [lia|].
    destruct (Nat.ltb_spec (4 + 12 + length ct + length rest) (4 + (12 + length ct))); [lia|].
    destruct (Nat.ltb_spec (12 + length ct) (12 + 16)); [lia|].
    rewrite (firstn_app_len 12 n (ct ++ rest) Hn).
    replace (12 + length ct - 12)%nat with (length ct) by lia.
    rewrite firstn_app_exact. reflexivity.
  Qed.

  (** ** The streamed reader on an envelope the writer produced, of any size *)
  Lemma read_envelope_from_sealed k a s rest : seal_length_ok -> sealed_shape s ->
    read_envelope_from key open_ k a (envelope_of s ++ rest) =
    match open_ k (s_nonce s) a (s_cipher s) with Some p => Some (p, rest) | None => None end.
  Proof.
    intros seal_length Hs. pose proof Hs as [Hn Hlen].
    pose proof (envelope_length s Hs) as Lenv.
    unfold read_envelope_from.
    assert (F4 : firstn 4 (envelope_of s ++ rest) = to_le 4 (N.of_nat (nonce_size + length (s_cipher s)))).
    { unfold envelope_of, encrypt_module. fold (s_cipher s). rewrite <- !app_assoc.
      apply firstn_app_len. apply to_le_length. }
    rewrite F4, (of_le_to_le 4 _ Hlen), Nat2N.id, app_length, Lenv.
    destruct (Nat.ltb_spec (4 + nonce_size + length (s_cipher s) + length rest) 4); [lia|].
    destruct (Nat.ltb_spec (4 + nonce_size + length (s_cipher s) + length rest)
                           (4 + (nonce_size + length (s_cipher s)))); [lia|].
    rewrite (firstn_app_len (4 + (nonce_size + length (s_cipher s))) (envelope_of s) rest) by lia.
    rewrite (skipn_app_len (4 + (nonce_size + length (s_cipher s))) (envelope_of s) rest) by lia.
    rewrite <- (app_nil_r (envelope_of s)) at 1.
    rewrite (decrypt_envelope k a s [] seal_length Hs). reflexivity.
  Qed.

  (** The length field of an envelope is [len_field] of the plaintext length. *)
  Lemma envelope_len_field s : seal_length_ok ->
    envelope_of s = len_field (N.of_nat (length (s_plain s))) ++ s_nonce s ++ s_cipher s.
  Proof.
    intros seal_length. unfold envelope_of, encrypt_module, len_field, module_len_of_plain. fold (s_cipher s).
    unfold s_cipher at 1. rewrite seal_length. do 2 f_equal. lia.
  Qed.

  (** ** What a successful decryption tells about the bytes presented *)
  Lemma decrypt_module_parse k a env p :
    wf_bytes env ->
    decrypt_module key open_ k a env = Some p ->
    exists n ct rest,
      env = to_le 4 (N.of_nat (nonce_size + length ct)) ++ n ++ ct ++ rest /\
      length n = nonce_size /\ open_ k n a ct = Some p.
  Proof.
    intros Hwf. unfold decrypt_module. rewrite nonce_size_eq, tag_size_eq.
    destruct (Nat.ltb_spec (length env) 4) as [|H4]; [discriminate|].
    set (mlen := N.to_nat (of_le (firstn 4 env))).
    destruct (Nat.ltb_spec (length env) (4 + mlen)) as [|Hl]; [discriminate|].
    destruct (Nat.ltb_spec mlen (12 + 16)) as [|Hm]; [discriminate|].
    intros Ho.
    exists (firstn 12 (skipn 4 env)), (firstn (mlen - 12) (skipn (4 + 12) env)),
           (skipn (mlen - 12) (skipn (4 + 12) env)).
    assert (Ls4 : length (skipn 4 env) = (length env - 4)%nat) by apply skipn_length.
    assert (Ls16 : length (skipn (4 + 12) env) = (length env - (4 + 12))%nat) by apply skipn_length.
    assert (Lct : length (firstn (mlen - 12) (skipn (4 + 12) env)) = (mlen - 12)%nat).
    { rewrite firstn_length, Ls16. lia. }
    assert (Ln : length (firstn 12 (skipn 4 env)) = 12%nat).
    { rewrite firstn_length, Ls4. lia. }
    split; [|split; [exact Ln|exact Ho]].
    rewrite Lct. replace (12 + (mlen - 12))%nat with mlen by lia.
    assert (F4 : firstn 4 env = to_le 4 (N.of_nat mlen)).
    { unfold mlen. rewrite N2Nat.id.
      assert (L : length (firstn 4 env) = 4%nat) by (rewrite firstn_length; lia).
      rewrite <- L at 2. symmetry. apply to_le_of_le. apply Forall_firstn. exact Hwf. }
    rewrite <- F4.
    rewrite (skipn_add 4 12 env), !firstn_skipn. reflexivity.
  Qed.

  Variable sealed : list sealed_mod.

  (** The AEAD contract, relative to the log [sealed] of all Seal calls. *)
  Definition aead_ok : Prop :=
    seal_length_ok /\
    (* correctness on what was sealed *)
    (forall s, In s sealed ->
       open_ (s_key s) (s_nonce s) (s_aad s) (s_cipher s) = Some (s_plain s)) /\
    (* idealised authenticity *)
    (forall k n a c p, open_ k n a c = Some p ->
       exists s, In s sealed /\ s_key s = k /\ s_nonce s = n /\ s_aad s = a /\ s_plain s = p /\ c = s_cipher s) /\
    (forall s, In s sealed -> sealed_shape s).

  Definition aad_unique : Prop :=
    forall s1 s2, In s1 sealed -> In s2 sealed -> s_aad s1 = s_aad s2 -> s1 = s2.

  (** A reader holding the right key and computing the writer's AAD recovers
      the plaintext of the module. *)
  Theorem decrypt_roundtrip s : aead_ok -> In s sealed ->
    decrypt_module key open_ (s_key s) (s_aad s) (envelope_of s) = Some (s_plain s).
  Proof.
    intros (seal_length & open_seal & auth & shapes) Hs. rewrite <- (app_nil_r (envelope_of s)).
    rewrite decrypt_envelope; [apply open_seal; exact Hs|exact seal_length|apply shapes; exact Hs].
  Qed.

  (** The same through the streamed reader, whatever follows the module in the
      stream and whatever the size of the module (below 2^32, [sealed_shape]). *)
  Theorem stream_roundtrip s rest : aead_ok -> In s sealed ->
    read_envelope_from key open_ (s_key s) (s_aad s) (envelope_of s ++ rest) = Some (s_plain s, rest).
  Proof.
    intros (seal_length & open_seal & auth & shapes) Hs.
    rewrite read_envelope_from_sealed; [|exact seal_length|apply shapes; exact Hs].
    now rewrite (open_seal s Hs).
  Qed.

  (** Master statement: if ANY byte string decrypts under the AAD of a sealed
      module [s], with ANY key, then the key is [s]'s key, the result is [s]'s
      plaintext, and the byte string starts with exactly [s]'s envelope. *)
  Theorem decrypt_only_original s k env p :
    aead_ok -> aad_unique -> In s sealed -> wf_bytes env ->
    decrypt_module key open_ k (s_aad s) env = Some p ->
    k = s_key s /\ p = s_plain s /\ exists rest, env = envelope_of s ++ rest.
  Proof.
    intros (seal_length & open_seal & auth & shapes) aad_uniq Hs Hwf Hd.
    destruct (decrypt_module_parse k (s_aad s) env p Hwf Hd) as (n & ct & rest & He & Hn & Ho).
    destruct (auth _ _ _ _ _ Ho) as (s' & Hs' & Hk & Hn' & Ha & Hp & Hc).
    assert (s' = s) by (apply aad_uniq; assumption). subst s'.
    split; [symmetry; exact Hk|]. split; [symmetry; exact Hp|].
    exists rest. rewrite He. unfold envelope_of, encrypt_module. fold (s_cipher s).
    rewrite Hc, Hn'. now rewrite <- !app_assoc.
  Qed.

  (** ** Consequences: every kind of tampering makes the read fail *)
  Lemma decrypt_none_unless s k env :
    aead_ok -> aad_unique -> In s sealed -> wf_bytes env ->
    ~ (k = s_key s /\ exists rest, env = envelope_of s ++ rest) ->
    decrypt_module key open_ k (s_aad s) env = None.
  Proof.
    intros Hok Hu Hs Hwf Hn. destruct (decrypt_module key open_ k (s_aad s) env) as [p|] eqn:E; [|reflexivity].
    destruct (decrypt_only_original s k env p Hok Hu Hs Hwf E) as (A & _ & B). tauto.
  Qed.

  Corollary wrong_key_fails s k env :
    aead_ok -> aad_unique -> In s sealed -> wf_bytes env -> k <> s_key s ->
    decrypt_module key open_ k (s_aad s) env = None.
  Proof.
    intros Hok Hu Hs Hwf Hk. apply decrypt_none_unless; auto. tauto.
  Qed.

  Corollary modified_fails s k env :
    aead_ok -> aad_unique -> In s sealed -> wf_bytes env ->
    length env = length (envelope_of s) -> env <> envelope_of s ->
    decrypt_module key open_ k (s_aad s) env = None.
  Proof.
    intros Hok Hu Hs Hwf Hl Hne. apply decrypt_none_unless; auto. intros (_ & rest & Hr).
    apply Hne. rewrite Hr in Hl. rewrite app_length in Hl.
    destruct rest; [now rewrite app_nil_r in Hr|cbn in Hl; lia].
  Qed.

  Corollary truncated_fails s k m :
    aead_ok -> aad_unique -> In s sealed -> wf_bytes (envelope_of s) -> (m < length (envelope_of s))%nat ->
    decrypt_module key open_ k (s_aad s) (firstn m (envelope_of s)) = None.
  Proof.
    intros Hok Hu Hs Hwf Hm.
    apply decrypt_none_unless; auto; [exact (Forall_firstn _ _ _ Hwf)|]. intros (_ & rest & Hr).
    apply (f_equal (@length N)) in Hr. rewrite firstn_length, app_length in Hr. lia.
  Qed.

  Lemma envelope_wf s : wf_bytes (s_nonce s) -> wf_bytes (s_cipher s) -> wf_bytes (envelope_of s).
  Proof.
    intros Hn Hc. unfold envelope_of, encrypt_module. fold (s_cipher s).
    apply wf_bytes_app. split; [apply to_le_wf|]. apply wf_bytes_app. split; assumption.
  Qed.

  (** A module replaced by another sealed module -- another page, column, row
      group, or a module of another file written with the same keys -- is
      rejected.  (If both envelopes were byte-for-byte equal nothing would have
      been replaced; distinct random nonces exclude that.) *)
  Corollary transplant_fails s s2 k :
    aead_ok -> aad_unique -> In s sealed -> In s2 sealed -> wf_bytes (envelope_of s2) ->
    s_nonce s2 <> s_nonce s ->
    decrypt_module key open_ k (s_aad s) (envelope_of s2) = None.
  Proof.
    intros Hok Hu Hs Hs2 Hwf Hne. apply decrypt_none_unless; auto. intros (_ & rest & Hr).
    apply Hne. destruct Hok as (_ & _ & _ & shapes).
    destruct (shapes s Hs) as [Hn1 _]. destruct (shapes s2 Hs2) as [Hn2 _].
    unfold envelope_of, encrypt_module in Hr. rewrite <- !app_assoc in Hr.
    apply app_eq_len in Hr; [|now rewrite !to_le_length]. destruct Hr as [_ Hr].
    apply app_eq_len in Hr; [|congruence]. tauto.
  Qed.
End Aead.

(** * The streamed reader accepts every length field the writer writes *)
Lemma stream_accepts_len_field plain_len avail :
  (module_len_of_plain plain_len < 256 ^ 4)%N -> (module_len_of_plain plain_len <= avail)%N ->
  stream_accepts (len_field plain_len) avail = true.
Proof.
  intros Hlt Hav. unfold stream_accepts, len_field.
  rewrite (of_le_to_le 4 _ Hlt).
  apply andb_true_intro. split; [now apply N.leb_le|].
  apply N.leb_le. unfold module_len_of_plain. rewrite Nat2N.inj_add. lia.
Qed.

(** * The Seal calls of the writer model have pairwise distinct AADs *)
Section Entries.
  Variable key : Type.

  (** One Seal call: the file (AAD prefix, file identifier), the position of
      the module in it, and key, nonce, plaintext. *)
  Record entry := mkEntry {
    e_pfx : bytes; e_fu : bytes; e_pos : modpos;
    e_key : key; e_nonce : bytes; e_plain : bytes
  }.

  Definition sealed_of_entry (e : entry) : sealed_mod key :=
    mkSealed key (e_key e) (e_nonce e) (aad_of_pos (e_pfx e) (e_fu e) (e_pos e)) (e_plain e).

  (** The log of a set of writers: every module was sealed at a position of a
      layout whose ordinals fit 16 bits; AAD prefixes and file identifiers have
      the same lengths across the files; no two Seal calls are for the same
      position of the same file (equal identifiers = same file). *)
  Definition entries_ok (es : list entry) : Prop :=
    (forall e, In e es -> exists ef lay, wf_layout lay /\ valid_pos ef lay (e_pos e) = true) /\
    (forall e1 e2, In e1 es -> In e2 es ->
       length (e_pfx e1) = length (e_pfx e2) /\ length (e_fu e1) = length (e_fu e2)) /\
    (forall e1 e2, In e1 es -> In e2 es ->
       e_pfx e1 = e_pfx e2 -> e_fu e1 = e_fu e2 -> e_pos e1 = e_pos e2 -> e1 = e2).

  Theorem entries_aad_unique es : entries_ok es -> aad_unique key (map sealed_of_entry es).
  Proof.
    intros (Hpos & Hlen & Huniq) s1 s2 H1 H2 Ha.
    apply in_map_iff in H1. destruct H1 as (e1 & <- & He1).
    apply in_map_iff in H2. destruct H2 as (e2 & <- & He2).
    cbn [sealed_of_entry s_aad] in Ha.
    destruct (Hpos e1 He1) as (ef1 & lay1 & Hw1 & Hv1).
    destruct (Hpos e2 He2) as (ef2 & lay2 & Hw2 & Hv2).
    destruct (Hlen e1 e2 He1 He2) as [Lp Lf].
    assert (R1 : pos_in_range (e_pos e1)) by exact (valid_pos_in_range ef1 lay1 _ Hw1 Hv1).
    assert (R2 : pos_in_range (e_pos e2)) by exact (valid_pos_in_range ef2 lay2 _ Hw2 Hv2).
    apply aad_of_pos_injective in Ha; try assumption.
    destruct Ha as (Ep & Ef & Epos). f_equal. apply Huniq; assumption.
  Qed.
End Entries.

(** * A toy AEAD meeting the hypotheses (non-vacuity) *)
(** Keys are byte strings; Seal appends a constant 16-byte tag; Open succeeds
    exactly on the recorded Seal calls.  It has no cryptographic content: it
    only shows that the hypotheses of Section Aead are jointly satisfiable. *)
Definition toy_seal (k n a p : bytes) : bytes := p ++ repeat 0%N 16.

Definition toy_match (k n a c : bytes) (s : sealed_mod bytes) : bool :=
  bytes_eqb (s_key bytes s) k && bytes_eqb (s_nonce bytes s) n && bytes_eqb (s_aad bytes s) a &&
  bytes_eqb (toy_seal (s_key bytes s) (s_nonce bytes s) (s_aad bytes s) (s_plain bytes s)) c.

Definition toy_open (sealed : list (sealed_mod bytes)) (k n a c : bytes) : option bytes :=
  match find (toy_match k n a c) sealed with
  | Some s => Some (s_plain bytes s)
  | None => None
  end.

Lemma toy_seal_length : seal_length_ok bytes toy_seal.
Proof. intros k n a p. unfold toy_seal. rewrite app_length, repeat_length. reflexivity. Qed.

Lemma toy_match_true k n a c s : toy_match k n a c s = true ->
  s_key bytes s = k /\ s_nonce bytes s = n /\ s_aad bytes s = a /\ c = s_cipher bytes toy_seal s.
Proof.
  unfold toy_match. rewrite !andb_true_iff. intros [[[H1 H2] H3] H4].
  apply bytes_eqb_eq in H1, H2, H3, H4. unfold s_cipher. repeat split; auto.
Qed.

Lemma toy_open_seal sealed s : In s sealed ->
  toy_open sealed (s_key bytes s) (s_nonce bytes s) (s_aad bytes s) (s_cipher bytes toy_seal s) = Some (s_plain bytes s).
Proof.
  intros Hs. unfold toy_open.
  destruct (find _ sealed) as [s0|] eqn:E.
  - apply find_some in E. destruct E as [_ E]. apply toy_match_true in E.
    destruct E as (_ & _ & _ & Hc). unfold s_cipher, toy_seal in Hc.
    apply app_inv_tail in Hc. now rewrite Hc.
  - exfalso. apply (find_none _ _ E) in Hs. unfold toy_match, s_cipher in Hs.
    now rewrite !bytes_eqb_refl in Hs.
Qed.

Lemma toy_auth sealed k n a c p : toy_open sealed k n a c = Some p ->
  exists s, In s sealed /\ s_key bytes s = k /\ s_nonce bytes s = n /\ s_aad bytes s = a /\
            s_plain bytes s = p /\ c = s_cipher bytes toy_seal s.
Proof.
  unfold toy_open. destruct (find _ sealed) as [s0|] eqn:E; [|discriminate].
  intros H. injection H as <-. apply find_some in E. destruct E as [Hin E].
  apply toy_match_true in E. destruct E as (A & B & C & D).
  exists s0. repeat split; assumption.
Qed.

Lemma toy_aead_ok sealed :
  (forall s, In s sealed -> sealed_shape bytes toy_seal s) ->
  aead_ok bytes toy_seal (toy_open sealed) sealed.
Proof.
  intros Hs. split; [exact toy_seal_length|]. split; [exact (toy_open_seal sealed)|].
  split; [exact (toy_auth sealed)|exact Hs].
Qed.
