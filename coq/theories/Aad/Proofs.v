(** Proofs about makeAAD and the ordinal bookkeeping of writer and reader
    (Aad/Model.v). *)
From Coq Require Import List ZArith Bool Lia.
From PQ Require Import Base.Bytes Aad.Model.
Import ListNotations.

Lemma app_eq_len {A} (a a' b b' : list A) :
  length a = length a' -> a ++ b = a' ++ b' -> a = a' /\ b = b'.
Proof.
  revert a'. induction a as [|x a IH]; intros [|y a'] Hl H; cbn in *; try discriminate.
  - split; [reflexivity|exact H].
  - injection H as -> H. injection Hl as Hl. destruct (IH _ Hl H) as [-> ->]. split; reflexivity.
Qed.

Definition in_ord (z : Z) : Prop := (0 <= z < 65536)%Z.

Lemma wrapZ16_small z : in_ord z -> wrapZ 16 z = Z.to_N z.
Proof.
  intros [H0 H1]. unfold wrapZ. change (2 ^ Z.of_N 16)%Z with 65536%Z.
  rewrite Z.mod_small by lia. reflexivity.
Qed.

Lemma wrapZ16_lt z : (wrapZ 16 z < 65536)%N.
Proof. pose proof (wrapZ_lt 16 z) as H. change (2 ^ 16)%N with 65536%N in H. exact H. Qed.

Lemma le16_length z : length (le16 z) = 2%nat.
Proof. apply to_le_length. Qed.

Lemma le16_inj_pat a b : le16 a = le16 b -> wrapZ 16 a = wrapZ 16 b.
Proof.
  unfold le16. intros H.
  assert (Ha : of_le (to_le 2 (wrapZ 16 a)) = wrapZ 16 a).
  { apply of_le_to_le. change (256 ^ N.of_nat 2)%N with 65536%N. apply wrapZ16_lt. }
  assert (Hb : of_le (to_le 2 (wrapZ 16 b)) = wrapZ 16 b).
  { apply of_le_to_le. change (256 ^ N.of_nat 2)%N with 65536%N. apply wrapZ16_lt. }
  rewrite <- Ha, <- Hb, H. reflexivity.
Qed.

Lemma le16_inj a b : in_ord a -> in_ord b -> le16 a = le16 b -> a = b.
Proof.
  intros Ha Hb H. apply le16_inj_pat in H.
  rewrite (wrapZ16_small a Ha), (wrapZ16_small b Hb) in H.
  unfold in_ord in *. lia.
Qed.

(** int16 wrap-around: ordinals 65536 apart give the same two bytes. *)
Lemma wrapZ16_add z : wrapZ 16 (z + 65536) = wrapZ 16 z.
Proof.
  unfold wrapZ. change (2 ^ Z.of_N 16)%Z with 65536%Z.
  replace (z + 65536)%Z with (z + 1 * 65536)%Z by lia.
  rewrite Z.mod_add by lia. reflexivity.
Qed.

Lemma wrapZ16_idem z : wrapZ 16 (Z.of_N (wrapZ 16 z)) = wrapZ 16 z.
Proof. rewrite <- (Z.add_0_r (Z.of_N _)), wrapZ_add_mod. now rewrite Z.add_0_r. Qed.

Lemma flat_le16_length l : length (flat_map le16 l) = (2 * length l)%nat.
Proof. induction l as [|z l IH]; cbn [flat_map length]; [reflexivity|]. rewrite app_length, le16_length, IH. lia. Qed.

Lemma flat_le16_inj l l' :
  length l = length l' -> Forall in_ord l -> Forall in_ord l' ->
  flat_map le16 l = flat_map le16 l' -> l = l'.
Proof.
  revert l'. induction l as [|z l IH]; intros [|z' l'] Hl Hr Hr' H; cbn in Hl; try discriminate.
  - reflexivity.
  - cbn [flat_map] in H. inversion Hr; inversion Hr'; subst.
    apply app_eq_len in H; [|now rewrite !le16_length]. destruct H as [Hz Ht].
    f_equal; [apply le16_inj; assumption|]. apply IH; auto.
Qed.

Lemma mtype_of_code_code m : mtype_of_code (mtype_code m) = Some m.
Proof. destruct m; vm_compute; reflexivity. Qed.

Lemma mtype_code_inj m m' : mtype_code m = mtype_code m' -> m = m'.
Proof.
  intros H. pose proof (mtype_of_code_code m) as A. rewrite H, mtype_of_code_code in A. congruence.
Qed.

Lemma mtype_code_range m : (0 <= mtype_code m < 256)%Z.
Proof. destruct m; vm_compute; (split; [discriminate|reflexivity]). Qed.

Lemma mtype_byte_inj m m' : mtype_byte m = mtype_byte m' -> m = m'.
Proof.
  unfold mtype_byte. intros H. apply mtype_code_inj.
  pose proof (mtype_code_range m). pose proof (mtype_code_range m'). lia.
Qed.

Lemma mtype_eqb_eq m m' : mtype_eqb m m' = true <-> m = m'.
Proof.
  unfold mtype_eqb. rewrite Z.eqb_eq. split; [apply mtype_code_inj|intros ->; reflexivity].
Qed.

Lemma mtype_byte_lt m : (mtype_byte m < 256)%N.
Proof. unfold mtype_byte. pose proof (mtype_code_range m). lia. Qed.

Definition used_ordinals (m : mtype) (rg col pg : Z) : list Z := firstn (mtype_arity m) [rg; col; pg].

Lemma used_ordinals_length m rg col pg : length (used_ordinals m rg col pg) = mtype_arity m.
Proof. destruct m; reflexivity. Qed.

Lemma used_ordinals_in_ord m rg col pg :
  in_ord rg -> in_ord col -> in_ord pg -> Forall in_ord (used_ordinals m rg col pg).
Proof. intros; destruct m; cbn; repeat (constructor; try assumption). Qed.

Theorem make_aad_injective pfx fu pfx' fu' m m' rg col pg rg' col' pg' :
  length pfx = length pfx' -> length fu = length fu' ->
  in_ord rg -> in_ord col -> in_ord pg -> in_ord rg' -> in_ord col' -> in_ord pg' ->
  make_aad pfx fu m rg col pg = make_aad pfx' fu' m' rg' col' pg' ->
  pfx = pfx' /\ fu = fu' /\ m = m' /\ used_ordinals m rg col pg = used_ordinals m' rg' col' pg'.
Proof.
  intros Hp Hf H1 H2 H3 H4 H5 H6 H. unfold make_aad, make_aad_raw in H.
  apply app_eq_len in H; [|exact Hp]. destruct H as [-> H].
  apply app_eq_len in H; [|exact Hf]. destruct H as [-> H].
  cbn [app] in H. injection H as Hm H. apply mtype_byte_inj in Hm. subst m'.
  repeat split; try reflexivity.
  apply flat_le16_inj; auto using used_ordinals_in_ord.
  now rewrite !used_ordinals_length.
Qed.

Lemma make_aad_pg_pattern pfx fu m rg col pg pg' :
  wrapZ 16 pg = wrapZ 16 pg' -> make_aad pfx fu m rg col pg = make_aad pfx fu m rg col pg'.
Proof.
  intros H. unfold make_aad, make_aad_raw. do 3 f_equal.
  destruct m; cbn [mtype_arity firstn flat_map]; try reflexivity; unfold le16; now rewrite H.
Qed.

Theorem make_aad_page_wraps pfx fu m rg col pg :
  make_aad pfx fu m rg col (pg + 65536) = make_aad pfx fu m rg col pg.
Proof. apply make_aad_pg_pattern, wrapZ16_add. Qed.

Lemma make_aad_length pfx fu m rg col pg :
  length (make_aad pfx fu m rg col pg) = (length pfx + length fu + 1 + 2 * mtype_arity m)%nat.
Proof.
  unfold make_aad, make_aad_raw. rewrite !app_length, flat_le16_length. cbn [length].
  destruct m; cbn; lia.
Qed.

Definition pos_in_range (p : modpos) : Prop :=
  let '(rg, col, pg) := pos_ords p in (N.of_nat rg < 65536 /\ N.of_nat col < 65536 /\ N.of_nat pg < 65536)%N.

Lemma pos_of_type_ords p p' :
  pos_type p = pos_type p' ->
  (let '(rg, col, pg) := pos_ords p in used_ordinals (pos_type p) (Z.of_nat rg) (Z.of_nat col) (Z.of_nat pg)) =
  (let '(rg, col, pg) := pos_ords p' in used_ordinals (pos_type p') (Z.of_nat rg) (Z.of_nat col) (Z.of_nat pg)) ->
  p = p'.
Proof.
  destruct p, p'; cbn; intros Ht H; try discriminate; try reflexivity;
    injection H; intros; f_equal; lia.
Qed.

(** Distinct modules never share an AAD: within a file, and across files whose
    prefix and file identifier have the same lengths. *)
Theorem aad_of_pos_injective pfx fu pfx' fu' p p' :
  length pfx = length pfx' -> length fu = length fu' ->
  pos_in_range p -> pos_in_range p' ->
  aad_of_pos pfx fu p = aad_of_pos pfx' fu' p' ->
  pfx = pfx' /\ fu = fu' /\ p = p'.
Proof.
  intros Hp Hf Hr Hr' H. unfold aad_of_pos, pos_in_range in *.
  destruct (pos_ords p) as [[rg col] pg] eqn:E. destruct (pos_ords p') as [[rg' col'] pg'] eqn:E'.
  apply make_aad_injective in H; try assumption; try (unfold in_ord; lia).
  destruct H as (-> & -> & Ht & Ho). repeat split; try reflexivity.
  apply pos_of_type_ords; [exact Ht|]. rewrite E, E'. exact Ho.
Qed.

(** Layouts whose ordinals fit 16 bits: what [layout_accepted] enforces with
    room to spare (at most 32767 row groups, 65535 columns, 32768 pages). *)
Definition wf_layout (lay : layout) : Prop :=
  (N.of_nat (length lay) <= 65536)%N /\
  Forall (fun rg => (N.of_nat (length rg) <= 65536)%N /\ Forall (fun c => (N.of_nat (c_pages c) <= 65536)%N) rg) lay.

Lemma layout_chunk_some lay rg col c :
  layout_chunk lay rg col = Some c ->
  exists cols, nth_error lay rg = Some cols /\ nth_error cols col = Some c.
Proof.
  unfold layout_chunk. destruct (nth_error lay rg) as [cols|] eqn:E; [|discriminate].
  intros H. exists cols. split; [reflexivity|exact H].
Qed.

Lemma valid_pos_in_range ef lay p : wf_layout lay -> valid_pos ef lay p = true -> pos_in_range p.
Proof.
  intros [Hn Hall] Hv. unfold pos_in_range.
  assert (K : forall rg col c, layout_chunk lay rg col = Some c ->
              (N.of_nat rg < 65536 /\ N.of_nat col < 65536 /\ N.of_nat (c_pages c) <= 65536)%N).
  { intros rg col c Hc. apply layout_chunk_some in Hc. destruct Hc as (cols & H1 & H2).
    assert (Hrg : (rg < length lay)%nat) by (apply nth_error_Some; congruence).
    assert (Hcol : (col < length cols)%nat) by (apply nth_error_Some; congruence).
    rewrite Forall_forall in Hall. destruct (Hall cols (nth_error_In _ _ H1)) as [Hl Hc].
    rewrite Forall_forall in Hc. specialize (Hc c (nth_error_In _ _ H2)). lia. }
  destruct p; cbn in Hv |- *; try lia;
    try (rewrite andb_true_iff in Hv; destruct Hv as [_ Hv]);
    destruct (layout_chunk lay rg col) as [c|] eqn:E; try discriminate;
    destruct (K _ _ _ E) as (A & B & C); try lia.
  all: apply Nat.ltb_lt in Hv; lia.
Qed.

Lemma pages_accepted_iff n : forall k,
  pages_accepted k n = true <-> (n = 0%nat \/ k + N.of_nat n <= 32768)%N.
Proof.
  induction n as [|n IH]; intros k; cbn [pages_accepted]; [split; auto|].
  unfold max_int16. destruct (N.ltb_spec 32767 k) as [L|L].
  - split; [discriminate|]. intros [H|H]; [discriminate|lia].
  - rewrite IH. split.
    + intros [H|H]; right; [subst n; cbn; lia|lia].
    + intros [H|H]; [discriminate|]. destruct n; [left; reflexivity|right; lia].
Qed.

(** The decision is the one of the page loop. *)
Lemma write_data_pages_chk_eq pfx fu rgo colo n : forall np,
  write_data_pages_chk pfx fu rgo colo np n =
  if pages_accepted (N.of_nat np) n then Some (write_data_pages pfx fu rgo colo np n) else None.
Proof.
  induction n as [|n IH]; intros np; cbn [write_data_pages_chk pages_accepted write_data_pages]; [reflexivity|].
  destruct (max_int16 <? N.of_nat np)%N; [reflexivity|].
  rewrite IH. replace (N.of_nat np + 1)%N with (N.of_nat (S np)) by lia.
  now destruct (pages_accepted (N.of_nat (S np)) n).
Qed.

Lemma pages_accepted_chk pfx fu rgo colo np n :
  pages_accepted (N.of_nat np) n = true <-> write_data_pages_chk pfx fu rgo colo np n <> None.
Proof.
  rewrite write_data_pages_chk_eq. destruct (pages_accepted (N.of_nat np) n); split; congruence.
Qed.

Lemma chunk_accepted_iff c : chunk_accepted c = true <-> (N.of_nat (c_pages c) <= 32768)%N.
Proof.
  unfold chunk_accepted. rewrite pages_accepted_iff. split.
  - intros [H|H]; [rewrite H; cbn; lia|lia].
  - intros H. right. lia.
Qed.

Lemma layout_accepted_spec lay : layout_accepted lay = true ->
  (N.of_nat (length lay) <= 32767)%N /\
  Forall (fun rg => (N.of_nat (length rg) <= 65535)%N /\
                    Forall (fun c => (N.of_nat (c_pages c) <= 32768)%N) rg) lay.
Proof.
  unfold layout_accepted, max_row_groups, max_column_index. rewrite andb_true_iff. intros [H1 H2].
  apply N.leb_le in H1. split; [exact H1|].
  apply Forall_forall. intros rg Hrg. rewrite forallb_forall in H2. specialize (H2 rg Hrg).
  rewrite andb_true_iff in H2. destruct H2 as [H2 H3]. apply N.leb_le in H2. split; [lia|].
  apply Forall_forall. intros c Hc. rewrite forallb_forall in H3. apply chunk_accepted_iff. apply H3. exact Hc.
Qed.

Lemma layout_accepted_wf lay : layout_accepted lay = true -> wf_layout lay.
Proof.
  intros H. destruct (layout_accepted_spec lay H) as [H1 H2]. split; [lia|].
  eapply Forall_impl; [|exact H2]. intros rg [A B]. split; [lia|].
  eapply Forall_impl; [|exact B]. intros c Hc. cbn in Hc. lia.
Qed.

(** A chunk with more than 32768 data pages makes the writer fail. *)
Lemma write_file_chk_rejects pfx fu ef lay rg col c :
  layout_chunk lay rg col = Some c -> (32768 < N.of_nat (c_pages c))%N ->
  write_file_chk pfx fu ef lay = None.
Proof.
  intros Hc Hp. unfold write_file_chk. destruct (layout_accepted lay) eqn:E; [|reflexivity].
  exfalso. destruct (layout_accepted_spec lay E) as [_ H].
  apply layout_chunk_some in Hc. destruct Hc as (cols & H1 & H2).
  rewrite Forall_forall in H. destruct (H cols (nth_error_In _ _ H1)) as [_ H3].
  rewrite Forall_forall in H3. specialize (H3 c (nth_error_In _ _ H2)). cbn in H3. lia.
Qed.

Lemma write_file_chk_some pfx fu ef lay wf :
  write_file_chk pfx fu ef lay = Some wf -> wf = write_file pfx fu ef lay /\ wf_layout lay.
Proof.
  unfold write_file_chk. destruct (layout_accepted lay) eqn:E; [|discriminate].
  intros H. injection H as <-. split; [reflexivity|]. now apply layout_accepted_wf.
Qed.

(** * Writer: the state machine puts the closed-form AAD at every position *)
Lemma nth_write_data_pages pfx fu rgo colo n : forall np k, (k < n)%nat ->
  nth_error (write_data_pages pfx fu rgo colo np n) (2 * k) =
    Some (mkMod MDataHdr (make_aad pfx fu MDataHdr rgo colo (Z.of_nat (np + k)))) /\
  nth_error (write_data_pages pfx fu rgo colo np n) (S (2 * k)) =
    Some (mkMod MDataBody (make_aad pfx fu MDataBody rgo colo (Z.of_nat (np + k)))).
Proof.
  induction n as [|n IH]; intros np k Hk; [lia|].
  destruct k as [|k].
  - cbn. rewrite Nat.add_0_r. split; reflexivity.
  - replace (2 * S k)%nat with (S (S (2 * k))) by lia. cbn [write_data_pages nth_error].
    destruct (IH (S np) k ltac:(lia)) as [A B].
    replace (np + S k)%nat with (S np + k)%nat by lia. split; assumption.
Qed.

Lemma write_data_pages_length pfx fu rgo colo n : forall np,
  length (write_data_pages pfx fu rgo colo np n) = (2 * n)%nat.
Proof. induction n as [|n IH]; intros np; cbn [write_data_pages length]; [reflexivity|]. rewrite IH. lia. Qed.

Lemma nth_page_locs n : forall base k,
  nth_error (page_locs base n) k = if (k <? n)%nat then Some (base + 2 * k)%nat else None.
Proof.
  induction n as [|n IH]; intros base [|k]; cbn [page_locs nth_error]; try reflexivity.
  - cbn. f_equal. lia.
  - rewrite IH. change (S k <? S n)%nat with (k <? n)%nat. destruct (k <? n)%nat; [f_equal; lia|reflexivity].
Qed.

Lemma nth_write_columns pfx fu ef rgo cols : forall i col,
  nth_error (write_columns pfx fu ef rgo i cols) col =
  option_map (write_chunk pfx fu ef rgo (Z.of_nat (i + col))) (nth_error cols col).
Proof.
  induction cols as [|c0 cols IH]; intros i [|col]; cbn [write_columns nth_error option_map]; try reflexivity.
  - now rewrite Nat.add_0_r.
  - rewrite IH. now replace (S i + col)%nat with (i + S col)%nat by lia.
Qed.

Lemma nth_write_row_groups pfx fu ef lay : forall n rg,
  nth_error (write_row_groups pfx fu ef n lay) rg =
  option_map (write_columns pfx fu ef (Z.of_nat (n + rg)) 0) (nth_error lay rg).
Proof.
  induction lay as [|r lay IH]; intros n [|rg]; cbn [write_row_groups nth_error option_map]; try reflexivity.
  - now rewrite Nat.add_0_r.
  - rewrite IH. now replace (S n + rg)%nat with (n + S rg)%nat by lia.
Qed.

Lemma wfile_chunk_write pfx fu ef lay rg col :
  wfile_chunk (write_file pfx fu ef lay) rg col =
  option_map (write_chunk pfx fu ef (Z.of_nat rg) (Z.of_nat col)) (layout_chunk lay rg col).
Proof.
  unfold layout_chunk, wfile_chunk, write_file. cbn [wf_row_groups].
  rewrite nth_write_row_groups. destruct (nth_error lay rg) as [cols|]; [|reflexivity].
  cbn [option_map Nat.add]. apply nth_write_columns.
Qed.

Definition dict_len (c : chunk) : nat := if c_dict c then 2%nat else 0%nat.

Lemma wc_mods_dict pfx fu ef rgo colo c :
  c_dict c = true ->
  nth_error (wc_mods (write_chunk pfx fu ef rgo colo c)) 0 = Some (mkMod MDictHdr (make_aad pfx fu MDictHdr rgo colo 0)) /\
  nth_error (wc_mods (write_chunk pfx fu ef rgo colo c)) 1 = Some (mkMod MDictBody (make_aad pfx fu MDictBody rgo colo 0)).
Proof. intros H. unfold write_chunk. cbn [wc_mods]. rewrite H. split; reflexivity. Qed.

Lemma wc_mods_data pfx fu ef rgo colo c k :
  (k < c_pages c)%nat ->
  nth_error (wc_mods (write_chunk pfx fu ef rgo colo c)) (dict_len c + 2 * k) =
    Some (mkMod MDataHdr (make_aad pfx fu MDataHdr rgo colo (Z.of_nat k))) /\
  nth_error (wc_mods (write_chunk pfx fu ef rgo colo c)) (S (dict_len c + 2 * k)) =
    Some (mkMod MDataBody (make_aad pfx fu MDataBody rgo colo (Z.of_nat k))).
Proof.
  intros Hk. unfold write_chunk, dict_len. cbn [wc_mods].
  destruct (nth_write_data_pages pfx fu rgo colo (c_pages c) 0 k Hk) as [A B]. cbn [Nat.add] in A, B.
  destruct (c_dict c); cbn [app write_dict_page Nat.add nth_error]; split; assumption.
Qed.

Lemma wc_mods_length pfx fu ef rgo colo c :
  length (wc_mods (write_chunk pfx fu ef rgo colo c)) = (dict_len c + 2 * c_pages c)%nat.
Proof.
  unfold write_chunk, dict_len. cbn [wc_mods]. rewrite app_length, write_data_pages_length.
  destruct (c_dict c); reflexivity.
Qed.

Lemma wc_data_offset_eq pfx fu ef rgo colo c :
  wc_data_offset (write_chunk pfx fu ef rgo colo c) = dict_len c.
Proof. unfold write_chunk, dict_len. cbn [wc_data_offset]. destruct (c_dict c); reflexivity. Qed.

Lemma wc_dict_offset_eq pfx fu ef rgo colo c :
  wc_dict_offset (write_chunk pfx fu ef rgo colo c) = if c_dict c then Some 0%nat else None.
Proof. reflexivity. Qed.

Lemma wc_page_locs_eq pfx fu ef rgo colo c k :
  nth_error (wc_page_locs (write_chunk pfx fu ef rgo colo c)) k =
    if (k <? c_pages c)%nat then Some (dict_len c + 2 * k)%nat else None.
Proof.
  unfold write_chunk, dict_len. cbn [wc_page_locs].
  rewrite nth_page_locs. destruct (c_dict c); reflexivity.
Qed.

(** Every module of the file is sealed under the AAD of its position. *)
Theorem write_file_spec pfx fu ef lay p :
  valid_pos ef lay p = true ->
  wfile_at (write_file pfx fu ef lay) p = Some (mkMod (pos_type p) (aad_of_pos pfx fu p)).
Proof.
  intros Hv. destruct p; cbn [valid_pos] in Hv; cbn [wfile_at];
    try reflexivity;
    try (rewrite andb_true_iff in Hv; destruct Hv as [Hef Hv]);
    destruct (layout_chunk lay rg col) as [c|] eqn:E; try discriminate;
    rewrite wfile_chunk_write, E; cbn [option_map].
  - (* column metadata *)
    unfold write_chunk. cbn [wc_col_meta]. destruct ef; [discriminate|]. reflexivity.
  - rewrite wc_dict_offset_eq, Hv. apply (wc_mods_dict pfx fu ef _ _ c Hv).
  - rewrite wc_dict_offset_eq, Hv. apply (wc_mods_dict pfx fu ef _ _ c Hv).
  - rewrite wc_page_locs_eq, Hv. apply Nat.ltb_lt in Hv. apply (wc_mods_data pfx fu ef _ _ c pg Hv).
  - rewrite wc_page_locs_eq, Hv. apply Nat.ltb_lt in Hv. apply (wc_mods_data pfx fu ef _ _ c pg Hv).
  - unfold write_chunk. cbn [wc_bloom]. rewrite Hv. reflexivity.
  - unfold write_chunk. cbn [wc_bloom]. rewrite Hv. reflexivity.
  - reflexivity.
  - reflexivity.
Qed.

(** * Reader: invariant of the page cursor *)
Section Cursor.
  Variables pfx fu : bytes.
  Variable ef : footer_mode.
  Variables rg col : nat.
  Variable c : chunk.
  Let rgo := Z.of_nat rg.
  Let colo := Z.of_nat col.
  Let wc := write_chunk pfx fu ef rgo colo c.

  (** The counters describe the stream position: either the dictionary page
      is next and pending, or data page [k] is next and the page ordinal is the
      16-bit pattern of [k] ([k] may be the number of pages: end of chunk). *)
  Definition rinv (s : rstate) : Prop :=
    (c_dict c = true /\ r_pending s = true /\ r_stream s = 0%nat /\ r_ord s = 0%N) \/
    (r_pending s = false /\ exists k, r_stream s = (dict_len c + 2 * k)%nat /\ r_ord s = wrapZ 16 (Z.of_nat k)).

  Definition ev_ok (e : revent) : Prop :=
    nth_error (wc_mods wc) (ev_at e) = Some (mkMod (ev_type e) (ev_aad e)).

  Lemma rinit_inv : rinv (rinit wc).
  Proof.
    unfold rinit, rinv. unfold wc in *. rewrite wc_dict_offset_eq, wc_data_offset_eq. unfold dict_len.
    destruct (c_dict c) eqn:E; cbn.
    - left. repeat split.
    - right. split; [reflexivity|]. exists 0%nat. split; reflexivity.
  Qed.

  Lemma inc16_wrap k : inc16 (wrapZ 16 (Z.of_nat k)) = wrapZ 16 (Z.of_nat (S k)).
  Proof.
    unfold inc16, wrapZ. change (2 ^ Z.of_N 16)%Z with 65536%Z.
    rewrite Nat2Z.inj_succ. unfold Z.succ.
    pose proof (Z.mod_pos_bound (Z.of_nat k) 65536 ltac:(lia)) as Hb.
    pose proof (Z.mod_pos_bound (Z.of_nat k + 1) 65536 ltac:(lia)) as Hb'.
    zify. Z.div_mod_to_equations. lia.
  Qed.

  Lemma dict_events_ok : c_dict c = true ->
    Forall ev_ok (read_dictionary_events pfx fu rgo colo wc).
  Proof.
    intros Hd. unfold read_dictionary_events. unfold wc in *. rewrite wc_dict_offset_eq, Hd.
    destruct (wc_mods_dict pfx fu ef rgo colo c Hd) as [A B].
    repeat constructor; unfold ev_ok, wc; cbn [ev_at ev_type ev_aad]; assumption.
  Qed.

  Lemma rnext_inv s de : rinv s ->
    rinv (fst (rstep pfx fu rgo colo wc s (RNext de))) /\
    Forall ev_ok (snd (rstep pfx fu rgo colo wc s (RNext de))).
  Proof.
    intros Hi. cbn [rstep].
    destruct (nth_error (wc_mods wc) (r_stream s)) as [hdr|] eqn:E0; [|split; [exact Hi|constructor]].
    destruct (nth_error (wc_mods wc) (S (r_stream s))) as [bdy|] eqn:E1; [|split; [exact Hi|constructor]].
    destruct Hi as [(Hd & Hp & Hs & Ho)|(Hp & k & Hs & Ho)].
    + (* the dictionary page is next *)
      rewrite Hp. unfold wc in *. destruct (wc_mods_dict pfx fu ef rgo colo c Hd) as [A B].
      rewrite Hs in E0, E1. rewrite A in E0. injection E0 as <-. cbn [m_type is_dict_type fst snd].
      split.
      * right. cbn [r_pending r_stream r_ord]. split; [reflexivity|]. exists 0%nat.
        unfold dict_len. rewrite Hd, Hs, Ho. split; reflexivity.
      * rewrite Hs. repeat constructor; unfold ev_ok, wc; cbn [ev_at ev_type ev_aad]; assumption.
    + (* data page k is next *)
      rewrite Hp.
      assert (Hk : (k < c_pages c)%nat).
      { assert (Hl : (S (r_stream s) < length (wc_mods wc))%nat) by (apply nth_error_Some; congruence).
        unfold wc in *. rewrite wc_mods_length in Hl. lia. }
      unfold wc in *. destruct (wc_mods_data pfx fu ef rgo colo c k Hk) as [A B].
      rewrite Hs in E0, E1. rewrite A in E0. injection E0 as <-. cbn [m_type is_dict_type].
      cbn [fst snd]. split.
      * right. cbn [r_pending r_stream r_ord]. split; [reflexivity|]. exists (S k).
        rewrite Hs, Ho, inc16_wrap. split; [lia|reflexivity].
      * apply Forall_app. split.
        -- rewrite Hs, Ho, !(make_aad_pg_pattern _ _ _ _ _ _ _ (wrapZ16_idem (Z.of_nat k))). repeat constructor; unfold ev_ok, wc; cbn [ev_at ev_type ev_aad]; assumption.
        -- rewrite wc_dict_offset_eq.
           destruct (de && negb (r_dict s) && (if c_dict c then true else false)) eqn:L;
             [|destruct (c_dict c); rewrite L; constructor].
           assert (Hd : c_dict c = true) by (destruct (c_dict c); [reflexivity|rewrite andb_false_r in L; discriminate]).
           rewrite Hd in *. rewrite L. apply dict_events_ok. exact Hd.
  Qed.

  Lemma rstep_inv s o : rinv s ->
    rinv (fst (rstep pfx fu rgo colo wc s o)) /\ Forall ev_ok (snd (rstep pfx fu rgo colo wc s o)).
  Proof.
    intros Hi. destruct o as [de|target again| |]; cbn [rstep].
    - exact (rnext_inv s de Hi).
    - (* RSeekIndex *)
      unfold wc in *. rewrite wc_page_locs_eq.
      destruct (Nat.ltb_spec target (c_pages c)) as [Ht|Ht]; [|split; [exact Hi|constructor]].
      destruct again; [split; [exact Hi|constructor]|].
      destruct (r_index s =? target)%nat; [split; [exact Hi|constructor]|].
      cbn [fst snd]. split; [|constructor].
      right. cbn [r_pending r_stream r_ord]. split; [reflexivity|]. exists target. split; reflexivity.
    - (* RSeekNoIndex *)
      cbn [fst snd]. split; [|constructor].
      right. cbn [r_pending r_stream r_ord]. split; [reflexivity|]. exists 0%nat.
      unfold wc in *. rewrite wc_data_offset_eq. split; [lia|reflexivity].
    - (* RLoadDict *)
      unfold wc in *. rewrite wc_dict_offset_eq. destruct (c_dict c) eqn:Hd; [|split; [exact Hi|constructor]].
      destruct (r_dict s); [split; [exact Hi|constructor]|].
      cbn [fst snd]. split.
      + destruct Hi as [(H1 & H2 & H3 & H4)|(H1 & k & H2 & H3)]; [left|right]; cbn [r_pending r_stream r_ord].
        * repeat split; assumption.
        * split; [assumption|]. exists k. split; assumption.
      + apply dict_events_ok. exact Hd.
  Qed.

  Lemma rrun_inv h : forall s, rinv s ->
    rinv (fst (rrun pfx fu rgo colo wc s h)) /\ Forall ev_ok (snd (rrun pfx fu rgo colo wc s h)).
  Proof.
    induction h as [|o h IH]; intros s Hi; cbn [rrun].
    - split; [exact Hi|constructor].
    - destruct (rstep_inv s o Hi) as [H1 H2].
      destruct (rstep pfx fu rgo colo wc s o) as [s1 e1]. cbn [fst snd] in H1, H2.
      destruct (IH s1 H1) as [H3 H4].
      destruct (rrun pfx fu rgo colo wc s1 h) as [s2 e2]. cbn [fst snd] in *.
      split; [exact H3|]. apply Forall_app. split; assumption.
  Qed.

  (** Whatever the history, every module the cursor reads was sealed by the
      writer with exactly the type and AAD the cursor expects. *)
  Theorem cursor_agrees h :
    Forall ev_ok (snd (rrun pfx fu rgo colo wc (rinit wc) h)).
  Proof. apply rrun_inv. apply rinit_inv. Qed.
End Cursor.

Lemma bytes_eqb_refl a : bytes_eqb a a = true.
Proof.
  unfold bytes_eqb. rewrite Nat.eqb_refl. cbn [andb].
  induction a as [|x a IH]; cbn; [reflexivity|]. now rewrite N.eqb_refl.
Qed.

Lemma bytes_eqb_eq a : forall b, bytes_eqb a b = true -> a = b.
Proof.
  unfold bytes_eqb. induction a as [|x a IH]; intros [|y b] H; cbn in H; try discriminate; [reflexivity|].
  rewrite andb_true_iff in H. destruct H as [Hl H]. rewrite andb_true_iff in H. destruct H as [Hx H].
  apply N.eqb_eq in Hx. subst y. f_equal. apply IH. rewrite Hl. exact H.
Qed.

Lemma wmodule_eqb_refl m : wmodule_eqb m m = true.
Proof. unfold wmodule_eqb. rewrite bytes_eqb_refl, andb_true_r. now apply mtype_eqb_eq. Qed.

Lemma event_agrees_ok wc e :
  nth_error (wc_mods wc) (ev_at e) = Some (mkMod (ev_type e) (ev_aad e)) -> event_agrees wc e = true.
Proof.
  intros H. unfold event_agrees. rewrite H. cbn [m_type m_aad].
  rewrite bytes_eqb_refl, andb_true_r. now apply mtype_eqb_eq.
Qed.

(** * Whole-file reader *)
(** The static modules a reader addresses must exist (it finds their offsets
    in the footer); page cursors are unconstrained. *)
Definition fop_valid (ef : footer_mode) (lay : layout) (o : fop) : bool :=
  match o with
  | FFooter => true
  | FColMeta rg col => valid_pos ef lay (PColMeta rg col)
  | FColIndex rg col => valid_pos ef lay (PColIndex rg col)
  | FOffIndex rg col => valid_pos ef lay (POffIndex rg col)
  | FBloom rg col => valid_pos ef lay (PBloomHdr rg col)
  | FPages _ _ _ => true
  end.

Theorem file_reader_agrees pfx fu ef lay (h : list fop) :
  forallb (fop_valid ef lay) h = true ->
  Forall (fun p => fst p = Some (snd p)) (frun pfx fu (write_file pfx fu ef lay) h).
Proof.
  intros Hv. unfold frun. induction h as [|o h IH]; cbn [flat_map]; [constructor|].
  cbn [forallb] in Hv. rewrite andb_true_iff in Hv. destruct Hv as [Ho Hh].
  apply Forall_app. split; [|apply IH; exact Hh]. clear IH Hh.
  destruct o; cbn [fstep fop_valid] in *.
  - repeat constructor.
  - repeat constructor. cbn [fst snd]. now apply write_file_spec.
  - repeat constructor. cbn [fst snd]. now apply write_file_spec.
  - repeat constructor. cbn [fst snd]. now apply write_file_spec.
  - repeat constructor; cbn [fst snd]; apply write_file_spec; exact Ho.
  - rewrite wfile_chunk_write. destruct (layout_chunk lay rg col) as [c|] eqn:E; cbn [option_map].
    + apply Forall_map. pose proof (cursor_agrees pfx fu ef rg col c h0) as H.
      eapply Forall_impl; [|exact H]. intros e He. exact He.
    + constructor.
Qed.

Corollary file_reader_agrees_bool pfx fu ef lay h :
  forallb (fop_valid ef lay) h = true ->
  forallb pair_agrees (frun pfx fu (write_file pfx fu ef lay) h) = true.
Proof.
  intros Hv. apply forallb_forall. intros p Hp.
  pose proof (file_reader_agrees pfx fu ef lay h Hv) as H. rewrite Forall_forall in H.
  specialize (H p Hp). unfold pair_agrees. rewrite H. apply wmodule_eqb_refl.
Qed.

Import String.
Lemma footer_fields_are_known : footer_fields_known true = true /\ footer_fields_known false = true.
Proof. split; vm_compute; reflexivity. Qed.

(** In plaintext-footer mode no field that carries column metadata is written
    in the clear: [MetaData] is absent and the metadata only exists as the
    plaintext of the ColumnMetaData module.  In encrypted-footer mode nothing
    of the FileMetaData is in the clear. *)
Lemma no_clear_metadata ef : clear_metadata_fields ef = [].
Proof. destruct ef; vm_compute; reflexivity. Qed.

Lemma plaintext_footer_metadata_absent :
  In ("MetaData"%string, Absent) (footer_chunk false) /\
  In ("EncryptedColumnMetadata"%string, Sealed MColMeta) (footer_chunk false).
Proof. split; vm_compute; tauto. Qed.

(** * Writer options: which EncryptionConfig the writer of the file uses *)
Section WoptInd.
  Variable P : wopt -> Prop.
  Hypothesis HO : P WOther.
  Hypothesis HE : forall c, P (WEnc c).
  Hypothesis HC : forall l, Forall P l -> P (WConf l).
  Fixpoint wopt_ind' (o : wopt) : P o :=
    match o with
    | WOther => HO
    | WEnc c => HE c
    | WConf l =>
        HC l ((fix go (l : list wopt) : Forall P l :=
                 match l with
                 | [] => Forall_nil P
                 | o :: r => Forall_cons o (wopt_ind' o) (go r)
                 end) l)
    end.
End WoptInd.

Definition last_opt (l : list N) : option N := last (map Some l) None.
Definition or_else (a cur : option N) : option N := match a with Some c => Some c | None => cur end.

Lemma last_opt_app a b : last_opt (a ++ b) = or_else (last_opt b) (last_opt a).
Proof.
  unfold last_opt. rewrite map_app.
  induction b as [|x b IH] using rev_ind.
  - cbn. rewrite app_nil_r. now destruct (last (map Some a) None).
  - rewrite map_app. cbn [map]. rewrite app_assoc, !last_last. reflexivity.
Qed.

Lemma or_else_assoc a b c : or_else a (or_else b c) = or_else (or_else a b) c.
Proof. now destruct a. Qed.

Lemma apply_wopts_of l :
  Forall (fun o => forall cur, apply_wopt cur o = or_else (last_opt (enc_mentions o)) cur) l ->
  forall cur, fold_left apply_wopt l cur = or_else (last_opt (flat_map enc_mentions l)) cur.
Proof.
  induction 1 as [|o r Ho _ IHr]; intros cur; cbn [fold_left flat_map]; [reflexivity|].
  rewrite IHr, Ho, last_opt_app. apply or_else_assoc.
Qed.

Lemma apply_wopt_spec : forall o cur, apply_wopt cur o = or_else (last_opt (enc_mentions o)) cur.
Proof.
  induction o as [|c|l IH] using wopt_ind'; intros cur; cbn [apply_wopt enc_mentions]; try reflexivity.
  rewrite (apply_wopts_of l IH). now destruct (last_opt (flat_map enc_mentions l)).
Qed.

Lemma apply_wopts_spec l cur :
  fold_left apply_wopt l cur = or_else (last_opt (flat_map enc_mentions l)) cur.
Proof. apply apply_wopts_of, Forall_forall. intros o _. apply apply_wopt_spec. Qed.

(** Whatever the constructor and however the options are nested in
    configurations, the writer uses the configuration named last. *)
Theorem effective_encryption_spec ct l :
  effective_encryption ct l = last_opt (flat_map enc_mentions l).
Proof.
  destruct ct; unfold effective_encryption.
  - rewrite apply_wopts_spec. now destruct (last_opt (flat_map enc_mentions l)).
  - rewrite apply_wopts_spec. cbn [flat_map enc_mentions]. rewrite app_nil_r.
    now destruct (last_opt (flat_map enc_mentions l)).
Qed.

Lemma last_opt_some l : l <> [] -> exists c, last_opt l = Some c /\ In c l.
Proof.
  intros Hl. destruct (exists_last Hl) as (l' & c & ->). exists c. split.
  - unfold last_opt. rewrite map_app. cbn [map]. now rewrite last_last.
  - apply in_or_app. right. now left.
Qed.
