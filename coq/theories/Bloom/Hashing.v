(** Model of the two hashing sides of parquet bloom filters (bloom.go):

    - write side: splitBlockEncoding.Encode* computes, from the *page data
      representation* (encoding.Values: bit-packed booleans, native words,
      12-byte INT96, data+offsets byte arrays, flat fixed-size arrays), the
      hashes that are inserted in the filter;
    - read side: Value.hash computes the one hash that Check looks up.

    Also the conversion of a list of column values to the page data
    representation (what the column buffers / page readers hand to
    writePageToFilter), so that the two sides can be related.

    Executable; no proofs here (Bloom/HashingProofs.v, Bloom/OrderProofs.v). *)
From Coq Require Import List NArith ZArith Bool Arith.
From PQ Require Import Bloom.XXHash Bloom.Filter.
Import ListNotations.
Open Scope N_scope.

(** * Values and page data *)

Inductive ptype :=
| TBoolean | TInt32 | TInt64 | TInt96 | TFloat | TDouble | TByteArray
| TFixedLenByteArray (size : nat).

(* a non-null parquet.Value: 32/64 bit kinds carry the bit pattern (Value.u64) *)
Inductive value :=
| VBoolean (b : bool)
| VInt32 (w : N)
| VInt64 (w : N)
| VInt96 (bytes : list N)
| VFloat (w : N)
| VDouble (w : N)
| VByteArray (bytes : list N)
| VFixedLenByteArray (bytes : list N).

Inductive page_data :=
| PBoolean (packed : list N)                     (* Values.Boolean(): bit-packed bytes *)
| PInt32 (words : list N)                        (* []int32 reinterpreted as []uint32 *)
| PInt64 (words : list N)
| PInt96 (data : list N)                         (* []deprecated.Int96 as bytes, 12 each *)
| PFloat (words : list N)
| PDouble (words : list N)
| PByteArray (data : list N) (offsets : list nat) (* Values.ByteArray(): n+1 offsets *)
| PFixedLenByteArray (size : nat) (data : list N).

(** * Read side: bloom.go (v Value) hash *)

Definition hash_read (v : value) : N :=
  match v with
  | VBoolean b => sum64uint8 (if b then 1 else 0)      (* h.Sum64Uint8(v.byte()) *)
  | VInt32 w | VFloat w => sum64uint32 w               (* h.Sum64Uint32(v.uint32()) *)
  | VInt64 w | VDouble w => sum64uint64 w              (* h.Sum64Uint64(v.uint64()) *)
  | VInt96 b | VByteArray b | VFixedLenByteArray b => xxh64 b   (* h.Sum64(v.byteArray()) *)
  end.

(** * Write side *)

(* bloom.go filterEncodeBufferSize *)
Definition filter_encode_buffer_size : nat := 128.

(* splitBlockEncodeUint8/32/64/128: hash at most 128 values at a time
   (MultiSum64UintK hashes min(len(buffer), len(values)) values), insert, go on *)
Fixpoint bulk_hashes {A : Type} (fuel : nat) (sum : A -> N) (values : list A) : list N :=
  match fuel with
  | O => []
  | S f =>
      match values with
      | [] => []
      | _ => map sum (firstn filter_encode_buffer_size values)
             ++ bulk_hashes f sum (skipn filter_encode_buffer_size values)
      end
  end.

Definition bulk {A : Type} (sum : A -> N) (values : list A) : list N :=
  bulk_hashes (length values) sum values.

(* splitBlockEncodeFixedLenByteArray: for i, j := 0, size; j <= len(data); i, j = i+size, j+size *)
Fixpoint fixed_chunks (fuel size : nat) (data : list N) : list (list N) :=
  match fuel with
  | O => []
  | S f =>
      if has size data then firstn size data :: fixed_chunks f size (skipn size data)
      else []
  end.

(* EncodeByteArray: baseOffset := offsets[0]; for _, endOffset := range offsets[1:] { src[base:end] } *)
Fixpoint byte_array_slices (data : list N) (base : nat) (ends : list nat) : list (list N) :=
  match ends with
  | [] => []
  | e :: r => firstn (e - base) (skipn base data) :: byte_array_slices data e r
  end.

(* EncodeBoolean (current code): the keys 0 and/or 1, from the packed bytes *)
Definition boolean_keys (packed : list N) : list N :=
  let has_false := existsb (fun b => negb (b =? 255)) packed in
  let has_true := existsb (fun b => negb (b =? 0)) packed in
  (if has_false then [0] else []) ++ (if has_true then [1] else []).

Definition hashes_write (p : page_data) : list N :=
  match p with
  | PBoolean packed => bulk sum64uint8 (boolean_keys packed)
  | PInt32 ws | PFloat ws => bulk sum64uint32 ws
  | PInt64 ws | PDouble ws => bulk sum64uint64 ws
  | PInt96 data => map xxh64 (fixed_chunks (length data) 12 data)
  | PByteArray data offsets =>
      match offsets with
      | [] => []                                         (* offsets[0] panics in Go *)
      | base :: ends => map xxh64 (byte_array_slices data base ends)
      end
  | PFixedLenByteArray size data =>
      if Nat.eqb size 16
      then bulk sum64uint128 (fixed_chunks (length data) 16 data)
      else map xxh64 (fixed_chunks (length data) size data)
  end.

(* EncodeBoolean before the repair commit e35cc49: one key per packed byte *)
Definition hashes_write_pinned (p : page_data) : list N :=
  match p with
  | PBoolean packed => bulk sum64uint8 packed
  | _ => hashes_write p
  end.

(* writePageToFilter: c.filter, err = pageType.Encode(c.filter, pageData, splitBlockEncoding{}) *)
Definition write_page_to_filter (f : filter) (p : page_data) : filter :=
  filter_insert_bulk f (hashes_write p).

Definition write_page_to_filter_pinned (f : filter) (p : page_data) : filter :=
  filter_insert_bulk f (hashes_write_pinned p).

Definition write_pages_to_filter (f : filter) (ps : list page_data) : filter :=
  fold_left write_page_to_filter ps f.

(** * From column values to page data *)

(* one byte from at most 8 bits, least significant first *)
Fixpoint byte_of_bits (bs : list bool) : N :=
  match bs with
  | [] => 0
  | b :: r => (if b then 1 else 0) + 2 * byte_of_bits r
  end.

Fixpoint pack_bools (fuel : nat) (bs : list bool) : list N :=
  match fuel with
  | O => []
  | S f =>
      match bs with
      | [] => []
      | _ => byte_of_bits (firstn 8 bs) :: pack_bools f (skipn 8 bs)
      end
  end.

Definition pack (bs : list bool) : list N := pack_bools (length bs) bs.

Definition bool_of (v : value) : bool := match v with VBoolean b => b | _ => false end.
Definition word_of (v : value) : N :=
  match v with VInt32 w | VInt64 w | VFloat w | VDouble w => w | _ => 0 end.
Definition bytes_of (v : value) : list N :=
  match v with VInt96 b | VByteArray b | VFixedLenByteArray b => b | _ => [] end.

Fixpoint offsets_from (base : nat) (vs : list (list N)) : list nat :=
  match vs with
  | [] => []
  | v :: r => (base + length v)%nat :: offsets_from (base + length v)%nat r
  end.

Definition page_of_values (t : ptype) (vs : list value) : page_data :=
  match t with
  | TBoolean => PBoolean (pack (map bool_of vs))
  | TInt32 => PInt32 (map word_of vs)
  | TInt64 => PInt64 (map word_of vs)
  | TInt96 => PInt96 (concat (map bytes_of vs))
  | TFloat => PFloat (map word_of vs)
  | TDouble => PDouble (map word_of vs)
  | TByteArray => PByteArray (concat (map bytes_of vs)) (0%nat :: offsets_from 0 (map bytes_of vs))
  | TFixedLenByteArray size => PFixedLenByteArray size (concat (map bytes_of vs))
  end.

(* a value of the column's physical type *)
Definition typed (t : ptype) (v : value) : Prop :=
  match t, v with
  | TBoolean, VBoolean _ => True
  | TInt32, VInt32 _ => True
  | TInt64, VInt64 _ => True
  | TInt96, VInt96 b => length b = 12%nat
  | TFloat, VFloat _ => True
  | TDouble, VDouble _ => True
  | TByteArray, VByteArray _ => True
  | TFixedLenByteArray size, VFixedLenByteArray b => length b = size /\ (0 < size)%nat
  | _, _ => False
  end.

(** * The filter of a column chunk *)

(* the filter the writer stores for pages [pages] with [nblocks] blocks *)
Definition chunk_filter (nblocks : nat) (t : ptype) (pages : list (list value)) : filter :=
  write_pages_to_filter (empty_filter nblocks) (map (page_of_values t) pages).

(* FileBloomFilter.Check on the stored bytes *)
Definition file_check (stored : list N) (v : value) : bool :=
  check_split_block stored (hash_read v).
