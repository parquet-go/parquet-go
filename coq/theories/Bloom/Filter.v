(** Model of the split-block bloom filter of bloom/ (block.go,
    block_optimized.go, bloom.go fasthash1x64, filter.go, filter_default.go).

    A block is eight uint32 words; the salts and the block size are the
    constants the translator copied from bloom/block.go (PQ.Generated.Consts).
    A filter is a list of blocks; its serialisation is the little-endian bytes
    of the words in order (SplitBlockFilter.Bytes on a little-endian machine,
    which is also the layout of the parquet format).

    Executable; no proofs here (Bloom/FilterProofs.v). *)
From Coq Require Import List NArith ZArith Bool Arith.
From PQ Require Import Generated.Consts Bloom.XXHash.
Import ListNotations.
Open Scope N_scope.

(* block.go *)
Definition block_size : N := Z.to_N go_bloom_BlockSize.
Definition salt0 : N := Z.to_N go_bloom_salt0.
Definition salt1 : N := Z.to_N go_bloom_salt1.
Definition salt2 : N := Z.to_N go_bloom_salt2.
Definition salt3 : N := Z.to_N go_bloom_salt3.
Definition salt4 : N := Z.to_N go_bloom_salt4.
Definition salt5 : N := Z.to_N go_bloom_salt5.
Definition salt6 : N := Z.to_N go_bloom_salt6.
Definition salt7 : N := Z.to_N go_bloom_salt7.

Definition block : Type := (N * N * N * N * N * N * N * N)%type.
Definition empty_block : block := (0, 0, 0, 0, 0, 0, 0, 0).

Definition mul32 (a b : N) : N := w32 (a * b).

(* 1 << ((x * salt) >> 27), uint32 arithmetic *)
Definition bit (x salt : N) : N := N.shiftl 1 (N.shiftr (mul32 x salt) 27).

(* block_optimized.go (b *Block) Insert *)
Definition block_insert (b : block) (x : N) : block :=
  let '(b0, b1, b2, b3, b4, b5, b6, b7) := b in
  (N.lor b0 (bit x salt0),
   N.lor b1 (bit x salt1),
   N.lor b2 (bit x salt2),
   N.lor b3 (bit x salt3),
   N.lor b4 (bit x salt4),
   N.lor b5 (bit x salt5),
   N.lor b6 (bit x salt6),
   N.lor b7 (bit x salt7)).

Definition has_bit (w m : N) : bool := negb (N.land w m =? 0).

(* block_optimized.go (b *Block) Check *)
Definition block_check (b : block) (x : N) : bool :=
  let '(b0, b1, b2, b3, b4, b5, b6, b7) := b in
  has_bit b0 (bit x salt0) &&
  has_bit b1 (bit x salt1) &&
  has_bit b2 (bit x salt2) &&
  has_bit b3 (bit x salt3) &&
  has_bit b4 (bit x salt4) &&
  has_bit b5 (bit x salt5) &&
  has_bit b6 (bit x salt6) &&
  has_bit b7 (bit x salt7).

(* bloom.go fasthash1x64(value uint64, scale int32): scale is len(f) *)
Definition fasthash1x64 (value scale : N) : N :=
  N.shiftr (mul64 (N.shiftr value 32) scale) 32.

Definition filter : Type := list block.

Fixpoint update_nth {A : Type} (i : nat) (g : A -> A) (l : list A) : list A :=
  match l, i with
  | [], _ => []
  | x :: r, O => g x :: r
  | x :: r, S j => x :: update_nth j g r
  end.

Definition block_index (f : filter) (x : N) : nat :=
  N.to_nat (fasthash1x64 x (N.of_nat (length f))).

(* filter_default.go filterInsert: f[fasthash1x64(x, len(f))].Insert(uint32(x)) *)
Definition filter_insert (f : filter) (x : N) : filter :=
  update_nth (block_index f x) (fun b => block_insert b (w32 x)) f.

(* filter_default.go filterCheck (an index out of range panics in Go: false here) *)
Definition filter_check (f : filter) (x : N) : bool :=
  match nth_error f (block_index f x) with
  | Some b => block_check b (w32 x)
  | None => false
  end.

(* filterInsertBulk *)
Definition filter_insert_bulk (f : filter) (xs : list N) : filter :=
  fold_left filter_insert xs f.

Definition empty_filter (n : nat) : filter := repeat empty_block n.

(* Block.Bytes / SplitBlockFilter.Bytes *)
Definition block_bytes (b : block) : list N :=
  let '(b0, b1, b2, b3, b4, b5, b6, b7) := b in
  le_bytes 4 b0 ++ le_bytes 4 b1 ++ le_bytes 4 b2 ++ le_bytes 4 b3 ++
  le_bytes 4 b4 ++ le_bytes 4 b5 ++ le_bytes 4 b6 ++ le_bytes 4 b7.

Definition filter_bytes (f : filter) : list N := flat_map block_bytes f.

(* reading a block back from (at most) 32 bytes; missing bytes read as zero *)
Definition block_of_bytes (b : list N) : block :=
  (u32 b, u32 (skipn 4 b), u32 (skipn 8 b), u32 (skipn 12 b),
   u32 (skipn 16 b), u32 (skipn 20 b), u32 (skipn 24 b), u32 (skipn 28 b)).

(* MakeSplitBlockFilter(data): len(data)/BlockSize blocks *)
Fixpoint filter_of_bytes (fuel : nat) (data : list N) : filter :=
  match fuel with
  | O => []
  | S f =>
      if has 32 data then block_of_bytes (firstn 32 data) :: filter_of_bytes f (skipn 32 data)
      else []
  end.

(* filter.go CheckSplitBlock(r, n, x): reads the one block at
   BlockSize * fasthash1x64(x, n/BlockSize) *)
Definition check_split_block (data : list N) (x : N) : bool :=
  let n := N.of_nat (length data) in
  let offset := block_size * fasthash1x64 x (n / block_size) in
  let blk := block_of_bytes (firstn 32 (skipn (N.to_nat offset) data)) in
  block_check blk (w32 x).

(* filter.go NumSplitBlocksOf(numValues int64, bitsPerValue uint) *)
Definition num_split_blocks_of (num_values bits_per_value : N) : N :=
  let num_bytes := add64 (mul64 (w64 num_values) bits_per_value) 7 / 8 in
  add64 num_bytes (block_size - 1) / block_size.
