(** Proofs about the XXH64 model (Bloom/XXHash.v): the specialised one-value
    hashes Sum64Uint8/16/32/64/128 equal XXH64 of the little-endian bytes of
    the value, and every hash is a uint64. *)
From Coq Require Import List NArith ZArith Bool Arith Lia ZifyBool.
From PQ Require Import Bloom.XXHash Bloom.FilterProofs.
Import ListNotations.
Open Scope N_scope.

Lemma shiftr_le : forall a n, N.shiftr a n <= a.
Proof.
  intros a n. rewrite N.shiftr_div_pow2.
  apply N.div_le_upper_bound; [apply N.pow_nonzero; discriminate|].
  assert (0 < 2 ^ n) by (apply N.neq_0_lt_0, N.pow_nonzero; discriminate). nia.
Qed.

Lemma mul64_lt : forall a b, mul64 a b < M64.
Proof. intros. rewrite mul64_mod. apply N.mod_lt. discriminate. Qed.

Lemma add64_lt : forall a b, add64 a b < M64.
Proof. intros. rewrite add64_mod. apply N.mod_lt. discriminate. Qed.

Lemma avalanche_lt : forall h, avalanche h < M64.
Proof.
  intro h. unfold avalanche. rewrite M64_eq. apply lxor_lt_pow2.
  - rewrite <- M64_eq. apply mul64_lt.
  - eapply N.le_lt_trans; [apply shiftr_le|]. rewrite <- M64_eq. apply mul64_lt.
Qed.

Lemma xxh64_lt : forall b, xxh64 b < M64.
Proof.
  intro b. unfold xxh64.
  destruct (if (32 <=? length b)%nat then _ else _) as [h rest].
  destruct (tail8 _ _ _) as [h1 r1]. destruct (tail4 _ _) as [h2 r2].
  apply avalanche_lt.
Qed.

Lemma sum64uint8_lt : forall v, sum64uint8 v < M64.
Proof. intro. apply avalanche_lt. Qed.
Lemma sum64uint16_lt : forall v, sum64uint16 v < M64.
Proof. intro. apply avalanche_lt. Qed.
Lemma sum64uint32_lt : forall v, sum64uint32 v < M64.
Proof. intro. apply avalanche_lt. Qed.
Lemma sum64uint64_lt : forall v, sum64uint64 v < M64.
Proof. intro. apply avalanche_lt. Qed.
Lemma sum64uint128_lt : forall v, sum64uint128 v < M64.
Proof. intro. apply avalanche_lt. Qed.

(* control flow of xxh64 on a list of known length is decided by computation on
   nat/list only; the uint64 operations stay folded *)
Ltac xxh_shape :=
  cbv [xxh64 length Nat.leb stripes tail8 tail4 tail1 has firstn skipn Nat.eqb fold_left
       u64 u32 N.of_nat Pos.of_succ_nat Pos.succ].

Lemma xxh64_1 : forall b0, xxh64 [b0] = sum64uint8 b0.
Proof. intro. xxh_shape. unfold sum64uint8. reflexivity. Qed.

Lemma xxh64_2 : forall b0 b1,
  xxh64 [b0; b1] =
  avalanche (mul64 (rol64 (N.lxor (mul64 (rol64 (N.lxor (add64 prime5 2) (mul64 b0 prime5)) 11) prime1)
                                  (mul64 b1 prime5)) 11) prime1).
Proof. intros. xxh_shape. reflexivity. Qed.

Lemma xxh64_4 : forall b0 b1 b2 b3,
  xxh64 [b0; b1; b2; b3] = sum64uint32 (le_word [b0; b1; b2; b3]).
Proof. intros. xxh_shape. unfold sum64uint32. reflexivity. Qed.

Lemma xxh64_8 : forall b0 b1 b2 b3 b4 b5 b6 b7,
  xxh64 [b0; b1; b2; b3; b4; b5; b6; b7] = sum64uint64 (le_word [b0; b1; b2; b3; b4; b5; b6; b7]).
Proof. intros. xxh_shape. unfold sum64uint64. reflexivity. Qed.

Lemma xxh64_16 : forall b0 b1 b2 b3 b4 b5 b6 b7 c0 c1 c2 c3 c4 c5 c6 c7,
  xxh64 [b0; b1; b2; b3; b4; b5; b6; b7; c0; c1; c2; c3; c4; c5; c6; c7] =
  sum64uint128 [b0; b1; b2; b3; b4; b5; b6; b7; c0; c1; c2; c3; c4; c5; c6; c7].
Proof. intros. xxh_shape. cbv [sum64uint128 u64 firstn skipn]. reflexivity. Qed.

Lemma sum64uint8_eq : forall v, sum64uint8 v = xxh64 [v].
Proof. intro. symmetry. apply xxh64_1. Qed.

Lemma sum64uint8_eq_le : forall v, v < 256 -> sum64uint8 v = xxh64 (le_bytes 1 v).
Proof.
  intros v H. cbn [le_bytes]. rewrite N.mod_small by exact H. apply sum64uint8_eq.
Qed.

Lemma sum64uint16_eq : forall v, v < 2 ^ 16 -> sum64uint16 v = xxh64 (le_bytes 2 v).
Proof.
  intros v H. cbn [le_bytes]. rewrite xxh64_2. unfold sum64uint16.
  change 255 with (N.ones 8). rewrite N.land_ones, N.shiftr_div_pow2.
  change (2 ^ 8) with 256.
  rewrite (N.mod_small (v / 256) 256); [reflexivity|].
  apply N.div_lt_upper_bound; [discriminate|exact H].
Qed.

Lemma sum64uint32_eq : forall v, v < 2 ^ 32 -> sum64uint32 v = xxh64 (le_bytes 4 v).
Proof.
  intros v H. cbn [le_bytes]. rewrite xxh64_4.
  f_equal. symmetry. apply (le_word_le_bytes 4 v). exact H.
Qed.

Lemma sum64uint64_eq : forall v, v < 2 ^ 64 -> sum64uint64 v = xxh64 (le_bytes 8 v).
Proof.
  intros v H. cbn [le_bytes]. rewrite xxh64_8.
  f_equal. symmetry. apply (le_word_le_bytes 8 v). exact H.
Qed.

Lemma sum64uint128_eq : forall b, length b = 16%nat -> sum64uint128 b = xxh64 b.
Proof.
  intros b H.
  do 16 (destruct b as [|? b]; [discriminate|]). destruct b; [|discriminate].
  symmetry. apply xxh64_16.
Qed.
