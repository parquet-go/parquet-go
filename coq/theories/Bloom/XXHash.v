(** Model of bloom/xxhash (xxhash.go, xxhash_purego.go, sum64uint.go):
    XXH64 with seed 0 over byte lists, and the specialised one-value hashes
    Sum64Uint8/16/32/64/128 exactly as the Go code computes them.

    A uint64 is an [N] below 2^64; every Go operation that can wrap is written
    with an explicit truncation [w64] (= mod 2^64).  A byte is an [N] below 256.  The primes are
    the constants the translator copied from bloom/xxhash/xxhash.go
    (PQ.Generated.Consts), not literals of this file.

    Executable; no proofs here (Bloom/XXHashProofs.v). *)
From Coq Require Import List NArith ZArith Bool Arith.
From PQ Require Import Generated.Consts.
Import ListNotations.
Open Scope N_scope.

Definition M64 : N := Eval compute in 2 ^ 64.
Definition M32 : N := Eval compute in 2 ^ 32.

(* truncation to uint64 / uint32: x mod 2^64 and x mod 2^32, computed by
   masking (Bloom/FilterProofs.v: w64_mod, w32_mod) *)
Definition mask64 : N := Eval compute in 2 ^ 64 - 1.
Definition mask32 : N := Eval compute in 2 ^ 32 - 1.
Definition w64 (x : N) : N := N.land x mask64.
Definition w32 (x : N) : N := N.land x mask32.

(* uint64 arithmetic *)
Definition add64 (a b : N) : N := w64 (a + b).
Definition mul64 (a b : N) : N := w64 (a * b).
(* bits.RotateLeft64(x, r), 0 < r < 64 *)
Definition rol64 (x r : N) : N := N.lor (w64 (N.shiftl x r)) (N.shiftr x (64 - r)).

(* xxhash.go constants *)
Definition prime1 : N := Z.to_N go_bloom_xxhash_prime1.
Definition prime2 : N := Z.to_N go_bloom_xxhash_prime2.
Definition prime3 : N := Z.to_N go_bloom_xxhash_prime3.
Definition prime4 : N := Z.to_N go_bloom_xxhash_prime4.
Definition prime5 : N := Z.to_N go_bloom_xxhash_prime5.
Definition prime1plus2 : N := Z.to_N go_bloom_xxhash_prime1plus2.
Definition negprime1 : N := Z.to_N go_bloom_xxhash_negprime1.

(* xxhash.go avalanche *)
Definition avalanche (h : N) : N :=
  let h := N.lxor h (N.shiftr h 33) in
  let h := mul64 h prime2 in
  let h := N.lxor h (N.shiftr h 29) in
  let h := mul64 h prime3 in
  N.lxor h (N.shiftr h 32).

(* xxhash.go round *)
Definition round (acc input : N) : N :=
  let acc := add64 acc (mul64 input prime2) in
  let acc := rol64 acc 31 in
  mul64 acc prime1.

(* xxhash.go mergeRound *)
Definition merge_round (acc val : N) : N :=
  let val := round 0 val in
  let acc := N.lxor acc val in
  add64 (mul64 acc prime1) prime4.

(* binary.LittleEndian: value of a byte list / the k little-endian bytes of a value *)
Fixpoint le_word (b : list N) : N :=
  match b with
  | [] => 0
  | x :: r => x + 256 * le_word r
  end.

Fixpoint le_bytes (k : nat) (v : N) : list N :=
  match k with
  | O => []
  | S k' => v mod 256 :: le_bytes k' (v / 256)
  end.

Definition u64 (b : list N) : N := le_word (firstn 8 b).
Definition u32 (b : list N) : N := le_word (firstn 4 b).

(* [has n b]: len(b) >= n, looking at no more than n cells *)
Definition has (n : nat) (b : list N) : bool := Nat.eqb (length (firstn n b)) n.

(* xxhash_purego.go Sum64: the loop over 32-byte stripes *)
Fixpoint stripes (fuel : nat) (v : N * N * N * N) (b : list N) : (N * N * N * N) * list N :=
  match fuel with
  | O => (v, b)
  | S f =>
      if has 32 b then
        let '(v1, v2, v3, v4) := v in
        stripes f (round v1 (u64 b),
                   round v2 (u64 (skipn 8 b)),
                   round v3 (u64 (skipn 16 b)),
                   round v4 (u64 (skipn 24 b))) (skipn 32 b)
      else (v, b)
  end.

(* for ; i+8 <= end; i += 8 *)
Fixpoint tail8 (fuel : nat) (h : N) (b : list N) : N * list N :=
  match fuel with
  | O => (h, b)
  | S f =>
      if has 8 b then
        let k1 := round 0 (u64 b) in
        let h := N.lxor h k1 in
        tail8 f (add64 (mul64 (rol64 h 27) prime1) prime4) (skipn 8 b)
      else (h, b)
  end.

(* if i+4 <= end *)
Definition tail4 (h : N) (b : list N) : N * list N :=
  if has 4 b then
    let h := N.lxor h (mul64 (u32 b) prime1) in
    (add64 (mul64 (rol64 h 23) prime2) prime3, skipn 4 b)
  else (h, b).

(* for ; i < end; i++ *)
Definition tail1 (h : N) (b : list N) : N :=
  fold_left (fun h x => mul64 (rol64 (N.lxor h (mul64 x prime5)) 11) prime1) b h.

Definition xxh64 (b : list N) : N :=
  let n := length b in
  let '(h, rest) :=
    if (32 <=? n)%nat then
      let '((v1, v2, v3, v4), rest) := stripes n (prime1plus2, prime2, 0, negprime1) b in
      let h := add64 (add64 (add64 (rol64 v1 1) (rol64 v2 7)) (rol64 v3 12)) (rol64 v4 18) in
      let h := merge_round h v1 in
      let h := merge_round h v2 in
      let h := merge_round h v3 in
      let h := merge_round h v4 in
      (h, rest)
    else (prime5, b) in
  let h := add64 h (N.of_nat n) in
  let '(h, rest) := tail8 (length rest) h rest in
  let '(h, rest) := tail4 h rest in
  avalanche (tail1 h rest).

(* sum64uint.go *)
Definition sum64uint8 (v : N) : N :=
  let h := add64 prime5 1 in
  let h := N.lxor h (mul64 v prime5) in
  avalanche (mul64 (rol64 h 11) prime1).

Definition sum64uint16 (v : N) : N :=
  let h := add64 prime5 2 in
  let h := N.lxor h (mul64 (N.land v 255) prime5) in
  let h := mul64 (rol64 h 11) prime1 in
  let h := N.lxor h (mul64 (N.shiftr v 8) prime5) in
  let h := mul64 (rol64 h 11) prime1 in
  avalanche h.

Definition sum64uint32 (v : N) : N :=
  let h := add64 prime5 4 in
  let h := N.lxor h (mul64 v prime1) in
  avalanche (add64 (mul64 (rol64 h 23) prime2) prime3).

Definition sum64uint64 (v : N) : N :=
  let h := add64 prime5 8 in
  let h := N.lxor h (round 0 v) in
  avalanche (add64 (mul64 (rol64 h 27) prime1) prime4).

(* the argument is the [16]byte array *)
Definition sum64uint128 (v : list N) : N :=
  let h := add64 prime5 16 in
  let h := N.lxor h (round 0 (u64 v)) in
  let h := add64 (mul64 (rol64 h 27) prime1) prime4 in
  let h := N.lxor h (round 0 (u64 (skipn 8 v))) in
  let h := add64 (mul64 (rol64 h 27) prime1) prime4 in
  avalanche h.
