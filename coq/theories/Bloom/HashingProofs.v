(** Proofs relating the write side (the Encode methods of splitBlockEncoding) and the read
    side (Value.hash) of bloom filter hashing (Bloom/Hashing.v), and the
    end-to-end statement: a value written to a column chunk checks true in the
    chunk's stored filter. *)
From Coq Require Import List NArith ZArith Bool Arith Lia ZifyBool.
From PQ Require Import Base.ListExtra Bloom.XXHash Bloom.Filter Bloom.Hashing Bloom.FilterProofs Bloom.XXHashProofs.
Import ListNotations.
Open Scope N_scope.

Lemma bulk_hashes_map : forall (A : Type) (sum : A -> N) fuel values,
  (length values <= fuel)%nat -> bulk_hashes fuel sum values = map sum values.
Proof.
  intros A sum. induction fuel as [|f IH]; intros values H.
  - destruct values; [reflexivity|simpl in H; lia].
  - destruct values as [|x r]; [reflexivity|].
    cbn [bulk_hashes]. rewrite IH.
    + rewrite <- map_app, firstn_skipn. reflexivity.
    + rewrite skipn_length. unfold filter_encode_buffer_size. simpl length in *. lia.
Qed.

Lemma bulk_map : forall (A : Type) (sum : A -> N) values, bulk sum values = map sum values.
Proof. intros. unfold bulk. apply bulk_hashes_map. lia. Qed.

Lemma fixed_chunks_concat : forall size vs fuel,
  (0 < size)%nat -> Forall (fun v => length v = size) vs -> (length vs <= fuel)%nat ->
  fixed_chunks fuel size (concat vs) = vs.
Proof.
  intros size vs fuel Hs. revert vs. induction fuel as [|f IH]; intros vs Hall Hlen.
  - destruct vs; [reflexivity|simpl in Hlen; lia].
  - destruct vs as [|v r].
    + cbn [concat fixed_chunks]. unfold has. rewrite firstn_nil. cbn [length].
      destruct size; [lia|reflexivity].
    + inversion Hall as [|? ? Hv Hr]; subst. cbn [concat fixed_chunks]. unfold has.
      rewrite firstn_app_exact, Nat.eqb_refl, skipn_app_exact, IH; auto.
      simpl in Hlen; lia.
Qed.

Lemma fixed_chunks_concat_all : forall size vs,
  (0 < size)%nat -> Forall (fun v => length v = size) vs ->
  fixed_chunks (length (concat vs)) size (concat vs) = vs.
Proof.
  intros size vs Hs H. apply fixed_chunks_concat; auto.
  rewrite (concat_length_uniform size vs H). nia.
Qed.

Lemma byte_array_slices_concat : forall vs pre,
  byte_array_slices (pre ++ concat vs) (length pre) (offsets_from (length pre) vs) = vs.
Proof.
  induction vs as [|v r IH]; intro pre; [reflexivity|].
  cbn [concat offsets_from byte_array_slices].
  rewrite skipn_app_exact.
  replace (length pre + length v - length pre)%nat with (length v) by lia.
  rewrite firstn_app_exact. f_equal.
  rewrite app_assoc, <- app_length. apply IH.
Qed.

Lemma byte_of_bits_true : forall bs, In true bs -> byte_of_bits bs <> 0.
Proof.
  induction bs as [|b r IH]; intros H; [destruct H|].
  cbn [byte_of_bits]. destruct H as [->|H]; [lia|]. specialize (IH H). destruct b; lia.
Qed.

Lemma byte_of_bits_bound : forall bs, byte_of_bits bs + 1 <= 2 ^ N.of_nat (length bs).
Proof.
  induction bs as [|b r IH]; [simpl; lia|].
  cbn [byte_of_bits length]. rewrite Nat2N.inj_succ, N.pow_succ_r'. destruct b; lia.
Qed.

Lemma byte_of_bits_false : forall bs, In false bs -> byte_of_bits bs + 2 <= 2 ^ N.of_nat (length bs).
Proof.
  induction bs as [|b r IH]; intros H; [destruct H|].
  cbn [byte_of_bits length]. rewrite Nat2N.inj_succ, N.pow_succ_r'.
  destruct H as [->|H].
  - pose proof (byte_of_bits_bound r). lia.
  - specialize (IH H). destruct b; lia.
Qed.

Lemma byte_of_bits_false_255 : forall bs, (length bs <= 8)%nat -> In false bs -> byte_of_bits bs <> 255.
Proof.
  intros bs Hl H. pose proof (byte_of_bits_false bs H) as B.
  assert (2 ^ N.of_nat (length bs) <= 2 ^ 8) by (apply N.pow_le_mono_r; lia).
  change (2 ^ 8) with 256 in *. lia.
Qed.

Lemma pack_bools_in : forall fuel bs b, (length bs <= fuel)%nat -> In b bs ->
  exists chunk, In (byte_of_bits chunk) (pack_bools fuel bs) /\ In b chunk /\ (length chunk <= 8)%nat.
Proof.
  induction fuel as [|f IH]; intros bs b Hl Hin.
  - destruct bs; [destruct Hin|simpl in Hl; lia].
  - destruct bs as [|x r]; [destruct Hin|].
    cbn [pack_bools]. rewrite <- (firstn_skipn 8 (x :: r)) in Hin.
    apply in_app_or in Hin. destruct Hin as [Hin|Hin].
    + exists (firstn 8 (x :: r)). split; [left; reflexivity|]. split; [exact Hin|].
      apply firstn_le_length.
    + destruct (IH (skipn 8 (x :: r)) b) as [c [Hc1 [Hc2 Hc3]]]; auto.
      * rewrite skipn_length. simpl length in *. lia.
      * exists c. split; [right; exact Hc1|]. auto.
Qed.

Lemma boolean_keys_in : forall (bits : list bool) (b : bool), In b bits ->
  In (if b then 1 else 0) (boolean_keys (pack bits)).
Proof.
  intros bits b Hin. unfold pack.
  destruct (pack_bools_in (length bits) bits b (le_n _) Hin) as [c [Hc1 [Hc2 Hc3]]].
  unfold boolean_keys. apply in_or_app. destruct b.
  - right.
    assert (E : existsb (fun b => negb (b =? 0)) (pack_bools (length bits) bits) = true).
    { apply existsb_exists. exists (byte_of_bits c). split; [exact Hc1|].
      pose proof (byte_of_bits_true c Hc2). destruct (N.eqb_spec (byte_of_bits c) 0); [contradiction|reflexivity]. }
    rewrite E. left; reflexivity.
  - left.
    assert (E : existsb (fun b => negb (b =? 255)) (pack_bools (length bits) bits) = true).
    { apply existsb_exists. exists (byte_of_bits c). split; [exact Hc1|].
      pose proof (byte_of_bits_false_255 c Hc3 Hc2). destruct (N.eqb_spec (byte_of_bits c) 255); [contradiction|reflexivity]. }
    rewrite E. left; reflexivity.
Qed.

(** a boolean page whose packed bytes cover bits before ([pre], page.offset)
    and after ([post], padding) the page's values still yields the key *)
Lemma boolean_page_agree : forall pre bits post b, In b bits ->
  In (hash_read (VBoolean b)) (hashes_write (PBoolean (pack (pre ++ bits ++ post)))).
Proof.
  intros pre bits post b Hin. cbn [hashes_write hash_read]. rewrite bulk_map.
  apply (in_map sum64uint8 _ (if b then 1 else 0)). apply boolean_keys_in.
  apply in_or_app; right. apply in_or_app; left. exact Hin.
Qed.

Lemma typed_in : forall t vs v, Forall (typed t) vs -> In v vs -> typed t v.
Proof. intros t vs v H Hin. rewrite Forall_forall in H. auto. Qed.

Lemma typed_lengths : forall t vs size,
  Forall (typed t) vs -> (t = TInt96 /\ size = 12%nat) \/ t = TFixedLenByteArray size ->
  Forall (fun b => length b = size) (map bytes_of vs).
Proof.
  intros t vs size H Ht. apply Forall_forall. intros b Hb.
  apply in_map_iff in Hb. destruct Hb as [v [<- Hv]].
  pose proof (typed_in t vs v H Hv) as T.
  destruct Ht as [[-> ->]| ->]; destruct v; simpl in T; try contradiction; simpl; tauto.
Qed.

Lemma hashes_write_typed : forall t vs, t <> TBoolean -> Forall (typed t) vs ->
  hashes_write (page_of_values t vs) = map hash_read vs.
Proof.
  intros t vs NB Hall.
  assert (Hext : forall f g : value -> N, (forall v, typed t v -> f v = g v) -> map f vs = map g vs).
  { intros f g H. apply map_ext_in. intros v Hin. apply H. eapply typed_in; eauto. }
  destruct t; try contradiction; cbn [page_of_values hashes_write].
  1, 2, 4, 5: rewrite bulk_map, map_map; apply Hext; intros [] T; simpl in T; try contradiction; reflexivity.
  - rewrite (fixed_chunks_concat_all 12); [|lia|apply (typed_lengths TInt96 vs 12 Hall); auto].
    rewrite map_map. apply Hext. intros [] T; simpl in T; try contradiction; reflexivity.
  - pose proof (byte_array_slices_concat (map bytes_of vs) []) as E. cbn [app length] in E.
    rewrite E, map_map. apply Hext. intros [] T; simpl in T; try contradiction; reflexivity.
  - destruct vs as [|v0 vs'].
    + cbn. destruct (Nat.eqb size 16); reflexivity.
    + assert (Hpos : (0 < size)%nat).
      { inversion Hall as [|? ? T0 _]; subst. destruct v0; simpl in T0; try contradiction. tauto. }
      pose proof (typed_lengths (TFixedLenByteArray size) (v0 :: vs') size Hall (or_intror eq_refl)) as L.
      destruct (Nat.eqb_spec size 16) as [E16|NE].
      * rewrite E16 in *. rewrite bulk_map, (fixed_chunks_concat_all 16); auto.
        rewrite map_map. apply Hext. intros [] T; simpl in T; try contradiction.
        cbn [bytes_of hash_read]. apply sum64uint128_eq. tauto.
      * rewrite (fixed_chunks_concat_all size); auto.
        rewrite map_map. apply Hext. intros [] T; simpl in T; try contradiction; reflexivity.
Qed.

Lemma write_read_hash_agree : forall t vs v,
  Forall (typed t) vs -> In v vs -> In (hash_read v) (hashes_write (page_of_values t vs)).
Proof.
  intros t vs v Hall Hin.
  assert (NB : t = TBoolean \/ t <> TBoolean) by (destruct t; auto; right; discriminate).
  destruct NB as [->|NB].
  - pose proof (typed_in _ vs v Hall Hin) as T. destruct v; simpl in T; try contradiction.
    pose proof (boolean_page_agree [] (map bool_of vs) [] b) as H.
    rewrite app_nil_r in H. apply H. apply (in_map bool_of vs (VBoolean b)). exact Hin.
  - rewrite (hashes_write_typed t vs NB Hall). now apply in_map.
Qed.

Lemma Forall_map_lt : forall (A : Type) (f : A -> N) l, (forall x, f x < M64) -> Forall is_u64 (map f l).
Proof.
  intros A f l H. apply Forall_forall. intros y Hy. apply in_map_iff in Hy.
  destruct Hy as [x [<- _]]. apply H.
Qed.

Lemma hashes_write_u64 : forall p, Forall is_u64 (hashes_write p).
Proof.
  intros [packed|ws|ws|data|ws|ws|data offsets|size data]; cbn [hashes_write];
    rewrite ?bulk_map.
  - apply Forall_map_lt, sum64uint8_lt.
  - apply Forall_map_lt, sum64uint32_lt.
  - apply Forall_map_lt, sum64uint64_lt.
  - apply Forall_map_lt, xxh64_lt.
  - apply Forall_map_lt, sum64uint32_lt.
  - apply Forall_map_lt, sum64uint64_lt.
  - destruct offsets; [constructor|]. apply Forall_map_lt, xxh64_lt.
  - destruct (Nat.eqb size 16); rewrite ?bulk_map.
    + apply Forall_map_lt, sum64uint128_lt.
    + apply Forall_map_lt, xxh64_lt.
Qed.

Lemma write_pages_bulk : forall ps f,
  write_pages_to_filter f ps = filter_insert_bulk f (flat_map hashes_write ps).
Proof.
  unfold write_pages_to_filter. induction ps as [|p ps IH]; intro f; [reflexivity|].
  cbn [fold_left flat_map]. rewrite IH. unfold write_page_to_filter, filter_insert_bulk. now rewrite fold_left_app.
Qed.

Lemma write_pages_length : forall ps f, length (write_pages_to_filter f ps) = length f.
Proof. intros ps f. rewrite write_pages_bulk. apply length_filter_insert_bulk. Qed.

Lemma write_pages_wf : forall ps f, wf_filter f -> wf_filter (write_pages_to_filter f ps).
Proof. intros ps f. rewrite write_pages_bulk. apply wf_filter_insert_bulk. Qed.

Lemma write_pages_check : forall ps f p h,
  blocks_ok f -> In p ps -> In h (hashes_write p) ->
  filter_check (write_pages_to_filter f ps) h = true.
Proof.
  intros ps f p h Hf Hp Hh. rewrite write_pages_bulk. apply check_after_insert; [exact Hf| |].
  - apply Forall_forall. intros y Hy. apply in_flat_map in Hy. destruct Hy as (q & _ & Hy).
    pose proof (hashes_write_u64 q) as Hu. rewrite Forall_forall in Hu. now apply Hu.
  - apply in_flat_map. now exists p.
Qed.

(** end to end, starting from any filter content (a reused, pre-sized or copied
    filter): later pages never remove what earlier pages inserted *)
Lemma written_value_checks_true_from : forall t f pages page v,
  blocks_ok f -> wf_filter f ->
  Forall (Forall (typed t)) pages -> In page pages -> In v page ->
  file_check (filter_bytes (write_pages_to_filter f (map (page_of_values t) pages))) v = true.
Proof.
  intros t f pages page v Hf Hwf Hall Hp Hv. unfold file_check.
  rewrite check_split_block_bytes by (apply write_pages_wf; exact Hwf).
  apply (write_pages_check _ _ (page_of_values t page)); auto.
  - apply in_map. exact Hp.
  - apply write_read_hash_agree; [|exact Hv].
    rewrite Forall_forall in Hall. apply Hall. exact Hp.
Qed.

Lemma written_value_checks_true : forall t nblocks pages page v,
  (0 < nblocks)%nat -> N.of_nat nblocks < 2 ^ 31 ->
  Forall (Forall (typed t)) pages -> In page pages -> In v page ->
  file_check (filter_bytes (chunk_filter nblocks t pages)) v = true.
Proof.
  intros t n pages page v Hn Hn31. apply written_value_checks_true_from.
  - now apply blocks_ok_empty.
  - apply wf_empty_filter.
Qed.

Definition pinned_witness : list value := repeat (VBoolean true) 8.

Lemma pinned_boolean_hash_disagree :
  ~ In (hash_read (VBoolean true)) (hashes_write_pinned (page_of_values TBoolean pinned_witness)).
Proof. vm_compute. intros [H|[]]. discriminate H. Qed.

Lemma pinned_boolean_check_false :
  file_check (filter_bytes (write_page_to_filter_pinned (empty_filter 1) (page_of_values TBoolean pinned_witness)))
             (VBoolean true) = false.
Proof. vm_compute. reflexivity. Qed.
