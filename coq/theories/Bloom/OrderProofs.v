(** The stored filter depends only on the set of inserted keys: inserts
    commute and are idempotent, so the three build strategies of the writer
    (page by page, from the dictionary page, from pages read back) and any
    split of the values into pages produce the same bytes. *)
From Coq Require Import List NArith Bool Arith Permutation.
From PQ Require Import Bloom.Filter Bloom.Hashing Bloom.FilterProofs Bloom.HashingProofs.
Import ListNotations.
Open Scope N_scope.

Lemma update_nth_comm : forall (A : Type) (g h : A -> A) l i j, i <> j ->
  update_nth i g (update_nth j h l) = update_nth j h (update_nth i g l).
Proof.
  intros A g h l. induction l as [|x r IH]; intros [|i] [|j] NE; simpl; auto;
    try contradiction. f_equal. apply IH. congruence.
Qed.

Lemma update_nth_compose : forall (A : Type) (g h : A -> A) l i,
  update_nth i g (update_nth i h l) = update_nth i (fun x => g (h x)) l.
Proof.
  intros A g h l. induction l as [|x r IH]; intros [|i]; simpl; auto. f_equal. apply IH.
Qed.

Lemma update_nth_ext : forall (A : Type) (g h : A -> A) l i,
  (forall x, g x = h x) -> update_nth i g l = update_nth i h l.
Proof.
  intros A g h l i E. revert i. induction l as [|x r IH]; intros [|i]; simpl; auto.
  - rewrite E. reflexivity.
  - f_equal. apply IH.
Qed.

Lemma lor_swap : forall w a b, N.lor (N.lor w a) b = N.lor (N.lor w b) a.
Proof. intros. rewrite <- !N.lor_assoc, (N.lor_comm a b). reflexivity. Qed.

Lemma lor_idem : forall w a, N.lor (N.lor w a) a = N.lor w a.
Proof. intros. rewrite <- N.lor_assoc, N.lor_diag. reflexivity. Qed.

Lemma block_insert_comm : forall b x y,
  block_insert (block_insert b x) y = block_insert (block_insert b y) x.
Proof.
  intros [[[[[[[b0 b1] b2] b3] b4] b5] b6] b7] x y. unfold block_insert.
  repeat match goal with |- (_, _) = (_, _) => f_equal end; apply lor_swap.
Qed.

Lemma block_insert_idem : forall b x, block_insert (block_insert b x) x = block_insert b x.
Proof.
  intros [[[[[[[b0 b1] b2] b3] b4] b5] b6] b7] x. unfold block_insert.
  repeat match goal with |- (_, _) = (_, _) => f_equal end; apply lor_idem.
Qed.

Lemma filter_insert_comm : forall f a b,
  filter_insert (filter_insert f a) b = filter_insert (filter_insert f b) a.
Proof.
  intros f a b. unfold filter_insert at 1 3. rewrite !block_index_insert. unfold filter_insert.
  destruct (Nat.eq_dec (block_index f b) (block_index f a)) as [E|NE].
  - rewrite E, !update_nth_compose. apply update_nth_ext. intro x. apply block_insert_comm.
  - apply update_nth_comm. exact NE.
Qed.

Lemma filter_insert_idem : forall f a, filter_insert (filter_insert f a) a = filter_insert f a.
Proof.
  intros f a. unfold filter_insert at 1. rewrite block_index_insert. unfold filter_insert.
  rewrite update_nth_compose. apply update_nth_ext. intro x. apply block_insert_idem.
Qed.

Lemma bulk_cons : forall f a xs, filter_insert_bulk f (a :: xs) = filter_insert_bulk (filter_insert f a) xs.
Proof. reflexivity. Qed.

Lemma bulk_app : forall f xs ys,
  filter_insert_bulk f (xs ++ ys) = filter_insert_bulk (filter_insert_bulk f xs) ys.
Proof. intros. unfold filter_insert_bulk. apply fold_left_app. Qed.

Lemma bulk_insert_swap : forall xs f a,
  filter_insert_bulk (filter_insert f a) xs = filter_insert (filter_insert_bulk f xs) a.
Proof.
  induction xs as [|x xs IH]; intros f a; [reflexivity|].
  rewrite !bulk_cons, filter_insert_comm. apply IH.
Qed.

Lemma bulk_perm : forall xs ys, Permutation xs ys ->
  forall f, filter_insert_bulk f xs = filter_insert_bulk f ys.
Proof.
  intros xs ys P. induction P as [|x l l' P IH|x y l|l l' l'' P1 IH1 P2 IH2]; intro f.
  - reflexivity.
  - rewrite !bulk_cons. apply IH.
  - rewrite !bulk_cons, filter_insert_comm. reflexivity.
  - rewrite IH1. apply IH2.
Qed.

(** inserting a key that is inserted anyway changes nothing *)
Lemma bulk_absorb_one : forall xs f a, In a xs ->
  filter_insert_bulk (filter_insert f a) xs = filter_insert_bulk f xs.
Proof.
  induction xs as [|x xs IH]; intros f a H; [destruct H|].
  rewrite !bulk_cons. destruct H as [->|H].
  - rewrite filter_insert_idem. reflexivity.
  - rewrite filter_insert_comm. apply IH. exact H.
Qed.

Lemma bulk_absorb : forall xs ys f, incl xs ys ->
  filter_insert_bulk (filter_insert_bulk f ys) xs = filter_insert_bulk f ys.
Proof.
  induction xs as [|x xs IH]; intros ys f H; [reflexivity|].
  rewrite bulk_cons, <- bulk_insert_swap, bulk_absorb_one.
  - apply IH. intros z Hz. apply H. right. exact Hz.
  - apply H. left. reflexivity.
Qed.

(** the filter depends only on the set of keys *)
Lemma bulk_same_set : forall xs ys f, incl xs ys -> incl ys xs ->
  filter_insert_bulk f xs = filter_insert_bulk f ys.
Proof.
  intros xs ys f H1 H2.
  rewrite <- (bulk_absorb ys xs f H2), <- bulk_app.
  rewrite (bulk_perm (xs ++ ys) (ys ++ xs) (Permutation_app_comm xs ys)).
  rewrite bulk_app. apply bulk_absorb. exact H1.
Qed.

Lemma flat_map_hashes_typed : forall t pages, t <> TBoolean -> Forall (Forall (typed t)) pages ->
  flat_map hashes_write (map (page_of_values t) pages) = map hash_read (concat pages).
Proof.
  intros t pages NB H. induction H as [|p ps Hp Hps IH]; [reflexivity|].
  cbn [map flat_map concat]. rewrite map_app, IH, (hashes_write_typed t p NB Hp). reflexivity.
Qed.

(** for every non-boolean type the filter of a chunk is the fold of insert
    over the read-side hashes of all its values *)
Lemma chunk_filter_fold : forall t n pages, t <> TBoolean -> Forall (Forall (typed t)) pages ->
  chunk_filter n t pages = filter_insert_bulk (empty_filter n) (map hash_read (concat pages)).
Proof.
  intros t n pages NB H. unfold chunk_filter.
  rewrite write_pages_bulk, (flat_map_hashes_typed t pages NB H). reflexivity.
Qed.

(** two ways of feeding the same set of values (other page boundaries, another
    order, duplicates removed as in the dictionary page) store the same filter *)
Lemma chunk_filter_same_values : forall t n pages pages', t <> TBoolean ->
  Forall (Forall (typed t)) pages -> Forall (Forall (typed t)) pages' ->
  incl (concat pages) (concat pages') -> incl (concat pages') (concat pages) ->
  chunk_filter n t pages = chunk_filter n t pages'.
Proof.
  intros t n pages pages' NB H H' I1 I2.
  rewrite (chunk_filter_fold t n pages NB H), (chunk_filter_fold t n pages' NB H').
  apply bulk_same_set; apply incl_map; assumption.
Qed.
