(** Proofs about the split-block filter model (Bloom/Filter.v): an inserted
    key always checks true, inserting never clears a bit, and checking through
    the serialised bytes (CheckSplitBlock) agrees with checking in memory. *)
From Coq Require Import List NArith ZArith Bool Arith Lia ZifyBool.
From PQ Require Import Bloom.XXHash Bloom.Filter.
Import ListNotations.
Open Scope N_scope.

Lemma M64_eq : M64 = 2 ^ 64. Proof. reflexivity. Qed.
Lemma M32_eq : M32 = 2 ^ 32. Proof. reflexivity. Qed.

Lemma w64_mod : forall x, w64 x = x mod M64.
Proof. intro x. unfold w64. change mask64 with (N.ones 64). rewrite N.land_ones. reflexivity. Qed.

Lemma w32_mod : forall x, w32 x = x mod M32.
Proof. intro x. unfold w32. change mask32 with (N.ones 32). rewrite N.land_ones. reflexivity. Qed.

Lemma mul64_mod : forall a b, mul64 a b = (a * b) mod M64.
Proof. intros. apply w64_mod. Qed.

Lemma add64_mod : forall a b, add64 a b = (a + b) mod M64.
Proof. intros. apply w64_mod. Qed.

Lemma lt_pow2_bits_high : forall a n m, a < 2 ^ n -> n <= m -> N.testbit a m = false.
Proof.
  intros a n m H Hm. rewrite <- (N.mod_small a (2 ^ n)) by exact H.
  apply N.mod_pow2_bits_high; exact Hm.
Qed.

Lemma bits_high_lt_pow2 : forall a n,
  (forall m, n <= m -> N.testbit a m = false) -> a < 2 ^ n.
Proof.
  intros a n H.
  assert (E : a = a mod 2 ^ n).
  { apply N.bits_inj; intro m. destruct (N.lt_ge_cases m n) as [L|G].
    - rewrite N.mod_pow2_bits_low; auto.
    - rewrite N.mod_pow2_bits_high by exact G. apply H; exact G. }
  rewrite E. apply N.mod_lt. apply N.pow_nonzero. discriminate.
Qed.

Lemma lxor_lt_pow2 : forall a b n, a < 2 ^ n -> b < 2 ^ n -> N.lxor a b < 2 ^ n.
Proof.
  intros a b n Ha Hb. apply bits_high_lt_pow2; intros m Hm.
  rewrite N.lxor_spec, (lt_pow2_bits_high a n m Ha Hm), (lt_pow2_bits_high b n m Hb Hm).
  reflexivity.
Qed.

Lemma lor_lt_pow2 : forall a b n, a < 2 ^ n -> b < 2 ^ n -> N.lor a b < 2 ^ n.
Proof.
  intros a b n Ha Hb. apply bits_high_lt_pow2; intros m Hm.
  rewrite N.lor_spec, (lt_pow2_bits_high a n m Ha Hm), (lt_pow2_bits_high b n m Hb Hm).
  reflexivity.
Qed.

Lemma has_bit_pow2 : forall w k, has_bit w (2 ^ k) = N.testbit w k.
Proof.
  intros w k. unfold has_bit. destruct (N.testbit w k) eqn:E.
  - destruct (N.eqb_spec (N.land w (2 ^ k)) 0) as [Z|NZ]; [|reflexivity].
    exfalso. assert (T : N.testbit (N.land w (2 ^ k)) k = true).
    { rewrite N.land_spec, E, N.pow2_bits_true. reflexivity. }
    rewrite Z, N.bits_0 in T. discriminate.
  - assert (Z : N.land w (2 ^ k) = 0).
    { apply N.bits_inj_0; intro m. rewrite N.land_spec.
      destruct (N.eq_dec k m) as [->|NE].
      - rewrite E. reflexivity.
      - rewrite (N.pow2_bits_false k m NE). apply andb_false_r. }
    rewrite Z. reflexivity.
Qed.

Definition bit_pos (x s : N) : N := N.shiftr (mul32 x s) 27.

Lemma bit_pow2 : forall x s, bit x s = 2 ^ bit_pos x s.
Proof. intros. unfold bit, bit_pos. apply N.shiftl_1_l. Qed.

Lemma bit_pos_lt : forall x s, bit_pos x s < 32.
Proof.
  intros. unfold bit_pos, mul32. rewrite w32_mod, N.shiftr_div_pow2.
  apply N.div_lt_upper_bound; [discriminate|].
  change (2 ^ 27 * 32) with M32. apply N.mod_lt. discriminate.
Qed.

Lemma bit_lt : forall x s, bit x s < M32.
Proof.
  intros. rewrite bit_pow2, M32_eq. apply N.pow_lt_mono_r; [reflexivity|apply bit_pos_lt].
Qed.

Lemma has_bit_lor_same : forall w x s, has_bit (N.lor w (bit x s)) (bit x s) = true.
Proof.
  intros. rewrite bit_pow2, has_bit_pow2, N.lor_spec, N.pow2_bits_true. apply orb_true_r.
Qed.

Lemma has_bit_lor_mono : forall w x s y s',
  has_bit w (bit y s') = true -> has_bit (N.lor w (bit x s)) (bit y s') = true.
Proof.
  intros w x s y s'. rewrite !bit_pow2, !has_bit_pow2, N.lor_spec. intros ->. reflexivity.
Qed.

Lemma block_check_insert : forall b x, block_check (block_insert b x) x = true.
Proof.
  intros [[[[[[[b0 b1] b2] b3] b4] b5] b6] b7] x. unfold block_check, block_insert.
  rewrite !has_bit_lor_same. reflexivity.
Qed.

Lemma block_check_mono : forall b x y,
  block_check b y = true -> block_check (block_insert b x) y = true.
Proof.
  intros [[[[[[[b0 b1] b2] b3] b4] b5] b6] b7] x y. unfold block_check, block_insert.
  rewrite !andb_true_iff. intros [[[[[[[H0 H1] H2] H3] H4] H5] H6] H7].
  repeat split; apply has_bit_lor_mono; assumption.
Qed.

Lemma length_update_nth : forall (A : Type) (g : A -> A) l i, length (update_nth i g l) = length l.
Proof.
  intros A g l. induction l as [|x r IH]; intros [|i]; simpl; auto.
Qed.

Lemma nth_error_update_nth_eq : forall (A : Type) (g : A -> A) l i x,
  nth_error l i = Some x -> nth_error (update_nth i g l) i = Some (g x).
Proof.
  intros A g l. induction l as [|y r IH]; intros [|i] x; simpl; try discriminate.
  - intros [= ->]. reflexivity.
  - apply IH.
Qed.

Lemma nth_error_update_nth_neq : forall (A : Type) (g : A -> A) l i j,
  i <> j -> nth_error (update_nth i g l) j = nth_error l j.
Proof.
  intros A g l. induction l as [|y r IH]; intros [|i] [|j] NE; simpl; auto;
    try contradiction; try (apply IH; congruence).
Qed.

Definition is_u64 (x : N) : Prop := x < M64.

(* the number of blocks fits the int32 scale argument of fasthash1x64 *)
Definition blocks_ok (f : filter) : Prop :=
  (0 < length f)%nat /\ N.of_nat (length f) < 2 ^ 31.

Lemma length_filter_insert : forall f x, length (filter_insert f x) = length f.
Proof. intros. unfold filter_insert. apply length_update_nth. Qed.

Lemma bulk_invariant (P : filter -> Prop) :
  (forall f x, P f -> P (filter_insert f x)) -> forall xs f, P f -> P (filter_insert_bulk f xs).
Proof.
  intros H. unfold filter_insert_bulk. induction xs as [|x xs IH]; intros f Hf; simpl; [exact Hf|].
  apply IH, H, Hf.
Qed.

Lemma length_filter_insert_bulk : forall xs f, length (filter_insert_bulk f xs) = length f.
Proof.
  intros xs f. apply (bulk_invariant (fun g => length g = length f)); [|reflexivity].
  intros g x Hg. now rewrite length_filter_insert.
Qed.

Lemma block_index_insert : forall f x y, block_index (filter_insert f x) y = block_index f y.
Proof. intros. unfold block_index. rewrite length_filter_insert. reflexivity. Qed.

Lemma fasthash_lt : forall x n, x < M64 -> 0 < n -> n < 2 ^ 31 -> fasthash1x64 x n < n.
Proof.
  intros x n Hx Hn Hn31. unfold fasthash1x64. rewrite mul64_mod.
  rewrite !N.shiftr_div_pow2.
  assert (Ha : x / 2 ^ 32 < 2 ^ 32).
  { apply N.div_lt_upper_bound; [discriminate|]. exact Hx. }
  set (a := x / 2 ^ 32) in *.
  assert (Hs : a * n < M64).
  { change M64 with (2 ^ 32 * 2 ^ 32). apply N.mul_lt_mono; [exact Ha|].
    eapply N.lt_trans; [exact Hn31|reflexivity]. }
  rewrite (N.mod_small _ _ Hs).
  apply N.div_lt_upper_bound; [discriminate|].
  apply N.mul_lt_mono_pos_r; assumption.
Qed.

Lemma block_index_lt : forall f x, is_u64 x -> blocks_ok f -> (block_index f x < length f)%nat.
Proof.
  intros f x Hx [Hpos H31]. unfold block_index.
  assert (H : fasthash1x64 x (N.of_nat (length f)) < N.of_nat (length f)).
  { apply fasthash_lt; [exact Hx| lia | exact H31]. }
  lia.
Qed.

Lemma filter_check_insert_same : forall f x,
  (block_index f x < length f)%nat -> filter_check (filter_insert f x) x = true.
Proof.
  intros f x H. unfold filter_check. rewrite block_index_insert. unfold filter_insert.
  destruct (nth_error f (block_index f x)) as [b|] eqn:E.
  - rewrite (nth_error_update_nth_eq _ _ _ _ _ E). apply block_check_insert.
  - apply nth_error_None in E. lia.
Qed.

(** insert never clears a bit *)
Lemma filter_check_insert_mono : forall f x y,
  filter_check f y = true -> filter_check (filter_insert f x) y = true.
Proof.
  intros f x y. unfold filter_check. rewrite block_index_insert. unfold filter_insert.
  destruct (Nat.eq_dec (block_index f x) (block_index f y)) as [E|NE].
  - rewrite E. destruct (nth_error f (block_index f y)) as [b|] eqn:Eb; [|discriminate].
    rewrite (nth_error_update_nth_eq _ _ _ _ _ Eb). apply block_check_mono.
  - rewrite (nth_error_update_nth_neq _ _ _ _ _ NE). auto.
Qed.

Lemma filter_check_bulk_mono : forall xs f y,
  filter_check f y = true -> filter_check (filter_insert_bulk f xs) y = true.
Proof.
  intros xs f y. apply (bulk_invariant (fun g => filter_check g y = true)).
  intros g x. apply filter_check_insert_mono.
Qed.

(** every inserted key checks true, whatever the filter held before *)
Lemma check_after_insert : forall hs f h,
  blocks_ok f -> Forall is_u64 hs -> In h hs ->
  filter_check (filter_insert_bulk f hs) h = true.
Proof.
  induction hs as [|a hs IH]; intros f h Hf Hu Hin; [destruct Hin|].
  inversion Hu as [|? ? Ha Hu']; subst.
  change (filter_insert_bulk f (a :: hs)) with (filter_insert_bulk (filter_insert f a) hs).
  destruct Hin as [->|Hin].
  - apply filter_check_bulk_mono. apply filter_check_insert_same.
    apply block_index_lt; assumption.
  - apply IH; auto. unfold blocks_ok. rewrite length_filter_insert. exact Hf.
Qed.

Lemma blocks_ok_empty : forall n, (0 < n)%nat -> N.of_nat n < 2 ^ 31 -> blocks_ok (empty_filter n).
Proof. intros n H1 H2. unfold blocks_ok, empty_filter. rewrite repeat_length. auto. Qed.

Lemma le_word_le_bytes : forall k v, v < 256 ^ N.of_nat k -> le_word (le_bytes k v) = v.
Proof.
  induction k as [|k IH]; intros v Hv.
  - simpl in *. lia.
  - cbn [le_bytes le_word]. rewrite IH.
    + pose proof (N.div_mod v 256). lia.
    + rewrite Nat2N.inj_succ, N.pow_succ_r' in Hv.
      apply N.div_lt_upper_bound; [discriminate|exact Hv].
Qed.

Lemma length_le_bytes : forall k v, length (le_bytes k v) = k.
Proof. induction k; intros; simpl; auto. Qed.

Definition wf_block (b : block) : Prop :=
  let '(b0, b1, b2, b3, b4, b5, b6, b7) := b in
  b0 < M32 /\ b1 < M32 /\ b2 < M32 /\ b3 < M32 /\ b4 < M32 /\ b5 < M32 /\ b6 < M32 /\ b7 < M32.

Lemma wf_empty_block : wf_block empty_block.
Proof. repeat split. Qed.

Lemma wf_block_insert : forall b x, wf_block b -> wf_block (block_insert b x).
Proof.
  intros [[[[[[[b0 b1] b2] b3] b4] b5] b6] b7] x (H0 & H1 & H2 & H3 & H4 & H5 & H6 & H7).
  unfold block_insert, wf_block. rewrite M32_eq in *.
  repeat split; apply lor_lt_pow2; auto; rewrite <- M32_eq; apply bit_lt.
Qed.

Lemma length_block_bytes : forall b, length (block_bytes b) = 32%nat.
Proof. intros [[[[[[[b0 b1] b2] b3] b4] b5] b6] b7]. reflexivity. Qed.

Lemma u32_le_bytes_app : forall w r, w < M32 -> u32 (le_bytes 4 w ++ r) = w.
Proof.
  intros w r H. unfold u32.
  rewrite firstn_app, length_le_bytes, Nat.sub_diag, firstn_O, app_nil_r.
  rewrite firstn_all2 by (rewrite length_le_bytes; auto).
  apply le_word_le_bytes. exact H.
Qed.

Lemma skipn_le_bytes_app : forall w (r : list N), skipn 4 (le_bytes 4 w ++ r) = r.
Proof. intros. reflexivity. Qed.

Lemma block_of_block_bytes : forall b r, wf_block b -> block_of_bytes (firstn 32 (block_bytes b ++ r)) = b.
Proof.
  intros b r H.
  rewrite firstn_app, length_block_bytes, Nat.sub_diag, firstn_O, app_nil_r.
  rewrite firstn_all2 by (rewrite length_block_bytes; auto).
  destruct b as [[[[[[[b0 b1] b2] b3] b4] b5] b6] b7].
  destruct H as (H0 & H1 & H2 & H3 & H4 & H5 & H6 & H7).
  unfold block_of_bytes, block_bytes, u32. cbn [le_bytes app skipn firstn].
  repeat match goal with |- (_, _) = (_, _) => f_equal end;
    match goal with |- _ = ?w => apply (le_word_le_bytes 4 w); assumption end.
Qed.

Definition wf_filter (f : filter) : Prop := Forall wf_block f.

Lemma wf_empty_filter : forall n, wf_filter (empty_filter n).
Proof.
  intro n. unfold wf_filter, empty_filter. apply Forall_forall. intros b Hb.
  apply repeat_spec in Hb. subst. apply wf_empty_block.
Qed.

Lemma Forall_update_nth : forall (A : Type) (P : A -> Prop) (g : A -> A) l i,
  (forall x, P x -> P (g x)) -> Forall P l -> Forall P (update_nth i g l).
Proof.
  intros A P g l i Hg H. revert i. induction H as [|x r Hx Hr IH]; intros [|i]; simpl;
    constructor; auto.
Qed.

Lemma wf_filter_insert : forall f x, wf_filter f -> wf_filter (filter_insert f x).
Proof.
  intros f x H. unfold filter_insert. apply Forall_update_nth; [|exact H].
  intros b Hb. apply wf_block_insert. exact Hb.
Qed.

Lemma wf_filter_insert_bulk : forall xs f, wf_filter f -> wf_filter (filter_insert_bulk f xs).
Proof. apply (bulk_invariant wf_filter), wf_filter_insert. Qed.

Lemma length_filter_bytes : forall f, length (filter_bytes f) = (32 * length f)%nat.
Proof.
  induction f as [|b f IH]; [reflexivity|].
  unfold filter_bytes in *. cbn [flat_map]. rewrite app_length, length_block_bytes, IH.
  cbn [length]. lia.
Qed.

Lemma skipn_filter_bytes_some : forall f i b, nth_error f i = Some b ->
  exists r, skipn (32 * i) (filter_bytes f) = block_bytes b ++ r.
Proof.
  induction f as [|y f IH]; intros [|i] b H; try discriminate.
  - injection H as ->. exists (filter_bytes f). reflexivity.
  - cbn [nth_error] in H. destruct (IH i b H) as [r Hr]. exists r.
    unfold filter_bytes in *. cbn [flat_map].
    rewrite skipn_app, length_block_bytes.
    rewrite skipn_all2 by (rewrite length_block_bytes; lia).
    replace (32 * S i - 32)%nat with (32 * i)%nat by lia. exact Hr.
Qed.

Lemma skipn_filter_bytes_none : forall f i, nth_error f i = None ->
  skipn (32 * i) (filter_bytes f) = [].
Proof.
  intros f i H. apply nth_error_None in H. apply skipn_all2.
  rewrite length_filter_bytes. lia.
Qed.

Lemma block_check_empty : forall x, block_check (block_of_bytes []) x = false.
Proof. intro x. reflexivity. Qed.

Lemma block_size_32 : block_size = 32.
Proof. reflexivity. Qed.

(** CheckSplitBlock over the serialised filter = Check on the filter in memory *)
Lemma check_split_block_bytes : forall f x,
  wf_filter f -> check_split_block (filter_bytes f) x = filter_check f x.
Proof.
  intros f x Hwf. unfold check_split_block, filter_check.
  rewrite length_filter_bytes, block_size_32.
  replace (N.of_nat (32 * length f) / 32) with (N.of_nat (length f)).
  2:{ rewrite Nat2N.inj_mul. change (N.of_nat 32) with 32.
      rewrite N.mul_comm, N.div_mul; [reflexivity|discriminate]. }
  replace (N.to_nat (32 * fasthash1x64 x (N.of_nat (length f)))) with (32 * block_index f x)%nat
    by (unfold block_index; lia).
  destruct (nth_error f (block_index f x)) as [b|] eqn:E.
  - destruct (skipn_filter_bytes_some f _ b E) as [r ->].
    rewrite block_of_block_bytes; [reflexivity|].
    unfold wf_filter in Hwf. rewrite Forall_forall in Hwf. apply Hwf.
    eapply nth_error_In. exact E.
  - rewrite (skipn_filter_bytes_none f _ E). reflexivity.
Qed.
