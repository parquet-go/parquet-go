(** Facts about the specification decoder (File/SpecDecoder.v) that are not about the layout:
    what the sorting declaration check decides, and the dictionary lookup by blocks. *)
From Coq Require Import List NArith ZArith Bool Arith Lia.
From PQ Require Import Enc.Plain File.SpecDecoder.
Import ListNotations.
Open Scope N_scope.

Lemma drop_while_split {A} (f : A -> bool) l :
  exists a, l = a ++ drop_while f l /\ forallb f a = true.
Proof.
  induction l as [|x r IH]; [exists []; split; reflexivity|].
  cbn [drop_while]. destruct (f x) eqn:E.
  - destruct IH as (a & Hl & Ha). exists (x :: a). split; [cbn; now f_equal|cbn; now rewrite E].
  - exists []. split; reflexivity.
Qed.

Lemma drop_while_app_all {A} (f : A -> bool) a b :
  forallb f a = true -> drop_while f (a ++ b) = drop_while f b.
Proof.
  induction a as [|x a IH]; [reflexivity|]. cbn. intros H. apply andb_prop in H. destruct H as [Hx Ha].
  rewrite Hx. now apply IH.
Qed.

Lemma drop_while_none {A} (f : A -> bool) b : forallb (fun x => negb (f x)) b = true -> drop_while f b = b.
Proof. destruct b as [|x b]; [reflexivity|]. cbn. intros H. apply andb_prop in H. destruct H as [Hx _]. now destruct (f x). Qed.

(* the declaration "nulls first" (resp. last) holds of a level sequence exactly when it splits into
   nulls followed by non-nulls (resp. non-nulls followed by nulls) *)
Theorem nulls_placed_spec nf maxd defs :
  nulls_placed nf maxd defs = true <->
  exists a b, defs = a ++ b /\
    forallb (fun d => if nf then d <? maxd else negb (d <? maxd)) a = true /\
    forallb (fun d => if nf then negb (d <? maxd) else d <? maxd) b = true.
Proof.
  unfold nulls_placed. destruct nf.
  - split.
    + intros H. destruct (drop_while_split (fun d => d <? maxd) defs) as (a & Hl & Ha).
      exists a, (drop_while (fun d => d <? maxd) defs). auto.
    + intros (a & b & -> & Ha & Hb). rewrite drop_while_app_all by exact Ha.
      rewrite (drop_while_none (fun d => d <? maxd) b Hb). exact Hb.
  - split.
    + intros H. destruct (drop_while_split (fun d => negb (d <? maxd)) defs) as (a & Hl & Ha).
      exists a, (drop_while (fun d => negb (d <? maxd)) defs). auto.
    + intros (a & b & -> & Ha & Hb). rewrite drop_while_app_all by exact Ha.
      rewrite (drop_while_none (fun d => negb (d <? maxd)) b).
      * exact Hb.
      * clear Ha. induction b as [|d b IH]; [reflexivity|]. cbn in Hb |- *. apply andb_prop in Hb.
        destruct Hb as [Hd Hb]. rewrite Hd. cbn. now apply IH.
Qed.

(** * Dictionary lookup by blocks = lookup by position *)

Lemma nth_error_firstn_lt {A} n : forall (l : list A) r, (r < n)%nat -> nth_error (firstn n l) r = nth_error l r.
Proof. induction n as [|n IH]; intros l r H; [lia|]. destruct l as [|x l]; [now destruct r|]. destruct r as [|r]; [reflexivity|]. cbn. apply IH. lia. Qed.

Lemma nth_error_skipn_add {A} n : forall (l : list A) r, nth_error (skipn n l) r = nth_error l (n + r).
Proof. induction n as [|n IH]; intros l r; [reflexivity|]. destruct l as [|x l]; [now destruct r|]. cbn. apply IH. Qed.

Lemma nth_split_every {A} n f : forall (l : list A) q r, (r < n)%nat -> (q < f)%nat ->
  match nth_error (Plain.split_every f n l) q with Some b => nth_error b r | None => None end = nth_error l (q * n + r).
Proof.
  induction f as [|f IH]; intros l q r Hr Hq; [lia|].
  cbn [Plain.split_every]. destruct q as [|q].
  - cbn. now apply nth_error_firstn_lt.
  - cbn [nth_error]. rewrite IH by lia. rewrite nth_error_skipn_add. f_equal. lia.
Qed.

Lemma split_every_length {A} n f : forall l : list A, length (Plain.split_every f n l) = f.
Proof. induction f as [|f IH]; intros l; [reflexivity|]. cbn. now rewrite IH. Qed.

Theorem dict_lookup_eq {A} (dict : list A) i : dict_lookup (dict_blocks dict) i = nth_error dict (N.to_nat i).
Proof.
  unfold dict_lookup, dict_blocks.
  assert (Hq : N.to_nat (i / 256) = (N.to_nat i / dict_block)%nat) by (rewrite N2Nat.inj_div; reflexivity).
  assert (Hr : N.to_nat (i mod 256) = (N.to_nat i mod dict_block)%nat) by (rewrite N2Nat.inj_mod; reflexivity).
  rewrite Hq, Hr. set (k := N.to_nat i). 
  assert (Hb : (dict_block <> 0)%nat) by (unfold dict_block; lia).
  pose proof (Nat.mod_upper_bound k dict_block Hb) as Hlt.
  pose proof (Nat.div_mod k dict_block Hb) as Hdm.
  destruct (Nat.lt_ge_cases (k / dict_block) (S (length dict / dict_block))) as [Hin|Hout].
  - rewrite nth_split_every by assumption. f_equal. lia.
  - pose proof (split_every_length dict_block (S (length dict / dict_block)) dict) as Hlen.
    replace (nth_error (Plain.split_every _ _ _) (k / dict_block)) with (@None (list A)) by (symmetry; apply nth_error_None; lia).
    symmetry. apply nth_error_None.
    pose proof (Nat.mul_succ_div_gt (length dict) dict_block Hb).
    pose proof (Nat.mul_div_le k dict_block Hb).
    pose proof (Nat.mul_le_mono_l _ _ dict_block Hout). lia.
Qed.
