(** A Parquet file decoder written from the format specification only
    (parquet.thrift, Encodings.md, the file layout in README.md): magic, footer,
    schema, column chunks, page headers, checksums, level and value
    encodings.  It recomputes what the footer claims (offsets, sizes, counts)
    from the bytes and returns the decoded column streams.  Extracted, it is the
    independent decoder of C02.  Compressed pages: UNCOMPRESSED and SNAPPY decoded here, the other codecs by the decompressor [ext] the decoder is given (see [decompress]). *)
From Coq Require Import List NArith ZArith Bool Arith.
From Coq Require String.
Import String.StringSyntax.
From PQ Require Import Base.Bytes Base.Varint Base.BitPack Thrift.Compact.
From PQ Require Import Enc.DeltaBP Enc.Rle Enc.RleProofs Enc.Plain Enc.PlainFast Enc.ByteArrayDelta.
From PQ Require Import Crc.Model Codec.Snappy.
Import ListNotations.
Open Scope N_scope.

Definition sub (b : bytes) (off len : nat) : option bytes :=
  if (off + len <=? length b)%nat then Some (firstn len (skipn off b)) else None.

Definition magic : bytes := [80; 65; 82; 49].   (* "PAR1" *)

(** The file is held as blocks of 1024 bytes so that the bytes at an offset are
    reached in time proportional to offset/1024 instead of offset. *)
(* absolute offsets and totals are [N] (never unary): [nat] is only used for
   amounts of data that are actually traversed *)
Record fbytes := { fb_len : N; fb_blocks : list bytes }.

Definition block_size : nat := 1024.

Fixpoint split_blocks (fuel : nat) (b : bytes) : list bytes :=
  match fuel with
  | O => []
  | S f => match b with
           | [] => []
           | _ => firstn block_size b :: split_blocks f (skipn block_size b)
           end
  end.

Definition mk_fbytes (b : bytes) : fbytes :=
  {| fb_len := N.of_nat (length b); fb_blocks := split_blocks (S (length b / block_size)) b |}.

Definition fsub (fb : fbytes) (off : N) (len : nat) : option bytes :=
  if (off + N.of_nat len <=? fb_len fb) then
    let bsz := N.of_nat block_size in
    let bs := skipn (N.to_nat (off / bsz)) (fb_blocks fb) in
    let inner := N.to_nat (off mod bsz) in
    let need := S (S ((inner + len) / block_size)) in
    Some (firstn len (skipn inner (concat (firstn need bs))))
  else None.

(* thrift structures of parquet files are shallow: this bounds the nesting depth
   and the number of fields of one struct, not the size of the input *)
Definition thrift_fuel : nat := 64.

Definition decode_thrift (b : bytes) : option (tval * bytes) := dec_val thrift_fuel T_STRUCT b.

(** * Schema *)

Record leaf := {
  l_path : list bytes;
  l_type : Z;         (* physical type *)
  l_tlen : nat;       (* type_length *)
  l_maxr : nat;
  l_maxd : nat;
}.

Definition zdef (o : option Z) (d : Z) : Z := match o with Some z => z | None => d end.

(* walk [count] nodes of the flattened schema *)
Fixpoint walk (fuel : nat) (elems : list tval) (count : nat) (r d : nat) (path : list bytes)
  : option (list leaf * list tval) :=
  match fuel with
  | O => None
  | S f =>
      match count with
      | O => Some ([], elems)
      | S c =>
          match elems with
          | [] => None
          | e :: rest =>
              let rep := zdef (get_int 3 e) 0 in
              let r' := if (rep =? 2)%Z then S r else r in
              let d' := if (rep =? 0)%Z then d else S d in
              let name := match get_bin 4 e with Some n => n | None => [] end in
              let nchild := Z.to_nat (zdef (get_int 5 e) 0) in
              let sub_result :=
                match get_int 1 e with
                | Some ty =>
                    (* a leaf *)
                    Some ([{| l_path := path ++ [name]; l_type := ty;
                              l_tlen := Z.to_nat (zdef (get_int 2 e) 0);
                              l_maxr := r'; l_maxd := d' |}], rest)
                | None => walk f rest nchild r' d' (path ++ [name])
                end in
              match sub_result with
              | None => None
              | Some (ls, rest') =>
                  match walk f rest' c r d path with
                  | Some (ls', rest'') => Some (ls ++ ls', rest'')
                  | None => None
                  end
              end
          end
      end
  end.

Definition leaves_of (schema : list tval) : option (list leaf) :=
  match schema with
  | root :: rest =>
      match walk (S (2 * length schema)) rest (Z.to_nat (zdef (get_int 5 root) 0)) 0 0 [] with
      | Some (ls, []) => Some ls
      | _ => None
      end
  | [] => None
  end.

(** * Pages *)

Record page := {
  p_offset : N;             (* file offset of the page header *)
  p_hlen : nat;             (* header length *)
  p_type : Z;               (* 0 data, 2 dictionary, 3 data v2 *)
  p_comp : nat;             (* compressed_page_size *)
  p_uncomp : nat;           (* uncompressed_page_size *)
  p_ulen : nat;             (* length of the body once decompressed (levels included) *)
  p_crc_present : bool;
  p_crc_ok : bool;
  p_nvalues : nat;
  p_nrows : option nat;     (* v2 *)
  p_nnulls : option nat;    (* v2 *)
  p_encoding : Z;
  p_rep : list N;
  p_def : list N;
  p_values : list bytes;    (* non-null values, PLAIN bytes each *)
}.

Definition bytes_of_z (k : nat) (width : N) (z : Z) : bytes := to_le k (wrapZ width z).

(* Compression codecs.  UNCOMPRESSED (0) and SNAPPY (1) are decoded here.  The other codecs
   of the format (GZIP 2, BROTLI 4, ZSTD 6, LZ4_RAW 7, ...) are decoded by [ext], a
   decompressor supplied from outside the model: [ext codec b] is [Some d] when [b] is a
   complete, well-formed compressed stream of that codec whose content is [d], and [None]
   otherwise (in particular for a section of zero bytes: no codec other than UNCOMPRESSED has an empty
   encoding of the empty string, a gzip member, a zstd frame, a brotli stream, an LZ4 block
   and a snappy block all hold at least one byte).  Every definition and theorem below holds
   for every [ext]; the run instantiates it with the reference implementations of the codecs
   (harness/c02/refcodec), [no_ext] is the decoder that knows codecs 0 and 1 only. *)
Definition ext_fn := Z -> bytes -> option bytes.
Definition no_ext : ext_fn := fun _ _ => None.

Definition decompress (ext : ext_fn) (codec : Z) (b : bytes) : option bytes :=
  if (codec =? 0)%Z then Some b
  else if (codec =? 1)%Z then snappy_decode b
  else ext codec b.

Definition split_fixed (k n : nat) (b : bytes) : option (list bytes) :=
  match sub b 0 (k * n) with
  | Some x => Some (Plain.split_every n k x)
  | None => None
  end.

Definition fixed_width (ty : Z) (tlen : nat) : nat :=
  if (ty =? 1)%Z then 4 else if (ty =? 2)%Z then 8 else if (ty =? 3)%Z then 12
  else if (ty =? 4)%Z then 4 else if (ty =? 5)%Z then 8 else if (ty =? 7)%Z then tlen else 0.

(* Dictionary lookup.  [nth_error dict (N.to_nat i)] costs a walk of [i] cells for every index: quadratic on
   dictionaries of 2^16 and more values.  The dictionary is cut once per page into blocks of 256 values and an
   index is looked up as (block i/256, position i mod 256): [dict_lookup (dict_blocks dict) i = nth_error dict
   (N.to_nat i)] for every [dict] and [i] (SpecDecoderProofs.v dict_lookup_eq; C02_dictionary_lookup). *)
Definition dict_block : nat := 256.
Definition dict_blocks {A} (dict : list A) : list (list A) :=
  Plain.split_every (S (length dict / dict_block)) dict_block dict.
Definition dict_lookup {A} (blocks : list (list A)) (i : N) : option A :=
  match nth_error blocks (N.to_nat (i / 256)) with
  | Some b => nth_error b (N.to_nat (i mod 256))
  | None => None
  end.

(* decode [n] non-null values *)
Definition decode_values (ty : Z) (tlen : nat) (enc : Z) (dict : list bytes) (n : nat) (data : bytes)
  : option (list bytes) :=
  if (enc =? 0)%Z then
    if (ty =? 0)%Z then
      match dec_plain_boolean n data with Some bits => Some (map (fun x => [x]) bits) | None => None end
    else if (ty =? 6)%Z then
      match dec_plain_byte_array (S (length data)) data with
      | Some vs => if (length vs =? n)%nat then Some vs else None
      | None => None
      end
    else split_fixed (fixed_width ty tlen) n data
  else if (enc =? 8)%Z || (enc =? 2)%Z then
    if (n =? 0)%nat then Some [] else
    match dec_dict_indexes data with
    | Some idx =>
        if (n <=? length idx)%nat then
          let blocks := dict_blocks dict in
          let look := map (fun i => dict_lookup blocks i) (firstn n idx) in
          if forallb (fun o => match o with Some _ => true | None => false end) look
          then Some (map (fun o => match o with Some v => v | None => [] end) look)
          else None
        else None
    | None => None
    end
  else if (enc =? 5)%Z then
    let k := if (ty =? 1)%Z then 32 else 64 in
    match DeltaBP.dec k data with
    | Some (zs, _) =>
        if (length zs =? n)%nat then Some (map (bytes_of_z (N.to_nat (k / 8)) k) zs) else None
    | None => None
    end
  else if (enc =? 6)%Z then
    match dlba_dec data with
    | Some vs => if (length vs =? n)%nat then Some vs else None
    | None => None
    end
  else if (enc =? 7)%Z then
    match dba_dec data with
    | Some vs => if (length vs =? n)%nat then Some vs else None
    | None => None
    end
  else if (enc =? 9)%Z then
    let k := fixed_width ty tlen in
    match sub data 0 (k * n) with
    | Some x => bss_dec_fast k x   (* = bss_dec k x (Enc/PlainFastProofs.v bss_dec_fast_eq), linear time *)
    | None => None
    end
  else if (enc =? 3)%Z then
    if (ty =? 0)%Z then
      match dec_boolean_n n data with Some bits => Some (map (fun x => [x]) bits) | None => None end
    else None
  else None.

Definition level_width (maxl : nat) : N := bitlen (N.of_nat maxl).

(* v1: 4-byte length prefix then RLE data *)
Definition levels_v1 (maxl n : nat) (b : bytes) : option (list N * bytes) :=
  if (maxl =? 0)%nat then Some (repeat 0 n, b)
  else
    match sub b 0 4 with
    | None => None
    | Some lb =>
        let len := N.to_nat (of_le lb) in
        match sub b 4 len with
        | None => None
        | Some body =>
            match dec_hybrid (level_width maxl) body with
            | Some ls => if (n <=? length ls)%nat then Some (firstn n ls, skipn (4 + len) b) else None
            | None => None
            end
        end
    end.

Definition levels_v2 (maxl n len : nat) (b : bytes) : option (list N * bytes) :=
  match sub b 0 len with
  | None => None
  | Some body =>
      if (maxl =? 0)%nat then Some (repeat 0 n, skipn len b)
      else
        match dec_hybrid (level_width maxl) body with
        | Some ls => if (n <=? length ls)%nat then Some (firstn n ls, skipn len b) else None
        | None => None
        end
  end.

Definition count_eq (x : N) (l : list N) : nat := length (filter (N.eqb x) l).

Definition nat_of_field (id : Z) (v : tval) : nat := Z.to_nat (zdef (get_int id v) 0).
Definition n_of_field (id : Z) (v : tval) : N := Z.to_N (zdef (get_int id v) 0).

(* the page header is decoded from a bounded prefix (headers are small); the
   whole remainder is only used when that fails *)
Definition header_window : nat := 4096.

Definition decode_header (rest : bytes) : option (tval * nat * bytes) :=
  let w := firstn header_window rest in
  match decode_thrift w with
  | Some (h, after) =>
      let hlen := (length w - length after)%nat in
      Some (h, hlen, skipn hlen rest)
  | None =>
      match decode_thrift rest with
      | Some (h, after) =>
          let hlen := (length rest - length after)%nat in
          Some (h, hlen, after)
      | None => None
      end
  end.

(* one page at [off]; [dict] = decoded dictionary so far *)
Definition decode_page (ext : ext_fn) (rest : bytes) (lf : leaf) (codec : Z) (dict : list bytes) (off : N)
  : option page :=
  match decode_header rest with
  | None => None
  | Some (h, hlen, after) =>
      let ptype := zdef (get_int 1 h) (-1) in
      let uncomp := nat_of_field 2 h in
      let comp := nat_of_field 3 h in
      match sub after 0 comp with
      | None => None
      | Some body =>
          let crcf := get_int 4 h in
          let crc_ok := match crcf with
                        | Some c => (int32_to_crc c =? crc32 body)
                        | None => true
                        end in
          let mk := fun ulen nvalues nrows nnulls enc rep def values =>
            {| p_offset := off; p_hlen := hlen; p_type := ptype; p_comp := comp; p_uncomp := uncomp; p_ulen := ulen;
               p_crc_present := match crcf with Some _ => true | None => false end; p_crc_ok := crc_ok;
               p_nvalues := nvalues; p_nrows := nrows; p_nnulls := nnulls; p_encoding := enc;
               p_rep := rep; p_def := def; p_values := values |} in
          if (ptype =? 2)%Z then
            (* dictionary page: PLAIN values *)
            match get 7 h, decompress ext codec body with
            | Some dh, Some data =>
                let n := nat_of_field 1 dh in
                match decode_values (l_type lf) (l_tlen lf) 0 [] n data with
                | Some vs => Some (mk (length data) n None None (zdef (get_int 2 dh) 0) [] [] vs)
                | None => None
                end
            | _, _ => None
            end
          else if (ptype =? 0)%Z then
            match get 5 h, decompress ext codec body with
            | Some dh, Some data =>
                let n := nat_of_field 1 dh in
                let enc := zdef (get_int 2 dh) 0 in
                match levels_v1 (l_maxr lf) n data with
                | None => None
                | Some (rep, d1) =>
                    match levels_v1 (l_maxd lf) n d1 with
                    | None => None
                    | Some (def, d2) =>
                        let nn := if (l_maxd lf =? 0)%nat then n else count_eq (N.of_nat (l_maxd lf)) def in
                        match decode_values (l_type lf) (l_tlen lf) enc dict nn d2 with
                        | Some vs => Some (mk (length data) n None None enc rep def vs)
                        | None => None
                        end
                    end
                end
            | _, _ => None
            end
          else if (ptype =? 3)%Z then
            match get 8 h with
            | Some dh =>
                let n := nat_of_field 1 dh in
                let nnulls := nat_of_field 2 dh in
                let nrows := nat_of_field 3 dh in
                let enc := zdef (get_int 4 dh) 0 in
                let dlen := nat_of_field 5 dh in
                let rlen := nat_of_field 6 dh in
                let compressed := match get_bool 7 dh with Some b => b | None => true end in
                match levels_v2 (l_maxr lf) n rlen body with
                | None => None
                | Some (rep, b1) =>
                    match levels_v2 (l_maxd lf) n dlen b1 with
                    | None => None
                    | Some (def, b2) =>
                        match (if compressed then decompress ext codec b2 else Some b2) with
                        | None => None
                        | Some data =>
                            let nn := if (l_maxd lf =? 0)%nat then n else count_eq (N.of_nat (l_maxd lf)) def in
                            match decode_values (l_type lf) (l_tlen lf) enc dict nn data with
                            | Some vs => Some (mk (rlen + dlen + length data)%nat n (Some nrows) (Some nnulls) enc rep def vs)
                            | None => None
                            end
                        end
                    end
                end
            | None => None
            end
          else None
      end
  end.

(* all pages of a chunk: from [off], until [rest] is used up *)
Fixpoint decode_pages (ext : ext_fn) (fuel : nat) (rest : bytes) (lf : leaf) (codec : Z) (dict : list bytes)
         (off : N) : option (list page) :=
  match fuel with
  | O => None
  | S f =>
      match rest with
      | [] => Some []
      | _ =>
        match decode_page ext rest lf codec dict off with
        | None => None
        | Some p =>
            let dict' := if (p_type p =? 2)%Z then p_values p else dict in
            let adv := (p_hlen p + p_comp p)%nat in
            match decode_pages ext f (skipn adv rest) lf codec dict' (off + N.of_nat adv) with
            | Some ps => Some (p :: ps)
            | None => None
            end
        end
      end
  end.

(** * Column chunks and the footer *)

Record chunk := {
  c_leaf : leaf;
  c_meta : tval;           (* ColumnMetaData *)
  c_chunk : tval;          (* ColumnChunk *)
  c_start : N;
  c_pages : list page;
}.

Definition chunk_start (md : tval) : N :=
  let dpo := n_of_field 9 md in
  let dict := n_of_field 11 md in
  if (0 <? dict) && (dict <? dpo) then dict else dpo.

Definition decode_chunk (ext : ext_fn) (file : fbytes) (lf : leaf) (cc : tval) : option chunk :=
  match get 3 cc with
  | None => None
  | Some md =>
      let start := chunk_start md in
      let total := nat_of_field 7 md in
      let codec := zdef (get_int 4 md) 0 in
      match fsub file start total with
      | None => None
      | Some data =>
          match decode_pages ext (S total) data lf codec [] start with
          | Some ps => Some {| c_leaf := lf; c_meta := md; c_chunk := cc; c_start := start; c_pages := ps |}
          | None => None
          end
      end
  end.

Fixpoint decode_chunks (ext : ext_fn) (file : fbytes) (ls : list leaf) (ccs : list tval) : option (list chunk) :=
  match ls, ccs with
  | [], [] => Some []
  | lf :: ls', cc :: ccs' =>
      match decode_chunk ext file lf cc, decode_chunks ext file ls' ccs' with
      | Some c, Some cs => Some (c :: cs)
      | _, _ => None
      end
  | _, _ => None
  end.

Record row_group := { g_meta : tval; g_chunks : list chunk }.

Record pfile := { f_meta : tval; f_leaves : list leaf; f_groups : list row_group; f_footer_start : N }.

Definition footer_of (file : fbytes) : option (tval * N) :=
  let n := fb_len file in
  if (n <? 12) then None
  else
    match fsub file 0 4, fsub file (n - 4) 4, fsub file (n - 8) 4 with
    | Some m1, Some m2, Some lb =>
        if (of_le m1 =? of_le magic) && (of_le m2 =? of_le magic) then
          let flen := of_le lb in
          if (flen + 12 <=? n) then
            match fsub file (n - 8 - flen) (N.to_nat flen) with
            | Some fb =>
                match decode_thrift fb with
                | Some (t, []) => Some (t, n - 8 - flen)
                | _ => None
                end
            | None => None
            end
          else None
        else None
    | _, _, _ => None
    end.

Fixpoint decode_groups (ext : ext_fn) (file : fbytes) (ls : list leaf) (gs : list tval) : option (list row_group) :=
  match gs with
  | [] => Some []
  | g :: gs' =>
      match get_list 1 g with
      | None => None
      | Some ccs =>
          match decode_chunks ext file ls ccs, decode_groups ext file ls gs' with
          | Some cs, Some rest => Some ({| g_meta := g; g_chunks := cs |} :: rest)
          | _, _ => None
          end
      end
  end.

Definition parse (ext : ext_fn) (file : fbytes) : option pfile :=
  match footer_of file with
  | None => None
  | Some (md, fstart) =>
      match get_list 2 md with
      | None => None
      | Some schema =>
          match leaves_of schema with
          | None => None
          | Some ls =>
              let gs := match get_list 4 md with Some l => l | None => [] end in
              match decode_groups ext file ls gs with
              | Some groups => Some {| f_meta := md; f_leaves := ls; f_groups := groups; f_footer_start := fstart |}
              | None => None
              end
          end
      end
  end.

(** * Consistency: what the footer and the page headers claim against the bytes *)

Definition data_pages (c : chunk) : list page := filter (fun p => negb (p_type p =? 2)%Z) (c_pages c).

Definition sum (l : list nat) : nat := fold_left Nat.add l 0%nat.
Definition sumN (l : list nat) : N := fold_left (fun a x => a + N.of_nat x) l 0.

Definition chunk_rows (c : chunk) : nat :=
  if (l_maxr (c_leaf c) =? 0)%nat then sum (map p_nvalues (data_pages c))
  else sum (map (fun p => count_eq 0 (p_rep p)) (data_pages c)).

Open Scope string_scope.

Notation string := String.string.

Definition check (cond : bool) (code : string) : list string := if cond then [] else [code].

Definition in_z (x : Z) (l : list tval) : bool :=
  existsb (fun t => match t with TInt _ z => (z =? x)%Z | _ => false end) l.

(* encoding_stats (ColumnMetaData field 13, optional; PageEncodingStats = 1: page_type,
   2: encoding, 3: count): "number of pages of this type with this encoding".  For every
   (page type, encoding) pair that occurs in a page header of the chunk or in an entry of
   the list, the counts declared must add up to the number of page headers found. *)
Definition stat_is (ty enc : Z) (st : tval) : bool :=
  (zdef (get_int 1 st) (-1) =? ty)%Z && (zdef (get_int 2 st) (-1) =? enc)%Z.

Definition declared_pages (ty enc : Z) (stats : list tval) : N :=
  fold_left N.add (map (n_of_field 3) (filter (stat_is ty enc) stats)) 0.

Definition found_pages (ty enc : Z) (ps : list page) : N :=
  N.of_nat (length (filter (fun p => (p_type p =? ty)%Z && (p_encoding p =? enc)%Z) ps)).

Definition encoding_stats_ok (c : chunk) : bool :=
  match get_list 13 (c_meta c) with
  | None => true
  | Some stats =>
      forallb (fun p => declared_pages (p_type p) (p_encoding p) stats =? found_pages (p_type p) (p_encoding p) (c_pages c))
              (c_pages c)
      && forallb (fun st => let ty := zdef (get_int 1 st) (-1) in
                            let enc := zdef (get_int 2 st) (-1) in
                            declared_pages ty enc stats =? found_pages ty enc (c_pages c)) stats
  end.

Definition check_chunk (c : chunk) : list string :=
  let md := c_meta c in
  let dps := data_pages c in
  let encs := match get_list 2 md with Some l => l | None => [] end in
  check (sum (map p_nvalues dps) =? nat_of_field 5 md)%nat "num_values"
  ++ check (sumN (map (fun p => p_hlen p + p_comp p)%nat (c_pages c)) =? n_of_field 7 md) "total_compressed_size"
  ++ check (sumN (map (fun p => p_hlen p + p_uncomp p)%nat (c_pages c)) =? n_of_field 6 md) "total_uncompressed_size"
  ++ check (forallb (fun p => (p_ulen p =? p_uncomp p)%nat) (c_pages c)) "uncompressed_page_size"
  ++ check (forallb p_crc_ok (c_pages c)) "page_crc"
  ++ check (forallb (fun p => in_z (p_encoding p) encs) dps) "encodings_list"
  ++ check (match dps with p :: _ => (p_offset p =? n_of_field 9 md) | [] => true end) "data_page_offset"
  ++ check (match c_pages c with
            | p :: _ => if (p_type p =? 2)%Z then (p_offset p =? n_of_field 11 md)
                        else (n_of_field 11 md =? 0) || (n_of_field 9 md <=? n_of_field 11 md)
            | [] => true end) "dictionary_page_offset"
  ++ check (forallb (fun p => match p_nrows p with
                              | Some n => (n =? (if (l_maxr (c_leaf c) =? 0)%nat then p_nvalues p else count_eq 0 (p_rep p)))%nat
                              | None => true end) dps) "v2_num_rows"
  ++ check (forallb (fun p => match p_nnulls p with
                              | Some n => (n =? p_nvalues p - length (p_values p))%nat
                              | None => true end) dps) "v2_num_nulls"
  ++ check (forallb (fun p => match p_nrows p, p_rep p with
                              | Some _, r :: _ => (r =? 0)%N
                              | _, _ => true end) dps) "v2_page_starts_mid_row"
  ++ check (forallb (fun p => forallb (fun d => (d <=? N.of_nat (l_maxd (c_leaf c)))%N) (p_def p)
                              && forallb (fun r => (r <=? N.of_nat (l_maxr (c_leaf c)))%N) (p_rep p)) dps) "level_range"
  ++ check (Z.eqb (zdef (get_int 1 md) (-1)) (l_type (c_leaf c))) "column_type"
  ++ check (encoding_stats_ok c) "encoding_stats".

Definition check_group (g : row_group) : list string :=
  let nrows := nat_of_field 3 (g_meta g) in
  concat (map check_chunk (g_chunks g))
  ++ check (forallb (fun c => (chunk_rows c =? nrows)%nat) (g_chunks g)) "row_group_num_rows"
  ++ check (fold_left N.add (map (fun c => n_of_field 7 (c_meta c)) (g_chunks g)) 0 =? n_of_field 6 (g_meta g))
       "row_group_total_compressed_size"
  ++ check (fold_left N.add (map (fun c => n_of_field 6 (c_meta c)) (g_chunks g)) 0 =? n_of_field 2 (g_meta g))
       "row_group_total_byte_size".

Definition check_file (f : pfile) : list string :=
  concat (map check_group (f_groups f))
  ++ check (fold_left N.add (map (fun g => n_of_field 3 (g_meta g)) (f_groups f)) 0 =? n_of_field 3 (f_meta f))
       "file_num_rows".

(** offset index of one chunk against the pages found *)
Definition check_offset_index (c : chunk) (oi : tval) : list string :=
  match get_list 1 oi with
  | None => ["offset_index_missing_locations"]
  | Some locs =>
      let dps := data_pages c in
      check (length locs =? length dps)%nat "offset_index_length"
      ++ check (forallb (fun pl => (n_of_field 1 (fst pl) =? p_offset (snd pl))) (combine locs dps)) "page_location_offset"
      ++ check (forallb (fun pl => (nat_of_field 2 (fst pl) =? p_hlen (snd pl) + p_comp (snd pl))%nat) (combine locs dps))
           "page_location_size"
      ++ check ((fix rows (acc : nat) (l : list (tval * page)) : bool :=
                   match l with
                   | [] => true
                   | (loc, p) :: r =>
                       (nat_of_field 3 loc =? acc)%nat
                       && rows (acc + (if (l_maxr (c_leaf c) =? 0)%nat then p_nvalues p else count_eq 0 (p_rep p)))%nat r
                   end) 0%nat (combine locs dps)) "page_location_first_row_index"
      (* a chunk described by an offset index is addressed by rows: every data page (v1 as
         well as v2) begins with the first value of a row *)
      ++ check (forallb (fun p => match p_rep p with r :: _ => (r =? 0)%N | [] => true end) dps)
           "indexed_page_starts_mid_row"
  end.

Definition offset_index_of (file : fbytes) (c : chunk) : option tval :=
  let off := n_of_field 4 (c_chunk c) in
  let len := nat_of_field 5 (c_chunk c) in
  if (len =? 0)%nat then None
  else match fsub file off len with
       | Some b => match decode_thrift b with Some (t, _) => Some t | None => None end
       | None => None
       end.

Definition check_indexes (file : fbytes) (f : pfile) : list string :=
  concat (map (fun g => concat (map (fun c =>
    match offset_index_of file c with
    | Some oi => check_offset_index c oi
    | None => if (nat_of_field 5 (c_chunk c) =? 0)%nat then [] else ["offset_index_unreadable"]
    end) (g_chunks g))) (f_groups f)).

(** sorting_columns of a row group (RowGroup field 4; SortingColumn = 1: column_idx, 2:
    descending, 3: nulls_first): "if set, specifies a sort ordering of the rows in this
    row group".  Every column_idx must name a column chunk of the row group.  What the
    declaration says about the rows is decided here as far as the levels alone decide it:
    the placement of the nulls of the FIRST sorting column, when that column is not
    repeated (one value per row): its nulls (definition level below the maximum) all come
    before its non-null values when nulls_first is set, all after them otherwise.  (The
    later sorting columns are ordered only inside runs of equal earlier keys, and the order
    of the values themselves is the order of the logical type: both are C05's.) *)
Fixpoint drop_while {A} (f : A -> bool) (l : list A) : list A :=
  match l with
  | [] => []
  | x :: r => if f x then drop_while f r else l
  end.

Definition nulls_placed (nulls_first : bool) (maxd : N) (defs : list N) : bool :=
  let isnull := fun d => (d <? maxd)%N in
  if nulls_first then forallb (fun d => negb (isnull d)) (drop_while isnull defs)
  else forallb isnull (drop_while (fun d => negb (isnull d)) defs).

Definition check_sorting_group (g : row_group) : list string :=
  match get_list 4 (g_meta g) with
  | Some scs =>
      check (forallb (fun sc => match get_int 1 sc with
                                | Some i => (0 <=? i)%Z && (Z.to_nat i <? length (g_chunks g))%nat
                                | None => false end) scs) "sorting_column_idx"
      ++ match scs with
         | sc :: _ =>
             match nth_error (g_chunks g) (nat_of_field 1 sc) with
             | Some c =>
                 if (l_maxr (c_leaf c) =? 0)%nat then
                   check (nulls_placed (match get_bool 3 sc with Some b => b | None => false end)
                                       (N.of_nat (l_maxd (c_leaf c))) (concat (map p_def (data_pages c))))
                         "sorting_nulls_placement"
                 else []
             | None => []
             end
         | [] => []
         end
  | None => []
  end.

Definition check_sorting (f : pfile) : list string := concat (map check_sorting_group (f_groups f)).

Definition verify (ext : ext_fn) (bytes_of_file : bytes) : option (pfile * list string) :=
  let file := mk_fbytes bytes_of_file in
  match parse ext file with
  | Some f => Some (f, check_file f ++ check_indexes file f ++ check_sorting f)
  | None => None
  end.
