(** Layout soundness: on the file laid out by the abstract writer of
    File/Layout.v (the offset accounting of /repo/writer.go) the structural
    checks of the specification decoder (File/SpecDecoder.v) pass.

    Used from outside (Properties/C02.v): layout_footer_found,
    footer_chunk_layout, layout_chunk_pages, layout_chunk_sums,
    layout_offset_index, layout_column_index, layout_bloom_filter,
    layout_row_group, layout_file_rows, decode_pages_walk,
    layout_verify_only_body_codes, layout_verify_modulo_bodies.
    Two toolkits carry the proofs: Section NField (an integer field of a
    struct read along its field list) and [at_offset] (where a section
    stands in the file). *)
From Coq Require Import List NArith ZArith Bool Arith Lia.
From Coq Require String.
From PQ Require Import Base.Bytes Base.Varint Base.ListExtra Thrift.Compact Thrift.CompactProofs.
From PQ Require Import File.SpecAgreement File.SpecDecoder File.Layout.
Import ListNotations.
Open Scope N_scope.

Lemma layout_ids_agree_with_go : forallb struct_agrees layout_ids = true.
Proof. vm_compute. reflexivity. Qed.

Lemma sizeN_app a b : sizeN (a ++ b) = sizeN a + sizeN b.
Proof. unfold sizeN. rewrite app_length. lia. Qed.

Lemma sizeN_nil : sizeN [] = 0.
Proof. reflexivity. Qed.

Lemma to_nat_sizeN b : N.to_nat (sizeN b) = length b.
Proof. apply Nat2N.id. Qed.

Lemma fold_add_acc l : forall a, fold_left N.add l a = a + fold_left N.add l 0.
Proof.
  induction l as [|x l IH]; intros a; cbn [fold_left]; [lia|].
  rewrite IH, (IH (0 + x)). lia.
Qed.

Lemma fold_add_cons x l : fold_left N.add (x :: l) 0 = x + fold_left N.add l 0.
Proof. cbn [fold_left]. rewrite fold_add_acc. lia. Qed.

Lemma fold_add_app a b : fold_left N.add (a ++ b) 0 = fold_left N.add a 0 + fold_left N.add b 0.
Proof. rewrite fold_left_app, fold_add_acc. reflexivity. Qed.

Lemma concat_map_split {A} (f : A -> bytes) (l : list A) j x :
  nth_error l j = Some x ->
  concat (map f l) = concat (map f (firstn j l)) ++ f x ++ concat (map f (skipn (S j) l)).
Proof.
  revert j. induction l as [|y l IH]; intros [|j] H; cbn [nth_error] in H; try discriminate.
  - now inversion H.
  - cbn [firstn skipn map concat]. now rewrite (IH j H), app_assoc.
Qed.

Lemma blocks_slice : forall fuel (b : bytes) k m,
  (length b <= fuel * block_size)%nat ->
  concat (firstn m (skipn k (split_blocks fuel b))) = firstn (m * block_size) (skipn (k * block_size) b).
Proof.
  induction fuel as [|f IH]; intros b k m Hf.
  - destruct b; [|cbn in Hf; lia]. cbn [split_blocks]. now rewrite skipn_nil, firstn_nil, skipn_nil, firstn_nil.
  - destruct b as [|x b'] eqn:Eb.
    + cbn [split_blocks]. now rewrite skipn_nil, firstn_nil, skipn_nil, firstn_nil.
    + rewrite <- Eb in *. assert (Hs : split_blocks (S f) b = firstn block_size b :: split_blocks f (skipn block_size b)).
      { rewrite Eb. reflexivity. }
      rewrite Hs. clear Hs.
      assert (Hrest : (length (skipn block_size b) <= f * block_size)%nat).
      { rewrite skipn_length. cbn [Nat.mul] in Hf. lia. }
      destruct k as [|k].
      * cbn [skipn Nat.mul]. destruct m as [|m]; [reflexivity|].
        cbn [firstn concat Nat.mul]. rewrite firstn_add. f_equal.
        specialize (IH (skipn block_size b) 0%nat m Hrest). cbn [skipn Nat.mul] in IH. exact IH.
      * cbn [skipn]. rewrite (IH _ k m Hrest). f_equal.
        replace (S k * block_size)%nat with (block_size + k * block_size)%nat by (cbn [Nat.mul]; lia).
        now rewrite skipn_add.
Qed.

Lemma firstn_skipn_firstn {A} len r M (l : list A) :
  (r + len <= M)%nat -> firstn len (skipn r (firstn M l)) = firstn len (skipn r l).
Proof.
  intros H. rewrite skipn_firstn_comm, firstn_firstn. f_equal. lia.
Qed.

Lemma fsub_mk_fbytes (b : bytes) (off len : nat) :
  (off + len <= length b)%nat ->
  fsub (mk_fbytes b) (N.of_nat off) len = Some (firstn len (skipn off b)).
Proof.
  intros H. unfold fsub, mk_fbytes. cbn [fb_len fb_blocks].
  destruct (N.leb_spec (N.of_nat off + N.of_nat len) (N.of_nat (length b))) as [_|Hc]; [|lia].
  f_equal. assert (HB : (0 < block_size)%nat) by (unfold block_size; lia).
  set (B := block_size) in *.
  assert (Hq : N.to_nat (N.of_nat off / N.of_nat B) = (off / B)%nat).
  { rewrite <- Nat2N.inj_div. apply Nat2N.id. }
  assert (Hr : N.to_nat (N.of_nat off mod N.of_nat B) = (off mod B)%nat).
  { rewrite <- Nat2N.inj_mod. apply Nat2N.id. }
  rewrite Hq, Hr.
  rewrite blocks_slice.
  2:{ fold B. pose proof (Nat.div_mod_eq (length b) B). pose proof (Nat.mod_upper_bound (length b) B). cbn [Nat.mul]. nia. }
  fold B.
  set (q := (off / B)%nat). set (r := (off mod B)%nat).
  assert (Hoff : off = (q * B + r)%nat).
  { subst q r. pose proof (Nat.div_mod_eq off B). lia. }
  assert (Hrb : (r < B)%nat) by (subst r; apply Nat.mod_upper_bound; lia).
  rewrite firstn_skipn_firstn.
  - rewrite <- skipn_add. now rewrite <- Hoff.
  - pose proof (Nat.div_mod_eq (r + len) B). pose proof (Nat.mod_upper_bound (r + len) B). cbn [Nat.mul]. nia.
Qed.

Lemma fsub_at (pre x post : bytes) :
  fsub (mk_fbytes (pre ++ x ++ post)) (sizeN pre) (length x) = Some x.
Proof.
  unfold sizeN. rewrite fsub_mk_fbytes by (rewrite !app_length; lia).
  now rewrite skipn_app_exact, firstn_app_exact.
Qed.

Lemma in_sint64b_ok z : in_sint64b z = true -> in_sint 64 z.
Proof.
  unfold in_sint64b, in_sint. change (Z.of_N 64 - 1)%Z with 63%Z. lia.
Qed.

Lemma code_okb_ok ty v : code_okb ty v = true -> code_ok ty v.
Proof.
  destruct v; cbn [code_okb code_ok]; intros H; try (apply N.eqb_eq; exact H).
  apply orb_true_iff in H. destruct H as [H|H]; apply N.eqb_eq in H; auto.
Qed.

Lemma wfb_wf : forall v, wfb v = true -> wf v.
Proof.
  induction v as [b|n|c z|bits|bs|e l IH|fs IH] using tval_ind'; intros H.
  - exact I.
  - cbn [wfb] in H. cbn [wf]. now apply N.ltb_lt.
  - cbn [wfb] in H. apply andb_true_iff in H. destruct H as [Hc Hz]. split; [|now apply in_sint64b_ok].
    rewrite !orb_true_iff, !N.eqb_eq in Hc. tauto.
  - cbn [wfb] in H. cbn [wf]. now apply N.ltb_lt.
  - cbn [wfb] in H. cbn [wf]. now apply N.ltb_lt.
  - apply wf_list. cbn [wfb] in H. rewrite !andb_true_iff in H.
    destruct H as ((((H1 & H2) & H3) & H4) & H5).
    apply N.leb_le in H1, H2. apply N.ltb_lt in H4. apply negb_true_iff, N.eqb_neq in H3.
    split; [split; [split; assumption|assumption]|]. split; [assumption|].
    rewrite forallb_forall in H5. rewrite Forall_forall in IH. apply Forall_forall. intros x Hx.
    specialize (H5 x Hx). apply andb_true_iff in H5. destruct H5 as [Hc Hw].
    split; [now apply code_okb_ok|]. now apply IH.
  - apply wf_struct. cbn [wfb] in H. rewrite forallb_forall in H. rewrite Forall_forall in IH.
    apply Forall_forall. intros p Hp. specialize (H p Hp). apply andb_true_iff in H. destruct H as [Hi Hw].
    split; [now apply in_sint64b_ok|]. now apply IH.
Qed.

Lemma need_struct fs : need (TStruct fs) = S (fold_right (fun p a => Nat.max (need (snd p)) a) (S (length fs)) fs).
Proof. reflexivity. Qed.

Lemma max_ge {A} (f : A -> nat) base l :
  (base <= fold_right (fun y a => Nat.max (f y) a) base l)%nat /\
  forall x, In x l -> (f x <= fold_right (fun y a => Nat.max (f y) a) base l)%nat.
Proof.
  induction l as [|y l [IH1 IH2]]; cbn [fold_right]; split; try lia.
  - intros x [].
  - intros x [->|Hx]; [lia|]. specialize (IH2 x Hx). lia.
Qed.

(* [need] bounds the nesting depth and the fields of one struct, not the tree size *)
Theorem dec_val_encode_need : forall v, wf v ->
  forall fuel ty rest, (need v <= fuel)%nat -> code_ok ty v ->
  dec_val fuel ty (encode v ++ rest) = Some (v, rest).
Proof.
  apply dec_val_encode_m.
  - intros v. destruct v; cbn [need]; lia.
  - intros e l x Hx. cbn [need]. pose proof (proj2 (max_ge need 0%nat l) x Hx). lia.
  - intros fs p Hp. rewrite need_struct.
    pose proof (proj2 (max_ge (fun p => need (snd p)) (S (length fs)) fs) p Hp). lia.
  - intros fs. rewrite need_struct.
    pose proof (proj1 (max_ge (fun p => need (snd p)) (S (length fs)) fs)). lia.
Qed.

Lemma decode_thrift_encode (t : tval) (rest : bytes) :
  wfb t = true -> (need t <=? 64)%nat = true -> (exists fs, t = TStruct fs) ->
  decode_thrift (encode t ++ rest) = Some (t, rest).
Proof.
  intros Hw Hn [fs ->]. unfold decode_thrift, thrift_fuel.
  apply dec_val_encode_need; [now apply wfb_wf|now apply Nat.leb_le|reflexivity].
Qed.

Lemma field_app id a b :
  field id (a ++ b) = match field id a with Some v => Some v | None => field id b end.
Proof.
  induction a as [|[i v] a IH]; [reflexivity|]. cbn [app field]. destruct (i =? id)%Z; [reflexivity|exact IH].
Qed.

Lemma field_ids_between lo hi fs id :
  ids_between lo hi fs = true -> (id <= lo \/ hi <= id)%Z -> field id fs = None.
Proof.
  unfold ids_between. intros H Hid. induction fs as [|[i v] fs IH]; [reflexivity|].
  cbn [forallb fst] in H. apply andb_true_iff in H. destruct H as [Hi Hfs].
  cbn [field]. destruct (Z.eqb_spec i id); [lia|]. now apply IH.
Qed.

(* [n_of_field id (TStruct fs)] computed along [fs]: concrete cells, optional
   cells, opaque segments whose ids lie in a known interval *)
Section NField.
  Variable id : Z.
  Notation nf fs := (n_of_field id (TStruct fs)).

  Lemma nf_ext fs gs : field id fs = field id gs -> nf fs = nf gs.
  Proof. unfold n_of_field, get_int, get. now intros ->. Qed.

  Lemma nf_hit c n r : nf ((id, TInt c (Z.of_N n)) :: r) = n.
  Proof. unfold n_of_field, get_int, get. cbn [field]. rewrite Z.eqb_refl. apply N2Z.id. Qed.

  Lemma nf_skip i v r : (i =? id)%Z = false -> nf ((i, v) :: r) = nf r.
  Proof. intros H. apply nf_ext. cbn [field]. now rewrite H. Qed.

  Lemma nf_between lo hi a r :
    ids_between lo hi a = true -> (id <=? lo)%Z || (hi <=? id)%Z = true -> nf (a ++ r) = nf r.
  Proof. intros Ha Hid. apply nf_ext. rewrite field_app, (field_ids_between lo hi) by (assumption || lia). reflexivity. Qed.

  Lemma nf_between_all lo hi a :
    ids_between lo hi a = true -> (id <=? lo)%Z || (hi <=? id)%Z = true -> nf a = 0.
  Proof. intros Ha Hid. rewrite <- (app_nil_r a). now apply (nf_between lo hi). Qed.

  (* an optional cell is absent exactly when its value is 0, which is what an absent field reads as *)
  Lemma nf_opt_i64_hit n r : nf r = 0 -> nf (opt_i64 id n ++ r) = n.
  Proof. unfold opt_i64. destruct (N.eqb_spec n 0) as [->|_]; [trivial|intros _; apply nf_hit]. Qed.

  Lemma nf_opt_i32_hit n r : nf r = 0 -> nf (opt_i32 id n ++ r) = n.
  Proof. unfold opt_i32. destruct (N.eqb_spec n 0) as [->|_]; [trivial|intros _; apply nf_hit]. Qed.

  Lemma nf_opt_i64_skip i n r : (i =? id)%Z = false -> nf (opt_i64 i n ++ r) = nf r.
  Proof. intros H. unfold opt_i64. destruct (n =? 0); [reflexivity|now apply nf_skip]. Qed.

  Lemma nf_opt_i32_skip i n r : (i =? id)%Z = false -> nf (opt_i32 i n ++ r) = nf r.
  Proof. intros H. unfold opt_i32. destruct (n =? 0); [reflexivity|now apply nf_skip]. Qed.
End NField.
Arguments nf_between {id lo hi a r}.
Arguments nf_between_all {id lo hi a}.

Lemma nat_of_n_of_field id v : nat_of_field id v = N.to_nat (n_of_field id v).
Proof. unfold nat_of_field, n_of_field. now rewrite Z_N_nat. Qed.

Lemma enc_fields_len : forall fs last, (1 <= length (enc_fields last fs))%nat.
Proof.
  induction fs as [|[id x] r IH]; intros last; [cbn; lia|].
  specialize (IH id). destruct x; cbn [enc_fields]; rewrite !app_length; lia.
Qed.

Lemma header_bytes_nonempty p : (1 <= length (page_header_bytes p))%nat.
Proof. unfold page_header_bytes, header_tree. rewrite encode_struct. apply enc_fields_len. Qed.

Lemma page_ok_parts d p : page_ok d p = true ->
  wfb (header_tree p) = true /\ (need (header_tree p) <=? 64)%nat = true /\ header_size p <= 4096.
Proof.
  unfold page_ok. rewrite !andb_true_iff. intros ((((_ & _) & Hw) & Hn) & Hh).
  repeat split; try assumption. unfold hdr_window in Hh. lia.
Qed.

Lemma decode_header_page d p tail : page_ok d p = true ->
  decode_header (page_bytes p ++ tail) =
  Some (header_tree p, length (page_header_bytes p), pg_body p ++ tail).
Proof.
  intros Hok. destruct (page_ok_parts d p Hok) as (Hw & Hn & Hh).
  unfold decode_header, page_bytes. rewrite <- app_assoc.
  set (hdr := page_header_bytes p) in *. set (X := pg_body p ++ tail).
  assert (Hlen : (length hdr <= SpecDecoder.header_window)%nat).
  { assert (N.of_nat SpecDecoder.header_window = 4096) by reflexivity. unfold header_size, sizeN in Hh. fold hdr in Hh. lia. }
  rewrite firstn_app, (firstn_all2 hdr) by exact Hlen.
  subst hdr. unfold page_header_bytes at 1.
  rewrite decode_thrift_encode; [|exact Hw|exact Hn|unfold header_tree; eauto].
  fold (page_header_bytes p).
  replace (length (page_header_bytes p ++ firstn (SpecDecoder.header_window - length (page_header_bytes p)) X)
           - length (firstn (SpecDecoder.header_window - length (page_header_bytes p)) X))%nat
    with (length (page_header_bytes p)) by (rewrite app_length; lia).
  now rewrite skipn_app_exact.
Qed.

Lemma header_comp p : nat_of_field 3 (header_tree p) = length (pg_body p).
Proof.
  rewrite nat_of_n_of_field. unfold header_tree. rewrite !nf_skip by reflexivity.
  unfold i32. rewrite nf_hit. apply Nat2N.id.
Qed.

Lemma header_uncomp p : n_of_field 2 (header_tree p) = pg_uncomp p.
Proof. unfold header_tree. rewrite nf_skip by reflexivity. apply nf_hit. Qed.

Lemma header_type p : get_int 1 (header_tree p) = Some (pg_type p).
Proof. reflexivity. Qed.

(** the inner header (data page v1 / v2 / dictionary) carries the value count *)
Definition header_nvalues (h : tval) : N :=
  let ty := zdef (get_int 1 h) (-1) in
  let inner := if (ty =? 2)%Z then get 7 h else if (ty =? 3)%Z then get 8 h else get 5 h in
  match inner with Some dh => n_of_field 1 dh | None => 0 end.

Lemma field_opt_z32_skip id id' z rest : (id' =? id)%Z = false ->
  field id (opt_z32 id' z ++ rest) = field id rest.
Proof.
  intros H. unfold opt_z32. destruct (z =? 0)%Z; [reflexivity|]. cbn [app field]. now rewrite H.
Qed.

Lemma header_nvalues_page p : header_nvalues (header_tree p) = pg_nvalues p.
Proof.
  unfold header_nvalues. rewrite header_type. cbn [zdef]. unfold header_tree, inner_header, get.
  destruct (pg_type p =? 2)%Z; [|destruct (pg_type p =? 3)%Z];
    cbn [field PH_Type PH_UncompressedPageSize PH_CompressedPageSize Z.eqb Pos.eqb];
    rewrite field_opt_z32_skip by reflexivity; apply nf_hit.
Qed.

(** * Walking the page headers of a chunk

    [walk_pages] is the page loop of [SpecDecoder.decode_pages] without the
    decoding of the bodies: header, [compressed_page_size] bytes, next page,
    until the chunk's bytes are used up exactly. *)

Record hpage := { h_offset : N; h_hlen : nat; h_comp : nat; h_header : tval }.

Fixpoint walk_pages (fuel : nat) (rest : bytes) (off : N) : option (list hpage) :=
  match fuel with
  | O => None
  | S f =>
      match rest with
      | [] => Some []
      | _ :: _ =>
          match decode_header rest with
          | None => None
          | Some (h, hlen, after) =>
              let comp := nat_of_field 3 h in
              match sub after 0 comp with
              | None => None
              | Some _ =>
                  match walk_pages f (skipn (hlen + comp) rest) (off + N.of_nat (hlen + comp)) with
                  | Some ps => Some ({| h_offset := off; h_hlen := hlen; h_comp := comp; h_header := h |} :: ps)
                  | None => None
                  end
              end
          end
      end
  end.

Fixpoint written_pages (off : N) (ps : list page_in) : list hpage :=
  match ps with
  | [] => []
  | p :: r =>
      {| h_offset := off; h_hlen := length (page_header_bytes p); h_comp := length (pg_body p);
         h_header := header_tree p |} :: written_pages (off + comp_size p) r
  end.

Definition page_ok_any (p : page_in) : bool := page_ok true p || page_ok false p.

Lemma page_ok_any_of d p : page_ok d p = true -> page_ok_any p = true.
Proof. unfold page_ok_any. destruct d; intros ->; [reflexivity|apply orb_true_r]. Qed.

Lemma comp_size_nat p : comp_size p = N.of_nat (length (page_header_bytes p) + length (pg_body p)).
Proof. unfold comp_size, header_size, sizeN. lia. Qed.

Lemma page_bytes_size p : sizeN (page_bytes p) = comp_size p.
Proof. unfold page_bytes. rewrite sizeN_app. reflexivity. Qed.

Theorem walk_pages_written : forall ps fuel off,
  forallb page_ok_any ps = true -> (length ps < fuel)%nat ->
  walk_pages fuel (concat (map page_bytes ps)) off = Some (written_pages off ps).
Proof.
  induction ps as [|p ps IH]; intros fuel off Hok Hf.
  - destruct fuel; [cbn in Hf; lia|]. reflexivity.
  - destruct fuel as [|f]; [cbn in Hf; lia|]. cbn [length] in Hf.
    cbn [forallb] in Hok. apply andb_true_iff in Hok. destruct Hok as [Hp Hps].
    cbn [map concat written_pages].
    set (X := concat (map page_bytes ps)).
    destruct (page_bytes p ++ X) as [|b0 r0] eqn:E.
    { exfalso. apply (f_equal (@length _)) in E. unfold page_bytes in E. rewrite !app_length in E.
      pose proof (header_bytes_nonempty p). cbn [length] in E. lia. }
    cbn [walk_pages]. rewrite <- E.
    assert (Hd : exists d, page_ok d p = true).
    { unfold page_ok_any in Hp. apply orb_true_iff in Hp. destruct Hp; eauto. }
    destruct Hd as [d Hd]. rewrite (decode_header_page d p X Hd). cbv zeta.
    rewrite header_comp.
    assert (Hsub : sub (pg_body p ++ X) 0 (length (pg_body p)) = Some (firstn (length (pg_body p)) (pg_body p ++ X))).
    { unfold sub. cbn [Nat.add skipn]. rewrite app_length.
      destruct (Nat.leb_spec (length (pg_body p)) (length (pg_body p) + length X)); [reflexivity|lia]. }
    rewrite Hsub.
    assert (Hskip : skipn (length (page_header_bytes p) + length (pg_body p)) (page_bytes p ++ X) = X).
    { apply skipn_app_len. unfold page_bytes. now rewrite app_length. }
    rewrite Hskip. rewrite <- comp_size_nat.
    subst X. rewrite IH by (auto; lia). reflexivity.
Qed.

Lemma written_pages_app off a b :
  written_pages off (a ++ b) = written_pages off a ++ written_pages (off + fold_left N.add (map comp_size a) 0) b.
Proof.
  revert off. induction a as [|p a IH]; intros off.
  - cbn. f_equal. lia.
  - cbn [app written_pages map]. rewrite fold_add_cons, IH, N.add_assoc. reflexivity.
Qed.

Lemma pages_bytes_size ps : sizeN (concat (map page_bytes ps)) = fold_left N.add (map comp_size ps) 0.
Proof.
  induction ps as [|p ps IH]; [reflexivity|].
  cbn [map concat]. rewrite sizeN_app, fold_add_cons, IH, page_bytes_size. reflexivity.
Qed.

Lemma map_written {B} (f : hpage -> B) (g : page_in -> B) :
  (forall off p, f {| h_offset := off; h_hlen := length (page_header_bytes p); h_comp := length (pg_body p);
                      h_header := header_tree p |} = g p) ->
  forall off ps, map f (written_pages off ps) = map g ps.
Proof.
  intros H off ps. revert off. induction ps as [|p ps IH]; intros off; [reflexivity|].
  cbn [written_pages map]. now rewrite H, IH.
Qed.

Lemma written_sizes off ps :
  map (fun hp => N.of_nat (h_hlen hp + h_comp hp)) (written_pages off ps) = map comp_size ps.
Proof. apply map_written. intros o p. cbn [h_hlen h_comp]. now rewrite comp_size_nat. Qed.

(** * Where the threaded offsets point: item [j] of a section starts where
      the items before it end *)

Lemma lay_chunks_firstn : forall cs j off bl ci oi,
  lay_chunks off bl ci oi (firstn j cs) = firstn j (lay_chunks off bl ci oi cs).
Proof.
  induction cs as [|c cs IH]; intros [|j] off bl ci oi; try reflexivity.
  cbn [firstn lay_chunks]. f_equal. apply IH.
Qed.

Lemma lay_chunks_length : forall cs off bl ci oi, length (lay_chunks off bl ci oi cs) = length cs.
Proof. induction cs as [|c cs IH]; intros; [reflexivity|]. cbn [lay_chunks length]. now rewrite IH. Qed.

Lemma lay_chunks_nth : forall cs j c off bl ci oi,
  nth_error cs j = Some c ->
  let pre := firstn j cs in
  let off' := off + sizeN (pages_bytes pre) in
  nth_error (lay_chunks off bl ci oi cs) j =
  Some (chunk_tree off' (bl + sizeN (blooms_bytes pre)) (ci + sizeN (cindex_bytes pre))
          (oi + sizeN (oi_bytes (map snd (lay_chunks off bl ci oi pre))))
          (sizeN (encode (oindex_tree off' c))) c,
        oindex_tree off' c).
Proof.
  induction cs as [|c0 cs IH]; intros [|j] c off bl ci oi H; cbn [nth_error] in H; try discriminate.
  - inversion H. subst c0. cbn [firstn lay_chunks nth_error map]. cbv zeta.
    unfold pages_bytes, blooms_bytes, cindex_bytes, oi_bytes. cbn [map concat].
    rewrite sizeN_nil, !N.add_0_r. reflexivity.
  - cbv zeta. cbn [firstn lay_chunks nth_error]. rewrite (IH j c _ _ _ _ H). cbv zeta.
    cbn [map snd]. unfold pages_bytes, blooms_bytes, cindex_bytes, oi_bytes. cbn [map concat].
    rewrite !sizeN_app, !N.add_assoc. reflexivity.
Qed.

Lemma lay_groups_firstn : forall gs i off ci oi ord,
  lay_groups off ci oi ord (firstn i gs) = firstn i (lay_groups off ci oi ord gs).
Proof.
  induction gs as [|g gs IH]; intros [|i] off ci oi ord; try reflexivity.
  cbn [firstn lay_groups]. cbv zeta. f_equal. apply IH.
Qed.

Lemma lay_groups_length : forall gs off ci oi ord, length (lay_groups off ci oi ord gs) = length gs.
Proof. induction gs as [|g gs IH]; intros; [reflexivity|]. cbn [lay_groups length]. cbv zeta. cbn [length]. now rewrite IH. Qed.

Definition groups_bytes_of (gs : list group_in) : bytes := concat (map group_bytes gs).
Definition cindexes_bytes_of (gs : list group_in) : bytes := concat (map (fun g => cindex_bytes (gi_chunks g)) gs).

Lemma lay_groups_nth : forall gs i g off ci oi ord,
  nth_error gs i = Some g ->
  let pre := firstn i gs in
  let off' := off + sizeN (groups_bytes_of pre) in
  let ci' := ci + sizeN (cindexes_bytes_of pre) in
  let oi' := oi + sizeN (oindexes_of (lay_groups off ci oi ord pre)) in
  nth_error (lay_groups off ci oi ord gs) i =
  Some (group_tree off' (ord + N.of_nat i) g (map fst (group_cols off' ci' oi' g)),
        map snd (group_cols off' ci' oi' g)).
Proof.
  induction gs as [|g0 gs IH]; intros [|i] g off ci oi ord H; cbn [nth_error] in H; try discriminate.
  - inversion H. subst g0. cbn [firstn lay_groups nth_error]. cbv zeta.
    unfold groups_bytes_of, cindexes_bytes_of, oindexes_of. cbn [map concat].
    rewrite sizeN_nil, !N.add_0_r. reflexivity.
  - cbv zeta. cbn [firstn lay_groups nth_error]. cbv zeta. rewrite (IH i g _ _ _ _ H). cbv zeta.
    unfold groups_bytes_of, cindexes_bytes_of, oindexes_of. cbn [map concat snd].
    rewrite !sizeN_app, !N.add_assoc.
    replace (ord + 1 + N.of_nat i) with (ord + N.of_nat (S i)) by lia. reflexivity.
Qed.

Lemma dict_bytes_pos c : ck_dict c <> None -> 0 < sizeN (dict_bytes c).
Proof.
  unfold dict_bytes, dict_pages. destruct (ck_dict c) as [d|]; [intros _|congruence].
  cbn [map concat]. rewrite app_nil_r. unfold page_bytes. rewrite sizeN_app.
  pose proof (header_bytes_nonempty d). unfold sizeN. lia.
Qed.

Lemma chunk_total_comp_size c : chunk_total_comp c = sizeN (chunk_bytes c).
Proof.
  unfold chunk_total_comp, chunk_bytes, dict_bytes. rewrite map_app, fold_add_app, sizeN_app, !pages_bytes_size. lia.
Qed.

Section Meta.
  Variables (off bl : N) (c : chunk_in).
  Hypothesis Hok : chunk_ok c = true.

  Let Hparts : ids_between 0 CM_NumValues (ck_head c) = true /\
               ids_between CM_TotalCompressedSize CM_DataPageOffset (ck_kv c) = true /\
               ids_between CM_DictionaryPageOffset CM_BloomFilterOffset (ck_stats c) = true /\
               ids_between CM_BloomFilterLength (2 ^ 15) (ck_tail c) = true.
  Proof.
    unfold chunk_ok in Hok. rewrite !andb_true_iff in Hok. tauto.
  Qed.

  Lemma meta_num_values : n_of_field 5 (meta_tree off bl c) = chunk_num_values c.
  Proof.
    destruct Hparts as (H1 & _). unfold meta_tree.
    rewrite (nf_between H1) by reflexivity. apply nf_hit.
  Qed.

  Lemma meta_total_uncomp : n_of_field 6 (meta_tree off bl c) = chunk_total_uncomp c.
  Proof.
    destruct Hparts as (H1 & _). unfold meta_tree.
    rewrite (nf_between H1), nf_skip by reflexivity. apply nf_hit.
  Qed.

  Lemma meta_total_comp : n_of_field 7 (meta_tree off bl c) = chunk_total_comp c.
  Proof.
    destruct Hparts as (H1 & _). unfold meta_tree.
    rewrite (nf_between H1), !nf_skip by reflexivity. apply nf_hit.
  Qed.

  Lemma meta_data_offset : n_of_field 9 (meta_tree off bl c) = data_offset off c.
  Proof.
    destruct Hparts as (H1 & H2 & _). unfold meta_tree.
    rewrite (nf_between H1), !nf_skip, (nf_between H2) by reflexivity. apply nf_hit.
  Qed.

  Lemma meta_dict_offset : n_of_field 11 (meta_tree off bl c) = dict_offset off c.
  Proof.
    destruct Hparts as (H1 & H2 & H3 & H4). unfold meta_tree.
    rewrite (nf_between H1), !nf_skip, (nf_between H2), nf_skip by reflexivity.
    apply nf_opt_i64_hit. rewrite (nf_between H3) by reflexivity.
    destruct (ck_bloom c).
    - apply (nf_between_all H4). reflexivity.
    - rewrite <- app_assoc, nf_opt_i64_skip, nf_opt_i32_skip by reflexivity. apply (nf_between_all H4). reflexivity.
  Qed.

  Lemma meta_bloom_offset : n_of_field 14 (meta_tree off bl c) = match ck_bloom c with [] => 0 | _ => bl end.
  Proof.
    destruct Hparts as (H1 & H2 & H3 & H4). unfold meta_tree.
    rewrite (nf_between H1), !nf_skip, (nf_between H2), nf_skip, nf_opt_i64_skip,
      (nf_between H3) by reflexivity.
    destruct (ck_bloom c).
    - apply (nf_between_all H4). reflexivity.
    - rewrite <- app_assoc. apply nf_opt_i64_hit. rewrite nf_opt_i32_skip by reflexivity.
      apply (nf_between_all H4). reflexivity.
  Qed.

  Lemma meta_bloom_length : n_of_field 15 (meta_tree off bl c) = sizeN (ck_bloom c).
  Proof.
    destruct Hparts as (H1 & H2 & H3 & H4). unfold meta_tree.
    rewrite (nf_between H1), !nf_skip, (nf_between H2), nf_skip, nf_opt_i64_skip,
      (nf_between H3) by reflexivity.
    destruct (ck_bloom c) eqn:E.
    - apply (nf_between_all H4). reflexivity.
    - rewrite <- E, <- app_assoc, nf_opt_i64_skip by reflexivity. apply nf_opt_i32_hit.
      apply (nf_between_all H4). reflexivity.
  Qed.

  (* the decoder starts reading the chunk where the writer started writing it *)
  Lemma meta_chunk_start : 0 < off -> chunk_start (meta_tree off bl c) = off.
  Proof.
    intros Hoff. unfold chunk_start. rewrite meta_data_offset, meta_dict_offset.
    unfold dict_offset, data_offset.
    destruct (ck_dict c) as [d|] eqn:Ed.
    - assert (0 < sizeN (dict_bytes c)) by (apply dict_bytes_pos; congruence).
      destruct (N.ltb_spec 0 off); [|lia]. destruct (N.ltb_spec off (off + sizeN (dict_bytes c))); [reflexivity|lia].
    - cbn [N.ltb N.compare andb]. unfold dict_bytes, dict_pages. rewrite Ed. cbn [map concat]. rewrite sizeN_nil. lia.
  Qed.

End Meta.

Section ChunkTree.
  Variables (off bl ci oi oilen : N) (c : chunk_in).

  Lemma chunk_tree_meta : get 3 (chunk_tree off bl ci oi oilen c) = Some (meta_tree off bl c).
  Proof. reflexivity. Qed.

  Let cindex_part :=
    match ck_cindex c with
    | [] => []
    | _ :: _ => opt_i64 CC_ColumnIndexOffset ci ++ opt_i32 CC_ColumnIndexLength (sizeN (ck_cindex c))
    end.

  Let cindex_part_none id : (id <? 6)%Z = true -> n_of_field id (TStruct cindex_part) = 0.
  Proof.
    intros H. unfold cindex_part. destruct (ck_cindex c); [reflexivity|].
    rewrite <- (app_nil_r (opt_i32 _ _)), nf_opt_i64_skip, nf_opt_i32_skip
      by (unfold CC_ColumnIndexOffset, CC_ColumnIndexLength; lia).
    reflexivity.
  Qed.

  Lemma chunk_tree_oi_offset : n_of_field 4 (chunk_tree off bl ci oi oilen c) = oi.
  Proof.
    unfold chunk_tree. rewrite !nf_skip by reflexivity. apply nf_opt_i64_hit.
    rewrite nf_opt_i32_skip by reflexivity. now apply cindex_part_none.
  Qed.

  Lemma chunk_tree_oi_length : n_of_field 5 (chunk_tree off bl ci oi oilen c) = oilen.
  Proof.
    unfold chunk_tree. rewrite !nf_skip, nf_opt_i64_skip by reflexivity. apply nf_opt_i32_hit.
    now apply cindex_part_none.
  Qed.

  Lemma chunk_tree_ci_offset :
    n_of_field 6 (chunk_tree off bl ci oi oilen c) = match ck_cindex c with [] => 0 | _ => ci end.
  Proof.
    unfold chunk_tree. rewrite !nf_skip, nf_opt_i64_skip, nf_opt_i32_skip by reflexivity.
    destruct (ck_cindex c); [reflexivity|]. apply nf_opt_i64_hit.
    rewrite <- (app_nil_r (opt_i32 _ _)). now rewrite nf_opt_i32_skip.
  Qed.

  Lemma chunk_tree_ci_length : n_of_field 7 (chunk_tree off bl ci oi oilen c) = sizeN (ck_cindex c).
  Proof.
    unfold chunk_tree. rewrite !nf_skip, nf_opt_i64_skip, nf_opt_i32_skip by reflexivity.
    destruct (ck_cindex c) eqn:E; [reflexivity|]. rewrite <- E, nf_opt_i64_skip by reflexivity.
    rewrite <- (app_nil_r (opt_i32 _ _)). now apply nf_opt_i32_hit.
  Qed.
End ChunkTree.

Section GroupTree.
  Variables (off ord : N) (g : group_in) (cols : list tval).
  Hypothesis Hsort : ids_between RG_NumRows RG_FileOffset (gi_sorting g) = true.

  Lemma group_tree_columns : get_list 1 (group_tree off ord g cols) = Some cols.
  Proof. reflexivity. Qed.

  Lemma group_tree_total_byte_size :
    n_of_field 2 (group_tree off ord g cols) = fold_left N.add (map chunk_total_uncomp (gi_chunks g)) 0.
  Proof. unfold group_tree. rewrite nf_skip by reflexivity. apply nf_hit. Qed.

  Lemma group_tree_num_rows : n_of_field 3 (group_tree off ord g cols) = group_num_rows g.
  Proof. unfold group_tree. rewrite !nf_skip by reflexivity. apply nf_hit. Qed.

  Lemma group_tree_file_offset : n_of_field 5 (group_tree off ord g cols) = off.
  Proof.
    unfold group_tree. rewrite !nf_skip, (nf_between Hsort) by reflexivity. apply nf_opt_i64_hit.
    now rewrite nf_opt_i64_skip.
  Qed.

  Lemma group_tree_total_compressed_size :
    n_of_field 6 (group_tree off ord g cols) = fold_left N.add (map chunk_total_comp (gi_chunks g)) 0.
  Proof.
    unfold group_tree. rewrite !nf_skip, (nf_between Hsort), nf_opt_i64_skip by reflexivity.
    now apply nf_opt_i64_hit.
  Qed.
End GroupTree.

Lemma footer_row_groups fi : get_list 4 (footer_tree fi) = Some (map fst (laid_groups fi)).
Proof. reflexivity. Qed.

Lemma footer_num_rows fi : n_of_field 3 (footer_tree fi) = fold_left N.add (map group_num_rows (fi_groups fi)) 0.
Proof. unfold footer_tree, footer_of_groups. rewrite !nf_skip by reflexivity. apply nf_hit. Qed.

Definition at_offset (file : bytes) (off : N) (x : bytes) : Prop :=
  exists pre post, file = pre ++ x ++ post /\ sizeN pre = off.

Lemma at_offset_fsub file off x : at_offset file off x -> fsub (mk_fbytes file) off (length x) = Some x.
Proof. intros (pre & post & -> & <-). apply fsub_at. Qed.

Lemma at_offset_trans outer mid x o1 o2 :
  at_offset outer o1 mid -> at_offset mid o2 x -> at_offset outer (o1 + o2) x.
Proof.
  intros (p1 & q1 & -> & <-) (p2 & q2 & -> & <-).
  exists (p1 ++ p2), (q2 ++ q1). split; [now rewrite <- !app_assoc|apply sizeN_app].
Qed.

Lemma at_offset_mid a x b : at_offset (a ++ x ++ b) (sizeN a) x.
Proof. exists a, b. split; reflexivity. Qed.

Lemma at_offset_head x b : at_offset (x ++ b) 0 x.
Proof. exists [], b. split; reflexivity. Qed.

Lemma at_offset_concat {A} (f : A -> bytes) l j y :
  nth_error l j = Some y -> at_offset (concat (map f l)) (sizeN (concat (map f (firstn j l)))) (f y).
Proof. intros H. rewrite (concat_map_split f l j y H). apply at_offset_mid. Qed.

(** * (a) The footer *)

Lemma footer_found (P F : bytes) (t : tval) :
  firstn 4 P = SpecDecoder.magic -> sizeN F < 2 ^ 32 -> decode_thrift F = Some (t, []) ->
  SpecDecoder.footer_of (mk_fbytes (P ++ F ++ to_le 4 (sizeN F) ++ SpecDecoder.magic)) = Some (t, sizeN P).
Proof.
  intros HP HF Hdec. set (L := to_le 4 (sizeN F)). set (file := P ++ F ++ L ++ SpecDecoder.magic).
  assert (HL : sizeN L = 4) by (unfold sizeN, L; now rewrite to_le_length).
  assert (HP' : P = SpecDecoder.magic ++ skipn 4 P) by (rewrite <- HP; symmetry; apply firstn_skipn).
  assert (HP4 : 4 <= sizeN P) by (rewrite HP', sizeN_app; change (sizeN SpecDecoder.magic) with 4; lia).
  assert (Hn : fb_len (mk_fbytes file) = sizeN P + sizeN F + 8).
  { change (fb_len (mk_fbytes file)) with (sizeN file). unfold file. rewrite !sizeN_app, HL.
    change (sizeN SpecDecoder.magic) with 4. lia. }
  (* the four slices the decoder takes, each by what stands before and after it *)
  assert (H1 : fsub (mk_fbytes file) 0 4 = Some SpecDecoder.magic).
  { apply (at_offset_fsub file 0 SpecDecoder.magic). exists [], (skipn 4 P ++ F ++ L ++ SpecDecoder.magic).
    split; [unfold file; now rewrite HP' at 1; rewrite <- app_assoc|reflexivity]. }
  assert (H2 : fsub (mk_fbytes file) (sizeN P + sizeN F + 8 - 4) 4 = Some SpecDecoder.magic).
  { apply (at_offset_fsub file _ SpecDecoder.magic). exists (P ++ F ++ L), [].
    split; [unfold file; now rewrite app_nil_r, <- !app_assoc|rewrite !sizeN_app; lia]. }
  assert (H3 : fsub (mk_fbytes file) (sizeN P + sizeN F + 8 - 8) 4 = Some L).
  { apply (at_offset_fsub file _ L). exists (P ++ F), SpecDecoder.magic.
    split; [unfold file; now rewrite <- app_assoc|rewrite sizeN_app; lia]. }
  assert (H4 : fsub (mk_fbytes file) (sizeN P) (length F) = Some F).
  { apply at_offset_fsub. exists P, (L ++ SpecDecoder.magic). split; reflexivity. }
  unfold SpecDecoder.footer_of. rewrite Hn, H1, H2, H3, N.eqb_refl.
  destruct (N.ltb_spec (sizeN P + sizeN F + 8) 12) as [Hlt|_]; [lia|]. cbn [andb].
  replace (of_le L) with (sizeN F) by (symmetry; apply of_le_to_le; exact HF).
  destruct (N.leb_spec (sizeN F + 12) (sizeN P + sizeN F + 8)) as [_|Hc]; [|lia].
  replace (sizeN P + sizeN F + 8 - 8 - sizeN F) with (sizeN P) by lia.
  now rewrite to_nat_sizeN, H4, Hdec.
Qed.

Lemma file_ok_parts fi : file_ok fi = true ->
  forallb group_ok (fi_groups fi) = true /\
  wfb (footer_tree fi) = true /\ (need (footer_tree fi) <=? 64)%nat = true /\
  forallb (fun gl => forallb (fun oi => wfb oi && (need oi <=? 64)%nat) (snd gl)) (laid_groups fi) = true /\
  sizeN (footer_bytes fi) < 2 ^ 32.
Proof.
  unfold file_ok, file_ok_with. cbv zeta. fold (footer_tree fi). fold (footer_bytes fi).
  rewrite !andb_true_iff. intros (((((H1 & _) & H3) & H4) & H5) & H6).
  repeat split; try assumption. now apply N.ltb_lt.
Qed.

Lemma layout_bytes_eq fi :
  layout_bytes fi =
  (file_magic ++ groups_bytes fi ++ cindexes_bytes fi ++ oindexes_bytes fi)
  ++ footer_bytes fi ++ to_le 4 (sizeN (footer_bytes fi)) ++ file_magic.
Proof. unfold layout_bytes, assemble. cbv zeta. now rewrite <- !app_assoc. Qed.

Lemma footer_start_eq fi :
  footer_start fi = sizeN (file_magic ++ groups_bytes fi ++ cindexes_bytes fi ++ oindexes_bytes fi).
Proof. unfold footer_start, oindex_start, cindex_start. rewrite !sizeN_app. lia. Qed.

Theorem layout_footer_found fi : file_ok fi = true ->
  SpecDecoder.footer_of (mk_fbytes (layout_bytes fi)) = Some (footer_tree fi, footer_start fi).
Proof.
  intros Hok. destruct (file_ok_parts fi Hok) as (_ & Hw & Hn & _ & Hlen).
  rewrite layout_bytes_eq, footer_start_eq.
  apply footer_found; [reflexivity|exact Hlen|].
  unfold footer_bytes. rewrite <- (app_nil_r (encode (footer_tree fi))).
  apply decode_thrift_encode; [exact Hw|exact Hn|unfold footer_tree, footer_of_groups; eauto].
Qed.

(* the offsets the accounting gives to row group [i] and to column [j] of it *)
Definition group_off (fi : file_in) (i : nat) : N :=
  sizeN file_magic + sizeN (groups_bytes_of (firstn i (fi_groups fi))).
Definition group_ci (fi : file_in) (i : nat) : N :=
  cindex_start fi + sizeN (cindexes_bytes_of (firstn i (fi_groups fi))).
Definition group_oi (fi : file_in) (i : nat) : N :=
  oindex_start fi + sizeN (oindexes_of (firstn i (laid_groups fi))).
Definition the_cols (fi : file_in) (i : nat) (g : group_in) : list (tval * tval) :=
  group_cols (group_off fi i) (group_ci fi i) (group_oi fi i) g.

Definition chunk_off (fi : file_in) (i : nat) (g : group_in) (j : nat) : N :=
  group_off fi i + sizeN (pages_bytes (firstn j (gi_chunks g))).
Definition chunk_bl (fi : file_in) (i : nat) (g : group_in) (j : nat) : N :=
  group_off fi i + sizeN (pages_bytes (gi_chunks g)) + sizeN (blooms_bytes (firstn j (gi_chunks g))).
Definition chunk_ci (fi : file_in) (i : nat) (g : group_in) (j : nat) : N :=
  group_ci fi i + sizeN (cindex_bytes (firstn j (gi_chunks g))).
Definition chunk_oi (fi : file_in) (i : nat) (g : group_in) (j : nat) : N :=
  group_oi fi i + sizeN (oi_bytes (map snd (firstn j (the_cols fi i g)))).

Lemma laid_groups_nth fi i g : nth_error (fi_groups fi) i = Some g ->
  nth_error (laid_groups fi) i =
  Some (group_tree (group_off fi i) (N.of_nat i) g (map fst (the_cols fi i g)), map snd (the_cols fi i g)).
Proof.
  intros H. unfold laid_groups at 1. cbv zeta.
  rewrite (lay_groups_nth _ _ _ _ _ _ _ H). cbv zeta.
  rewrite lay_groups_firstn. reflexivity.
Qed.

Lemma the_cols_nth fi i g j c : nth_error (gi_chunks g) j = Some c ->
  nth_error (the_cols fi i g) j =
  Some (chunk_tree (chunk_off fi i g j) (chunk_bl fi i g j) (chunk_ci fi i g j) (chunk_oi fi i g j)
          (sizeN (encode (oindex_tree (chunk_off fi i g j) c))) c,
        oindex_tree (chunk_off fi i g j) c).
Proof.
  intros H. unfold the_cols at 1, group_cols.
  rewrite (lay_chunks_nth _ _ _ _ _ _ _ H). cbv zeta.
  rewrite lay_chunks_firstn. reflexivity.
Qed.

(** the entry of column [j] of row group [i] in a FileMetaData tree *)
Definition footer_chunk (ft : tval) (i j : nat) (gt cc md : tval) : Prop :=
  exists gts ccs, get_list 4 ft = Some gts /\ nth_error gts i = Some gt /\
                  get_list 1 gt = Some ccs /\ nth_error ccs j = Some cc /\ get 3 cc = Some md.

Lemma footer_chunk_unique ft i j gt cc md gt' cc' md' :
  footer_chunk ft i j gt cc md -> footer_chunk ft i j gt' cc' md' -> gt = gt' /\ cc = cc' /\ md = md'.
Proof.
  intros (gts & ccs & H1 & H2 & H3 & H4 & H5) (gts' & ccs' & H1' & H2' & H3' & H4' & H5').
  assert (gts = gts') by congruence. subst gts'. assert (gt = gt') by congruence. subst gt'.
  assert (ccs = ccs') by congruence. subst ccs'. assert (cc = cc') by congruence. subst cc'.
  repeat split; congruence.
Qed.

Definition the_group_tree (fi : file_in) (i : nat) (g : group_in) : tval :=
  group_tree (group_off fi i) (N.of_nat i) g (map fst (the_cols fi i g)).
Definition the_chunk_tree (fi : file_in) (i : nat) (g : group_in) (j : nat) (c : chunk_in) : tval :=
  chunk_tree (chunk_off fi i g j) (chunk_bl fi i g j) (chunk_ci fi i g j) (chunk_oi fi i g j)
    (sizeN (encode (oindex_tree (chunk_off fi i g j) c))) c.
Definition the_meta_tree (fi : file_in) (i : nat) (g : group_in) (j : nat) (c : chunk_in) : tval :=
  meta_tree (chunk_off fi i g j) (chunk_bl fi i g j) c.

Lemma footer_chunk_layout fi i j g c :
  nth_error (fi_groups fi) i = Some g -> nth_error (gi_chunks g) j = Some c ->
  footer_chunk (footer_tree fi) i j (the_group_tree fi i g) (the_chunk_tree fi i g j c) (the_meta_tree fi i g j c).
Proof.
  intros Hg Hc. exists (map fst (laid_groups fi)), (map fst (the_cols fi i g)).
  split; [apply footer_row_groups|].
  split; [erewrite map_nth_error by (apply laid_groups_nth; exact Hg); reflexivity|].
  split; [reflexivity|].
  split; [erewrite map_nth_error by (apply the_cols_nth; exact Hc); reflexivity|].
  reflexivity.
Qed.

Lemma groups_at fi : at_offset (layout_bytes fi) (sizeN file_magic) (groups_bytes fi).
Proof. unfold layout_bytes, assemble. cbv zeta. apply at_offset_mid. Qed.

Lemma group_at fi i g : nth_error (fi_groups fi) i = Some g ->
  at_offset (layout_bytes fi) (group_off fi i) (group_bytes g).
Proof.
  intros H. unfold group_off. eapply at_offset_trans; [apply groups_at|].
  unfold groups_bytes, groups_bytes_of. now apply at_offset_concat.
Qed.

Lemma chunk_at fi i g j c :
  nth_error (fi_groups fi) i = Some g -> nth_error (gi_chunks g) j = Some c ->
  at_offset (layout_bytes fi) (chunk_off fi i g j) (chunk_bytes c).
Proof.
  intros Hg Hc. unfold chunk_off.
  eapply at_offset_trans; [apply (group_at fi i g Hg)|].
  replace (sizeN (pages_bytes (firstn j (gi_chunks g)))) with (0 + sizeN (pages_bytes (firstn j (gi_chunks g)))) by lia.
  eapply at_offset_trans; [unfold group_bytes; apply at_offset_head|].
  unfold pages_bytes. now apply at_offset_concat.
Qed.

Lemma bloom_at fi i g j c :
  nth_error (fi_groups fi) i = Some g -> nth_error (gi_chunks g) j = Some c ->
  at_offset (layout_bytes fi) (chunk_bl fi i g j) (ck_bloom c).
Proof.
  intros Hg Hc. unfold chunk_bl. rewrite <- N.add_assoc.
  eapply at_offset_trans; [apply (group_at fi i g Hg)|].
  eapply at_offset_trans.
  - unfold group_bytes. rewrite <- (app_nil_r (blooms_bytes (gi_chunks g))). apply at_offset_mid.
  - unfold blooms_bytes. now apply at_offset_concat.
Qed.

Lemma cindexes_at fi : at_offset (layout_bytes fi) (cindex_start fi) (cindexes_bytes fi).
Proof.
  unfold layout_bytes, assemble, cindex_start. cbv zeta. rewrite <- sizeN_app.
  rewrite (app_assoc file_magic). apply at_offset_mid.
Qed.

Lemma cindex_at fi i g j c :
  nth_error (fi_groups fi) i = Some g -> nth_error (gi_chunks g) j = Some c ->
  at_offset (layout_bytes fi) (chunk_ci fi i g j) (ck_cindex c).
Proof.
  intros Hg Hc. unfold chunk_ci, group_ci. rewrite <- N.add_assoc.
  eapply at_offset_trans; [apply cindexes_at|].
  eapply at_offset_trans.
  - unfold cindexes_bytes, cindexes_bytes_of. apply (at_offset_concat (fun g => cindex_bytes (gi_chunks g)) _ _ _ Hg).
  - unfold cindex_bytes. now apply at_offset_concat.
Qed.

Lemma oindexes_at fi : at_offset (layout_bytes fi) (oindex_start fi) (oindexes_bytes fi).
Proof.
  unfold layout_bytes, assemble, oindex_start, cindex_start. cbv zeta. rewrite <- !sizeN_app.
  rewrite <- app_assoc.
  rewrite (app_assoc (groups_bytes fi)), (app_assoc file_magic). apply at_offset_mid.
Qed.

Lemma oindex_at fi i g j c :
  nth_error (fi_groups fi) i = Some g -> nth_error (gi_chunks g) j = Some c ->
  at_offset (layout_bytes fi) (chunk_oi fi i g j) (encode (oindex_tree (chunk_off fi i g j) c)).
Proof.
  intros Hg Hc. unfold chunk_oi, group_oi. rewrite <- N.add_assoc.
  eapply at_offset_trans; [apply oindexes_at|].
  eapply at_offset_trans.
  - unfold oindexes_bytes, oindexes_of.
    apply (at_offset_concat (fun gl => oi_bytes (snd gl)) _ _ _ (laid_groups_nth fi i g Hg)).
  - cbn [snd]. unfold oi_bytes. rewrite !map_map.
    apply (at_offset_concat (fun x => encode (snd x)) _ _ _ (the_cols_nth fi i g j c Hc)).
Qed.

(** * (b) Column chunks: the recorded start and size slice the pages written;
      walking the headers reads them back *)

Lemma forallb_nth_error {A} (f : A -> bool) l i x :
  forallb f l = true -> nth_error l i = Some x -> f x = true.
Proof. intros H Hn. rewrite forallb_forall in H. apply H. eapply nth_error_In; eauto. Qed.

Lemma group_ok_at fi i g : file_ok fi = true -> nth_error (fi_groups fi) i = Some g ->
  forallb chunk_ok (gi_chunks g) = true /\ ids_between RG_NumRows RG_FileOffset (gi_sorting g) = true.
Proof.
  intros Hok Hg. destruct (file_ok_parts fi Hok) as (Hgs & _).
  apply andb_true_iff. exact (forallb_nth_error _ _ _ _ Hgs Hg).
Qed.

Lemma chunk_off_pos fi i g j : 0 < chunk_off fi i g j.
Proof. unfold chunk_off, group_off. change (sizeN file_magic) with 4. lia. Qed.

Lemma footer_chunk_inv fi i j g c gt cc md :
  file_ok fi = true -> nth_error (fi_groups fi) i = Some g -> nth_error (gi_chunks g) j = Some c ->
  footer_chunk (footer_tree fi) i j gt cc md ->
  cc = the_chunk_tree fi i g j c /\ md = the_meta_tree fi i g j c /\ chunk_ok c = true /\
  chunk_start md = chunk_off fi i g j.
Proof.
  intros Hok Hg Hc Hfc.
  destruct (footer_chunk_unique _ _ _ _ _ _ _ _ _ Hfc (footer_chunk_layout fi i j g c Hg Hc)) as (_ & -> & ->).
  pose proof (forallb_nth_error _ _ _ _ (proj1 (group_ok_at fi i g Hok Hg)) Hc) as Hck. repeat split; [exact Hck|].
  exact (meta_chunk_start _ _ _ Hck (chunk_off_pos fi i g j)).
Qed.

Definition all_pages (c : chunk_in) : list page_in := dict_pages c ++ ck_pages c.

Lemma chunk_bytes_pages c : chunk_bytes c = concat (map page_bytes (all_pages c)).
Proof. unfold chunk_bytes, dict_bytes, all_pages. now rewrite map_app, concat_app. Qed.

Lemma pages_count_le ps : (length ps <= length (concat (map page_bytes ps)))%nat.
Proof.
  induction ps as [|p ps IH]; [cbn; lia|]. cbn [map concat length]. rewrite app_length.
  assert (1 <= length (page_bytes p))%nat.
  { unfold page_bytes. rewrite app_length. pose proof (header_bytes_nonempty p). lia. }
  lia.
Qed.

Lemma chunk_ok_pages c : chunk_ok c = true ->
  forallb (page_ok true) (dict_pages c) = true /\ forallb (page_ok false) (ck_pages c) = true /\
  forallb page_ok_any (all_pages c) = true.
Proof.
  unfold chunk_ok. rewrite !andb_true_iff. intros (((((Hd & Hp) & _) & _) & _) & _).
  split; [exact Hd|]. split; [exact Hp|].
  unfold all_pages. rewrite forallb_app. apply andb_true_iff. split.
  - rewrite forallb_forall in *. intros p Hin. eapply page_ok_any_of; eauto.
  - rewrite forallb_forall in *. intros p Hin. eapply page_ok_any_of; eauto.
Qed.

Theorem layout_chunk_pages fi i j g c gt cc md :
  file_ok fi = true ->
  nth_error (fi_groups fi) i = Some g -> nth_error (gi_chunks g) j = Some c ->
  footer_chunk (footer_tree fi) i j gt cc md ->
  let start := chunk_start md in
  let total := nat_of_field 7 md in
  start = chunk_off fi i g j /\
  fsub (mk_fbytes (layout_bytes fi)) start total = Some (chunk_bytes c) /\
  walk_pages (S total) (chunk_bytes c) start = Some (written_pages start (all_pages c)).
Proof.
  intros Hok Hg Hc Hfc. cbv zeta.
  destruct (footer_chunk_inv fi i j g c gt cc md Hok Hg Hc Hfc) as (-> & -> & Hck & Hst).
  rewrite Hst. unfold the_meta_tree.
  rewrite nat_of_n_of_field, (meta_total_comp _ _ _ Hck), chunk_total_comp_size.
  rewrite to_nat_sizeN.
  split; [reflexivity|]. split.
  - apply at_offset_fsub. now apply chunk_at.
  - rewrite chunk_bytes_pages. apply walk_pages_written.
    + apply (chunk_ok_pages c Hck).
    + pose proof (pages_count_le (all_pages c)). lia.
Qed.

(** the sums the specification decoder recomputes (check_chunk) over the pages found *)

Lemma sumN_fold (l : list nat) : sumN l = fold_left N.add (map N.of_nat l) 0.
Proof.
  unfold sumN. generalize 0. induction l as [|x l IH]; intros a; [reflexivity|].
  cbn [fold_left map]. apply IH.
Qed.

Definition is_data_page (hp : hpage) : bool := negb (zdef (get_int 1 (h_header hp)) (-1) =? 2)%Z.

Lemma page_ok_type d p : page_ok d p = true -> (pg_type p =? 2)%Z = d.
Proof.
  unfold page_ok. rewrite !andb_true_iff. intros ((((Ht & _) & _) & _) & _). destruct d; [exact Ht|lia].
Qed.

Lemma written_filter d off ps : forallb (page_ok d) ps = true ->
  filter is_data_page (written_pages off ps) = if d then [] else written_pages off ps.
Proof.
  revert off. induction ps as [|p ps IH]; intros off H; [now destruct d|].
  cbn [forallb] in H. apply andb_true_iff in H. destruct H as [Hp Hps].
  cbn [written_pages filter]. unfold is_data_page at 1. cbn [h_header]. rewrite header_type. cbn [zdef].
  rewrite (page_ok_type d p Hp), (IH _ Hps). now destruct d.
Qed.

Lemma dict_pages_size c : fold_left N.add (map comp_size (dict_pages c)) 0 = sizeN (dict_bytes c).
Proof. unfold dict_bytes. now rewrite pages_bytes_size. Qed.

Lemma written_data_pages off c : chunk_ok c = true ->
  filter is_data_page (written_pages off (all_pages c)) = written_pages (data_offset off c) (ck_pages c).
Proof.
  intros Hck. destruct (chunk_ok_pages c Hck) as (Hd & Hp & _).
  unfold all_pages. rewrite written_pages_app, filter_app, (written_filter true), (written_filter false) by assumption.
  cbn [app]. unfold data_offset. now rewrite dict_pages_size.
Qed.

Lemma written_nvalues off ps :
  map (fun hp => header_nvalues (h_header hp)) (written_pages off ps) = map pg_nvalues ps.
Proof. apply map_written. intros o p. apply header_nvalues_page. Qed.

Lemma written_uncomp off ps :
  map (fun hp => N.of_nat (h_hlen hp + nat_of_field 2 (h_header hp))) (written_pages off ps) = map uncomp_size ps.
Proof.
  apply map_written. intros o p. cbn [h_header h_hlen].
  rewrite nat_of_n_of_field, header_uncomp. unfold uncomp_size, header_size, sizeN. lia.
Qed.

Lemma fold_add_perm2 a b : fold_left N.add (a ++ b) 0 = fold_left N.add (b ++ a) 0.
Proof. rewrite !fold_add_app. lia. Qed.

Theorem layout_chunk_sums fi i j g c gt cc md :
  file_ok fi = true ->
  nth_error (fi_groups fi) i = Some g -> nth_error (gi_chunks g) j = Some c ->
  footer_chunk (footer_tree fi) i j gt cc md ->
  let ps := written_pages (chunk_start md) (all_pages c) in
  let dps := filter is_data_page ps in
  sumN (map (fun hp => (h_hlen hp + h_comp hp)%nat) ps) = n_of_field 7 md /\
  sumN (map (fun hp => (h_hlen hp + nat_of_field 2 (h_header hp))%nat) ps) = n_of_field 6 md /\
  fold_left N.add (map (fun hp => header_nvalues (h_header hp)) dps) 0 = n_of_field 5 md /\
  match dps with hp :: _ => h_offset hp = n_of_field 9 md | [] => True end /\
  match ps with
  | hp :: _ => if is_data_page hp then n_of_field 11 md = 0 else h_offset hp = n_of_field 11 md
  | [] => True
  end.
Proof.
  intros Hok Hg Hc Hfc. cbv zeta.
  destruct (footer_chunk_inv fi i j g c gt cc md Hok Hg Hc Hfc) as (-> & -> & Hck & Hst).
  rewrite Hst. unfold the_meta_tree.
  rewrite (meta_total_comp _ _ _ Hck), (meta_total_uncomp _ _ _ Hck), (meta_num_values _ _ _ Hck),
    (meta_data_offset _ _ _ Hck), (meta_dict_offset _ _ _ Hck).
  set (off := chunk_off fi i g j).
  rewrite (written_data_pages off c Hck).
  repeat split.
  - rewrite sumN_fold, map_map, written_sizes. unfold chunk_total_comp, all_pages. rewrite !map_app. apply fold_add_perm2.
  - rewrite sumN_fold, map_map, written_uncomp. unfold chunk_total_uncomp, all_pages. rewrite !map_app. apply fold_add_perm2.
  - rewrite written_nvalues. reflexivity.
  - destruct (ck_pages c); [exact I|reflexivity].
  - unfold all_pages, dict_pages, dict_offset. destruct (chunk_ok_pages c Hck) as (Hd & Hp & _).
    destruct (ck_dict c) as [d|] eqn:Ed.
    + cbn [app written_pages]. unfold is_data_page. cbn [h_header h_offset]. rewrite header_type. cbn [zdef].
      unfold dict_pages in Hd. rewrite Ed in Hd. cbn [forallb] in Hd. rewrite andb_true_r in Hd.
      now rewrite (page_ok_type _ _ Hd).
    + cbn [app]. destruct (ck_pages c) as [|p ps] eqn:Ep; [exact I|].
      cbn [written_pages]. unfold is_data_page. cbn [h_header]. rewrite header_type. cbn [zdef].
      cbn [forallb] in Hp. apply andb_true_iff in Hp. destruct Hp as [Hp _].
      now rewrite (page_ok_type _ _ Hp).
Qed.

(** * (c) The offset index: found where the ColumnChunk says, it decodes to
      one PageLocation per data page, each pointing at the header of its page *)

Lemma loc_tree_offset l : n_of_field 1 (loc_tree l) = pl_offset l.
Proof. apply nf_hit. Qed.

Lemma loc_tree_size l : n_of_field 2 (loc_tree l) = pl_size l.
Proof. unfold loc_tree. rewrite nf_skip by reflexivity. apply nf_hit. Qed.

Lemma loc_tree_first_row l : n_of_field 3 (loc_tree l) = pl_first_row l.
Proof. unfold loc_tree. rewrite !nf_skip by reflexivity. apply nf_hit. Qed.

(* first_row_index of the pages: rows of the pages before *)
Fixpoint row_starts (nr : N) (ps : list page_in) : list N :=
  match ps with
  | [] => []
  | p :: r => nr :: row_starts (nr + pg_nrows p) r
  end.

(* a PageLocation describes a page found by walking the chunk *)
Definition loc_points_at (loc : tval) (hp : hpage) : Prop :=
  n_of_field 1 loc = h_offset hp /\ nat_of_field 2 loc = (h_hlen hp + h_comp hp)%nat.

Lemma locs_point_at dpo : forall ps tc nr,
  Forall2 loc_points_at (map loc_tree (rebase dpo (record_pages tc nr ps))) (written_pages (dpo + tc) ps) /\
  map (n_of_field 3) (map loc_tree (rebase dpo (record_pages tc nr ps))) = row_starts nr ps.
Proof.
  induction ps as [|p ps IH]; intros tc nr; [split; [constructor|reflexivity]|].
  cbn [record_pages]. cbv zeta. cbn [rebase map written_pages row_starts].
  destruct (IH (tc + comp_size p) (nr + pg_nrows p)) as [IH1 IH2]. split.
  - constructor.
    + split.
      * rewrite loc_tree_offset. cbn [pl_offset h_offset]. lia.
      * rewrite nat_of_n_of_field, loc_tree_size. cbn [pl_size h_hlen h_comp]. rewrite comp_size_nat. lia.
    + replace (dpo + tc + comp_size p) with (dpo + (tc + comp_size p)) by lia. exact IH1.
  - rewrite loc_tree_first_row. cbn [pl_first_row]. f_equal. exact IH2.
Qed.

Lemma oindex_locations off c :
  get_list 1 (oindex_tree off c) = Some (map loc_tree (chunk_locs off c)).
Proof. reflexivity. Qed.

Lemma oindex_ok_at fi i j g c : file_ok fi = true ->
  nth_error (fi_groups fi) i = Some g -> nth_error (gi_chunks g) j = Some c ->
  wfb (oindex_tree (chunk_off fi i g j) c) = true /\ (need (oindex_tree (chunk_off fi i g j) c) <=? 64)%nat = true.
Proof.
  intros Hok Hg Hc. destruct (file_ok_parts fi Hok) as (_ & _ & _ & Hoi & _).
  pose proof (forallb_nth_error _ _ _ _ Hoi (laid_groups_nth fi i g Hg)) as H1. cbn [snd] in H1.
  assert (Hn : nth_error (map snd (the_cols fi i g)) j = Some (oindex_tree (chunk_off fi i g j) c)).
  { erewrite map_nth_error by (apply the_cols_nth; exact Hc). reflexivity. }
  pose proof (forallb_nth_error _ _ _ _ H1 Hn) as H2. now apply andb_true_iff in H2.
Qed.

Theorem layout_offset_index fi i j g c gt cc md :
  file_ok fi = true ->
  nth_error (fi_groups fi) i = Some g -> nth_error (gi_chunks g) j = Some c ->
  footer_chunk (footer_tree fi) i j gt cc md ->
  exists raw oi locs,
    fsub (mk_fbytes (layout_bytes fi)) (n_of_field 4 cc) (nat_of_field 5 cc) = Some raw /\
    decode_thrift raw = Some (oi, []) /\
    get_list 1 oi = Some locs /\
    Forall2 loc_points_at locs (filter is_data_page (written_pages (chunk_start md) (all_pages c))) /\
    map (n_of_field 3) locs = row_starts 0 (ck_pages c).
Proof.
  intros Hok Hg Hc Hfc.
  destruct (footer_chunk_inv fi i j g c gt cc md Hok Hg Hc Hfc) as (-> & -> & Hck & Hst).
  destruct (oindex_ok_at fi i j g c Hok Hg Hc) as (Hw & Hn). rewrite Hst.
  set (off := chunk_off fi i g j) in *.
  exists (encode (oindex_tree off c)), (oindex_tree off c), (map loc_tree (chunk_locs off c)).
  unfold the_chunk_tree, the_meta_tree. fold off.
  rewrite chunk_tree_oi_offset, nat_of_n_of_field, chunk_tree_oi_length.
  rewrite to_nat_sizeN.
  split; [apply at_offset_fsub; subst off; now apply oindex_at|].
  split.
  { rewrite <- (app_nil_r (encode (oindex_tree off c))).
    apply decode_thrift_encode; [exact Hw|exact Hn|unfold oindex_tree; eauto]. }
  split; [apply oindex_locations|].
  rewrite (written_data_pages off c Hck). unfold chunk_locs.
  destruct (locs_point_at (data_offset off c) (ck_pages c) 0 0) as [H1 H2].
  rewrite N.add_0_r in H1. split; assumption.
Qed.

Theorem layout_column_index fi i j g c gt cc md :
  file_ok fi = true ->
  nth_error (fi_groups fi) i = Some g -> nth_error (gi_chunks g) j = Some c ->
  footer_chunk (footer_tree fi) i j gt cc md ->
  ck_cindex c <> [] ->
  fsub (mk_fbytes (layout_bytes fi)) (n_of_field 6 cc) (nat_of_field 7 cc) = Some (ck_cindex c).
Proof.
  intros Hok Hg Hc Hfc Hne.
  destruct (footer_chunk_inv fi i j g c gt cc md Hok Hg Hc Hfc) as (-> & _).
  unfold the_chunk_tree. rewrite chunk_tree_ci_offset, nat_of_n_of_field, chunk_tree_ci_length.
  rewrite to_nat_sizeN.
  destruct (ck_cindex c) eqn:E; [congruence|]. rewrite <- E.
  apply at_offset_fsub. now apply cindex_at.
Qed.

Theorem layout_bloom_filter fi i j g c gt cc md :
  file_ok fi = true ->
  nth_error (fi_groups fi) i = Some g -> nth_error (gi_chunks g) j = Some c ->
  footer_chunk (footer_tree fi) i j gt cc md ->
  ck_bloom c <> [] ->
  fsub (mk_fbytes (layout_bytes fi)) (n_of_field 14 md) (nat_of_field 15 md) = Some (ck_bloom c).
Proof.
  intros Hok Hg Hc Hfc Hne.
  destruct (footer_chunk_inv fi i j g c gt cc md Hok Hg Hc Hfc) as (_ & -> & Hck & _).
  unfold the_meta_tree. rewrite (meta_bloom_offset _ _ _ Hck), nat_of_n_of_field, (meta_bloom_length _ _ _ Hck).
  rewrite to_nat_sizeN.
  destruct (ck_bloom c) eqn:E; [congruence|]. rewrite <- E.
  apply at_offset_fsub. now apply bloom_at.
Qed.

(** * (d) Row groups and the file: offsets and totals are the recomputed sums *)

Definition md_of (cc : tval) : tval := match get 3 cc with Some md => md | None => TStruct [] end.

Lemma lay_chunks_totals : forall cs off bl ci oi, forallb chunk_ok cs = true ->
  map (fun cc => n_of_field 7 (md_of cc)) (map fst (lay_chunks off bl ci oi cs)) = map chunk_total_comp cs /\
  map (fun cc => n_of_field 6 (md_of cc)) (map fst (lay_chunks off bl ci oi cs)) = map chunk_total_uncomp cs.
Proof.
  induction cs as [|c cs IH]; intros off bl ci oi H; [split; reflexivity|].
  cbn [forallb] in H. apply andb_true_iff in H. destruct H as [Hc Hcs].
  cbn [lay_chunks]. cbv zeta. cbn [map fst].
  destruct (IH (off + sizeN (chunk_bytes c)) (bl + sizeN (ck_bloom c)) (ci + sizeN (ck_cindex c))
              (oi + sizeN (encode (oindex_tree off c))) Hcs) as [IH1 IH2].
  unfold md_of at 1 3. rewrite chunk_tree_meta.
  rewrite (meta_total_comp _ _ _ Hc), (meta_total_uncomp _ _ _ Hc). split; f_equal; assumption.
Qed.

Theorem layout_row_group fi i g gt :
  file_ok fi = true -> nth_error (fi_groups fi) i = Some g ->
  (exists gts, get_list 4 (footer_tree fi) = Some gts /\ nth_error gts i = Some gt) ->
  exists ccs, get_list 1 gt = Some ccs /\ length ccs = length (gi_chunks g) /\
    n_of_field 5 gt = group_off fi i /\
    at_offset (layout_bytes fi) (n_of_field 5 gt) (group_bytes g) /\
    (forall cc, nth_error ccs 0 = Some cc -> chunk_start (md_of cc) = n_of_field 5 gt) /\
    fold_left N.add (map (fun cc => n_of_field 7 (md_of cc)) ccs) 0 = n_of_field 6 gt /\
    fold_left N.add (map (fun cc => n_of_field 6 (md_of cc)) ccs) 0 = n_of_field 2 gt.
Proof.
  intros Hok Hg (gts & Hgts & Hgt).
  rewrite footer_row_groups in Hgts. inversion Hgts. subst gts. clear Hgts.
  erewrite map_nth_error in Hgt by (apply laid_groups_nth; exact Hg). cbn [fst] in Hgt.
  inversion Hgt. subst gt. clear Hgt.
  destruct (group_ok_at fi i g Hok Hg) as [Hcs Hs].
  exists (map fst (the_cols fi i g)).
  rewrite group_tree_columns, (group_tree_file_offset _ _ _ _ Hs), (group_tree_total_compressed_size _ _ _ _ Hs),
    group_tree_total_byte_size.
  split; [reflexivity|].
  split; [unfold the_cols, group_cols; now rewrite map_length, lay_chunks_length|].
  split; [reflexivity|].
  split; [now apply group_at|].
  split.
  - intros cc Hcc. destruct (gi_chunks g) as [|c0 cs] eqn:Ecs.
    + unfold the_cols, group_cols in Hcc. rewrite Ecs in Hcc. cbn in Hcc. discriminate.
    + assert (Hc0 : nth_error (gi_chunks g) 0 = Some c0) by (rewrite Ecs; reflexivity).
      erewrite map_nth_error in Hcc by (apply the_cols_nth; exact Hc0). cbn [fst] in Hcc.
      inversion Hcc. subst cc. unfold md_of. rewrite chunk_tree_meta.
      rewrite meta_chunk_start; [|cbn [forallb] in Hcs; now apply andb_true_iff in Hcs|apply chunk_off_pos].
      unfold chunk_off. cbn [firstn]. unfold pages_bytes. cbn [map concat]. rewrite sizeN_nil. lia.
  - unfold the_cols, group_cols.
    destruct (lay_chunks_totals (gi_chunks g) (group_off fi i) (group_off fi i + sizeN (pages_bytes (gi_chunks g)))
                (group_ci fi i) (group_oi fi i) Hcs) as [H1 H2].
    rewrite H1, H2. split; reflexivity.
Qed.

Lemma lay_groups_rows : forall gs off ci oi ord,
  map (fun gt => n_of_field 3 gt) (map fst (lay_groups off ci oi ord gs)) = map group_num_rows gs.
Proof.
  induction gs as [|g gs IH]; intros; [reflexivity|].
  cbn [lay_groups]. cbv zeta. cbn [map fst]. rewrite group_tree_num_rows, IH. reflexivity.
Qed.

Theorem layout_file_rows fi :
  exists gts, get_list 4 (footer_tree fi) = Some gts /\ length gts = length (fi_groups fi) /\
    fold_left N.add (map (fun gt => n_of_field 3 gt) gts) 0 = n_of_field 3 (footer_tree fi).
Proof.
  exists (map fst (laid_groups fi)). split; [apply footer_row_groups|].
  split; [unfold laid_groups; cbv zeta; now rewrite map_length, lay_groups_length|].
  rewrite footer_num_rows. unfold laid_groups. cbv zeta. now rewrite lay_groups_rows.
Qed.

(* The lemmas from here on are about the decoder [verify ext] for an arbitrary external
   decompressor [ext] (SpecDecoder.decompress): nothing below depends on what [ext] answers. *)
Section WithExt.
Variable ext : ext_fn.

(** * The specification decoder's own page loop finds the pages [walk_pages] finds *)

Definition page_matches (p : page) (hp : hpage) : Prop :=
  p_offset p = h_offset hp /\ p_hlen p = h_hlen hp /\ p_comp p = h_comp hp /\
  p_uncomp p = nat_of_field 2 (h_header hp) /\
  p_type p = zdef (get_int 1 (h_header hp)) (-1) /\
  N.of_nat (p_nvalues p) = header_nvalues (h_header hp).

Lemma decode_page_skel rest lf codec dict off p :
  decode_page ext rest lf codec dict off = Some p ->
  exists h hlen after b,
    decode_header rest = Some (h, hlen, after) /\ sub after 0 (nat_of_field 3 h) = Some b /\
    page_matches p {| h_offset := off; h_hlen := hlen; h_comp := nat_of_field 3 h; h_header := h |}.
Proof.
  unfold decode_page. intros H.
  destruct (decode_header rest) as [[[h hlen] after]|]; [|discriminate].
  destruct (sub after 0 (nat_of_field 3 h)) as [body|] eqn:Esub; [|discriminate].
  exists h, hlen, after, body. split; [reflexivity|]. split; [exact Esub|].
  unfold page_matches, header_nvalues. cbn [h_offset h_hlen h_comp h_header].
  destruct (zdef (get_int 1 h) (-1) =? 2)%Z eqn:E2.
  - destruct (get 7 h) as [dh|]; [|discriminate].
    destruct (decompress ext codec body); [|discriminate].
    destruct (decode_values _ _ _ _ _ _); [|discriminate].
    inversion H. subst p. cbn [p_offset p_hlen p_comp p_uncomp p_type p_nvalues]. repeat split; try reflexivity. rewrite nat_of_n_of_field. lia.
  - destruct (zdef (get_int 1 h) (-1) =? 0)%Z eqn:E0.
    + assert (E3 : (zdef (get_int 1 h) (-1) =? 3)%Z = false) by lia. rewrite E3.
      destruct (get 5 h) as [dh|]; [|discriminate].
      destruct (decompress ext codec body); [|discriminate].
      destruct (levels_v1 _ _ _) as [[rep d1]|]; [|discriminate].
      destruct (levels_v1 _ _ _) as [[def d2]|]; [|discriminate].
      destruct (decode_values _ _ _ _ _ _); [|discriminate].
      inversion H. subst p. cbn [p_offset p_hlen p_comp p_uncomp p_type p_nvalues]. repeat split; try reflexivity. rewrite nat_of_n_of_field. lia.
    + destruct (zdef (get_int 1 h) (-1) =? 3)%Z eqn:E3; [|discriminate].
      destruct (get 8 h) as [dh|]; [|discriminate].
      destruct (levels_v2 _ _ _ _) as [[rep b1]|]; [|discriminate].
      destruct (levels_v2 _ _ _ _) as [[def b2]|]; [|discriminate].
      destruct (if match get_bool 7 dh with Some b => b | None => true end then decompress ext codec b2 else Some b2); [|discriminate].
      destruct (decode_values _ _ _ _ _ _); [|discriminate].
      inversion H. subst p. cbn [p_offset p_hlen p_comp p_uncomp p_type p_nvalues]. repeat split; try reflexivity. rewrite nat_of_n_of_field. lia.
Qed.

(* stated as equations: unfolding the two loops by [cbn] at this point does not come back *)
Lemma decode_pages_cons f b0 r0 lf codec dict off :
  decode_pages ext (S f) (b0 :: r0) lf codec dict off =
  match decode_page ext (b0 :: r0) lf codec dict off with
  | None => None
  | Some p =>
      match decode_pages ext f (skipn (p_hlen p + p_comp p) (b0 :: r0)) lf codec
              (if (p_type p =? 2)%Z then p_values p else dict) (off + N.of_nat (p_hlen p + p_comp p)) with
      | Some ps => Some (p :: ps)
      | None => None
      end
  end.
Proof. reflexivity. Qed.

Lemma walk_pages_cons f b0 r0 off :
  walk_pages (S f) (b0 :: r0) off =
  match decode_header (b0 :: r0) with
  | None => None
  | Some (h, hlen, after) =>
      match sub after 0 (nat_of_field 3 h) with
      | None => None
      | Some _ =>
          match walk_pages f (skipn (hlen + nat_of_field 3 h) (b0 :: r0)) (off + N.of_nat (hlen + nat_of_field 3 h)) with
          | Some ps => Some ({| h_offset := off; h_hlen := hlen; h_comp := nat_of_field 3 h; h_header := h |} :: ps)
          | None => None
          end
      end
  end.
Proof. reflexivity. Qed.

Lemma decode_pages_walk : forall fuel rest lf codec dict off ps,
  decode_pages ext fuel rest lf codec dict off = Some ps ->
  exists hs, walk_pages fuel rest off = Some hs /\ Forall2 page_matches ps hs.
Proof.
  induction fuel as [|f IH]; intros rest lf codec dict off ps H; [discriminate|].
  destruct rest as [|b0 r0].
  - inversion H. exists []. split; [reflexivity|constructor].
  - rewrite decode_pages_cons in H. rewrite walk_pages_cons.
    destruct (decode_page ext (b0 :: r0) lf codec dict off) as [p|] eqn:Ep; [|discriminate].
    destruct (decode_page_skel _ _ _ _ _ _ Ep) as (h & hlen & after & body & Hh & Hs & Hm).
    rewrite Hh, Hs.
    destruct Hm as (Mo & Ml & Mc & Mu & Mt & Mn). cbn [h_offset h_hlen h_comp h_header] in *.
    rewrite Ml, Mc in H.
    destruct (decode_pages ext f _ lf codec _ _) as [ps'|] eqn:Eps; [|discriminate].
    inversion H. subst ps.
    destruct (IH _ _ _ _ _ _ Eps) as (hs & Hw & Hf). rewrite Hw.
    eexists. split; [reflexivity|]. constructor; [|exact Hf].
    unfold page_matches. cbn [h_offset h_hlen h_comp h_header]. repeat split; assumption.
Qed.

(** * What a successful [parse] looks like *)

Lemma Forall2_nth_r {A B} (R : A -> B -> Prop) l1 l2 i y :
  Forall2 R l1 l2 -> nth_error l2 i = Some y -> exists x, nth_error l1 i = Some x /\ R x y.
Proof.
  intros H. revert i. induction H as [|a b l1 l2 Hab _ IH]; intros [|i] Hn; cbn in Hn; try discriminate.
  - inversion Hn. subst. exists a. split; [reflexivity|exact Hab].
  - apply IH. exact Hn.
Qed.

Lemma Forall2_filter {A B} (R : A -> B -> Prop) (f : A -> bool) (g : B -> bool) l1 l2 :
  Forall2 R l1 l2 -> (forall x y, R x y -> f x = g y) -> Forall2 R (filter f l1) (filter g l2).
Proof.
  intros H Hfg. induction H as [|a b l1 l2 Hab _ IH]; [constructor|].
  cbn [filter]. rewrite (Hfg a b Hab). destruct (g b); [constructor; assumption|assumption].
Qed.

Lemma Forall2_combine_forallb {A B} (R : A -> B -> Prop) (f : A * B -> bool) l1 l2 :
  Forall2 R l1 l2 -> (forall x y, R x y -> f (x, y) = true) -> forallb f (combine l1 l2) = true.
Proof.
  intros H Hf. induction H as [|a b l1 l2 Hab _ IH]; [reflexivity|].
  cbn [combine forallb]. now rewrite (Hf a b Hab), IH.
Qed.

Lemma Forall2_compose {A B C} (R : A -> B -> Prop) (S : C -> B -> Prop) (T : A -> C -> Prop) l1 l2 l3 :
  Forall2 R l1 l2 -> Forall2 S l3 l2 -> (forall a b c, R a b -> S c b -> T a c) -> Forall2 T l1 l3.
Proof.
  intros H. revert l3. induction H as [|a b l1 l2 Hab _ IH]; intros l3 H3 HT; inversion H3; subst; constructor.
  - eapply HT; eassumption.
  - apply IH; assumption.
Qed.

Definition chunk_decoded (file : fbytes) (cc : tval) (ch : chunk) : Prop :=
  exists md data,
    get 3 cc = Some md /\ c_meta ch = md /\ c_chunk ch = cc /\ c_start ch = chunk_start md /\
    fsub file (chunk_start md) (nat_of_field 7 md) = Some data /\
    decode_pages ext (S (nat_of_field 7 md)) data (c_leaf ch) (zdef (get_int 4 md) 0) [] (chunk_start md) = Some (c_pages ch).

Lemma decode_chunk_inv file lf cc ch : decode_chunk ext file lf cc = Some ch -> chunk_decoded file cc ch.
Proof.
  unfold decode_chunk. intros H.
  destruct (get 3 cc) as [md|] eqn:Eg; [|discriminate].
  destruct (fsub file (chunk_start md) (nat_of_field 7 md)) as [data|] eqn:Ef; [|discriminate].
  destruct (decode_pages ext _ _ _ _ _ _) as [ps|] eqn:Ep; [|discriminate].
  inversion H. subst ch. exists md, data. cbn [c_meta c_chunk c_start c_pages c_leaf]. repeat split; try reflexivity; assumption.
Qed.

Lemma decode_chunks_inv file : forall ls ccs chs,
  decode_chunks ext file ls ccs = Some chs -> Forall2 (chunk_decoded file) ccs chs.
Proof.
  induction ls as [|lf ls IH]; intros [|cc ccs] chs H; cbn [decode_chunks] in H; try discriminate.
  - inversion H. constructor.
  - destruct (decode_chunk ext file lf cc) as [ch|] eqn:E1; [|discriminate].
    destruct (decode_chunks ext file ls ccs) as [chs'|] eqn:E2; [|discriminate].
    inversion H. subst chs. constructor; [now apply decode_chunk_inv in E1|now apply IH].
Qed.

Definition group_decoded (file : fbytes) (gt : tval) (grp : row_group) : Prop :=
  g_meta grp = gt /\ exists ccs, get_list 1 gt = Some ccs /\ Forall2 (chunk_decoded file) ccs (g_chunks grp).

Lemma decode_groups_inv file ls : forall gts grps,
  decode_groups ext file ls gts = Some grps -> Forall2 (group_decoded file) gts grps.
Proof.
  induction gts as [|gt gts IH]; intros grps H; cbn [decode_groups] in H.
  - inversion H. constructor.
  - destruct (get_list 1 gt) as [ccs|] eqn:E0; [|discriminate].
    destruct (decode_chunks ext file ls ccs) as [chs|] eqn:E1; [|discriminate].
    destruct (decode_groups ext file ls gts) as [rest|] eqn:E2; [|discriminate].
    inversion H. subst grps. constructor; [|now apply IH].
    split; [reflexivity|]. exists ccs. split; [exact E0|]. cbn [g_chunks]. now apply decode_chunks_inv in E1.
Qed.

(** * The decoder's verdict on a laid out file: only complaints about page contents *)

Import String.StringSyntax.
Open Scope string_scope.

(* the checks of [verify] that depend on the decoded bodies (levels, values, checksums) *)
Definition body_codes : list String.string :=
  ["uncompressed_page_size"; "page_crc"; "encodings_list"; "v2_num_rows"; "v2_num_nulls"; "v2_page_starts_mid_row"; "level_range";
   "column_type"; "row_group_num_rows"; "page_location_first_row_index"; "encoding_stats"; "indexed_page_starts_mid_row";
   "sorting_column_idx"; "sorting_nulls_placement"].

Lemma incl_check b name l : b = true \/ existsb (String.eqb name) l = true -> incl (check b name) l.
Proof.
  intros [->|Hm]; [intros x []|]. destruct b; [intros x []|]. intros x [<-|[]].
  apply existsb_exists in Hm. destruct Hm as (y & Hy & E). apply String.eqb_eq in E. now subst y.
Qed.

Lemma incl_concat_map {A} (f : A -> list String.string) l m :
  (forall i x, nth_error l i = Some x -> incl (f x) m) -> incl (concat (map f l)) m.
Proof.
  intros H code Hin. apply in_concat in Hin. destruct Hin as (y & Hy & Hc). apply in_map_iff in Hy.
  destruct Hy as (x & <- & Hx). apply In_nth_error in Hx. destruct Hx as [i Hi]. exact (H i x Hi code Hc).
Qed.

Lemma Forall2_map_eq {A B C} (R : A -> B -> Prop) (f : A -> C) (g : B -> C) l1 l2 :
  Forall2 R l1 l2 -> (forall x y, R x y -> f x = g y) -> map f l1 = map g l2.
Proof. intros H Hfg. induction H as [|a b l1 l2 Hab _ IH]; [reflexivity|]. cbn [map]. now rewrite (Hfg a b Hab), IH. Qed.

Lemma sum_nat_N (l : list nat) : N.of_nat (sum l) = fold_left N.add (map N.of_nat l) 0%N.
Proof.
  unfold sum. change 0%N with (N.of_nat 0). generalize 0%nat. induction l as [|x l IH]; intros a; [reflexivity|].
  cbn [fold_left map]. rewrite IH. f_equal. lia.
Qed.

Lemma data_pages_matches ps hs :
  Forall2 page_matches ps hs ->
  Forall2 page_matches (filter (fun p => negb (p_type p =? 2)%Z) ps) (filter is_data_page hs).
Proof.
  intros H. apply Forall2_filter; [exact H|].
  intros p hp (_ & _ & _ & _ & Ht & _). unfold is_data_page. now rewrite Ht.
Qed.

Lemma chunk_checks_pass ch hs md :
  c_meta ch = md -> Forall2 page_matches (c_pages ch) hs ->
  sumN (map (fun hp => (h_hlen hp + h_comp hp)%nat) hs) = n_of_field 7 md ->
  sumN (map (fun hp => (h_hlen hp + nat_of_field 2 (h_header hp))%nat) hs) = n_of_field 6 md ->
  fold_left N.add (map (fun hp => header_nvalues (h_header hp)) (filter is_data_page hs)) 0%N = n_of_field 5 md ->
  match filter is_data_page hs with hp :: _ => h_offset hp = n_of_field 9 md | [] => True end ->
  match hs with
  | hp :: _ => if is_data_page hp then n_of_field 11 md = 0%N else h_offset hp = n_of_field 11 md
  | [] => True
  end ->
  incl (check_chunk ch) body_codes.
Proof.
  intros Hmd Hps S7 S6 S5 O9 O11. subst md.
  pose proof (data_pages_matches _ _ Hps) as Hd. fold (data_pages ch) in Hd.
  (* the content checks may fail; the five layout checks are shown to pass *)
  unfold check_chunk. cbv zeta. repeat apply incl_app; apply incl_check; first [right; reflexivity|left].
  - apply Nat.eqb_eq. rewrite nat_of_n_of_field, <- S5.
    rewrite <- (Forall2_map_eq _ (fun p => N.of_nat (p_nvalues p)) _ _ _ Hd) by (intros p hp (_ & _ & _ & _ & _ & Hn); exact Hn).
    rewrite <- (map_map p_nvalues N.of_nat), <- sum_nat_N. lia.
  - apply N.eqb_eq. rewrite <- S7. f_equal. apply (Forall2_map_eq _ _ _ _ _ Hps).
    intros p hp (_ & Hl & Hc & _). now rewrite Hl, Hc.
  - apply N.eqb_eq. rewrite <- S6. f_equal. apply (Forall2_map_eq _ _ _ _ _ Hps).
    intros p hp (_ & Hl & _ & Hu & _). now rewrite Hl, Hu.
  - destruct Hd as [|p hp dps hps (Ho & _) _]; [reflexivity|]. apply N.eqb_eq. now rewrite Ho, O9.
  - destruct Hps as [|p hp ps hps (Ho & _ & _ & _ & Ht & _) _]; [reflexivity|].
    unfold is_data_page in O11. rewrite <- Ht in O11.
    destruct (p_type p =? 2)%Z; cbn [negb] in O11.
    + apply N.eqb_eq. now rewrite Ho.
    + rewrite O11. reflexivity.
Qed.

Lemma oindex_checks_pass ch oi locs hsd :
  get_list 1 oi = Some locs -> Forall2 loc_points_at locs hsd -> Forall2 page_matches (data_pages ch) hsd ->
  incl (check_offset_index ch oi) body_codes.
Proof.
  intros Hget Hl Hp. unfold check_offset_index. rewrite Hget. cbv zeta.
  assert (HT : Forall2 (fun loc p => n_of_field 1 loc = p_offset p /\ nat_of_field 2 loc = (p_hlen p + p_comp p)%nat)
                 locs (data_pages ch)).
  { apply (Forall2_compose _ _ _ _ _ _ Hl Hp). intros loc hp p (L1 & L2) (P1 & P2 & P3 & _). split; [congruence|lia]. }
  assert (E1 : (length locs =? length (data_pages ch))%nat = true) by (apply Nat.eqb_eq; eapply Forall2_len; eauto).
  assert (E2 : forallb (fun pl : tval * page => (n_of_field 1 (fst pl) =? p_offset (snd pl))%N) (combine locs (data_pages ch)) = true).
  { apply (Forall2_combine_forallb _ _ _ _ HT). intros loc p (T1 & _). cbn [fst snd]. now apply N.eqb_eq. }
  assert (E3 : forallb (fun pl : tval * page => (nat_of_field 2 (fst pl) =? p_hlen (snd pl) + p_comp (snd pl))%nat) (combine locs (data_pages ch)) = true).
  { apply (Forall2_combine_forallb _ _ _ _ HT). intros loc p (_ & T2). cbn [fst snd]. now apply Nat.eqb_eq. }
  repeat apply incl_app; apply incl_check; first [left; assumption | right; reflexivity].
Qed.

(* the complaints [check_indexes] raises for one chunk *)
Definition index_codes (file : fbytes) (ch : chunk) : list String.string :=
  match offset_index_of file ch with
  | Some oi => check_offset_index ch oi
  | None => if (nat_of_field 5 (c_chunk ch) =? 0)%nat then [] else ["offset_index_unreadable"]
  end.

Lemma decoded_chunk_codes fi i j g c gt cc md ch :
  file_ok fi = true ->
  nth_error (fi_groups fi) i = Some g -> nth_error (gi_chunks g) j = Some c ->
  footer_chunk (footer_tree fi) i j gt cc md ->
  chunk_decoded (mk_fbytes (layout_bytes fi)) cc ch ->
  incl (check_chunk ch ++ index_codes (mk_fbytes (layout_bytes fi)) ch) body_codes.
Proof.
  intros Hok Hg Hc Hfc (md' & data & Hget & Hmeta & Hcc & _ & Hsub & Hdec).
  assert (E : md' = md).
  { destruct Hfc as (gts & ccs & _ & _ & _ & _ & H3). congruence. }
  rewrite E in Hget, Hmeta, Hsub, Hdec. clear E md'.
  destruct (layout_chunk_pages fi i j g c gt cc md Hok Hg Hc Hfc) as (_ & Hsub' & Hwalk).
  rewrite Hsub' in Hsub. inversion Hsub. subst data. clear Hsub.
  destruct (decode_pages_walk _ _ _ _ _ _ _ Hdec) as (hs & Hw & Hm).
  rewrite Hwalk in Hw. inversion Hw. subst hs. clear Hw.
  destruct (layout_chunk_sums fi i j g c gt cc md Hok Hg Hc Hfc) as (S7 & S6 & S5 & O9 & O11).
  apply incl_app; [eapply chunk_checks_pass; eauto|].
  unfold index_codes, offset_index_of. rewrite Hcc.
  destruct (layout_offset_index fi i j g c gt cc md Hok Hg Hc Hfc) as (raw & oi & locs & Hraw & Hoi & Hlocs & Hpts & _).
  destruct (nat_of_field 5 cc =? 0)%nat; [intros x []|].
  rewrite Hraw, Hoi.
  eapply oindex_checks_pass; [exact Hlocs|exact Hpts|].
  apply data_pages_matches. exact Hm.
Qed.

Lemma nth_error_some_lt {A} (l : list A) i : (i < length l)%nat -> exists x, nth_error l i = Some x.
Proof. intros H. destruct (nth_error l i) eqn:E; [eauto|]. apply nth_error_None in E. lia. Qed.

Lemma decoded_group_codes fi i g gt grp :
  file_ok fi = true -> nth_error (fi_groups fi) i = Some g ->
  (exists gts, get_list 4 (footer_tree fi) = Some gts /\ nth_error gts i = Some gt) ->
  group_decoded (mk_fbytes (layout_bytes fi)) gt grp ->
  incl (check_group grp ++ concat (map (index_codes (mk_fbytes (layout_bytes fi))) (g_chunks grp))) body_codes.
Proof.
  intros Hok Hg Hgt (Hmeta & ccs & Hccs & Hchs).
  destruct (layout_row_group fi i g gt Hok Hg Hgt) as (ccs' & Hccs' & Hlen & _ & _ & _ & T7 & T6).
  assert (ccs' = ccs) by congruence. subst ccs'.
  assert (Hchunk : forall j ch, nth_error (g_chunks grp) j = Some ch ->
            incl (check_chunk ch ++ index_codes (mk_fbytes (layout_bytes fi)) ch) body_codes).
  { intros j ch Hj. destruct (Forall2_nth_r _ _ _ _ _ Hchs Hj) as (cc & Hcc & Hdec).
    assert (Hjl : (j < length (gi_chunks g))%nat) by (rewrite <- Hlen; apply nth_error_Some; congruence).
    destruct (nth_error_some_lt _ _ Hjl) as [c Hc].
    destruct Hdec as (md & data & Hget & Hrest).
    apply (decoded_chunk_codes fi i j g c gt cc md ch Hok Hg Hc).
    - destruct Hgt as (gts & Hg4 & Hgi). exists gts, ccs. repeat split; assumption.
    - exists md, data. split; assumption. }
  assert (Hmd : forall id, map (fun ch => n_of_field id (c_meta ch)) (g_chunks grp) = map (fun cc => n_of_field id (md_of cc)) ccs).
  { intros id. symmetry. apply (Forall2_map_eq _ _ _ _ _ Hchs).
    intros cc ch (md & data & Hget & Hm & _). unfold md_of. now rewrite Hget, Hm. }
  unfold check_group. cbv zeta. rewrite Hmeta, (Hmd 7%Z), (Hmd 6%Z), T7, T6, !N.eqb_refl.
  repeat apply incl_app.
  - apply incl_concat_map. intros j ch Hj. exact (proj1 (incl_app_inv _ _ (Hchunk j ch Hj))).
  - apply incl_check. right. reflexivity.
  - intros x [].
  - intros x [].
  - apply incl_concat_map. intros j ch Hj. exact (proj2 (incl_app_inv _ _ (Hchunk j ch Hj))).
Qed.

(* the sorting declarations of the row groups (opaque to the layout model: gi_sorting) can
   only raise their own two complaints, which are about the decoded contents *)
Lemma check_sorting_codes (pf : pfile) : incl (check_sorting pf) body_codes.
Proof.
  unfold check_sorting. apply incl_concat_map. intros i g _. unfold check_sorting_group.
  destruct (get_list 4 (g_meta g)) as [scs|]; [|intros x []].
  apply incl_app; [apply incl_check; right; reflexivity|].
  destruct scs as [|sc scs']; [intros x []|].
  destruct (nth_error (g_chunks g) (nat_of_field 1 sc)) as [c|]; [|intros x []].
  destruct (l_maxr (c_leaf c) =? 0)%nat; [|intros x []].
  apply incl_check. right. reflexivity.
Qed.

Theorem layout_verify_only_body_codes fi f codes :
  file_ok fi = true -> verify ext (layout_bytes fi) = Some (f, codes) -> incl codes body_codes.
Proof.
  intros Hok Hv. unfold verify in Hv. cbv zeta in Hv.
  set (file := mk_fbytes (layout_bytes fi)) in *.
  destruct (parse ext file) as [pf|] eqn:Ep; [|discriminate]. inversion Hv. subst f codes. clear Hv.
  unfold parse in Ep. subst file. rewrite (layout_footer_found fi Hok) in Ep.
  destruct (get_list 2 (footer_tree fi)) as [schema|]; [|discriminate].
  destruct (leaves_of schema) as [ls|]; [|discriminate].
  rewrite footer_row_groups in Ep.
  destruct (decode_groups ext _ ls _) as [groups|] eqn:Eg; [|discriminate].
  inversion Ep. subst pf. clear Ep.
  apply decode_groups_inv in Eg.
  destruct (layout_file_rows fi) as (gts & Hgts & Hlen & Hrows).
  rewrite footer_row_groups in Hgts. inversion Hgts. subst gts. clear Hgts.
  assert (Hgroup : forall i grp, nth_error groups i = Some grp ->
            incl (check_group grp ++ concat (map (index_codes (mk_fbytes (layout_bytes fi))) (g_chunks grp))) body_codes).
  { intros i grp Hi. destruct (Forall2_nth_r _ _ _ _ _ Eg Hi) as (gt & Hgt & Hdec).
    assert (Hil : (i < length (fi_groups fi))%nat) by (rewrite <- Hlen; apply nth_error_Some; congruence).
    destruct (nth_error_some_lt _ _ Hil) as [g Hg].
    apply (decoded_group_codes fi i g gt grp Hok Hg); [|exact Hdec].
    exists (map fst (laid_groups fi)). split; [apply footer_row_groups|exact Hgt]. }
  assert (Hm : map (fun g => n_of_field 3 (g_meta g)) groups = map (fun gt => n_of_field 3 gt) (map fst (laid_groups fi))).
  { symmetry. apply (Forall2_map_eq _ _ _ _ _ Eg). intros gt grp (Hm & _). now rewrite Hm. }
  unfold check_file, check_indexes. cbn [f_groups f_meta]. rewrite Hm, Hrows, N.eqb_refl.
  repeat apply incl_app.
  - apply incl_concat_map. intros i grp Hi. exact (proj1 (incl_app_inv _ _ (Hgroup i grp Hi))).
  - intros x [].
  - apply incl_concat_map. intros i grp Hi. exact (proj2 (incl_app_inv _ _ (Hgroup i grp Hi))).
  - apply check_sorting_codes.
Qed.

(** the verdict on a laid out file is empty as soon as the decoder accepts the
    page contents (decodes every body and raises none of the content complaints) *)
Definition bodies_accepted (fi : file_in) : Prop :=
  exists f codes, verify ext (layout_bytes fi) = Some (f, codes) /\ forall c, In c codes -> ~ In c body_codes.

Theorem layout_verify_modulo_bodies fi :
  file_ok fi = true -> bodies_accepted fi -> exists f, verify ext (layout_bytes fi) = Some (f, []).
Proof.
  intros Hok (f & codes & Hv & Hb). exists f. rewrite Hv. do 2 f_equal.
  destruct codes as [|c cs]; [reflexivity|]. exfalso.
  apply (Hb c (or_introl eq_refl)). apply (layout_verify_only_body_codes fi f (c :: cs) Hok Hv). now left.
Qed.

Close Scope string_scope.

End WithExt.
