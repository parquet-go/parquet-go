(** Reading inverts writing for every schema, every sequence of records, every
    page layout and every value encoding that round-trips. *)
From Coq Require Import List NArith ZArith Bool Arith Lia.
From PQ Require Import Base.Bytes Base.BitPack Base.ListExtra Enc.Rle Enc.RleProofs.
From PQ Require Import Dremel.Model Dremel.Proofs File.Pipeline.
Import ListNotations.
Open Scope N_scope.

Section Proofs.
  Variable V : Type.
  Variable venc : list V -> bytes.
  Variable vdec : nat -> bytes -> option (list V).
  (* the value encoding round-trips on the values it accepts *)
  Variable vok : V -> Prop.
  Hypothesis v_roundtrip : forall vs, Forall vok vs -> N.of_nat (length vs) < 2 ^ 61 ->
                                      vdec (length vs) (venc vs) = Some vs.

  Notation entry := (entry V).
  Notation column := (column V).

  (** an entry fits a leaf with maximum levels (maxr, maxd) *)
  Definition entry_ok (maxr maxd : nat) (e : entry) : Prop :=
    (e_r V e <= maxr)%nat /\ (e_d V e <= maxd)%nat /\
    (match fst (fst e) with Some v => e_d V e = maxd /\ vok v | None => e_d V e <> maxd end).

  Lemma levels_fit maxl (ls : list nat) :
    Forall (fun l => (l <= maxl)%nat) ls -> fits (width maxl) (map N.of_nat ls).
  Proof.
    intros H. unfold fits. apply Forall_forall. intros x Hx. apply in_map_iff in Hx.
    destruct Hx as (l & <- & Hl). rewrite Forall_forall in H. specialize (H l Hl).
    unfold width. eapply N.le_lt_trans; [|apply bitlen_bound]. lia.
  Qed.

  Lemma rebuild_ok maxr maxd (es : list entry) :
    Forall (entry_ok maxr maxd) es ->
    rebuild V maxd (map (fun e => N.of_nat (e_r V e)) es) (map (fun e => N.of_nat (e_d V e)) es) (values_of V es)
    = Some es.
  Proof.
    induction 1 as [|e es He _ IH]; [reflexivity|].
    destruct e as [[o r] d]. destruct He as (_ & _ & Ho). cbn [e_r e_d fst snd] in *.
    cbn [map rebuild values_of flat_map e_r e_d fst snd]. rewrite Nat2N.id.
    fold (values_of V es).
    destruct o as [v|].
    - destruct Ho as [-> _]. rewrite Nat.eqb_refl. cbn [app]. rewrite IH, !Nat2N.id. reflexivity.
    - destruct (Nat.eqb_spec d maxd) as [E|_]; [contradiction|]. cbn [app].
      rewrite IH, !Nat2N.id. reflexivity.
  Qed.

  Lemma count_present maxr maxd (es : list entry) :
    Forall (entry_ok maxr maxd) es ->
    length (filter (fun d => (N.to_nat d =? maxd)%nat) (map (fun e => N.of_nat (e_d V e)) es))
    = length (values_of V es).
  Proof.
    induction 1 as [|e es He _ IH]; [reflexivity|].
    destruct e as [[o r] d]. destruct He as (_ & _ & Ho). cbn [e_r e_d fst snd] in *.
    cbn [map filter values_of flat_map e_d fst snd]. rewrite Nat2N.id. fold (values_of V es).
    destruct o as [v|].
    - destruct Ho as [-> _]. rewrite Nat.eqb_refl. cbn [length app]. now rewrite IH.
    - destruct (Nat.eqb_spec d maxd) as [E|_]; [contradiction|]. cbn [app]. exact IH.
  Qed.

  Theorem page_roundtrip maxr maxd (es : list entry) :
    Forall (entry_ok maxr maxd) es -> N.of_nat (length es) < 2 ^ 61 ->
    decode_page V vdec maxr maxd (encode_page V venc maxr maxd es) = Some es.
  Proof.
    intros Hok Hlen. unfold decode_page, encode_page. cbn [pg_rep pg_def pg_n pg_val].
    assert (Hr : Forall (fun l => (l <= maxr)%nat) (map (e_r V) es)).
    { apply Forall_forall. intros l Hl. apply in_map_iff in Hl. destruct Hl as (e & <- & He).
      rewrite Forall_forall in Hok. now destruct (Hok e He). }
    assert (Hd : Forall (fun l => (l <= maxd)%nat) (map (e_d V) es)).
    { apply Forall_forall. intros l Hl. apply in_map_iff in Hl. destruct Hl as (e & <- & He).
      rewrite Forall_forall in Hok. now destruct (Hok e He) as (_ & ? & _). }
    destruct (hybrid_roundtrip false (width maxr) (map N.of_nat (map (e_r V) es)) (levels_fit maxr _ Hr))
      as (rb & Erb & Drb); [now rewrite !map_length|].
    destruct (hybrid_roundtrip false (width maxd) (map N.of_nat (map (e_d V) es)) (levels_fit maxd _ Hd))
      as (db & Edb & Ddb); [now rewrite !map_length|].
    rewrite map_map in Erb, Edb, Drb, Ddb.
    unfold enc_levels. rewrite Erb, Edb, Drb, Ddb, !map_length, Nat.eqb_refl. cbn [andb].
    rewrite (count_present maxr maxd es Hok), v_roundtrip.
    - now apply (rebuild_ok maxr maxd).
    - clear -Hok. induction Hok as [|e es He _ IH]; [constructor|].
      destruct e as [[[v|] r] d]; cbn [values_of flat_map fst app]; fold (values_of V es); [|exact IH].
      constructor; [|exact IH]. destruct He as (_ & _ & _ & Hv). exact Hv.
    - assert (Hle : forall l : list entry, (length (values_of V l) <= length l)%nat).
      { induction l as [|e l IH]; [cbn; lia|].
        destruct e as [[[v|] r] d]; cbn [values_of flat_map fst app length] in *;
          fold (values_of V l) in *; lia. }
      specialize (Hle es). lia.
  Qed.

  Theorem column_roundtrip maxr maxd : forall layout (col : column),
    Forall (entry_ok maxr maxd) col -> N.of_nat (length col) < 2 ^ 61 ->
    read_column V vdec maxr maxd (write_column V venc maxr maxd layout col) = Some col.
  Proof.
    unfold write_column.
    induction layout as [|n layout IH]; intros col Hok Hlen; cbn [cut map read_column].
    - destruct col as [|e col]; [reflexivity|]. cbn [map read_column].
      rewrite page_roundtrip by assumption. now rewrite app_nil_r.
    - rewrite page_roundtrip; [|now apply Forall_firstn|rewrite firstn_length; lia].
      rewrite IH; [|now apply Forall_skipn|rewrite skipn_length; lia].
      now rewrite firstn_skipn.
  Qed.

  Definition cols_ok (levels : list (nat * nat)) (cols : list column) : Prop :=
    Forall2 (fun lv c => Forall (entry_ok (fst lv) (snd lv)) c /\ N.of_nat (length c) < 2 ^ 61) levels cols.

  Theorem columns_roundtrip : forall levels layouts cols,
    cols_ok levels cols ->
    read_columns V vdec levels (write_columns V venc levels layouts cols) = Some cols.
  Proof.
    intros levels layouts cols H. revert layouts.
    induction H as [|[mr md] c levels cols [Hc Hl] _ IH]; intros layouts.
    - destruct layouts; reflexivity.
    - destruct layouts as [|lay lays]; cbn [write_columns read_columns fst snd] in *.
      + rewrite column_roundtrip by assumption. now rewrite IH.
      + rewrite column_roundtrip by assumption. now rewrite IH.
  Qed.

  Theorem read_write_file s (Hs : wf_schema s) n rows layouts :
    Forall (wfn V n s) rows ->
    cols_ok (max_levels s 0 0) (shred_rows s rows) ->
    read_file V vdec s (length rows) (S n) (write_file V venc s layouts rows) = Some rows.
  Proof.
    intros Hrows Hcols. unfold read_file, write_file.
    rewrite columns_roundtrip by exact Hcols.
    now apply asm_rows_shred_rows.
  Qed.
End Proofs.
