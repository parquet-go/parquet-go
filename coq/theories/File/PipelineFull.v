(** The pipeline theorem without the column hypothesis: the shredded columns of
    well-formed rows satisfy [cols_ok] (level bounds from Dremel/Levels.v, leaf
    values accepted by the value encoding because every leaf of every row is). *)
From Coq Require Import List NArith ZArith Bool Arith Lia.
From PQ Require Import Base.Bytes Dremel.Model Dremel.Proofs Dremel.Levels File.Pipeline File.PipelineProofs.
Import ListNotations.
Open Scope N_scope.

Section Full.
  Variable V : Type.
  Variable vok : V -> Prop.
  Notation value := (value V).
  Notation entry := (entry V).
  Notation column := (column V).

  Fixpoint leaves_ok (v : value) : Prop :=
    match v with
    | VLeaf x => vok x
    | VGroup vs => (fix go (l : list value) : Prop :=
                      match l with [] => True | v' :: l' => leaves_ok v' /\ go l' end) vs
    | VOpt None => True
    | VOpt (Some v') => leaves_ok v'
    | VList l => (fix go (l : list value) : Prop :=
                    match l with [] => True | v' :: l' => leaves_ok v' /\ go l' end) l
    end.

  Lemma leaves_ok_group vs : leaves_ok (VGroup vs) <-> Forall leaves_ok vs.
  Proof.
    induction vs as [|v vs IH]; [cbn; split; auto|].
    split.
    - intros [Hv Hvs]. constructor; [exact Hv|]. apply IH. exact Hvs.
    - intros H. inversion H as [|? ? Hv Hvs]; subst. split; [exact Hv|]. apply IH. exact Hvs.
  Qed.

  Lemma leaves_ok_list l : leaves_ok (VList l) <-> Forall leaves_ok l.
  Proof. exact (leaves_ok_group l). Qed.

  Definition val_ok (e : entry) : Prop :=
    match fst (fst e) with Some x => vok x | None => True end.

  Notation vals_ok := (Forall (Forall val_ok)).

  Lemma vals_ok_zipapp (a b : list column) : vals_ok a -> vals_ok b -> vals_ok (zipapp a b).
  Proof. apply zipapp_Forall. intros x y Hx Hy. apply Forall_app. now split. Qed.

  Lemma vals_ok_fold (ms : list (list column)) : forall a,
    vals_ok a -> Forall (fun m => vals_ok m) ms -> vals_ok (fold_left zipapp ms a).
  Proof. apply fold_zipapp_Forall. intros x y Hx Hy. apply Forall_app. now split. Qed.

  Lemma vals_ok_nulls s r d : vals_ok (@nulls V s r d).
  Proof.
    unfold nulls. induction (nleaves s) as [|n IH]; cbn [repeat]; constructor; [|exact IH].
    constructor; [exact I|constructor].
  Qed.

  Lemma shred_vals : forall s (v : value) r d k, wf s v -> leaves_ok v -> vals_ok (shred s v r d k).
  Proof.
    apply (schema_mut
      (fun s => forall (v : value) r d k, wf s v -> leaves_ok v -> vals_ok (shred s v r d k))
      (fun fs => forall (vs : list value) r d k, wf_fields fs vs -> Forall leaves_ok vs ->
                 vals_ok (shred_fields fs vs r d k))).
    - intros [x| | |] r d k H L; cbn in H; try contradiction. cbn.
      constructor; [|constructor]. constructor; [exact L|constructor].
    - intros fs IH [|vs| |] r d k H L; cbn in H; try contradiction.
      rewrite shred_group. apply IH; [exact H|]. now apply leaves_ok_group.
    - intros [|v vs] r d k H _; cbn in H; try contradiction. cbn. constructor.
    - intros rp s IHs fs IHf vs r d k H L.
      destruct rp; destruct vs as [|fv vs']; cbn in H; try contradiction;
        inversion L as [|? ? Lv Lvs]; subst.
      + destruct H as [Hv Hvs]. rewrite shred_fields_req. apply Forall_app; split; [now apply IHs|now apply IHf].
      + destruct fv as [| |[v|]|]; try contradiction.
        * destruct H as [Hv Hvs]. rewrite shred_fields_some.
          apply Forall_app; split; [now apply IHs|now apply IHf].
        * rewrite shred_fields_none. apply Forall_app; split; [apply vals_ok_nulls|now apply IHf].
      + destruct fv as [| | |l]; try contradiction. destruct H as [Hl Hvs].
        apply leaves_ok_list in Lv.
        destruct l as [|x l].
        * rewrite shred_fields_nil. apply Forall_app; split; [apply vals_ok_nulls|now apply IHf].
        * rewrite shred_fields_cons. apply Forall_app; split; [|now apply IHf].
          inversion Hl as [|? ? Hx Hl']; subst. inversion Lv as [|? ? Lx Ll]; subst.
          apply vals_ok_fold; [now apply IHs|].
          apply Forall_forall. intros m Hm. apply in_map_iff in Hm. destruct Hm as (y & <- & Hy).
          rewrite Forall_forall in Hl', Ll. apply IHs; [now apply Hl'|now apply Ll].
  Qed.

  (** one record: levels (Dremel/Levels.v) and values together give [entry_ok] *)
  Lemma row_cols_ok s (v : value) : wf s v -> leaves_ok v ->
    Forall2 (fun lv c => Forall (PipelineProofs.entry_ok V vok (fst lv) (snd lv)) c)
            (max_levels s 0 0) (shred_row s v).
  Proof.
    intros Hw Hl. unfold shred_row.
    pose proof (shred_levels V s v 0 0 0 Hw) as HL.
    pose proof (shred_vals s v 0 0 0 Hw Hl) as HV.
    revert HV. induction HL as [|col ml cols mls Hc _ IH]; intros HV; [constructor|].
    inversion HV as [|? ? Hcv HV']; subst. constructor; [|now apply IH].
    rewrite Forall_forall in Hc, Hcv. apply Forall_forall. intros e He.
    specialize (Hc e He). specialize (Hcv e He).
    destruct e as [[x r'] d']. destruct ml as [mr md].
    unfold Levels.entry_ok in Hc. unfold PipelineProofs.entry_ok, val_ok, e_r, e_d in *.
    cbn [fst snd] in *. destruct Hc as (_ & Hd & Hr & Hx).
    split; [lia|]. split; [lia|].
    destruct x as [x|].
    - split; [|exact Hcv]. destruct (Nat.eq_dec d' md) as [E|N]; [exact E|].
      assert (Hlt : (d' < md)%nat) by lia. apply Hx in Hlt. discriminate.
    - assert (Hlt : (d' < md)%nat) by (now apply Hx). lia.
  Qed.

  Lemma cols_entry_zipapp (levels : list (nat * nat)) (a b : list column) :
    Forall2 (fun lv c => Forall (PipelineProofs.entry_ok V vok (fst lv) (snd lv)) c) levels a ->
    Forall2 (fun lv c => Forall (PipelineProofs.entry_ok V vok (fst lv) (snd lv)) c) levels b ->
    Forall2 (fun lv c => Forall (PipelineProofs.entry_ok V vok (fst lv) (snd lv)) c) levels (zipapp a b).
  Proof.
    intros Ha. revert b. induction Ha as [|lv x levels a Hx Ha IH]; intros b Hb;
      inversion Hb; subst; cbn [zipapp]; constructor.
    - apply Forall_app; split; assumption.
    - apply IH; assumption.
  Qed.

  Lemma rows_entry_ok_acc s (rows : list value) :
    Forall (wf s) rows -> Forall leaves_ok rows -> forall acc : list column,
    Forall2 (fun lv c => Forall (PipelineProofs.entry_ok V vok (fst lv) (snd lv)) c) (max_levels s 0 0) acc ->
    Forall2 (fun lv c => Forall (PipelineProofs.entry_ok V vok (fst lv) (snd lv)) c)
            (max_levels s 0 0) (fold_left zipapp (map (shred_row s) rows) acc).
  Proof.
    induction rows as [|v rows IH]; intros Hw Hl acc H0; cbn [map fold_left]; [exact H0|].
    inversion Hw; subst. inversion Hl; subst.
    apply IH; [assumption|assumption|]. apply cols_entry_zipapp; [exact H0|]. now apply row_cols_ok.
  Qed.

  Lemma rows_entry_ok s (rows : list value) :
    Forall (wf s) rows -> Forall leaves_ok rows ->
    Forall2 (fun lv c => Forall (PipelineProofs.entry_ok V vok (fst lv) (snd lv)) c)
            (max_levels s 0 0) (shred_rows s rows).
  Proof.
    intros Hw Hl. unfold shred_rows. apply rows_entry_ok_acc; [exact Hw|exact Hl|].
    rewrite <- (max_levels_length s 0 0). induction (max_levels s 0 0) as [|lv l IH]; cbn; constructor; auto.
  Qed.

  Theorem shred_rows_cols_ok s (rows : list value) :
    Forall (wf s) rows -> Forall leaves_ok rows ->
    Forall (fun c : column => N.of_nat (length c) < 2 ^ 61) (shred_rows s rows) ->
    cols_ok V vok (max_levels s 0 0) (shred_rows s rows).
  Proof.
    intros Hw Hl Hs. unfold cols_ok. pose proof (rows_entry_ok s rows Hw Hl) as H.
    revert Hs. induction H as [|lv c levels cols Hc _ IH]; intros Hs; [constructor|].
    inversion Hs; subst. constructor; [split; assumption|now apply IH].
  Qed.

  Lemma short_columns n (cols : list column) :
    forallb (fun c => Nat.leb (length c) n) cols = true -> N.of_nat n < 2 ^ 61 ->
    Forall (fun c : column => N.of_nat (length c) < 2 ^ 61) cols.
  Proof.
    intros H Hn. apply Forall_forall. intros c Hc. rewrite forallb_forall in H.
    specialize (H c Hc). apply Nat.leb_le in H. lia.
  Qed.

  Variable venc : list V -> bytes.
  Variable vdec : nat -> bytes -> option (list V).
  Hypothesis v_roundtrip : forall vs, Forall vok vs -> N.of_nat (length vs) < 2 ^ 61 ->
                                      vdec (length vs) (venc vs) = Some vs.

  (** Reading inverts writing: every schema, every sequence of well-formed
      records whose leaves the value encoding accepts, every page layout. *)
  Theorem read_write_file_full s (Hs : wf_schema s) n rows layouts :
    Forall (wfn V n s) rows -> Forall leaves_ok rows ->
    Forall (fun c : column => N.of_nat (length c) < 2 ^ 61) (shred_rows s rows) ->
    read_file V vdec s (length rows) (S n) (write_file V venc s layouts rows) = Some rows.
  Proof.
    intros Hrows Hl Hsz. apply (read_write_file V venc vdec vok v_roundtrip s Hs n rows layouts Hrows).
    apply shred_rows_cols_ok; [|exact Hl|exact Hsz].
    eapply Forall_impl; [|exact Hrows]. intros v. apply wfn_wf.
  Qed.
End Full.
