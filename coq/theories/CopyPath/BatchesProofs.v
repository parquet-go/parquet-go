(** Proofs about CopyPath/Batches.v: every batch copyColumnValues hands to
    WriteRowValues consists of whole rows, for every value stream, every
    reader behaviour and every buffer size; the pages the destination builds
    from such batches start at row starts; the loop terminates on a reader
    that serves pages. *)
From Coq Require Import List Arith Bool Lia.
From PQ Require Import Base.ListExtra CopyPath.Batches.
Import ListNotations.

Section Proofs.
  Variable A : Type.
  Variable rep : A -> nat.

  (** A batch (or page) of whole rows begins with the first value of a row. *)
  Definition starts_row (b : list A) : Prop :=
    match b with [] => False | x :: _ => rep x = 0 end.

  (** A well-formed column stream begins at a row start. *)
  Definition wf_stream (s : list A) : Prop :=
    match s with [] => True | x :: _ => rep x = 0 end.

  Lemma wf_stream_app_nonempty a b : a <> [] -> wf_stream (a ++ b) -> starts_row a.
  Proof. destruct a; [congruence|]. cbn. auto. Qed.

  Lemma scan_back_le buf : forall e, scan_back rep buf e <= e.
  Proof.
    induction e as [|e IH]; cbn; [lia|].
    destruct (nth_error buf e) as [x|]; [destruct (rep x =? 0)|]; lia.
  Qed.

  (* a positive result designates a value at repetition level 0 *)
  Lemma scan_back_pos buf : forall e, 0 < scan_back rep buf e ->
    exists x, nth_error buf (scan_back rep buf e) = Some x /\ rep x = 0.
  Proof.
    induction e as [|e IH]; cbn; [lia|].
    destruct (nth_error buf e) as [x|] eqn:E.
    - destruct (rep x =? 0) eqn:Ex.
      + intros _. exists x. split; [exact E|]. now apply Nat.eqb_eq.
      + exact IH.
    - exact IH.
  Qed.

  Lemma skipn_nth_error (l : list A) : forall i x, nth_error l i = Some x ->
    exists t, skipn i l = x :: t.
  Proof.
    induction l as [|y l IH]; intros [|i] x H; cbn in *; try discriminate.
    - inversion H. now exists l.
    - now apply IH.
  Qed.

  Lemma Forall_skipn (P : A -> Prop) (l : list A) n : Forall P l -> Forall P (skipn n l).
  Proof. apply ListExtra.Forall_skipn. Qed.

  Lemma wf_stream_app_l a b : wf_stream (a ++ b) -> wf_stream a.
  Proof. destruct a; [exact (fun _ => I)|exact (fun H => H)]. Qed.

  Lemma emit_batch (buf : list A) e bs :
    wf_stream buf -> e <= length buf -> Forall starts_row bs ->
    concat (if 0 <? e then firstn e buf :: bs else bs) = firstn e buf ++ concat bs /\
    Forall starts_row (if 0 <? e then firstn e buf :: bs else bs).
  Proof.
    intros Hw He Hs. destruct e as [|e]; [split; [reflexivity|exact Hs]|].
    destruct buf as [|x buf]; [cbn in He; lia|]. split; [reflexivity|]. now constructor.
  Qed.

  Section AnyReader.
    Variable R : Type.
    Variable read : R -> nat -> nat * bool * R.

    (** Partial correctness, for any reader: whatever the sizes of the reads
        and however the end of the stream is signalled. *)
    Lemma copy_loop_sound : forall fuel repeated rd cap pend rest bs,
      (repeated = false -> Forall (fun x => rep x = 0) (pend ++ rest)) ->
      wf_stream (pend ++ rest) ->
      copy_loop rep read fuel repeated rd cap pend rest = Some bs ->
      concat bs = pend ++ rest /\ Forall starts_row bs.
    Proof.
      induction fuel as [|fuel IH]; intros repeated rd cap pend rest bs Hnr Hwf H; [discriminate|].
      cbn [copy_loop] in H.
      set (cap1 := if length pend =? cap then cap + cap else cap) in *.
      set (room := cap1 - length pend) in *.
      destruct (read rd room) as [[k eager] rd'].
      set (n := Nat.min (Nat.min k room) (length rest)) in *.
      set (rest' := skipn n rest) in *.
      set (buf := pend ++ firstn n rest) in *.
      assert (Hsplit : buf ++ rest' = pend ++ rest).
      { unfold buf, rest'. now rewrite <- app_assoc, firstn_skipn. }
      set (eof := match rest with
                  | [] => true
                  | _ :: _ => eager && match rest' with [] => true | _ :: _ => false end
                  end) in *.
      set (e := if repeated && negb eof then scan_back rep buf (length buf) else length buf) in *.
      assert (He : e <= length buf).
      { unfold e. destruct (repeated && negb eof); [apply scan_back_le|lia]. }
      assert (Hwb : wf_stream buf) by (apply (wf_stream_app_l buf rest'); now rewrite Hsplit).
      destruct eof eqn:Eeof.
      - (* the reader reported the end: everything is written *)
        assert (Hr' : rest' = []).
        { unfold eof in Eeof. destruct rest as [|a rest0]; [unfold rest'; now rewrite skipn_nil|].
          apply andb_true_iff in Eeof. destruct Eeof as [_ E2]. now destruct rest'. }
        assert (Ee : e = length buf).
        { unfold e. now rewrite andb_false_r. }
        inversion H; subst bs.
        destruct (emit_batch buf e [] Hwb He (Forall_nil _)) as [Hc Hs]. split; [|exact Hs].
        rewrite Hc, Ee, firstn_all, <- Hsplit, Hr'. reflexivity.
      - (* not the end: the last row stays in the buffer *)
        destruct (copy_loop rep read fuel repeated rd' cap1 (skipn e buf) rest') as [bs'|] eqn:Erec;
          [|discriminate].
        inversion H; subst bs.
        assert (Hsplit2 : firstn e buf ++ (skipn e buf ++ rest') = pend ++ rest).
        { now rewrite app_assoc, firstn_skipn. }
        apply IH in Erec.
        + destruct Erec as [Hc Hs].
          destruct (emit_batch buf e bs' Hwb He Hs) as [Hc' Hs']. split; [|exact Hs'].
          now rewrite Hc', Hc.
        + intros Hf. specialize (Hnr Hf). rewrite <- Hsplit2 in Hnr.
          apply Forall_app in Hnr. tauto.
        + destruct repeated.
          * (* the scan found the start of the last row, or nothing *)
            cbn [andb negb] in e.
            destruct (Nat.eq_dec e 0) as [E0|E0].
            -- rewrite E0. cbn [skipn]. now rewrite Hsplit.
            -- assert (Hp : 0 < scan_back rep buf (length buf)) by (unfold e in E0; lia).
               destruct (scan_back_pos buf (length buf) Hp) as (x & Hx & Hx0).
               destruct (skipn_nth_error buf _ x Hx) as [t Ht].
               unfold e. rewrite Ht. exact Hx0.
          * assert (Ee : e = length buf) by reflexivity.
            rewrite Ee, skipn_all. cbn [app].
            specialize (Hnr eq_refl). rewrite <- Hsplit in Hnr. apply Forall_app in Hnr.
            destruct Hnr as [_ Hnr]. destruct rest'; [exact I|]. now inversion Hnr.
    Qed.
  End AnyReader.

  Variable should_flush : list A -> bool.

  Lemma write_row_values_sound : forall bs buffered,
    Forall starts_row bs -> (buffered = [] \/ starts_row buffered) ->
    concat (write_row_values should_flush buffered bs) = buffered ++ concat bs /\
    Forall starts_row (write_row_values should_flush buffered bs).
  Proof.
    induction bs as [|b bs IH]; intros buffered Hbs Hbuf; cbn [write_row_values].
    - destruct buffered as [|x t]; cbn.
      + split; [reflexivity|constructor].
      + rewrite !app_nil_r. split; [reflexivity|].
        constructor; [|constructor]. destruct Hbuf as [Hbuf|Hbuf]; [discriminate|exact Hbuf].
    - inversion Hbs as [|? ? Hb Hbs']; subst.
      assert (Hnew : starts_row (buffered ++ b)).
      { destruct Hbuf as [->|Hbuf]; [exact Hb|]. destruct buffered; [contradiction|exact Hbuf]. }
      destruct (should_flush (buffered ++ b)).
      + destruct (IH [] Hbs' (or_introl eq_refl)) as [Hc Hs]. cbn [concat].
        rewrite Hc. cbn [app concat]. split; [now rewrite app_assoc|]. now constructor.
      + destruct (IH (buffered ++ b) Hbs' (or_intror Hnew)) as [Hc Hs].
        rewrite Hc. cbn [concat]. split; [now rewrite app_assoc|exact Hs].
  Qed.
End Proofs.

Arguments starts_row {A}.
Arguments wf_stream {A}.

Fixpoint sum_pages (l : list nat) : nat :=
  match l with [] => 0 | p :: t => p + sum_pages t end.

Lemma page_read_spec : forall pages room,
  let '(k, eager, pages') := page_read pages room in
  eager = false /\ k <= room /\ k + sum_pages pages' = sum_pages pages /\
  (0 < room -> 0 < sum_pages pages -> 0 < k).
Proof.
  induction pages as [|p ps IH]; intros room; cbn [page_read].
  - cbn. repeat split; lia.
  - destruct p as [|p].
    + specialize (IH room). destruct (page_read ps room) as [[k eager] pages']. cbn [sum_pages]. exact IH.
    + cbn [sum_pages]. repeat split; lia.
Qed.

Lemma copy_loop_pages_terminates (A : Type) (rep : A -> nat) :
  forall fuel repeated pages cap pend rest,
    0 < cap -> length pend <= cap -> sum_pages pages = length rest -> length rest < fuel ->
    copy_loop rep page_read fuel repeated pages cap pend rest <> None.
Proof.
  induction fuel as [|fuel IH]; intros repeated pages cap pend rest Hcap Hpend Hsum Hfuel; [lia|].
  cbn [copy_loop].
  set (cap1 := if length pend =? cap then cap + cap else cap).
  assert (Hcap1 : 0 < cap1 /\ length pend < cap1).
  { unfold cap1. destruct (length pend =? cap) eqn:E.
    - apply Nat.eqb_eq in E. lia.
    - apply Nat.eqb_neq in E. lia. }
  set (room := cap1 - length pend).
  pose proof (page_read_spec pages room) as Hrd.
  destruct (page_read pages room) as [[k eager] pages'].
  destruct Hrd as (-> & Hk & Hs & Hprog).
  set (n := Nat.min (Nat.min k room) (length rest)).
  assert (Hn : n = k) by (unfold n; lia).
  destruct rest as [|a rest0].
  - now destruct (0 <? _).
  - cbn [andb].
    set (rest := a :: rest0) in *.
    set (buf := pend ++ firstn n rest).
    set (e := if repeated && negb false then scan_back rep buf (length buf) else length buf).
    assert (Hk0 : 0 < k) by (apply Hprog; [unfold room; lia|rewrite Hsum; cbn; lia]).
    assert (Hlen' : length (skipn n rest) = length rest - k) by (rewrite skipn_length; lia).
    assert (Hrec : copy_loop rep page_read fuel repeated pages' cap1 (skipn e buf) (skipn n rest) <> None).
    { apply IH.
      - lia.
      - rewrite skipn_length. unfold buf. rewrite app_length, firstn_length. unfold room in Hk. lia.
      - rewrite Hlen'. lia.
      - rewrite Hlen'. cbn [length] in *. lia. }
    destruct (copy_loop rep page_read fuel repeated pages' cap1 (skipn e buf) (skipn n rest)); [|congruence].
    discriminate.
Qed.

Theorem copy_column_values_whole_rows (A : Type) (rep : A -> nat) :
  forall repeated cap pages stream,
    0 < cap -> sum_pages pages = length stream ->
    (repeated = false -> Forall (fun x => rep x = 0) stream) ->
    wf_stream rep stream ->
    exists bs, copy_column_values rep repeated cap pages stream = Some bs /\
               concat bs = stream /\ Forall (starts_row rep) bs.
Proof.
  intros repeated cap pages stream Hcap Hsum Hnr Hwf. unfold copy_column_values.
  destruct (copy_loop rep page_read (S (S (length stream))) repeated pages cap [] stream) as [bs|] eqn:E.
  - exists bs. split; [reflexivity|].
    exact (copy_loop_sound A rep (list nat) page_read _ repeated pages cap [] stream bs Hnr Hwf E).
  - exfalso. revert E. apply copy_loop_pages_terminates; cbn; lia.
Qed.

(** Values written column-wise: the pages built from the batches, whatever
    the moments the destination flushes, hold the stream and start at rows. *)
Theorem reencode_pages (A : Type) (rep : A -> nat) (should_flush : list A -> bool) :
  forall repeated cap pages stream,
    0 < cap -> sum_pages pages = length stream ->
    (repeated = false -> Forall (fun x => rep x = 0) stream) ->
    wf_stream rep stream ->
    exists bs, copy_column_values rep repeated cap pages stream = Some bs /\
               concat (write_row_values should_flush [] bs) = stream /\
               Forall (starts_row rep) (write_row_values should_flush [] bs).
Proof.
  intros repeated cap pages stream Hcap Hsum Hnr Hwf.
  destruct (copy_column_values_whole_rows A rep repeated cap pages stream Hcap Hsum Hnr Hwf)
    as (bs & E & Hc & Hs).
  exists bs. split; [exact E|].
  destruct (write_row_values_sound A rep should_flush bs [] Hs (or_introl eq_refl)) as [Hc' Hs'].
  split; [now rewrite Hc'|exact Hs'].
Qed.
