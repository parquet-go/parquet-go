(** Proofs about CopyPath/Groups.v: the rows buffered in the writer when
    WriteRowGroup is called share no row group with the rows of the call. *)
From Coq Require Import List NArith Bool Arith Lia ZifyBool.
From PQ Require Import CopyPath.Decision CopyPath.Groups.
Import ListNotations.

Lemma sum_N_app : forall a b, sum_N (a ++ b) = (sum_N a + sum_N b)%N.
Proof. induction a; simpl; intros; [reflexivity | rewrite IHa; lia]. Qed.

Lemma sum_N_repeat : forall x n, sum_N (repeat x n) = (x * N.of_nat n)%N.
Proof. induction n; simpl; [lia | rewrite IHn; lia]. Qed.

Lemma cons_nonempty_app : forall r l, cons_nonempty r l = cons_nonempty r [] ++ l.
Proof. intros; unfold cons_nonempty; destruct (N.eqb r 0); reflexivity. Qed.

Lemma sum_cons_nonempty : forall r l, sum_N (cons_nonempty r l) = (r + sum_N l)%N.
Proof.
  intros; unfold cons_nonempty; destruct (N.eqb r 0) eqn:E; simpl; [apply N.eqb_eq in E; lia | reflexivity].
Qed.

(** what went through WriteRows is what the full row groups and the buffer hold *)
Lemma written_split : forall w written,
  (sum_N (full_groups w written) + buffered_rows w written)%N = written.
Proof.
  intros; unfold full_groups, buffered_rows.
  destruct (N.eqb (w_max_rows w) 0) eqn:E; simpl; [lia |].
  apply N.eqb_neq in E.
  rewrite sum_N_repeat, N2Nat.id.
  pose proof (N.div_mod written (w_max_rows w) E); lia.
Qed.

(** The output row groups end after the rows written before the call: a prefix
    of the row groups holds exactly those rows, the rest is one row group per
    non-empty action, each holding exactly the rows of the action. *)
Theorem buffered_rows_not_shared : forall w written acts l,
  out_row_groups w written acts = Some l ->
  exists pre post, l = pre ++ post /\ sum_N pre = written /\ action_row_groups acts = Some post.
Proof.
  intros w written acts l H; unfold out_row_groups in H.
  destruct (action_row_groups acts) as [la |] eqn:E; [| discriminate].
  inversion H; subst; clear H.
  exists (full_groups w written ++ cons_nonempty (buffered_rows w written) []), la.
  split; [rewrite (cons_nonempty_app _ la), app_assoc; reflexivity |].
  split; [| reflexivity].
  rewrite sum_N_app, sum_cons_nonempty; simpl.
  pose proof (written_split w written); lia.
Qed.

(** no row is lost or added *)
Theorem out_row_groups_sum : forall w written acts l,
  out_row_groups w written acts = Some l ->
  exists la, action_row_groups acts = Some la /\ sum_N l = (written + sum_N la)%N.
Proof.
  intros w written acts l H.
  destruct (buffered_rows_not_shared _ _ _ _ H) as (pre & post & -> & Hs & Hp).
  exists post; split; [assumption | rewrite sum_N_app; lia].
Qed.

(** the row groups of the rows written before the call respect MaxRowsPerRowGroup *)
Theorem buffered_groups_within_max : forall w written,
  (0 < w_max_rows w)%N ->
  Forall (fun g => (g <= w_max_rows w)%N) (full_groups w written ++ cons_nonempty (buffered_rows w written) []).
Proof.
  intros w written Hm; apply Forall_app; split.
  - unfold full_groups. destruct (N.eqb (w_max_rows w) 0); [constructor |].
    apply Forall_forall; intros x Hx; apply repeat_spec in Hx; lia.
  - unfold cons_nonempty, buffered_rows.
    destruct (N.eqb (w_max_rows w) 0) eqn:E; [apply N.eqb_eq in E; lia |].
    pose proof (N.mod_lt written (w_max_rows w)).
    destruct (N.eqb (written mod w_max_rows w) 0); [constructor | constructor; [lia | constructor]].
Qed.

(** a packing action is a row group of its own even when rows are buffered *)
Example ex_pack_after_buffered :
  out_row_groups {| w_schema_set := true; w_encryption := false; w_max_rows := 1000; w_ncols := 2 |} 600
                 [APack 2 800] = Some [600; 800]%N.
Proof. vm_compute; reflexivity. Qed.

Example ex_written_beyond_max :
  out_row_groups {| w_schema_set := true; w_encryption := false; w_max_rows := 1000; w_ncols := 2 |} 2300
                 [ACopy 2 400; AReencode 0; APack 3 900] = Some [1000; 1000; 300; 400; 900]%N.
Proof. vm_compute; reflexivity. Qed.
