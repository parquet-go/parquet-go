(** Proofs about CopyPath/Decision.v.  The cascade [decide_abs] reads its six
    outcomes in a fixed order, so the path it returns determines the outcomes
    read before it, and a condition that holds is a conjunction of attribute
    tests; the rules of WriteRowGroup combine the two. *)
From Coq Require Import List NArith Bool Arith Lia.
From PQ Require Import CopyPath.Decision.
Import ListNotations.

Lemma column_copyable_abs_eq a :
  column_copyable_abs a =
  a_file a && negb (a_src_encrypted a) && negb (a_dst_enc_key a) && a_type_eq a && a_codec_eq a
  && implb (a_dst_filter a) (a_bloom_ok a) && a_column_index a && a_offset_index a && a_stats_ok a
  && implb (a_dict_limit a) (a_dict_fits a).
Proof.
  unfold column_copyable_abs.
  destruct (a_file a); [|reflexivity].
  destruct (a_src_encrypted a); [reflexivity|].
  destruct (a_dst_enc_key a); [reflexivity|].
  destruct (a_type_eq a); [|reflexivity].
  destruct (a_codec_eq a); [|reflexivity].
  destruct (a_dst_filter a), (a_bloom_ok a); try reflexivity.
  all: destruct (a_column_index a); [|reflexivity].
  all: destruct (a_offset_index a); [|reflexivity].
  all: destruct (a_stats_ok a); [|reflexivity].
  all: destruct (a_dict_limit a), (a_dict_fits a); reflexivity.
Qed.

Lemma column_copyable_abs_iff a :
  column_copyable_abs a = true <->
  (a_file a = true /\ a_src_encrypted a = false /\ a_dst_enc_key a = false /\ a_type_eq a = true /\
   a_codec_eq a = true /\ (a_dst_filter a = true -> a_bloom_ok a = true) /\
   a_column_index a = true /\ a_offset_index a = true /\ a_stats_ok a = true /\
   (a_dict_limit a = true -> a_dict_fits a = true)).
Proof.
  rewrite column_copyable_abs_eq, !andb_true_iff, !negb_true_iff, !implb_true_iff. tauto.
Qed.

Definition is_dict (s : page_type * N) : bool :=
  match fst s with PTDict => true | _ => false end.

(* an entry the destination would have produced itself *)
Definition page_ok (want_pt : page_type) (want_enc : N) (want_dict : bool) (s : page_type * N) : Prop :=
  (fst s = PTDict /\ want_dict = true) \/
  (fst s <> PTDict /\ fst s = want_pt /\ snd s = want_enc).

Lemma page_type_eqb_eq a b : page_type_eqb a b = true -> a = b.
Proof. destruct a, b; cbn; intro H; try reflexivity; discriminate. Qed.

Lemma stats_loop_sound want_pt want_enc want_dict : forall stats saw saw',
  stats_loop want_pt want_enc want_dict stats saw = Some saw' ->
  Forall (page_ok want_pt want_enc want_dict) stats /\ saw' = saw || existsb is_dict stats.
Proof.
  induction stats as [|[pt e] stats IH]; intros saw saw' H; cbn [stats_loop] in H.
  - inversion H. split; [constructor|]. cbn. now rewrite orb_false_r.
  - destruct pt.
    + destruct (negb (page_type_eqb PTData want_pt)) eqn:E1; [discriminate|].
      destruct (negb (N.eqb e want_enc)) eqn:E2; [discriminate|].
      apply negb_false_iff in E1, E2. apply page_type_eqb_eq in E1. apply N.eqb_eq in E2.
      destruct (IH _ _ H) as [HF Hs]. split.
      * constructor; [|exact HF]. right. cbn. repeat split; [discriminate|exact E1|exact E2].
      * exact Hs.
    + discriminate.
    + destruct (negb want_dict) eqn:E1; [discriminate|]. apply negb_false_iff in E1.
      destruct (IH _ _ H) as [HF Hs]. split.
      * constructor; [|exact HF]. left. cbn. tauto.
      * rewrite Hs. cbn. now rewrite orb_true_r.
    + destruct (negb (page_type_eqb PTDataV2 want_pt)) eqn:E1; [discriminate|].
      destruct (negb (N.eqb e want_enc)) eqn:E2; [discriminate|].
      apply negb_false_iff in E1, E2. apply page_type_eqb_eq in E1. apply N.eqb_eq in E2.
      destruct (IH _ _ H) as [HF Hs]. split.
      * constructor; [|exact HF]. right. cbn. repeat split; [discriminate|exact E1|exact E2].
      * exact Hs.
Qed.

Lemma encoding_stats_match_sound (c : col) :
  encoding_stats_match c = true ->
  c_src_encoding_stats c <> [] /\
  Forall (page_ok (c_dst_page_type c) (c_dst_encoding c) (c_dst_dict c)) (c_src_encoding_stats c) /\
  c_dst_dict c = existsb is_dict (c_src_encoding_stats c).
Proof.
  unfold encoding_stats_match. destruct (c_src_encoding_stats c) as [|s stats] eqn:E; [discriminate|].
  destruct (stats_loop _ _ _ (s :: stats) false) as [saw|] eqn:EL; [|discriminate].
  intro H. apply eqb_prop in H. destruct (stats_loop_sound _ _ _ _ _ _ EL) as [HF Hs].
  split; [discriminate|]. split; [exact HF|]. rewrite H, Hs. reflexivity.
Qed.

Definition bloom_equivalent (c : col) : Prop :=
  c_src_bloom_offset c = true /\ c_src_bloom_length c = true /\
  (c_dst_bloom_codec c = None \/ c_dst_bloom_codec c = Some 0%N) /\
  c_src_bloom_header_ok c = true /\ c_src_bloom_split_block c = true /\ c_src_bloom_xxhash c = true /\
  c_src_bloom_uncompressed c = true /\
  (* the size the destination would build: from the dictionary for a dictionary column *)
  (c_dst_dict c = false -> c_src_bloom_num_bytes c = c_dst_filter_size c) /\
  (c_dst_dict c = true -> c_src_dict_page c = true /\ c_src_dict_header_ok c = true /\
                          c_src_bloom_num_bytes c = c_dst_filter_size_dict c).

Lemma bloom_filter_is_copyable_sound (c : col) :
  bloom_filter_is_copyable c = true -> bloom_equivalent c.
Proof.
  unfold bloom_filter_is_copyable, bloom_equivalent.
  destruct (c_src_bloom_offset c), (c_src_bloom_length c); cbn; try discriminate.
  destruct (c_dst_bloom_codec c) as [k|].
  - destruct (N.eqb k 0) eqn:Ek; cbn; [|discriminate]. apply N.eqb_eq in Ek. subst k.
    destruct (c_src_bloom_header_ok c), (c_src_bloom_split_block c), (c_src_bloom_xxhash c),
      (c_src_bloom_uncompressed c); cbn; try discriminate.
    destruct (c_dst_dict c); [destruct (c_src_dict_page c), (c_src_dict_header_ok c); cbn; try discriminate|];
      intro H; apply N.eqb_eq in H; repeat split; auto; discriminate.
  - destruct (c_src_bloom_header_ok c), (c_src_bloom_split_block c), (c_src_bloom_xxhash c),
      (c_src_bloom_uncompressed c); cbn; try discriminate.
    destruct (c_dst_dict c); [destruct (c_src_dict_page c), (c_src_dict_header_ok c); cbn; try discriminate|];
      intro H; apply N.eqb_eq in H; repeat split; auto; discriminate.
Qed.

Definition dictionary_fits (c : col) : Prop :=
  c_src_dict_page c = true /\ c_src_dict_header_ok c = true /\
  (c_src_dict_uncompressed c <= c_dst_dict_max c)%N.

Lemma dictionary_fits_limit_sound (c : col) :
  dictionary_fits_limit c = true -> dictionary_fits c.
Proof.
  unfold dictionary_fits_limit, dictionary_fits.
  destruct (c_src_dict_page c), (c_src_dict_header_ok c); cbn; try discriminate.
  intro H. apply N.leb_le in H. repeat split; auto.
Qed.

Definition column_settings_equal (c : col) : Prop :=
  c_class c = CFile /\
  c_src_encrypted c = false /\ c_dst_enc_key c = false /\
  c_src_type c = c_dst_type c /\
  c_src_codec c = c_dst_codec c /\
  (c_dst_filter c = true -> bloom_equivalent c) /\
  c_src_column_index c = true /\ c_src_offset_index c = true /\
  c_src_encoding_stats c <> [] /\
  Forall (page_ok (c_dst_page_type c) (c_dst_encoding c) (c_dst_dict c)) (c_src_encoding_stats c) /\
  c_dst_dict c = existsb is_dict (c_src_encoding_stats c) /\
  (c_dst_dict c = true -> (0 < c_dst_dict_max c)%N -> dictionary_fits c).

Lemma column_copyable_sound (c : col) : column_copyable c = true -> column_settings_equal c.
Proof.
  unfold column_copyable. intro H. apply column_copyable_abs_iff in H.
  cbn [col_abs_of a_file a_src_encrypted a_dst_enc_key a_type_eq a_codec_eq a_dst_filter a_bloom_ok
       a_column_index a_offset_index a_stats_ok a_dict_limit a_dict_fits] in H.
  destruct H as (Hf & Hse & Hde & Ht & Hc & Hb & Hci & Hoi & Hs & Hd).
  destruct (encoding_stats_match_sound c Hs) as (S1 & S2 & S3).
  unfold column_settings_equal. repeat match goal with |- _ /\ _ => split end; auto.
  - destruct (c_class c); try discriminate; reflexivity.
  - now apply N.eqb_eq.
  - now apply N.eqb_eq.
  - intro Hfl. apply bloom_filter_is_copyable_sound, Hb, Hfl.
  - intros Hdd Hm. apply dictionary_fits_limit_sound, Hd. rewrite Hdd. now apply N.ltb_lt.
Qed.

Lemma existsb_orb {A} (f g : A -> bool) l :
  existsb (fun x => f x || g x) l = existsb f l || existsb g l.
Proof.
  induction l as [|x l IH]; cbn; [reflexivity|]. rewrite IH.
  destruct (f x), (g x), (existsb f l), (existsb g l); reflexivity.
Qed.

Lemma copyable_cond_of sw w r : copyable_column_chunks sw w r = copyable_q (cond_of sw w r).
Proof.
  unfold copyable_column_chunks, copy_conditions, copyable_q, cond_of; cbn.
  now rewrite !andb_assoc.
Qed.

Lemma oriented_cond_of sw w r : column_oriented_row_group w r = oriented_q (cond_of sw w r).
Proof. reflexivity. Qed.

Lemma reencodable_cond_of sw w r : reencodable_row_group sw w r = reencodable_q (cond_of sw w r).
Proof. reflexivity. Qed.

Lemma splittable_cond_of sw w r : splittable sw w r = splittable_q (cond_of sw w r).
Proof.
  unfold splittable, splittable_q, segments_of, cond_of; cbn.
  destruct (sw_disable_copy sw && sw_disable_reencode sw); cbn; [reflexivity|].
  destruct (rg_kind r) as [| | | | |[|]| | | |]; cbn; try reflexivity.
  - destruct (length (rg_segs r) <=? 1); cbn; [reflexivity|]. apply existsb_orb.
  - destruct (length (rg_segs r) <=? 1); cbn; [reflexivity|]. apply existsb_orb.
Qed.

Theorem decide_cond_of sw w r : decide sw w r = decide_cond (cond_of sw w r).
Proof.
  unfold decide, decide_cond, rg_abs_of.
  now rewrite splittable_cond_of, copyable_cond_of, (reencodable_cond_of sw w r).
Qed.

Lemma decide_abs_accepted g :
  g_schema_present g = true -> (g_writer_schema g = true -> g_schema_equal g = true) ->
  decide_abs g = if g_splittable g then PPacked else if g_copyable g then PCopy
                 else if g_reencodable g then PReencode else PRows.
Proof.
  unfold decide_abs. intros Hp He. rewrite Hp.
  destruct (g_writer_schema g); [rewrite (He eq_refl)|]; reflexivity.
Qed.

Lemma decide_abs_not_rejected g :
  decide_abs g <> PReject ->
  g_schema_present g = true /\ (g_writer_schema g = true -> g_schema_equal g = true).
Proof.
  unfold decide_abs. destruct (g_schema_present g); [|now intros []].
  destruct (g_writer_schema g), (g_schema_equal g); cbn; auto; now intros [].
Qed.

Lemma decide_abs_copy g :
  decide_abs g = PCopy ->
  g_schema_present g = true /\ (g_writer_schema g = true -> g_schema_equal g = true) /\
  g_splittable g = false /\ g_copyable g = true.
Proof.
  intro H. destruct (decide_abs_not_rejected g) as [Hp He]; [congruence|].
  rewrite (decide_abs_accepted g Hp He) in H.
  destruct (g_splittable g), (g_copyable g), (g_reencodable g); try discriminate; auto.
Qed.

Lemma decide_abs_reencode g :
  decide_abs g = PReencode ->
  g_splittable g = false /\ g_copyable g = false /\ g_reencodable g = true.
Proof.
  intro H. destruct (decide_abs_not_rejected g) as [Hp He]; [congruence|].
  rewrite (decide_abs_accepted g Hp He) in H.
  destruct (g_splittable g), (g_copyable g), (g_reencodable g); try discriminate; auto.
Qed.

Lemma decide_abs_packed g : decide_abs g = PPacked -> g_splittable g = true.
Proof.
  intro H. destruct (decide_abs_not_rejected g) as [Hp He]; [congruence|].
  rewrite (decide_abs_accepted g Hp He) in H.
  destruct (g_splittable g), (g_copyable g), (g_reencodable g); try discriminate; auto.
Qed.

Lemma copyable_true sw w r :
  copyable_column_chunks sw w r = true ->
  sw_disable_copy sw = false /\ w_encryption w = false /\ (rg_rows r <= w_max_rows w)%N /\
  chunk_transparent (rg_kind r) = true /\ length (rg_cols r) = w_ncols w /\
  forallb column_copyable (rg_cols r) = true.
Proof.
  unfold copyable_column_chunks, copy_conditions.
  rewrite !andb_true_iff, !negb_true_iff, N.leb_le, Nat.eqb_eq. tauto.
Qed.

Lemma reencodable_true sw w r :
  reencodable_row_group sw w r = true ->
  sw_disable_reencode sw = false /\ chunk_transparent (rg_kind r) = true /\
  (rg_rows r <= w_max_rows w)%N /\ length (rg_cols r) = w_ncols w /\ rg_cols r <> [] /\
  forallb (fun c => column_oriented_chunk (c_class c)) (rg_cols r) = true.
Proof.
  unfold reencodable_row_group, column_oriented_row_group.
  rewrite !andb_true_iff, !negb_true_iff, N.leb_le, Nat.eqb_eq, Nat.eqb_neq.
  intros (Hs & (((Ht & Hz) & Hn) & Ho) & Hr). repeat split; auto.
  intro E. now rewrite E in Hz.
Qed.

Lemma splittable_true sw w r :
  splittable sw w r = true ->
  (sw_disable_copy sw = false \/ sw_disable_reencode sw = false) /\
  segmented_kind (rg_kind r) = true /\ 2 <= length (rg_segs r).
Proof.
  unfold splittable, segments_of.
  destruct (sw_disable_copy sw && sw_disable_reencode sw) eqn:Es; [discriminate|].
  apply andb_false_iff in Es.
  destruct (rg_kind r) as [| | | | |[|]| | | |]; try discriminate.
  all: destruct (length (rg_segs r) <=? 1) eqn:El; [discriminate|].
  all: apply Nat.leb_gt in El; intros _; repeat split; auto.
Qed.

(* the wrappers whose Rows() adds semantics, foreign implementations and
   overlapping merges: rows are read through Rows(), or the call is rejected *)
Definition wrapper_kind (k : kind) : bool :=
  match k with
  | KDedup | KConverted | KForeign | KMerged | KEmpty | KSortedSegments true => true
  | _ => false
  end.

Lemma segmented_not_transparent k : segmented_kind k = true -> chunk_transparent k = false.
Proof. destruct k as [| | | | |[|]| | | |]; cbn; congruence. Qed.

Lemma wrapper_kind_opaque k :
  wrapper_kind k = true -> chunk_transparent k = false /\ segmented_kind k = false.
Proof. destruct k as [| | | | |[|]| | | |]; cbn; intuition congruence. Qed.

Lemma sum_rows_app a b : sum_rows (a ++ b) = (sum_rows a + sum_rows b)%N.
Proof. induction a as [|x a IH]; cbn; [reflexivity|]. rewrite IH. lia. Qed.

Lemma concat_flush_pending p : concat (flush_pending p) = p.
Proof. destruct p; cbn; [reflexivity|]. now rewrite app_nil_r. Qed.

(* the batches, in order, are the segments: nothing is lost, duplicated or reordered *)
Lemma pack_loop_concat w : forall segs pending rows,
  concat (pack_loop w segs pending rows) = pending ++ segs.
Proof.
  induction segs as [|seg rest IH]; intros pending rows; cbn [pack_loop].
  - now rewrite concat_flush_pending, app_nil_r.
  - destruct (column_oriented_row_group w seg).
    + destruct ((0 <? rows)%N && (w_max_rows w <? rows + rg_rows seg)%N).
      * rewrite concat_app, concat_flush_pending, IH. reflexivity.
      * rewrite IH, <- app_assoc. reflexivity.
    + rewrite concat_app, concat_flush_pending. cbn [concat]. rewrite IH. reflexivity.
Qed.

Definition batch_ok (w : writer) (b : list rg) : Prop :=
  b <> [] /\
  (2 <= length b -> Forall (fun s => column_oriented_row_group w s = true) b /\
                    (sum_rows b <= w_max_rows w)%N).

Lemma oriented_rows_le w s : column_oriented_row_group w s = true -> (rg_rows s <= w_max_rows w)%N.
Proof.
  unfold column_oriented_row_group. intro H. apply andb_true_iff in H. destruct H as [_ H].
  now apply N.leb_le.
Qed.

Lemma pack_loop_batches w : forall segs pending rows,
  rows = sum_rows pending ->
  Forall (fun s => column_oriented_row_group w s = true) pending ->
  (rows <= w_max_rows w)%N ->
  Forall (batch_ok w) (pack_loop w segs pending rows).
Proof.
  assert (Hflush : forall pending, Forall (fun s => column_oriented_row_group w s = true) pending ->
            (sum_rows pending <= w_max_rows w)%N -> Forall (batch_ok w) (flush_pending pending)).
  { intros [|p pending] Ho Hr; cbn; [constructor|]. constructor; [|constructor].
    split; [discriminate|]. intros _. split; assumption. }
  induction segs as [|seg rest IH]; intros pending rows Hrows Ho Hmax; cbn [pack_loop]; subst rows.
  - now apply Hflush.
  - destruct (column_oriented_row_group w seg) eqn:Eo.
    + pose proof (oriented_rows_le w seg Eo) as Hseg.
      destruct ((0 <? sum_rows pending)%N && (w_max_rows w <? sum_rows pending + rg_rows seg)%N) eqn:Ec.
      * apply Forall_app. split; [now apply Hflush|].
        apply IH; [cbn; lia|constructor; [exact Eo|constructor]|exact Hseg].
      * apply IH.
        -- rewrite sum_rows_app. cbn. lia.
        -- apply Forall_app. split; [exact Ho|]. constructor; [exact Eo|constructor].
        -- apply andb_false_iff in Ec. destruct Ec as [Ec|Ec].
           ++ apply N.ltb_ge in Ec. assert (sum_rows pending = 0%N) by lia. lia.
           ++ apply N.ltb_ge in Ec. lia.
    + apply Forall_app. split; [now apply Hflush|]. constructor.
      * split; [discriminate|]. cbn. lia.
      * apply IH; [reflexivity|constructor|lia].
Qed.

Lemma decide_copy sw w r :
  decide sw w r = PCopy ->
  rg_schema_present r = true /\ (w_schema_set w = true -> rg_schema_equal r = true) /\
  splittable sw w r = false /\ copyable_column_chunks sw w r = true.
Proof. exact (decide_abs_copy (rg_abs_of sw w r)). Qed.

Lemma decide_reencode sw w r :
  decide sw w r = PReencode ->
  splittable sw w r = false /\ copyable_column_chunks sw w r = false /\
  reencodable_row_group sw w r = true.
Proof. exact (decide_abs_reencode (rg_abs_of sw w r)). Qed.

Lemma decide_accepted sw w r :
  rg_schema_present r = true -> (w_schema_set w = true -> rg_schema_equal r = true) ->
  decide sw w r = if splittable sw w r then PPacked else if copyable_column_chunks sw w r then PCopy
                  else if reencodable_row_group sw w r then PReencode else PRows.
Proof. exact (decide_abs_accepted (rg_abs_of sw w r)). Qed.

Theorem copy_implies_settings_equal sw w r :
  decide sw w r = PCopy ->
  sw_disable_copy sw = false /\ w_encryption w = false /\
  (rg_rows r <= w_max_rows w)%N /\
  chunk_transparent (rg_kind r) = true /\
  length (rg_cols r) = w_ncols w /\
  rg_schema_present r = true /\ (w_schema_set w = true -> rg_schema_equal r = true) /\
  forall c, In c (rg_cols r) -> column_settings_equal c.
Proof.
  intro H. destruct (decide_copy _ _ _ H) as (Hp & He & _ & Hc).
  destruct (copyable_true _ _ _ Hc) as (H1 & H2 & H3 & H4 & H5 & H6).
  repeat match goal with |- _ /\ _ => split end; auto.
  intros c Hc'. apply column_copyable_sound. rewrite forallb_forall in H6. now apply H6.
Qed.

Theorem reencode_implies sw w r :
  decide sw w r = PReencode ->
  sw_disable_reencode sw = false /\ chunk_transparent (rg_kind r) = true /\
  (rg_rows r <= w_max_rows w)%N /\ length (rg_cols r) = w_ncols w /\ rg_cols r <> [] /\
  (forall c, In c (rg_cols r) -> column_oriented_chunk (c_class c) = true) /\
  copyable_column_chunks sw w r = false.
Proof.
  intro H. destruct (decide_reencode _ _ _ H) as (_ & Hc & Hr).
  destruct (reencodable_true _ _ _ Hr) as (H1 & H2 & H3 & H4 & H5 & H6).
  repeat match goal with |- _ /\ _ => split end; auto.
  intros c Hc'. rewrite forallb_forall in H6. now apply H6.
Qed.

Theorem chunkwise_only_transparent sw w r :
  (decide sw w r = PCopy \/ decide sw w r = PReencode -> chunk_transparent (rg_kind r) = true) /\
  (decide sw w r = PPacked -> segmented_kind (rg_kind r) = true /\ 2 <= length (rg_segs r)).
Proof.
  split.
  - intros [E|E].
    + apply copy_implies_settings_equal in E. tauto.
    + apply reencode_implies in E. tauto.
  - intro E. apply (decide_abs_packed (rg_abs_of sw w r)), splittable_true in E. tauto.
Qed.

Theorem segmented_never_chunkwise sw w r :
  segmented_kind (rg_kind r) = true -> decide sw w r <> PCopy /\ decide sw w r <> PReencode.
Proof.
  intro Hk. apply segmented_not_transparent in Hk.
  destruct (chunkwise_only_transparent sw w r) as [Ht _].
  split; intro E; rewrite Ht in Hk; auto; discriminate.
Qed.

Theorem wrappers_use_row_path sw w r :
  wrapper_kind (rg_kind r) = true ->
  (decide sw w r = PRows \/ decide sw w r = PReject) /\
  (rg_schema_present r = true -> (w_schema_set w = true -> rg_schema_equal r = true) ->
   decide sw w r = PRows).
Proof.
  intro Hk. destruct (wrapper_kind_opaque _ Hk) as [Ht Hs].
  destruct (chunkwise_only_transparent sw w r) as [Hc Hp].
  assert (Hrr : decide sw w r = PRows \/ decide sw w r = PReject).
  { destruct (decide sw w r); auto.
    - destruct Hp; congruence.
    - rewrite Hc in Ht; auto; discriminate.
    - rewrite Hc in Ht; auto; discriminate. }
  split; [exact Hrr|]. intros Hsp Hse. destruct Hrr as [E|E]; [exact E|].
  rewrite (decide_accepted _ _ _ Hsp Hse) in E.
  destruct (splittable sw w r), (copyable_column_chunks sw w r), (reencodable_row_group sw w r);
    discriminate.
Qed.

Theorem disable_switches sw w r :
  (sw_disable_copy sw = true -> decide sw w r <> PCopy) /\
  (sw_disable_reencode sw = true -> decide sw w r <> PReencode) /\
  (sw_disable_copy sw = true -> sw_disable_reencode sw = true ->
   decide sw w r = PRows \/ decide sw w r = PReject).
Proof.
  assert (H1 : sw_disable_copy sw = true -> decide sw w r <> PCopy).
  { intros Hs E. apply copy_implies_settings_equal in E. destruct E as [E _]. congruence. }
  assert (H2 : sw_disable_reencode sw = true -> decide sw w r <> PReencode).
  { intros Hs E. apply reencode_implies in E. destruct E as [E _]. congruence. }
  repeat split; auto. intros Hc Hr.
  destruct (decide sw w r) eqn:E; auto.
  - apply (decide_abs_packed (rg_abs_of sw w r)), splittable_true in E.
    destruct E as [[E|E] _]; congruence.
  - now destruct (H1 Hc).
  - now destruct (H2 Hr).
Qed.

(* with no switch set the cascade takes the first path whose conditions hold *)
Theorem enabled_paths sw w r :
  sw_disable_copy sw = false -> sw_disable_reencode sw = false ->
  rg_schema_present r = true -> (w_schema_set w = true -> rg_schema_equal r = true) ->
  splittable sw w r = false ->
  decide sw w r = if copy_conditions w r then PCopy
                  else if column_oriented_row_group w r then PReencode else PRows.
Proof.
  intros H1 H2 H3 H4 H5. rewrite (decide_accepted _ _ _ H3 H4), H5.
  unfold copyable_column_chunks, reencodable_row_group. rewrite H1, H2. reflexivity.
Qed.

Theorem max_rows_respected sw w r :
  (w_max_rows w < rg_rows r)%N -> decide sw w r <> PCopy /\ decide sw w r <> PReencode.
Proof.
  intro Hlt. apply N.lt_nge in Hlt. split; intro E.
  - apply copy_implies_settings_equal in E. tauto.
  - apply reencode_implies in E. tauto.
Qed.

Lemma copy_count_app a b : copy_count (a ++ b) = copy_count a + copy_count b.
Proof. induction a as [|[]]; cbn; auto; lia. Qed.

Lemma reencode_count_app a b : reencode_count (a ++ b) = reencode_count a + reencode_count b.
Proof. induction a as [|[]]; cbn; auto; lia. Qed.

(* disableWriteCopy: no column chunk is copied, at any depth *)
Theorem disable_copy_no_copy sw w : sw_disable_copy sw = true ->
  forall fuel r, copy_count (plan fuel sw w r) = 0.
Proof.
  intros Hs. induction fuel as [|fuel IH]; intros r; cbn [plan]; [reflexivity|].
  destruct (decide sw w r) eqn:E; try reflexivity.
  - induction (pack_segments w _) as [|b bs IHb]; cbn [flat_map]; [reflexivity|].
    rewrite copy_count_app, IHb. destruct b as [|s [|s' b]]; cbn; auto. rewrite IH. reflexivity.
  - exfalso. now apply (proj1 (disable_switches sw w r) Hs).
Qed.

(* both switches: the row path only *)
Theorem disable_both_rows_only sw w r fuel :
  sw_disable_copy sw = true -> sw_disable_reencode sw = true ->
  copy_count (plan fuel sw w r) = 0 /\ reencode_count (plan fuel sw w r) = 0.
Proof.
  intros H1 H2. destruct fuel; cbn [plan]; [split; reflexivity|].
  destruct (proj2 (proj2 (disable_switches sw w r)) H1 H2) as [E|E]; rewrite E; split; reflexivity.
Qed.
