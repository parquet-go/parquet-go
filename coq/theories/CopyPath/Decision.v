(** Model of the decision cascade of Writer.WriteRowGroup (writer.go:549-597):
    which of the four write paths a source row group takes.

      verbatim copy of the column chunks   writer_copy.go  copyableColumnChunks
      column-wise re-encode                writer_reencode.go reencodableRowGroup
      packed segments                      writer_copy.go  splittableCopyableSegments
                                           writer_reencode.go writeSegmentsPacked
      row path                             writer.go:589-603 (Rows() + CopyRows)

    Every condition the Go code reads is one field of a record of source /
    destination attributes ([col] per column, [rg] per row group, [writer],
    [switches]); the Go line of each condition is cited where it is evaluated.
    The cascade itself ([decide_abs]) runs on the outcome of the conditions (a
    finite record of booleans and a small enumeration); its rules are proved in
    CopyPath/DecisionProofs.v.
    Executable; no proofs here. *)
From Coq Require Import List NArith Bool Arith.
Import ListNotations.

(** * Attributes *)

(** The dynamic type of the source row group.  Only three library types carry
    the unexported marker method chunkTransparentRowGroup(); a type defined
    outside the package cannot (writer_copy.go:148-155). *)
Inductive kind :=
| KFile                              (* *FileRowGroup: file.go:796 has the marker *)
| KBuffer                            (* *Buffer / *GenericBuffer[T]: buffer.go:463, buffer.go:149 *)
| KRange                             (* *rowRangeRowGroup: row_range.go:69 *)
| KMulti                             (* *multiRowGroup: multi_row_group.go:132 rowGroupSegments = its row groups; no marker *)
| KMerged                            (* *mergedRowGroup: merge.go:332 rowGroupSegments = nil; no marker *)
| KSortedSegments (drop_dup : bool)  (* *sortedSegmentRowGroup: merge.go:368 segments unless duplicates are dropped *)
| KConverted                         (* *convertedRowGroup (convert.go:991): no marker, no segments *)
| KDedup                             (* *dedupRowGroup (merge.go:402): embeds the RowGroup interface, so neither the
                                        marker nor rowGroupSegments of the wrapped value is promoted *)
| KEmpty                             (* *emptyRowGroup *)
| KForeign.                          (* any implementation of parquet.RowGroup outside the package *)

(** The dynamic type of a source column chunk (writer_reencode.go:68-79). *)
Inductive chunk_class :=
| CFile                         (* *FileColumnChunk *)
| CBuf                          (* a ColumnBuffer *)
| CRange (base : chunk_class)   (* *rangeColumnChunk over base *)
| COther.                       (* multiColumnChunk, convertedColumnChunk, missingColumnChunk, foreign types *)

(** format.PageType *)
Inductive page_type := PTData | PTIndex | PTDict | PTDataV2.

Definition page_type_eqb (a b : page_type) : bool :=
  match a, b with
  | PTData, PTData | PTIndex, PTIndex | PTDict, PTDict | PTDataV2, PTDataV2 => true
  | _, _ => false
  end.

(** One source column chunk paired with the destination ColumnWriter of the
    same index.  Physical types, codecs and encodings are their thrift codes
    (format.Type, format.CompressionCodec, format.Encoding). *)
Record col := {
  c_class : chunk_class;
  c_src_encrypted : bool;          (* src.decryptionKey != nil *)
  c_dst_enc_key : bool;            (* dst.encKey != nil *)
  c_src_type : N;                  (* meta.Type *)
  c_dst_type : N;                  (* format.Type(dst.columnType.Kind()) *)
  c_src_codec : N;                 (* meta.Codec *)
  c_dst_codec : N;                 (* dst.compression.CompressionCodec() *)
  c_dst_filter : bool;             (* dst.columnFilter != nil *)
  c_src_bloom_offset : bool;       (* meta.BloomFilterOffset != 0 *)
  c_src_bloom_length : bool;       (* meta.BloomFilterLength > 0 *)
  c_dst_bloom_codec : option N;    (* dst.bloomFilterCompression (nil = None) *)
  c_src_bloom_header_ok : bool;    (* the thrift header of the source filter decodes *)
  c_src_bloom_split_block : bool;  (* header.Algorithm is SplitBlockAlgorithm *)
  c_src_bloom_xxhash : bool;       (* header.Hash is XxHash *)
  c_src_bloom_uncompressed : bool; (* header.Compression is BloomFilterUncompressed *)
  c_src_bloom_num_bytes : N;       (* header.NumBytes *)
  c_dst_filter_size : N;           (* dst.columnFilter.Size(meta.NumValues) *)
  c_dst_filter_size_dict : N;      (* dst.columnFilter.Size(NumValues of the source dictionary page header) *)
  c_src_column_index : bool;       (* src.chunk.ColumnIndexOffset != 0 *)
  c_src_offset_index : bool;       (* src.chunk.OffsetIndexOffset != 0 *)
  c_src_encoding_stats : list (page_type * N);   (* meta.EncodingStats: page type, encoding *)
  c_dst_page_type : page_type;     (* dst.header.page.Type: PTData (v1) or PTDataV2 *)
  c_dst_encoding : N;              (* dst.encoding.Encoding() *)
  c_dst_dict : bool;               (* dst.dictionary != nil *)
  c_dst_dict_max : N;              (* dst.dictionaryMaxBytes (0: no limit) *)
  c_src_dict_page : bool;          (* meta.DictionaryPageOffset != 0 and DataPageOffset - DictionaryPageOffset > 0 *)
  c_src_dict_header_ok : bool;     (* the thrift header of the source dictionary page decodes, Type is DictionaryPage,
                                      DictionaryPageHeader is set (dictionaryPageHeaderOf) *)
  c_src_dict_uncompressed : N;     (* header.UncompressedPageSize of the source dictionary page *)
  (* attributes the cascade does not read; kept to state what a copy does not compare *)
  c_src_page_header_stats : bool;  (* the source pages carry statistics in their headers *)
  c_dst_page_header_stats : bool   (* dst.writePageStats *)
}.

(** A source row group: dynamic type, Schema() != nil, EqualNodes(w.schema,
    Schema()), NumRows(), ColumnChunks() (paired with the destination columns)
    and, for the segmented types, the row groups it concatenates. *)
Inductive rg :=
| RG (k : kind) (schema_present schema_equal : bool) (rows : N) (cols : list col) (segs : list rg).

Definition rg_kind (r : rg) := let 'RG k _ _ _ _ _ := r in k.
Definition rg_schema_present (r : rg) := let 'RG _ p _ _ _ _ := r in p.
Definition rg_schema_equal (r : rg) := let 'RG _ _ e _ _ _ := r in e.
Definition rg_rows (r : rg) := let 'RG _ _ _ n _ _ := r in n.
Definition rg_cols (r : rg) := let 'RG _ _ _ _ c _ := r in c.
Definition rg_segs (r : rg) := let 'RG _ _ _ _ _ s := r in s.

Record writer := {
  w_schema_set : bool;     (* w.schema != nil *)
  w_encryption : bool;     (* w.writer.encryption != nil *)
  w_max_rows : N;          (* w.writer.currentRowGroup.maxRows (MaxRowsPerRowGroup) *)
  w_ncols : nat            (* len(w.writer.currentRowGroup.columns) *)
}.

(** The package-level switches (writer_copy.go:20, writer_reencode.go:32). *)
Record switches := {
  sw_disable_copy : bool;      (* disableWriteCopy *)
  sw_disable_reencode : bool   (* disableWriteReencode *)
}.

(** * Conditions on one column *)

(* writer_copy.go:245-278 encodingStatsMatch, the loop over the source's
   page encoding statistics.  [None] is an early "return false"; [Some saw]
   carries sawDict. *)
Fixpoint stats_loop (want_pt : page_type) (want_enc : N) (want_dict : bool)
         (stats : list (page_type * N)) (saw_dict : bool) : option bool :=
  match stats with
  | [] => Some saw_dict
  | (pt, e) :: rest =>
    match pt with
    | PTDict =>                                        (* :257 *)
      if negb want_dict then None                      (* :259 *)
      else stats_loop want_pt want_enc want_dict rest true
    | PTData | PTDataV2 =>                             (* :262 *)
      if negb (page_type_eqb pt want_pt) then None     (* :263 data page version mismatch *)
      else if negb (N.eqb e want_enc) then None        (* :266 encoding mismatch *)
      else stats_loop want_pt want_enc want_dict rest saw_dict
    | PTIndex => None                                  (* :269 default *)
    end
  end.

Definition encoding_stats_match (c : col) : bool :=
  match c_src_encoding_stats c with
  | [] => false                                        (* :246 cannot verify the source encodings *)
  | stats =>
    match stats_loop (c_dst_page_type c) (c_dst_encoding c) (c_dst_dict c) stats false with
    | None => false
    | Some saw => Bool.eqb (c_dst_dict c) saw          (* :274 wantDict != sawDict *)
    end
  end.

(* writer_copy.go:293-318 bloomFilterIsCopyable *)
Definition bloom_filter_is_copyable (c : col) : bool :=
  if negb (c_src_bloom_offset c) || negb (c_src_bloom_length c) then false          (* :295 *)
  else if match c_dst_bloom_codec c with Some k => negb (N.eqb k 0) | None => false end
       then false                                                                   (* :298 *)
  else if negb (c_src_bloom_header_ok c) then false                                 (* :308 *)
  else if negb (c_src_bloom_split_block c) || negb (c_src_bloom_xxhash c) then false (* :311 *)
  else if negb (c_src_bloom_uncompressed c) then false                              (* :314 *)
  else if c_dst_dict c then
    (* repair cc7588b: the filter of a dictionary column is sized from the number of values of its
       dictionary (flushFilterPages); the source dictionary page header must be readable *)
    if negb (c_src_dict_page c) || negb (c_src_dict_header_ok c) then false
    else N.eqb (c_src_bloom_num_bytes c) (c_dst_filter_size_dict c)
  else N.eqb (c_src_bloom_num_bytes c) (c_dst_filter_size c).                       (* :317 *)

(* writer_copy.go columnChunkIsCopyable, last condition (repairs f873992, cc7588b:
   dictionaryPageHeaderOf): the dictionary page of the source declares an
   uncompressed size within the destination's DictionaryMaxBytes *)
Definition dictionary_fits_limit (c : col) : bool :=
  if negb (c_src_dict_page c) then false
  else if negb (c_src_dict_header_ok c) then false
  else N.leb (c_src_dict_uncompressed c) (c_dst_dict_max c).

(** The outcome of the conditions of columnChunkIsCopyable, as read by the
    cascade. *)
Record col_abs := {
  a_file : bool;          (* col is a *FileColumnChunk          writer_copy.go:136 *)
  a_src_encrypted : bool; (*                                     :204 *)
  a_dst_enc_key : bool;   (*                                     :209 *)
  a_type_eq : bool;       (* meta.Type == dst type               :216 *)
  a_codec_eq : bool;      (* meta.Codec == dst codec             :220 *)
  a_dst_filter : bool;    (* dst.columnFilter != nil             :226 *)
  a_bloom_ok : bool;      (* bloomFilterIsCopyable               :226 *)
  a_column_index : bool;  (* ColumnIndexOffset != 0              :231 *)
  a_offset_index : bool;  (* OffsetIndexOffset != 0              :231 *)
  a_stats_ok : bool;      (* encodingStatsMatch                  :236 *)
  a_dict_limit : bool;    (* dst.dictionary != nil && dst.dictionaryMaxBytes > 0   :247 *)
  a_dict_fits : bool      (* dictionaryFitsLimit                 :247 *)
}.

Definition col_abs_of (c : col) : col_abs := {|
  a_file := match c_class c with CFile => true | _ => false end;
  a_src_encrypted := c_src_encrypted c;
  a_dst_enc_key := c_dst_enc_key c;
  a_type_eq := N.eqb (c_src_type c) (c_dst_type c);
  a_codec_eq := N.eqb (c_src_codec c) (c_dst_codec c);
  a_dst_filter := c_dst_filter c;
  a_bloom_ok := bloom_filter_is_copyable c;
  a_column_index := c_src_column_index c;
  a_offset_index := c_src_offset_index c;
  a_stats_ok := encoding_stats_match c;
  a_dict_limit := c_dst_dict c && N.ltb 0 (c_dst_dict_max c);
  a_dict_fits := dictionary_fits_limit c
|}.

(* writer_copy.go:135-144 (type assertion) and :202-240 columnChunkIsCopyable *)
Definition column_copyable_abs (a : col_abs) : bool :=
  if negb (a_file a) then false                                   (* :137 *)
  else if a_src_encrypted a then false                            (* :204 *)
  else if a_dst_enc_key a then false                              (* :209 *)
  else if negb (a_type_eq a) then false                           (* :216 *)
  else if negb (a_codec_eq a) then false                          (* :220 *)
  else if a_dst_filter a && negb (a_bloom_ok a) then false        (* :226 *)
  else if negb (a_column_index a) || negb (a_offset_index a) then false   (* :231 *)
  else if negb (a_stats_ok a) then false                          (* :236 *)
  else if a_dict_limit a && negb (a_dict_fits a) then false       (* :247 the source dictionary must fit the limit *)
  else true.

Definition column_copyable (c : col) : bool := column_copyable_abs (col_abs_of c).

(* writer_reencode.go:68-79 columnOrientedChunk *)
Fixpoint column_oriented_chunk (c : chunk_class) : bool :=
  match c with
  | CFile => true
  | CBuf => true
  | CRange base => column_oriented_chunk base
  | COther => false
  end.

(** * Conditions on a row group *)

(* writer_copy.go:180-183 chunkTransparentRowGroup: the marker method *)
Definition chunk_transparent (k : kind) : bool :=
  match k with
  | KFile | KBuffer | KRange => true
  | _ => false
  end.

(* the result of rowGroup.(orderedRowGroupSegments) and rowGroupSegments();
   [None]: the type does not implement the interface *)
Definition segments_of (r : rg) : option (list rg) :=
  match rg_kind r with
  | KMulti => Some (rg_segs r)                 (* multi_row_group.go:132 *)
  | KSortedSegments false => Some (rg_segs r)  (* merge.go:372 *)
  | KSortedSegments true => Some []            (* merge.go:369-371 returns nil when dropping duplicates *)
  | KMerged => Some []                         (* merge.go:332 returns nil *)
  | _ => None
  end.

(* the row-group-level conditions of copyableColumnChunks (writer_copy.go:106-146),
   without the switch *)
Definition copy_conditions (w : writer) (r : rg) : bool :=
  negb (w_encryption w)                                    (* :113 *)
  && N.leb (rg_rows r) (w_max_rows w)                      (* :119 *)
  && chunk_transparent (rg_kind r)                         (* :124 *)
  && Nat.eqb (length (rg_cols r)) (w_ncols w)              (* :130 *)
  && forallb column_copyable (rg_cols r).                  (* :135-144 *)

Definition copyable_column_chunks (sw : switches) (w : writer) (r : rg) : bool :=
  negb (sw_disable_copy sw) && copy_conditions w r.        (* :107 *)

(* writer_reencode.go:45-63 columnOrientedRowGroup *)
Definition column_oriented_row_group (w : writer) (r : rg) : bool :=
  chunk_transparent (rg_kind r)                                      (* :46 *)
  && negb (Nat.eqb (length (rg_cols r)) 0)                           (* :51 *)
  && Nat.eqb (length (rg_cols r)) (w_ncols w)                        (* :51 *)
  && forallb (fun c => column_oriented_chunk (c_class c)) (rg_cols r) (* :54-58 *)
  && N.leb (rg_rows r) (w_max_rows w).                               (* :59 *)

(* writer_reencode.go:83-88 reencodableRowGroup *)
Definition reencodable_row_group (sw : switches) (w : writer) (r : rg) : bool :=
  negb (sw_disable_reencode sw) && column_oriented_row_group w r.

(* writer_copy.go:79-100 splittableCopyableSegments *)
Definition splittable (sw : switches) (w : writer) (r : rg) : bool :=
  if sw_disable_copy sw && sw_disable_reencode sw then false          (* :80 *)
  else match segments_of r with
       | None => false                                                (* :84 *)
       | Some segs =>
         if Nat.leb (length segs) 1 then false                        (* :88 *)
         else existsb (fun s => copyable_column_chunks sw w s         (* :92 *)
                                || reencodable_row_group sw w s) segs (* :95 *)
       end.

(** * The cascade *)

Inductive path :=
| PReject     (* ErrRowGroupSchemaMissing / ErrRowGroupSchemaMismatch *)
| PPacked     (* writeSegmentsPacked *)
| PCopy       (* loadCopiedChunks: verbatim copy of every column chunk *)
| PReencode   (* writeRowGroupByColumn *)
| PRows.      (* CopyRows(w.writer, rowGroup.Rows()) *)

(** The outcome of every condition WriteRowGroup evaluates. *)
Record rg_abs := {
  g_schema_present : bool;  (* rowGroup.Schema() != nil                     writer.go:552 *)
  g_writer_schema : bool;   (* w.schema != nil                              writer.go:554 *)
  g_schema_equal : bool;    (* EqualNodes(w.schema, rowGroupSchema)         writer.go:556 *)
  g_splittable : bool;      (* splittableCopyableSegments                   writer.go:564 *)
  g_copyable : bool;        (* copyableColumnChunks                         writer.go:573 *)
  g_reencodable : bool      (* reencodableRowGroup                          writer.go:582 *)
}.

Definition decide_abs (g : rg_abs) : path :=
  if negb (g_schema_present g) then PReject                               (* writer.go:552 *)
  else if g_writer_schema g && negb (g_schema_equal g) then PReject       (* writer.go:556 *)
  else if g_splittable g then PPacked                                     (* writer.go:564 *)
  else if g_copyable g then PCopy                                         (* writer.go:573 *)
  else if g_reencodable g then PReencode                                  (* writer.go:582 *)
  else PRows.                                                             (* writer.go:589 *)

Definition rg_abs_of (sw : switches) (w : writer) (r : rg) : rg_abs := {|
  g_schema_present := rg_schema_present r;
  g_writer_schema := w_schema_set w;
  g_schema_equal := rg_schema_equal r;
  g_splittable := splittable sw w r;
  g_copyable := copyable_column_chunks sw w r;
  g_reencodable := reencodable_row_group sw w r
|}.

Definition decide (sw : switches) (w : writer) (r : rg) : path :=
  decide_abs (rg_abs_of sw w r).

(** * Packing of segments (writer_reencode.go:98-150 writeSegmentsPacked)

    The loop keeps a batch [pending] of consecutive column-oriented segments
    whose rows fit MaxRowsPerRowGroup.  The result lists the batches in the
    order they are flushed; a segment that is not column-oriented is a batch
    of its own.  A batch of one segment goes back through WriteRowGroup
    (:116, :140), a larger one through packSegmentsByColumn (:118). *)
Fixpoint sum_rows (l : list rg) : N :=
  match l with
  | [] => 0%N
  | r :: t => (rg_rows r + sum_rows t)%N
  end.

Definition flush_pending (pending : list rg) : list (list rg) :=
  match pending with
  | [] => []                (* :113 *)
  | _ => [pending]
  end.

Fixpoint pack_loop (w : writer) (segs pending : list rg) (pending_rows : N) : list (list rg) :=
  match segs with
  | [] => flush_pending pending                                              (* :146 *)
  | seg :: rest =>
    if column_oriented_row_group w seg then                                  (* :127 *)
      if N.ltb 0 pending_rows && N.ltb (w_max_rows w) (pending_rows + rg_rows seg) then   (* :128 *)
        flush_pending pending ++ pack_loop w rest [seg] (rg_rows seg)        (* :129-134 *)
      else
        pack_loop w rest (pending ++ [seg]) (pending_rows + rg_rows seg)     (* :133-134 *)
    else
      flush_pending pending ++ [seg] :: pack_loop w rest [] 0%N              (* :137-140 *)
  end.

Definition pack_segments (w : writer) (segs : list rg) : list (list rg) :=
  pack_loop w segs [] 0%N.

(** * What a call of WriteRowGroup does, as a list of elementary writes *)

Inductive action :=
| ACopy (ncols : nat) (rows : N)     (* copyPathCounter += ncols (writer_copy.go:391, once per column) *)
| AReencode (rows : N)               (* reencodePathCounter += 1 (writer_reencode.go:204) *)
| APack (nsegs : nat) (rows : N)     (* reencodePathCounter += 1 (writer_reencode.go:168) *)
| ARows (rows : N)
| AReject.

(* [fuel] bounds the nesting depth of segmented row groups *)
Fixpoint plan (fuel : nat) (sw : switches) (w : writer) (r : rg) : list action :=
  match fuel with
  | 0 => []
  | S fuel' =>
    match decide sw w r with
    | PReject => [AReject]
    | PPacked =>
      flat_map (fun batch =>
                  match batch with
                  | [s] => plan fuel' sw w s
                  | _ => [APack (length batch) (sum_rows batch)]
                  end)
               (pack_segments w (match segments_of r with Some s => s | None => [] end))
    | PCopy => [ACopy (length (rg_cols r)) (rg_rows r)]
    | PReencode => [AReencode (rg_rows r)]
    | PRows => [ARows (rg_rows r)]
    end
  end.

Fixpoint copy_count (l : list action) : nat :=
  match l with
  | [] => 0
  | ACopy n _ :: t => n + copy_count t
  | _ :: t => copy_count t
  end.

Fixpoint reencode_count (l : list action) : nat :=
  match l with
  | [] => 0
  | AReencode _ :: t => S (reencode_count t)
  | APack _ _ :: t => S (reencode_count t)
  | _ :: t => reencode_count t
  end.

(** * The cascade over a finite record of conditions

    The same decision, as a function of the dynamic type, the switches and the
    outcome of each row-group-level condition.  The space of [rg_cond] is
    finite (11 dynamic types x 2^14 booleans = 180 224 vectors); in
    CopyPath/DecisionProofs.v [decide] is shown to be [decide_cond] of
    [cond_of]. *)
Record rg_cond := {
  q_kind : kind;
  q_disable_copy : bool;          (* disableWriteCopy *)
  q_disable_reencode : bool;      (* disableWriteReencode *)
  q_schema_present : bool;        (* writer.go:552 *)
  q_writer_schema : bool;         (* writer.go:554 *)
  q_schema_equal : bool;          (* writer.go:556 *)
  q_w_encryption : bool;          (* writer_copy.go:113 *)
  q_rows_le_max : bool;           (* writer_copy.go:119, writer_reencode.go:59 *)
  q_ncols_eq : bool;              (* writer_copy.go:130, writer_reencode.go:51 *)
  q_ncols_zero : bool;            (* writer_reencode.go:51 *)
  q_all_cols_copyable : bool;     (* writer_copy.go:135-144 *)
  q_all_cols_oriented : bool;     (* writer_reencode.go:54-58 *)
  q_segs_gt1 : bool;              (* writer_copy.go:88 *)
  q_some_seg_copyable : bool;     (* writer_copy.go:92 *)
  q_some_seg_reencodable : bool   (* writer_copy.go:95 *)
}.

(* the type implements orderedRowGroupSegments and returns its segments *)
Definition segmented_kind (k : kind) : bool :=
  match k with
  | KMulti | KSortedSegments false => true
  | _ => false
  end.

Definition copyable_q (q : rg_cond) : bool :=
  negb (q_disable_copy q) && negb (q_w_encryption q) && q_rows_le_max q
  && chunk_transparent (q_kind q) && q_ncols_eq q && q_all_cols_copyable q.

Definition oriented_q (q : rg_cond) : bool :=
  chunk_transparent (q_kind q) && negb (q_ncols_zero q) && q_ncols_eq q
  && q_all_cols_oriented q && q_rows_le_max q.

Definition reencodable_q (q : rg_cond) : bool :=
  negb (q_disable_reencode q) && oriented_q q.

Definition splittable_q (q : rg_cond) : bool :=
  negb (q_disable_copy q && q_disable_reencode q) && segmented_kind (q_kind q)
  && q_segs_gt1 q && (q_some_seg_copyable q || q_some_seg_reencodable q).

Definition decide_cond (q : rg_cond) : path :=
  decide_abs {| g_schema_present := q_schema_present q;
                g_writer_schema := q_writer_schema q;
                g_schema_equal := q_schema_equal q;
                g_splittable := splittable_q q;
                g_copyable := copyable_q q;
                g_reencodable := reencodable_q q |}.

Definition cond_of (sw : switches) (w : writer) (r : rg) : rg_cond := {|
  q_kind := rg_kind r;
  q_disable_copy := sw_disable_copy sw;
  q_disable_reencode := sw_disable_reencode sw;
  q_schema_present := rg_schema_present r;
  q_writer_schema := w_schema_set w;
  q_schema_equal := rg_schema_equal r;
  q_w_encryption := w_encryption w;
  q_rows_le_max := N.leb (rg_rows r) (w_max_rows w);
  q_ncols_eq := Nat.eqb (length (rg_cols r)) (w_ncols w);
  q_ncols_zero := Nat.eqb (length (rg_cols r)) 0;
  q_all_cols_copyable := forallb column_copyable (rg_cols r);
  q_all_cols_oriented := forallb (fun c => column_oriented_chunk (c_class c)) (rg_cols r);
  q_segs_gt1 := negb (Nat.leb (length (rg_segs r)) 1);
  q_some_seg_copyable := existsb (copyable_column_chunks sw w) (rg_segs r);
  q_some_seg_reencodable := existsb (reencodable_row_group sw w) (rg_segs r)
|}.

Definition all_kinds : list kind :=
  [KFile; KBuffer; KRange; KMulti; KMerged; KSortedSegments false; KSortedSegments true;
   KConverted; KDedup; KEmpty; KForeign].
