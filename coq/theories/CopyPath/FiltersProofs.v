(** Proofs about CopyPath/Filters.v: the bloom filter of a row group written
    column-wise has the size the configuration prescribes for the values of
    the row group, whatever mix of exact and inexact source chunks it is
    packed from. *)
From Coq Require Import List NArith Bool Arith Lia ZifyBool.
From PQ Require Import CopyPath.Filters.
Import ListNotations.

Lemma all_exact_sums : forall chunks,
  Forall chunk_honest chunks -> forallb sg_exact chunks = true ->
  sum_declared chunks = sum_delivered chunks.
Proof.
  induction chunks as [| c t IH]; simpl; intros HF HA; [reflexivity |].
  apply andb_true_iff in HA; destruct HA as [Hc Ht].
  inversion HF; subst.
  rewrite (IH H2 Ht), (H1 Hc); reflexivity.
Qed.

(** packing: exact or not, the filter is sized for the values written *)
Theorem pack_filter_prescribed : forall bits chunks,
  Forall chunk_honest chunks ->
  pack_filter_bytes bits chunks = filter_size bits (sum_delivered chunks).
Proof.
  intros bits chunks HF; unfold pack_filter_bytes, pack_filter_values, filter_bytes_at_flush.
  destruct (forallb sg_exact chunks) eqn:E; [| reflexivity].
  rewrite (all_exact_sums _ HF E).
  destruct (N.eqb (filter_size bits (sum_delivered chunks)) 0); reflexivity.
Qed.

(** one row group within MaxRowsPerRowGroup: the same *)
Theorem rowgroup_filter_prescribed : forall bits repeated rows max_rows c,
  chunk_honest c -> (rows <= max_rows)%N ->
  rowgroup_filter_bytes bits repeated rows max_rows c = filter_size bits (sg_delivered c).
Proof.
  intros bits repeated rows max_rows c Hc Hr.
  unfold rowgroup_filter_bytes, rowgroup_filter_values, filter_bytes_at_flush.
  destruct (sg_exact c) eqn:E; simpl; [| reflexivity].
  assert (N.ltb max_rows rows = false) as -> by (apply N.ltb_ge; assumption).
  rewrite (Hc E).
  destruct (N.eqb (filter_size bits (sg_delivered c)) 0); reflexivity.
Qed.

(** the size grows with the number of values: a filter sized for part of the
    values is never larger than the prescribed one *)
Lemma filter_size_mono : forall bits a b, (a <= b)%N -> (filter_size bits a <= filter_size bits b)%N.
Proof.
  intros bits a b H; unfold filter_size.
  apply N.mul_le_mono_l.
  apply N.div_le_mono; [lia |].
  apply N.add_le_mono_r.
  apply N.div_le_mono; [lia |].
  apply N.add_le_mono_r.
  apply N.mul_le_mono_r; assumption.
Qed.
