(** Proofs about CopyPath/Splice.v: after loadCopiedChunk and the splice of
    writeRowGroup, every page location written for a copied column designates,
    in the output, exactly the bytes the source location designates in the
    source file — for every column of the row group, whatever precedes it. *)
From Coq Require Import List ZArith Bool Lia.
From PQ Require Import Base.ListExtra CopyPath.Splice.
Import ListNotations.
Local Open Scope Z_scope.

Section Proofs.
  Variable B : Type.

  Lemma slice_length off len (f : list B) :
    0 <= off -> off + len <= Z.of_nat (length f) -> length (slice off len f) = Z.to_nat len.
  Proof.
    intros. unfold slice. rewrite firstn_length, skipn_length. lia.
  Qed.

  (* a range inside [a] is not affected by what follows *)
  Lemma slice_app_l off len (a b : list B) :
    0 <= off -> off + len <= Z.of_nat (length a) ->
    slice off len (a ++ b) = slice off len a.
  Proof.
    intros Ho Hb. unfold slice. rewrite skipn_app, firstn_app.
    rewrite skipn_length.
    replace (Z.to_nat len - (length a - Z.to_nat off))%nat with 0%nat by lia.
    cbn. now rewrite app_nil_r.
  Qed.

  (* a range past [a] is a range of what follows *)
  Lemma slice_app_r off len (a b : list B) :
    0 <= off -> slice (Z.of_nat (length a) + off) len (a ++ b) = slice off len b.
  Proof.
    intros Ho. unfold slice. rewrite skipn_app.
    replace (Z.to_nat (Z.of_nat (length a) + off)) with (length a + Z.to_nat off)%nat by lia.
    rewrite (skipn_all2 a) by lia. cbn [app].
    now replace (length a + Z.to_nat off - length a)%nat with (Z.to_nat off) by lia.
  Qed.

  (* a range of a range *)
  Lemma slice_slice o1 l1 o2 l2 (f : list B) :
    0 <= o1 -> 0 <= l1 -> 0 <= o2 -> o1 + l1 <= l2 ->
    slice o1 l1 (slice o2 l2 f) = slice (o2 + o1) l1 f.
  Proof.
    intros H1 H2 H3 H4. unfold slice.
    rewrite skipn_firstn_comm, firstn_firstn, <- skipn_add.
    replace (Nat.min (Z.to_nat l1) (Z.to_nat l2 - Z.to_nat o1)) with (Z.to_nat l1) by lia.
    now replace (Z.to_nat o2 + Z.to_nat o1)%nat with (Z.to_nat (o2 + o1)) by lia.
  Qed.

  (** The source chunk is laid out as the format prescribes: the dictionary
      page, if any, directly precedes the data pages; TotalCompressedSize spans
      both; the page locations lie inside the data pages; the file holds the
      whole chunk. *)
  Definition data_length (m : src_chunk) : Z :=
    if Z.eqb (sc_dict_offset m) 0 then sc_total_compressed m
    else sc_total_compressed m - (sc_data_offset m - sc_dict_offset m).

  Definition valid_layout (src : list B) (m : src_chunk) : Prop :=
    0 <= sc_dict_offset m /\ 0 <= sc_data_offset m /\
    (sc_dict_offset m <> 0 -> sc_dict_offset m <= sc_data_offset m) /\
    0 <= data_length m /\
    sc_data_offset m + data_length m <= Z.of_nat (length src) /\
    Forall (fun l => sc_data_offset m <= pl_offset l /\ 0 <= pl_size l /\
                     pl_offset l + pl_size l <= sc_data_offset m + data_length m) (sc_locs m).

  (** What is claimed of a copied column in an output file [out]. *)
  Definition placed_ok (src : list B) (m : src_chunk) (out : list B) (p : placed) : Prop :=
    let delta := p_data_page_offset p - sc_data_offset m in
    (* the offset index is the source's, shifted *)
    p_locs p = map (rebase delta) (sc_locs m) /\
    (* every location designates the bytes of the same page *)
    Forall (fun l => pl_offset l + delta + pl_size l <= Z.of_nat (length out) /\
                     slice (pl_offset l + delta) (pl_size l) out = slice (pl_offset l) (pl_size l) src)
           (sc_locs m) /\
    (* the dictionary page, when there is one, is where the metadata says, directly before the data pages *)
    (sc_dict_offset m <> 0 -> sc_dict_offset m < sc_data_offset m ->
       p_dict_page_offset p + (sc_data_offset m - sc_dict_offset m) = p_data_page_offset p /\
       slice (p_dict_page_offset p) (sc_data_offset m - sc_dict_offset m) out
       = slice (sc_dict_offset m) (sc_data_offset m - sc_dict_offset m) src).

  Lemma map_rebase_rebase d1 d2 (ls : list page_loc) :
    map (rebase d2) (map (rebase d1) ls) = map (rebase (d1 + d2)) ls.
  Proof.
    rewrite map_map. apply map_ext. intros [o s r]. unfold rebase; cbn. f_equal. lia.
  Qed.

  Lemma load_copied_chunk_valid src m :
    valid_layout src m ->
    exists cc, load_copied_chunk m = Some cc /\
      cc_data_offset cc = sc_data_offset m /\ cc_data_length cc = data_length m /\
      cc_locs cc = map (rebase (- sc_data_offset m)) (sc_locs m) /\
      cc_dict_offset cc = sc_dict_offset m /\
      cc_dict_length cc = (if Z.eqb (sc_dict_offset m) 0 then 0 else sc_data_offset m - sc_dict_offset m).
  Proof.
    intros (H1 & H2 & H3 & H4 & H5 & H6). unfold load_copied_chunk, data_length in *.
    destruct (Z.eqb (sc_dict_offset m) 0) eqn:E.
    - apply Z.eqb_eq in E. eexists. split; [reflexivity|]. cbn. repeat split; auto.
    - apply Z.eqb_neq in E. specialize (H3 E).
      replace (Z.ltb (sc_data_offset m - sc_dict_offset m) 0) with false by (symmetry; apply Z.ltb_ge; lia).
      replace (Z.ltb (sc_total_compressed m) (sc_data_offset m - sc_dict_offset m)) with false
        by (symmetry; apply Z.ltb_ge; lia).
      cbn. eexists. split; [reflexivity|]. cbn. repeat split; auto.
  Qed.

  Lemma append_slice_if off len (src out : list B) :
    (if 0 <? len then out ++ slice off len src else out) = out ++ slice off len src.
  Proof.
    destruct (Z.ltb_spec 0 len) as [H|H]; [reflexivity|].
    unfold slice. replace (Z.to_nat len) with 0%nat by lia. cbn. now rewrite app_nil_r.
  Qed.

  Lemma splice_chunk_sound src m cc out :
    valid_layout src m -> load_copied_chunk m = Some cc ->
    let '(out', p) := splice_chunk src out cc in
    (exists ext, out' = out ++ ext) /\ placed_ok src m out' p.
  Proof.
    intros Hv Hl. destruct (load_copied_chunk_valid src m Hv) as (cc' & Hl' & C1 & C2 & C3 & C4 & C5).
    rewrite Hl in Hl'. inversion Hl'; subst cc'. clear Hl'.
    destruct Hv as (H1 & H2 & H3 & H4 & H5 & H6).
    unfold splice_chunk. rewrite !append_slice_if, C1, C2, C3, C4, C5.
    set (dl := if Z.eqb (sc_dict_offset m) 0 then 0 else sc_data_offset m - sc_dict_offset m) in *.
    assert (Hdl : 0 <= dl /\ sc_dict_offset m + dl <= Z.of_nat (length src)).
    { unfold dl, data_length in *. destruct (Z.eqb_spec (sc_dict_offset m) 0) as [E|E]; [lia|].
      specialize (H3 E). lia. }
    set (out1 := out ++ slice (sc_dict_offset m) dl src).
    assert (Hlen1 : Z.of_nat (length out1) = Z.of_nat (length out) + dl).
    { unfold out1. rewrite app_length, slice_length by lia. lia. }
    split; [eexists; unfold out1; now rewrite <- app_assoc|].
    unfold placed_ok. cbn [p_locs p_data_page_offset p_dict_page_offset].
    split; [|split].
    - rewrite map_rebase_rebase. f_equal. f_equal. lia.
    - rewrite Forall_forall in H6 |- *. intros l Hin. destruct (H6 l Hin) as (L1 & L2 & L3). split.
      + rewrite app_length, slice_length by lia. lia.
      + replace (pl_offset l + (Z.of_nat (length out1) - sc_data_offset m))
          with (Z.of_nat (length out1) + (pl_offset l - sc_data_offset m)) by lia.
        rewrite slice_app_r by lia. rewrite slice_slice by lia. f_equal. lia.
    - intros Hne Hlt.
      assert (Edl : dl = sc_data_offset m - sc_dict_offset m).
      { unfold dl. destruct (Z.eqb_spec (sc_dict_offset m) 0); [congruence|reflexivity]. }
      rewrite <- Edl. replace (Z.ltb 0 dl) with true by (symmetry; apply Z.ltb_lt; lia).
      split; [lia|]. rewrite slice_app_l by lia. unfold out1.
      replace (Z.of_nat (length out)) with (Z.of_nat (length out) + 0) at 1 by lia.
      rewrite slice_app_r by lia.
      unfold slice at 1. cbn [Z.to_nat skipn]. rewrite firstn_all2; [reflexivity|].
      rewrite slice_length by lia. lia.
  Qed.

  (* what holds of a column in an output still holds after more bytes are appended *)
  Lemma placed_ok_extend src m out p ext :
    Forall (fun l => 0 <= pl_size l /\ 0 <= pl_offset l + (p_data_page_offset p - sc_data_offset m)) (sc_locs m) ->
    0 <= p_dict_page_offset p -> p_data_page_offset p <= Z.of_nat (length out) ->
    placed_ok src m out p -> placed_ok src m (out ++ ext) p.
  Proof.
    intros Hpos Hd0 Hdp (P1 & P2 & P3). unfold placed_ok. split; [exact P1|]. split.
    - rewrite Forall_forall in *. intros l Hin. destruct (P2 l Hin) as [Q1 Q2].
      destruct (Hpos l Hin) as [Q3 Q4]. split.
      + rewrite app_length. lia.
      + rewrite slice_app_l by lia. exact Q2.
    - intros Hne Hlt. destruct (P3 Hne Hlt) as [Q1 Q2]. split; [exact Q1|].
      rewrite slice_app_l by lia. exact Q2.
  Qed.

  Theorem splice_chunks_sound : forall (cols : list (list B * src_chunk)) (ccs : list (list B * copied)) out,
    Forall2 (fun sm sc => fst sc = fst sm /\ valid_layout (fst sm) (snd sm) /\
                          load_copied_chunk (snd sm) = Some (snd sc)) cols ccs ->
    let '(out', ps) := splice_chunks out ccs in
    (exists ext, out' = out ++ ext) /\
    Forall2 (fun sm p => placed_ok (fst sm) (snd sm) out' p) cols ps.
  Proof.
    induction cols as [|[src m] cols IH]; intros ccs out HF; inversion HF as [|? [src' cc] ? ccs' Hhd Htl]; subst.
    - cbn. split; [exists []; now rewrite app_nil_r|constructor].
    - cbn [fst snd] in Hhd. destruct Hhd as (-> & Hv & Hl).
      cbn [splice_chunks].
      pose proof (splice_chunk_sound src m cc out Hv Hl) as Hone.
      destruct (splice_chunk src out cc) as [out1 p] eqn:E1.
      destruct Hone as [[e1 He1] Hp].
      specialize (IH ccs' out1 Htl).
      destruct (splice_chunks out1 ccs') as [out2 ps] eqn:E2.
      destruct IH as [[e2 He2] Hps].
      split; [exists (e1 ++ e2); subst; now rewrite app_assoc|].
      constructor; [|exact Hps]. cbn [fst snd]. subst out2.
      (* the first column's claims survive the later appends *)
      assert (Hdpo : p_data_page_offset p <= Z.of_nat (length out1) /\ 0 <= p_dict_page_offset p).
      { unfold splice_chunk in E1. inversion E1; subst; cbn.
        destruct (Z.ltb 0 (cc_data_length cc)); [rewrite app_length|];
          destruct (Z.ltb 0 (cc_dict_length cc)); lia. }
      destruct Hdpo as [Hdpo Hd0].
      apply placed_ok_extend; auto.
      destruct (load_copied_chunk_valid src m Hv) as (cc' & Hl' & C1 & C2 & C3 & C4 & C5).
      destruct Hv as (H1 & H2 & H3 & H4 & H5 & H6).
      rewrite Forall_forall in H6 |- *. intros l Hin. destruct (H6 l Hin) as (L1 & L2 & L3).
      split; [exact L2|].
      assert (0 <= p_data_page_offset p).
      { unfold splice_chunk in E1. inversion E1; subst; cbn. lia. }
      lia.
  Qed.
End Proofs.

(** The oracle's shortcut [rebased_offsets] computes what [splice_chunk]
    records, when the source file holds the dictionary page. *)
Lemma rebased_offsets_spec (B : Type) (src out : list B) m cc :
  valid_layout B src m -> load_copied_chunk m = Some cc ->
  rebased_offsets m (Z.of_nat (length out)) =
  let p := snd (splice_chunk src out cc) in
  Some (p_dict_page_offset p, p_data_page_offset p, map pl_offset (p_locs p)).
Proof.
  intros Hv Hl. unfold rebased_offsets. rewrite Hl.
  destruct (load_copied_chunk_valid B src m Hv) as (cc' & Hl' & C1 & C2 & C3 & C4 & C5).
  rewrite Hl in Hl'. inversion Hl'; subst cc'. clear Hl'.
  destruct Hv as (H1 & H2 & H3 & H4 & H5 & H6).
  unfold splice_chunk. cbn [snd p_dict_page_offset p_data_page_offset p_locs].
  assert (Hlen : Z.ltb 0 (cc_dict_length cc) = true ->
                 Z.of_nat (length (out ++ slice (cc_dict_offset cc) (cc_dict_length cc) src))
                 = Z.of_nat (length out) + cc_dict_length cc).
  { intro E. apply Z.ltb_lt in E.
    assert (Q1 : 0 <= cc_dict_offset cc) by (rewrite C4; lia).
    assert (Q2 : cc_dict_offset cc + cc_dict_length cc <= Z.of_nat (length src)).
    { rewrite C4. rewrite C5 in E |- *. unfold data_length in *.
      destruct (Z.eqb (sc_dict_offset m) 0) eqn:E0; [lia|]. apply Z.eqb_neq in E0. specialize (H3 E0). lia. }
    rewrite app_length, slice_length by lia. lia. }
  destruct (Z.ltb 0 (cc_dict_length cc)) eqn:E.
  - rewrite (Hlen eq_refl). rewrite map_map. reflexivity.
  - rewrite map_map. reflexivity.
Qed.
