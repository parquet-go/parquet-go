(** C17 — the bloom filter location carried by the live column chunk metadata
    of a ColumnWriter (writer.go: ColumnWriter.columnChunk.MetaData
    .BloomFilterOffset / BloomFilterLength, ColumnWriter.filter), over the row
    groups of several lives.  No proofs here (Reset/BloomLocProofs.v).

    A row group reaches a column writer that has a filter configured in one of
    two ways:
      - [Built n]: the rows went through the column writer; flushFilterPages
        sizes the filter from n values (the entries of the dictionary, or
        NumValues after a fallback / without dictionary); a filter of size 0
        (n = 0: an optional dictionary column holding only nulls) is not
        written and nothing is recorded (writer.go writeRowGroup: the location
        is assigned only when len(c.filter) > 0);
      - [Copied len]: writer_copy.go loadCopiedChunk / writeRowGroup: the chunk
        of a file row group is streamed verbatim, its filter of [len] bytes
        with it; the location is recorded, ColumnWriter.filter stays empty.
    After every row group ColumnWriter.reset runs; Writer.Reset runs it too. *)
From Coq Require Import List NArith Bool.
Import ListNotations.
Local Open Scope N_scope.

Inductive rgop := Built (n : N) | Copied (len : N).

Record bstate := mk_bstate {
  b_filter : N;          (* len(c.filter) *)
  b_loc : N * N }.       (* BloomFilterOffset, BloomFilterLength of the live metadata *)

Definition bnew : bstate := mk_bstate 0 (0, 0).

(* SplitBlockFilter.Size: 32-byte blocks, none for no value *)
Definition filter_size (bits n : N) : N := 32 * ((n * bits + 255) / 256).

(* the row group: what the footer records for the chunk, and the state after *)
Definition brow_group (bits off : N) (s : bstate) (o : rgop) : (N * N) * bstate :=
  match o with
  | Built n =>
      let sz := filter_size bits n in
      if sz =? 0 then (b_loc s, mk_bstate 0 (b_loc s))
      else ((off, sz), mk_bstate sz (off, sz))
  | Copied len => ((off, len), mk_bstate (b_filter s) (off, len))
  end.

(* ColumnWriter.reset *)
Definition breset (s : bstate) : bstate := mk_bstate 0 (0, 0).

(* a reset that forgets the location together with the filter it truncates *)
Definition breset_pinned (s : bstate) : bstate :=
  if b_filter s =? 0 then s else mk_bstate 0 (0, 0).

(* the row groups of one file: each at its own offset [off i]; reset after each *)
Fixpoint blife (rs : bstate -> bstate) (bits : N) (s : bstate) (rgs : list (N * rgop)) : list (N * N) * bstate :=
  match rgs with
  | [] => ([], s)
  | (off, o) :: t =>
      let '(loc, s1) := brow_group bits off s o in
      let '(locs, s2) := blife rs bits (rs s1) t in
      (loc :: locs, s2)
  end.

(* what a row group records on its own *)
Definition own_loc (bits : N) (x : N * rgop) : N * N :=
  match snd x with
  | Built n => if filter_size bits n =? 0 then (0, 0) else (fst x, filter_size bits n)
  | Copied len => (fst x, len)
  end.

(* which row groups of a file record a filter *)
Definition has_filter (bits : N) (x : N * rgop) : bool := negb (snd (own_loc bits x) =? 0).
