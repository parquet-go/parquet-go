(** C17 — proofs about Reset/Model.v: the simulation "equal on everything but
    scratch and retained capacity", reset establishes it against a fresh
    writer, key/value sorting is independent of the map order. *)
From Coq Require Import List NArith Bool Lia Permutation Sorted.
From PQ Require Import Base.Insertion Reset.Model.
Import ListNotations.
Open Scope N_scope.

Definition slot_empty (s : capslot) : Prop :=
  rg_cols (cp_rg s) = [] /\ cp_ci s = [] /\ cp_oi s = [].

Definition caps_ok (caps : list capslot) : Prop := Forall slot_empty caps.

Lemma slot_zero_empty : slot_empty slot_zero.
Proof. repeat split. Qed.

Lemma hd_empty : forall caps, caps_ok caps -> slot_empty (hd slot_zero caps).
Proof. intros [|s t] H; cbn; [apply slot_zero_empty | inversion H; auto]. Qed.

Lemma tl_ok : forall caps, caps_ok caps -> caps_ok (tl caps).
Proof. intros [|s t] H; cbn; [constructor | inversion H; auto]. Qed.

Lemma zip_slots_ok : forall r c o, caps_ok (zip_slots r c o).
Proof.
  induction r as [|r rt IH]; intros [|c ct] [|o ot]; cbn; try constructor.
  - repeat split.
  - apply IH.
Qed.

Section Proofs.
  Variable encode : enc -> list N -> list N -> list N.

  Notation lflush_core := (lflush_core encode).
  Notation lflush := (lflush encode).
  Notation lwrite := (lwrite encode).
  Notation lclose := (lclose encode).
  Notation lstep_gen := (lstep_gen encode).
  Notation step_gen := (step_gen encode).
  Notation step := (step encode).
  Notation run := (run encode).
  Notation reset := (reset encode).
  Notation col_flush_page := (col_flush_page encode).
  Notation col_write := (col_write encode).

  (** the flush reads a retained element only through the three inner slices *)
  Lemma lflush_core_slot : forall f l s1 s2,
    slot_empty s1 -> slot_empty s2 -> lflush_core f l s1 = lflush_core f l s2.
  Proof.
    intros f l [r1 c1 o1] [r2 c2 o2] (Hr1 & Hc1 & Ho1) (Hr2 & Hc2 & Ho2).
    cbn in *. subst. unfold Model.lflush_core. cbn. rewrite Hr1, Hr2. reflexivity.
  Qed.

  Definition psim (p1 p2 : lstate * list capslot) : Prop :=
    fst p1 = fst p2 /\ caps_ok (snd p1) /\ caps_ok (snd p2).

  Lemma lflush_psim : forall f p1 p2, psim p1 p2 -> psim (lflush f p1) (lflush f p2).
  Proof.
    intros f [l1 c1] [l2 c2] (Hl & H1 & H2). cbn in Hl. subst l2.
    unfold Model.lflush. cbn [fst snd].
    rewrite (lflush_core_slot f l1 (hd slot_zero c1) (hd slot_zero c2)) by (apply hd_empty; assumption).
    destruct (lflush_core f l1 (hd slot_zero c2)) as [l' u].
    split; [reflexivity|]. cbn [snd].
    destruct u; split; auto using tl_ok.
  Qed.

  Lemma lwrite_psim : forall fuel p1 p2 rows, psim p1 p2 -> psim (lwrite fuel p1 rows) (lwrite fuel p2 rows).
  Proof.
    induction fuel as [|f IH]; intros p1 p2 rows H; cbn; [assumption|].
    destruct rows as [|r rt]; [assumption|].
    destruct H as (Hl & H1 & H2). rewrite <- Hl.
    destruct (cf_max_rows (l_cfg (fst p1)) - l_numrows (fst p1) =? 0).
    - apply IH. apply lflush_psim. repeat split; assumption.
    - apply IH. repeat split; assumption.
  Qed.

  Lemma lclose_psim : forall p1 p2, psim p1 p2 -> psim (lclose p1) (lclose p2).
  Proof.
    intros p1 p2 (Hl & H1 & H2). unfold Model.lclose. rewrite <- Hl.
    set (l := set_cols_numrows (fst p1) _ _).
    destruct (l_broken l && (l_off l =? 0)); [repeat split; assumption|].
    assert (P : psim (lflush None (lheader l, snd p1)) (lflush None (lheader l, snd p2)))
      by (apply lflush_psim; repeat split; assumption).
    destruct (lflush None (lheader l, snd p1)) as [la ca], (lflush None (lheader l, snd p2)) as [lb cb].
    destruct P as (E & Ha & Hb). cbn in E, Ha, Hb. subst lb.
    destruct (l_broken la); [repeat split; assumption|].
    destruct (emit_cindexes 0 (l_rgs la) (l_cidx la) (l_off la)) as [[cevs rgs1] off1].
    destruct (emit_oindexes 0 rgs1 (l_oidx la) off1) as [[oevs rgs2] off2].
    repeat split; assumption.
  Qed.

  Lemma reset_caps_psim : forall lr p1 p2, psim p1 p2 -> psim (reset_caps lr p1) (reset_caps lr p2).
  Proof.
    intros lr p1 p2 (Hl & H1 & H2). unfold reset_caps. rewrite <- Hl.
    repeat split; cbn [snd]; apply Forall_app; split; auto; apply zip_slots_ok.
  Qed.

  Lemma lstep_psim : forall lr o p1 p2, psim p1 p2 -> psim (lstep_gen lr p1 o) (lstep_gen lr p2 o).
  Proof.
    intros lr o p1 p2 H. destruct o; cbn.
    - apply lwrite_psim, H.
    - apply lflush_psim, H.
    - apply lclose_psim, H.
    - apply reset_caps_psim, H.
    - apply lflush_psim, lwrite_psim, H.
    - exact H.
    - apply lflush_psim, lwrite_psim, lflush_psim, H.
    - destruct H as (Hl & H1 & H2). rewrite <- Hl. repeat split; assumption.
  Qed.

  Definition sim (s1 s2 : state) : Prop := psim (st_l s1, st_caps s1) (st_l s2, st_caps s2).

  Lemma step_pair : forall lr s o,
    (st_l (step_gen lr s o), st_caps (step_gen lr s o)) = lstep_gen lr (st_l s, st_caps s) o.
  Proof. intros lr s o. unfold Model.step_gen. destruct (lstep_gen lr _ o). reflexivity. Qed.

  Lemma step_sim : forall lr o s1 s2, sim s1 s2 -> sim (step_gen lr s1 o) (step_gen lr s2 o).
  Proof. intros lr o s1 s2 H. unfold sim. rewrite !step_pair. apply lstep_psim, H. Qed.

  Lemma run_sim : forall ops s1 s2, sim s1 s2 -> sim (run s1 ops) (run s2 ops).
  Proof.
    induction ops as [|o t IH]; intros s1 s2 H; cbn; [assumption|].
    apply IH. apply step_sim, H.
  Qed.

  Lemma sim_observe : forall s1 s2, sim s1 s2 -> observe s1 = observe s2.
  Proof. intros s1 s2 (H & _). cbn in H. unfold observe. now rewrite H. Qed.

  Lemma sim_refl : forall s, caps_ok (st_caps s) -> sim s s.
  Proof. intros s H; repeat split; assumption. Qed.

  Lemma run_caps_ok : forall ops s, caps_ok (st_caps s) -> caps_ok (st_caps (run s ops)).
  Proof. intros ops s H. apply (run_sim ops s s (sim_refl s H)). Qed.

  Definition col_ok (encrypted : bool) (c : col) : Prop :=
    c_path c = cc_path (c_cfg c)
    /\ (c_switched c = false -> c_enc c = enc0 (c_cfg c))
    /\ (encrypted = false -> c_ordinal c = 0)
    /\ c_plain c = [].

  Definition cols_ok (encrypted : bool) (ccs : list colcfg) (cols : list col) : Prop :=
    Forall (col_ok encrypted) cols /\ map c_cfg cols = ccs.

  Lemma cols_ok_map : forall e ccs cols f,
    (forall c, col_ok e c -> col_ok e (f c) /\ c_cfg (f c) = c_cfg c) ->
    cols_ok e ccs cols -> cols_ok e ccs (map f cols).
  Proof.
    intros e ccs cols f Hf (HF & HM). split.
    - apply Forall_map. eapply Forall_impl; [|exact HF]. intros c Hc. apply Hf, Hc.
    - rewrite map_map. rewrite <- HM. apply map_ext_in. intros c Hin.
      apply Hf. rewrite Forall_forall in HF. auto.
  Qed.

  Lemma col_add_rows_ok : forall e c rows, col_ok e c ->
    col_ok e (col_add_rows c rows) /\ c_cfg (col_add_rows c rows) = c_cfg c.
  Proof. intros e [cc p en sw o a pl] rows H. cbn in *. auto. Qed.

  Lemma col_flush_page_ok : forall e e' c, col_ok e c ->
    col_ok e (col_flush_page e' c) /\ c_cfg (col_flush_page e' c) = c_cfg c.
  Proof.
    intros e e' [cc p en sw o a pl] (Hp & He & Ho & Hl). unfold Model.col_flush_page. cbn in *.
    destruct (a_buffer a); [repeat split; auto|].
    match goal with |- context [if ?b then _ else _] => destruct b eqn:Hb end; cbn.
    - repeat split; auto. discriminate.
    - repeat split; auto.
  Qed.

  Lemma col_write_ok : forall e e' pr c rows, col_ok e c ->
    col_ok e (col_write e' pr c rows) /\ c_cfg (col_write e' pr c rows) = c_cfg c.
  Proof.
    intros e e' pr c rows H. unfold Model.col_write.
    destruct (col_add_rows_ok e c rows H) as (H1 & E1).
    destruct (pr <=? _); [|auto].
    destruct (col_flush_page_ok e e' _ H1) as (H2 & E2). split; [auto|congruence].
  Qed.

  Lemma col_reset_ok : forall e c, col_ok e c -> col_ok e (col_reset c) /\ c_cfg (col_reset c) = c_cfg c.
  Proof.
    intros e [cc p en sw o a pl] (Hp & He & Ho & Hl). cbn in *. repeat split; auto.
    intros _. destruct sw; auto.
  Qed.

  Lemma set_ordinal_ok : forall e o c, col_ok e c ->
    col_ok e (set_ordinal e o c) /\ c_cfg (set_ordinal e o c) = c_cfg c.
  Proof.
    intros e o [cc p en sw od a pl] (Hp & He & Ho & Hl). cbn in *. repeat split; auto.
    intros E. rewrite E. auto.
  Qed.

  Lemma col_next_rg_ok : forall e o c, col_ok e c ->
    col_ok e (col_next_rg e o c) /\ c_cfg (col_next_rg e o c) = c_cfg c.
  Proof.
    intros e o c H. destruct (col_reset_ok e c H) as ((Hp & He & Ho & Hl) & E).
    unfold col_next_rg. cbn. repeat split; auto.
    intros E'. rewrite E'. auto.
  Qed.

  (** invariant of the logical state: the construction-time part is that of
      the configuration [cfg] and of the configured metadata [md] *)
  Definition linv (cfg : config) (md : list (N * N)) (l : lstate) : Prop :=
    l_cfg l = cfg /\ l_cfgmd l = md /\ cols_ok (cf_encrypted cfg) (cf_cols cfg) (l_cols l).

  Lemma lflush_core_inv : forall cfg md f l slot, linv cfg md l -> linv cfg md (fst (lflush_core f l slot)).
  Proof.
    intros cfg md f l slot (Hc & Hm & Hk). unfold Model.lflush_core.
    destruct (l_cols l) as [|c0 ct] eqn:Ecols; [cbn; repeat split; try assumption; rewrite Ecols; apply Hk|].
    destruct (a_numrows (c_acc c0) + nlen (a_buffer (c_acc c0)) =? 0);
      [cbn; repeat split; try assumption; rewrite Ecols; apply Hk|].
    rewrite <- Ecols in *. rewrite Hc.
    set (cols1 := map _ (l_cols l)).
    assert (K1 : cols_ok (cf_encrypted cfg) (cf_cols cfg) cols1).
    { apply cols_ok_map; [|exact Hk]. intros c Hcok.
      destruct (set_ordinal_ok (cf_encrypted cfg) (nlen (l_rgs l)) c Hcok) as (A & B).
      destruct (col_flush_page_ok (cf_encrypted cfg) (cf_encrypted cfg) _ A) as (C & D).
      split; [exact C|congruence]. }
    destruct (emit_cols _ _ _ _) as [[[evs ms] locs] off2].
    destruct (emit_blooms _ _ _ _ _) as [[bevs ms'] off3].
    assert (K2 : forall o, cols_ok (cf_encrypted cfg) (cf_cols cfg) (map (col_next_rg (cf_encrypted cfg) o) cols1)).
    { intros o. apply cols_ok_map; [|exact K1]. intros c Hcok. apply col_next_rg_ok, Hcok. }
    destruct (l_broken l); [|destruct f]; cbn; (split; [reflexivity|split; [assumption|apply K2]]).
  Qed.

  Lemma lheader_linv : forall cfg md l, linv cfg md l -> linv cfg md (lheader l).
  Proof. intros cfg md l H. unfold lheader. destruct (l_off l =? 0); cbn; auto. Qed.

  Lemma lreset_linv : forall cfg md l, linv cfg md l -> linv cfg md (lreset l).
  Proof.
    intros cfg md l (Hc & Hm & Hk). split; [|split]; cbn; auto. rewrite Hc.
    apply cols_ok_map; [|exact Hk]. intros c Hcok.
    destruct (col_reset_ok _ c Hcok) as (A & B).
    destruct (set_ordinal_ok (cf_encrypted cfg) 0 _ A) as (C & D). split; [exact C|congruence].
  Qed.

  Definition is_setkv (o : op) : bool := match o with SetKV _ _ => true | _ => false end.
  Definition no_footer (e : event) : Prop := match e with EvFooter _ => False | _ => True end.

  Definition footer_kv (md : list (N * N)) (e : event) : Prop :=
    match e with EvFooter f => ft_kv f = md | _ => True end.

  Lemma no_footer_kv : forall md evs, Forall no_footer evs -> Forall (footer_kv md) evs.
  Proof. intros md evs H. eapply Forall_impl; [|exact H]. intros [] Hn; cbn in *; auto; contradiction. Qed.

  Lemma emit_cols_no_footer : forall e cols ci off evs ms ls off2,
    emit_cols e ci cols off = (evs, ms, ls, off2) -> Forall no_footer evs.
  Proof.
    induction cols as [|c t IH]; intros ci off evs ms ls off2 H; cbn in H; [inversion H; constructor|].
    destruct (emit_cols e (S ci) t _) as [[[evs1 ms1] ls1] off1] eqn:E. inversion H; subst.
    apply Forall_app; split; [|exact (IH _ _ _ _ _ _ E)].
    apply Forall_app; split; [destruct (cc_dict (c_cfg c)); repeat constructor|].
    apply Forall_map. apply Forall_forall. intros; exact I.
  Qed.

  Lemma emit_blooms_no_footer : forall e cols ms ci off evs ms' off',
    emit_blooms e ci cols ms off = (evs, ms', off') -> Forall no_footer evs.
  Proof.
    induction cols as [|c t IH]; intros ms ci off evs ms' off' H; cbn in H; [inversion H; constructor|].
    destruct ms as [|m mt]; [inversion H; constructor|].
    destruct (cc_bloom (c_cfg c));
      destruct (emit_blooms e (S ci) t mt _) as [[evs1 ms1] off1] eqn:E; inversion H; subst;
      [constructor; [exact I|]|]; exact (IH _ _ _ _ _ _ E).
  Qed.

  Lemma emit_ci_cols_no_footer : forall rgi ms idx ci off evs ms' off',
    emit_ci_cols rgi ci ms idx off = (evs, ms', off') -> Forall no_footer evs.
  Proof.
    induction ms as [|m mt IH]; intros idx ci off evs ms' off' H; cbn in H; [inversion H; constructor|].
    destruct idx as [|p pt]; [inversion H; constructor|].
    destruct p as [|x xt];
      destruct (emit_ci_cols rgi (S ci) mt pt _) as [[evs1 ms1] off1] eqn:E; inversion H; subst;
      [|constructor; [exact I|]]; exact (IH _ _ _ _ _ _ E).
  Qed.

  Lemma emit_cindexes_no_footer : forall rgs idx rgi off evs rs off',
    emit_cindexes rgi rgs idx off = (evs, rs, off') -> Forall no_footer evs.
  Proof.
    induction rgs as [|r rt IH]; intros idx rgi off evs rs off' H; cbn in H; [inversion H; constructor|].
    destruct idx as [|i it]; [inversion H; constructor|].
    destruct (emit_ci_cols rgi 0 (rg_cols r) i off) as [[evs1 ms] off1] eqn:E1.
    destruct (emit_cindexes (S rgi) rt it off1) as [[evs2 rs2] off2] eqn:E2. inversion H; subst.
    apply Forall_app; split; [exact (emit_ci_cols_no_footer _ _ _ _ _ _ _ _ E1)|exact (IH _ _ _ _ _ _ E2)].
  Qed.

  Lemma emit_oi_cols_no_footer : forall rgi ms idx ci off evs ms' off',
    emit_oi_cols rgi ci ms idx off = (evs, ms', off') -> Forall no_footer evs.
  Proof.
    induction ms as [|m mt IH]; intros idx ci off evs ms' off' H; cbn in H; [inversion H; constructor|].
    destruct idx as [|p pt]; [inversion H; constructor|].
    destruct (emit_oi_cols rgi (S ci) mt pt _) as [[evs1 ms1] off1] eqn:E. inversion H; subst.
    constructor; [exact I|exact (IH _ _ _ _ _ _ E)].
  Qed.

  Lemma emit_oindexes_no_footer : forall rgs idx rgi off evs rs off',
    emit_oindexes rgi rgs idx off = (evs, rs, off') -> Forall no_footer evs.
  Proof.
    induction rgs as [|r rt IH]; intros idx rgi off evs rs off' H; cbn in H; [inversion H; constructor|].
    destruct idx as [|i it]; [inversion H; constructor|].
    destruct (emit_oi_cols rgi 0 (rg_cols r) i off) as [[evs1 ms] off1] eqn:E1.
    destruct (emit_oindexes (S rgi) rt it off1) as [[evs2 rs2] off2] eqn:E2. inversion H; subst.
    apply Forall_app; split; [exact (emit_oi_cols_no_footer _ _ _ _ _ _ _ _ E1)|exact (IH _ _ _ _ _ _ E2)].
  Qed.

  (** A predicate [P] of the logical state holds along every run if the
      row-group flush, column-wise updates that respect [col_ok], the header,
      the footer, Reset and (unless the run has none) SetKeyValueMetadata keep it. *)
  Lemma lflush_fst : forall f p, fst (lflush f p) = fst (lflush_core f (fst p) (hd slot_zero (snd p))).
  Proof. intros f p. unfold Model.lflush. destruct (lflush_core f (fst p) _). reflexivity. Qed.

  Section Lift.
    Variable P : lstate -> Prop.
    Hypothesis P_flush : forall f l slot, P l -> P (fst (lflush_core f l slot)).
    Hypothesis P_cols : forall l g n,
      (forall e c, col_ok e c -> col_ok e (g c) /\ c_cfg (g c) = c_cfg c) ->
      P l -> P (set_cols_numrows l (map g (l_cols l)) n).
    Hypothesis P_header : forall l, P l -> P (lheader l).
    Hypothesis P_footer : forall l cevs oevs rgs off,
      P l -> Forall no_footer cevs -> Forall no_footer oevs ->
      P (mk_lstate (l_cfg l) (l_cfgmd l) (l_cols l) (l_numrows l) rgs (l_cidx l) (l_oidx l) (l_md l) off
           (l_out l ++ cevs ++ oevs ++ [EvFooter (mk_footer (total_rows rgs) rgs (l_md l) (cf_created_by (l_cfg l)))])
           false).
    Hypothesis P_reset : forall l, P l -> P (lreset l).

    Lemma lflush_lift : forall f p, P (fst p) -> P (fst (lflush f p)).
    Proof. intros f p H. rewrite lflush_fst. apply P_flush, H. Qed.

    Lemma lwrite_lift : forall fuel p rows, P (fst p) -> P (fst (lwrite fuel p rows)).
    Proof.
      induction fuel as [|f IH]; intros p rows H; cbn; [assumption|].
      destruct rows as [|r rt]; [assumption|].
      destruct (_ =? 0); apply IH; [apply lflush_lift, H|].
      cbn [fst]. apply P_cols; [|exact H]. intros e c Hc. apply col_write_ok, Hc.
    Qed.

    Lemma lclose_lift : forall p, P (fst p) -> P (fst (lclose p)).
    Proof.
      intros p H. unfold Model.lclose.
      set (l0 := set_cols_numrows (fst p) _ _).
      assert (H0 : P l0) by (apply P_cols; [intros e c Hc; apply col_flush_page_ok, Hc|exact H]).
      destruct (l_broken l0 && (l_off l0 =? 0)); [exact H0|].
      pose proof (lflush_lift None (lheader l0, snd p) (P_header _ H0)) as H1.
      destruct (lflush None (lheader l0, snd p)) as [l1 c1]. cbn [fst] in H1.
      destruct (l_broken l1); [exact H1|].
      destruct (emit_cindexes _ _ _ _) as [[cevs rgs1] off1] eqn:E1.
      destruct (emit_oindexes _ _ _ _) as [[oevs rgs2] off2] eqn:E2.
      apply P_footer; [exact H1|exact (emit_cindexes_no_footer _ _ _ _ _ _ _ E1)|exact (emit_oindexes_no_footer _ _ _ _ _ _ _ E2)].
    Qed.

    Lemma lstep_lift : forall o p,
      is_setkv o = false \/ (forall l md, P l -> P (set_md l md)) ->
      P (fst p) -> P (fst (lstep_gen lreset p o)).
    Proof.
      intros o p Hkv H. destruct o; cbn.
      - apply lwrite_lift, H.
      - apply lflush_lift, H.
      - apply lclose_lift, H.
      - apply P_reset, H.
      - apply lflush_lift, lwrite_lift, H.
      - exact H.
      - apply lflush_lift, lwrite_lift, lflush_lift, H.
      - destruct Hkv as [Hkv|Hkv]; [discriminate|]. apply Hkv, H.
    Qed.

    Lemma run_lift : forall ops s,
      existsb is_setkv ops = false \/ (forall l md, P l -> P (set_md l md)) ->
      P (st_l s) -> P (st_l (run s ops)).
    Proof.
      induction ops as [|o t IH]; intros s Hkv H; cbn; [assumption|].
      assert (Hkv' : (is_setkv o = false /\ existsb is_setkv t = false) \/ (forall l md, P l -> P (set_md l md))).
      { destruct Hkv as [Hkv|Hkv]; [left|right; exact Hkv]. cbn in Hkv. apply orb_false_iff, Hkv. }
      apply IH; [tauto|].
      unfold Model.step. change (st_l (step_gen lreset s o)) with (fst (st_l (step_gen lreset s o), st_caps (step_gen lreset s o))).
      rewrite step_pair. apply lstep_lift; [tauto|exact H].
    Qed.
  End Lift.

  Definition sinv (cfg : config) (md : list (N * N)) (s : state) : Prop := linv cfg md (st_l s).

  Lemma run_sinv : forall cfg md ops s, sinv cfg md s -> sinv cfg md (run s ops).
  Proof.
    intros cfg md ops s. apply (run_lift (linv cfg md)); [| | | | |right].
    - apply lflush_core_inv.
    - intros l g n Hg (Hc & Hm & Hk). split; [|split]; auto. cbn. apply cols_ok_map; auto.
    - apply lheader_linv.
    - intros l cevs oevs rgs off (Hc & Hm & Hk) _ _. split; [|split]; auto.
    - apply lreset_linv.
    - intros l md' (Hc & Hm & Hk). split; [|split]; auto.
  Qed.

  Lemma init_sinv : forall cfg md, sinv cfg md (init cfg md).
  Proof.
    intros cfg md. split; [|split]; cbn; auto. split.
    - apply Forall_map. apply Forall_forall. intros cc _. repeat split.
    - rewrite map_map. cbn. apply map_id.
  Qed.

  (** reset returns every logical field to its initial value *)
  Lemma col_reset_init : forall e c, col_ok e c -> set_ordinal e 0 (col_reset c) = col_init (c_cfg c).
  Proof.
    intros e [cc p en sw o a pl] (Hp & He & Ho & Hl). cbn in *. unfold col_init, set_ordinal. cbn.
    rewrite Hp. f_equal.
    - destruct sw; auto.
    - destruct e; auto.
  Qed.

  Lemma lreset_init : forall cfg md l, linv cfg md l -> lreset l = linit cfg md.
  Proof.
    intros cfg md l (Hc & Hm & HF & HM). unfold lreset, lreset_with, linit. rewrite Hc, Hm. f_equal.
    rewrite <- HM, map_map. apply map_ext_in. intros c Hin.
    apply col_reset_init. rewrite Forall_forall in HF. auto.
  Qed.

  Lemma reset_sim_init : forall cfg md s, sinv cfg md s -> caps_ok (st_caps s) -> sim (reset s) (init cfg md).
  Proof.
    intros cfg md s Hi Hc.
    unfold Model.reset, Model.step, Model.step_gen. cbn.
    split; [|split]; cbn.
    - apply lreset_init; assumption.
    - apply Forall_app; split; [apply zip_slots_ok|exact Hc].
    - constructor.
  Qed.

  (** MAIN: whatever the previous life did (any operations, failed or
      abandoned content, dictionary fallback, SetKeyValueMetadata), after
      Reset the writer behaves as a fresh writer *)
  Theorem reset_equiv_init : forall cfg md h ops,
    observe (run (reset (run (init cfg md) h)) ops) = observe (run (init cfg md) ops).
  Proof.
    intros cfg md h ops. apply sim_observe, run_sim, reset_sim_init.
    - apply run_sinv, init_sinv.
    - apply run_caps_ok. constructor.
  Qed.

  Definition kvinv (md : list (N * N)) (l : lstate) : Prop :=
    l_cfgmd l = md /\ l_md l = md /\ Forall (footer_kv md) (l_out l).

  Lemma lflush_core_kv : forall md f l slot, kvinv md l -> kvinv md (fst (lflush_core f l slot)).
  Proof.
    intros md f l slot (Hc & Hm & Ho). unfold Model.lflush_core.
    destruct (l_cols l) as [|c0 ct]; [cbn; repeat split; assumption|].
    destruct (a_numrows (c_acc c0) + nlen (a_buffer (c_acc c0)) =? 0); [cbn; repeat split; assumption|].
    set (cols1 := map _ (c0 :: ct)).
    set (hdr := if l_off l =? 0 then [EvMagic] else []).
    destruct (emit_cols _ _ _ _) as [[[evs ms] locs] off2] eqn:E1.
    destruct (emit_blooms _ _ _ _ _) as [[bevs ms'] off3] eqn:E2.
    pose proof (emit_cols_no_footer _ _ _ _ _ _ _ _ E1) as H1.
    pose proof (emit_blooms_no_footer _ _ _ _ _ _ _ _ E2) as H2.
    assert (HA : Forall (footer_kv md) (hdr ++ evs ++ bevs)).
    { apply no_footer_kv. apply Forall_app; split; [subst hdr; destruct (l_off l =? 0); repeat constructor|].
      apply Forall_app; split; assumption. }
    destruct (l_broken l); [|destruct f]; cbn; repeat split; try assumption.
    - apply Forall_app; split; [assumption|]. unfold accepted.
      rewrite <- (firstn_skipn n (hdr ++ evs ++ bevs)) in HA. apply Forall_app in HA. apply HA.
    - apply Forall_app; split; assumption.
  Qed.

  (** a file written without SetKeyValueMetadata carries exactly the metadata
      list the writer was constructed with, in every footer *)
  Theorem footers_carry_metadata : forall cfg md ops,
    existsb is_setkv ops = false ->
    Forall (footer_kv md) (observe (run (init cfg md) ops)).
  Proof.
    intros cfg md ops Hk.
    assert (H : kvinv md (st_l (run (init cfg md) ops))); [|exact (proj2 (proj2 H))].
    apply (run_lift (kvinv md)); [| | | | |left; exact Hk|repeat split; constructor].
    - apply lflush_core_kv.
    - intros l g n _ H. exact H.
    - intros l (A & B & C). unfold lheader. destruct (l_off l =? 0); [|repeat split; assumption].
      repeat split; cbn; try assumption. apply Forall_app; split; [assumption|repeat constructor].
    - intros l cevs oevs rgs off (A & B & C) N1 N2. repeat split; cbn; try assumption.
      apply Forall_app; split; [assumption|].
      apply Forall_app; split; [apply no_footer_kv, N1|].
      apply Forall_app; split; [apply no_footer_kv, N2|].
      constructor; [cbn; exact B|constructor].
    - intros l (A & B & C). split; [exact A|split; [exact A|constructor]].
  Qed.
End Proofs.

Definition kv_le (a b : N * N) : Prop := kv_leb a b = true.

Lemma kv_leb_total : forall a b, kv_leb a b = true \/ kv_leb b a = true.
Proof.
  intros [a1 a2] [b1 b2]. unfold kv_leb. cbn.
  rewrite (N.compare_antisym a1 b1).
  destruct (a1 ?= b1) eqn:E; cbn; auto.
  rewrite !N.leb_le. lia.
Qed.

Lemma kv_leb_trans : forall a b c, kv_leb a b = true -> kv_leb b c = true -> kv_leb a c = true.
Proof.
  intros [a1 a2] [b1 b2] [c1 c2]. unfold kv_leb. cbn.
  destruct (a1 ?= b1) eqn:E1; destruct (b1 ?= c1) eqn:E2; try discriminate;
    try apply N.compare_eq in E1; try apply N.compare_eq in E2; subst;
    rewrite ?N.compare_lt_iff in *; intros H1 H2.
  - rewrite N.compare_refl. rewrite N.leb_le in *. lia.
  - rewrite (proj2 (N.compare_lt_iff _ _) E2). reflexivity.
  - rewrite (proj2 (N.compare_lt_iff _ _) E1). reflexivity.
  - assert (L : a1 < c1) by lia. rewrite (proj2 (N.compare_lt_iff _ _) L). reflexivity.
Qed.

Lemma kv_leb_antisym : forall a b, kv_leb a b = true -> kv_leb b a = true -> a = b.
Proof.
  intros [a1 a2] [b1 b2]. unfold kv_leb. cbn. rewrite (N.compare_antisym a1 b1).
  destruct (a1 ?= b1) eqn:E; cbn; try discriminate.
  apply N.compare_eq in E. subst. rewrite !N.leb_le. intros. f_equal. lia.
Qed.

Lemma kv_nleb : forall a b, kv_leb a b = false -> kv_le b a.
Proof. intros a b H. destruct (kv_leb_total a b); [congruence|assumption]. Qed.

Lemma sort_kv_perm : forall l, Permutation l (sort_kv l).
Proof.
  induction l as [|x t IH]; cbn; [auto|].
  rewrite <- (ins_perm kv_leb kv_insert (fun _ => eq_refl) (fun _ _ _ => eq_refl)). now constructor.
Qed.

Lemma sort_kv_sorted : forall l, StronglySorted kv_le (sort_kv l).
Proof.
  induction l; cbn; [constructor|].
  now apply (ins_sorted kv_leb kv_insert (fun _ => eq_refl) (fun _ _ _ => eq_refl) kv_le (fun _ _ H => H) kv_nleb kv_leb_trans).
Qed.

Lemma sorted_perm_unique : forall l1 l2,
  StronglySorted kv_le l1 -> StronglySorted kv_le l2 -> Permutation l1 l2 -> l1 = l2.
Proof.
  induction l1 as [|a t1 IH]; intros l2 H1 H2 P.
  - apply Permutation_nil in P. now subst.
  - destruct l2 as [|b t2]; [apply Permutation_sym, Permutation_nil in P; discriminate|].
    inversion H1 as [|? ? S1 F1]; inversion H2 as [|? ? S2 F2]; subst.
    assert (a = b).
    { assert (Ia : In a (b :: t2)) by (eapply Permutation_in; [exact P|left; reflexivity]).
      assert (Ib : In b (a :: t1)) by (eapply Permutation_in; [apply Permutation_sym, P|left; reflexivity]).
      rewrite Forall_forall in F1, F2.
      destruct Ia as [->|Ia]; [reflexivity|]. destruct Ib as [->|Ib]; [reflexivity|].
      apply kv_leb_antisym; [apply F1, Ib|apply F2, Ia]. }
    subst b. f_equal. apply IH; auto. eapply Permutation_cons_inv, P.
Qed.

(** the sorted metadata does not depend on the order in which the map was iterated *)
Theorem sort_kv_perm_eq : forall m1 m2, Permutation m1 m2 -> sort_kv m1 = sort_kv m2.
Proof.
  intros m1 m2 P. apply sorted_perm_unique; try apply sort_kv_sorted.
  eapply perm_trans; [apply Permutation_sym, sort_kv_perm|].
  eapply perm_trans; [exact P|apply sort_kv_perm].
Qed.
