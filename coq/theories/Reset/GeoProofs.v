(** C17 — proofs about Reset/Geo.v. *)
From Coq Require Import List NArith Sorted.
From PQ Require Import Reset.Geo.
Import ListNotations.

Lemma gacc_reset_new : forall a, gacc_reset a = gacc_new.
Proof. reflexivity. Qed.

(** every row group of a life gets the statistics of its own values, whatever
    the accumulator held when the life began (after a reset) *)
Lemma life_stats_own_values : forall rgs a,
  fst (life_stats (gacc_reset a) rgs) = map row_group_stats rgs.
Proof.
  induction rgs as [|vs r IH]; intros a; simpl; [reflexivity|].
  specialize (IH (gacc_values (gacc_reset a) vs)).
  destruct (life_stats (gacc_reset (gacc_values (gacc_reset a) vs)) r) as [out a'']; simpl in *.
  now rewrite IH, gacc_reset_new.
Qed.

(** history independence: the statistics of the row groups written after a
    reset do not depend on the earlier row groups and lives *)
Lemma life_stats_history_irrelevant : forall a h rgs,
  fst (life_stats (gacc_reset (snd (life_stats a h))) rgs)
  = fst (life_stats gacc_new rgs).
Proof.
  intros a h rgs. rewrite life_stats_own_values.
  change gacc_new with (gacc_reset gacc_new). now rewrite life_stats_own_values.
Qed.

(** the type list stays sorted without repetitions *)
Lemma insert_type_sorted : forall c l, StronglySorted N.lt l -> StronglySorted N.lt (insert_type c l).
Proof.
  intros c l H. induction H as [|x r Hr IH Hx]; simpl.
  - repeat constructor.
  - destruct (N.eqb c x) eqn:E; [constructor; assumption|].
    destruct (N.ltb c x) eqn:L.
    + apply N.ltb_lt in L. constructor; [constructor; assumption|].
      constructor; [assumption|]. eapply Forall_impl; [|exact Hx]. intros y Hy. eapply N.lt_trans; eassumption.
    + constructor; [assumption|].
      apply N.eqb_neq in E. apply N.ltb_ge in L.
      assert (Hlt : N.lt x c) by (apply N.le_neq; split; [assumption|congruence]).
      clear - Hx Hlt. induction r as [|y r IHr]; simpl.
      * repeat constructor. assumption.
      * inversion Hx; subst. destruct (N.eqb c y); [constructor; assumption|].
        destruct (N.ltb c y); constructor; try assumption; try (constructor; assumption).
        apply IHr. assumption.
Qed.
