(** C17 — proofs about Reset/BloomLoc.v. *)
From Coq Require Import List NArith.
From PQ Require Import Reset.BloomLoc.
Import ListNotations.
Local Open Scope N_scope.

Lemma brow_group_after_reset : forall bits off a o,
  fst (brow_group bits off (breset a) o) = own_loc bits (off, o).
Proof.
  intros bits off a o. destruct o as [n|len]; unfold own_loc, brow_group, breset; simpl; [|reflexivity].
  destruct (filter_size bits n =? 0); reflexivity.
Qed.

(** every row group of a life records its own location, whatever the column
    writer held when the life began (after a reset) *)
Lemma blife_own : forall bits rgs a,
  fst (blife breset bits (breset a) rgs) = map (own_loc bits) rgs.
Proof.
  induction rgs as [|[off o] t IH]; intros a; [reflexivity|].
  cbn [blife map].
  pose proof (brow_group_after_reset bits off a o) as H.
  destruct (brow_group bits off (breset a) o) as [loc s1]. simpl in H. subst loc.
  specialize (IH s1). destruct (blife breset bits (breset s1) t) as [locs s2]. simpl in *. now rewrite IH.
Qed.

(** history independence: earlier row groups and lives (verbatim copies
    included) leave nothing in the locations recorded after a reset *)
Lemma blife_history_irrelevant : forall bits a h rgs,
  fst (blife breset bits (breset (snd (blife breset bits a h))) rgs)
  = fst (blife breset bits (breset bnew) rgs).
Proof. intros. now rewrite !blife_own. Qed.
