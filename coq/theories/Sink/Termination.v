(** C14 — the fuelled loops of Sink/Model.v end by their own exit condition
    under the fault model (one short count at most): the answer given on fuel
    exhaustion is never produced. *)
From Coq Require Import List Arith Bool NArith Lia.
From Coq Require Import ZifyBool.
From PQ Require Import Sink.Model Sink.Layers Sink.Proofs.
Import ListNotations.
Open Scope N_scope.

Section Termination.
  Variable A : Type.

  Notation sink := (sink A).
  Notation bufw := (bufw A).
  Notation st := (st A).
  Notation nlen := (nlen A).

  (* rounds still possible: 2 per byte left, one for emptying a non-empty
     buffer, one for the pending short count *)
  Definition mu (s : sink) (b : bufw) (p : list A) : nat :=
    if is_err (b_err b) then 0
    else 2 * length p + (if b_n b =? 0 then 0 else 1) + (if s_fired s then 0 else 1).

  Lemma length_skipn_N : forall (n : N) (p : list A), n <= nlen p ->
    length (skipn (N.to_nat n) p) = (length p - N.to_nat n)%nat.
  Proof. intros. apply skipn_length. Qed.

  Lemma bufio_loop_exits : forall direct fuel (s : sink) (b : bufw) p nn s' b' p' nn',
    wf_sink A s -> wf_buf A b -> 1 <= b_size b -> (mu s b p < fuel)%nat ->
    bufio_loop A direct fuel s b p nn = (s', b', p', nn') ->
    is_err (b_err b') = true \/ nlen p' <= b_avail A b'.
  Proof.
    intros direct fuel. induction fuel as [|f IH]; intros s b p nn s' b' p' nn' Hs Hb Hsz Hmu H.
    - lia.
    - cbn [bufio_loop] in H.
      destruct ((b_avail A b <? nlen p) && negb (is_err (b_err b))) eqn:G.
      2:{ inversion H; subst; clear H. apply andb_false_iff in G. destruct G as [G|G].
          - right. lia.
          - left. now apply negb_false_iff in G. }
      apply andb_true_iff in G. destruct G as [G1 G2]. apply negb_true_iff in G2.
      assert (Hlen : (1 <= length p)%nat) by (unfold Model.nlen in G1; lia).
      unfold mu in Hmu. rewrite G2 in Hmu.
      destruct (direct && (b_n b =? 0)) eqn:D.
      + apply andb_true_iff in D. destruct D as [_ D]. rewrite D in Hmu.
        destruct (sink_write A s p) as [[s1 n] e1] eqn:Ew.
        pose proof (sink_write_spec A _ _ _ _ _ Hs Ew) as P.
        eapply IH in H; eauto.
        * apply (sw_wf _ _ _ _ _ _ P).
        * unfold mu. cbn [b_err b_n]. destruct (is_err e1) eqn:Ee; [lia|].
          apply is_err_none in Ee. subst e1. rewrite D.
          pose proof (sw_le _ _ _ _ _ _ P) as Hle.
          rewrite skipn_length.
          destruct (sw_full _ _ _ _ _ _ P eq_refl) as [Hn|(Hn&Hf0&Hf1)].
          -- unfold Model.nlen in Hn. destruct (s_fired s1); lia.
          -- rewrite Hf0 in Hmu. rewrite Hf1. lia.
      + set (n := N.min (b_avail A b) (nlen p)) in *.
        destruct (bufio_flush A s (b_push A b (firstn (N.to_nat n) p))) as [[s1 b2] e1] eqn:Ef.
        pose proof (bufio_flush_spec A _ _ _ _ _ Hs (b_push_wf A _ _ Hb) Ef) as P.
        eapply IH in H; eauto.
        * apply (fl_wfs _ _ _ _ _ _ P).
        * apply (fl_wfb _ _ _ _ _ _ P).
        * rewrite (fl_size _ _ _ _ _ _ P). cbn. exact Hsz.
        * unfold mu. rewrite (fl_err _ _ _ _ _ _ P).
          destruct (is_err e1) eqn:Ee; [lia|]. apply is_err_none in Ee. subst e1.
          destruct (fl_ok _ _ _ _ _ _ P eq_refl) as [_ Hn0]. rewrite Hn0. cbn [N.eqb].
          rewrite skipn_length.
          assert (Hfm : ((if s_fired s1 then 0 else 1) <= (if s_fired s then 0 else 1))%nat).
          { destruct (s_fired s) eqn:F; [rewrite (fl_fired _ _ _ _ _ _ P F); lia|destruct (s_fired s1); lia]. }
          assert (Hn : n = b_avail A b) by (unfold n; lia).
          destruct (b_n b =? 0) eqn:B0.
          -- assert (1 <= n) by (unfold b_avail in Hn; lia). unfold Model.nlen in *. lia.
          -- lia.
  Qed.

  (** Write/WriteString of the bufio.Writer never answer with the exhaustion
      value: the error returned is the sticky error of the writer *)
  Theorem bufio_write_gen_error_is_sticky : forall direct (s : sink) (b : bufw) p s' b' n e,
    wf_sink A s -> wf_buf A b -> 1 <= b_size b ->
    bufio_write_gen A direct s b p = (s', b', n, e) -> e = b_err b'.
  Proof.
    intros direct s b p s' b' n e Hs Hb Hsz H. unfold bufio_write_gen in H.
    destruct (bufio_loop A direct (bufio_fuel A p) s b p 0) as [[[s1 b1] p1] nn] eqn:El.
    assert (Hmu : (mu s b p < bufio_fuel A p)%nat).
    { unfold mu, bufio_fuel. destruct (is_err (b_err b)); [lia|].
      destruct (b_n b =? 0); destruct (s_fired s); lia. }
    pose proof (bufio_loop_exits _ _ _ _ _ _ _ _ _ _ Hs Hb Hsz Hmu El) as X.
    destruct (is_err (b_err b1)) eqn:Ee.
    - inversion H; subst. reflexivity.
    - destruct X as [X|X]; [discriminate|].
      destruct (b_avail A b1 <? nlen p1) eqn:Ea; [lia|].
      inversion H; subst. cbn. symmetry. now apply is_err_none.
  Qed.

  (** memory.Buffer.WriteTo: more fuel does not change the result *)
  Definition progress (w : st -> list A -> st * N * err) : Prop :=
    forall t c t' n e, wf_st A t -> w t c = (t', n, e) -> e = ENone ->
      n = nlen c \/ (s_fired (snk t) = false /\ s_fired (snk t') = true).

  Definition rmu (t : st) (c : list A) : nat :=
    (length c + (if s_fired (snk t) then 0 else 1))%nat.

  Lemma retry_nil : forall w fuel (t : st), retry A w fuel t [] = (t, ENone).
  Proof. intros. destruct fuel; reflexivity. Qed.

  Lemma retry_fuel_enough : forall w, writer_ok A w -> progress w ->
    forall fuel c (t : st), wf_st A t -> (rmu t c < fuel)%nat ->
    retry A w fuel t c = retry A w (S fuel) t c.
  Proof.
    intros w Hw Hp. induction fuel as [|f IH]; intros c t W Hmu; [lia|].
    destruct c as [|x c]; [reflexivity|].
    remember (x :: c) as cc. assert (Hcc : (1 <= length cc)%nat) by (subst; cbn; lia).
    assert (E1 : retry A w (S f) t cc = let '(t', n, e) := w t cc in
                  if is_err e then (t', e) else retry A w f t' (skipn (N.to_nat n) cc)) by (subst cc; reflexivity).
    assert (E2 : retry A w (S (S f)) t cc = let '(t', n, e) := w t cc in
                  if is_err e then (t', e) else retry A w (S f) t' (skipn (N.to_nat n) cc)) by (subst cc; reflexivity).
    rewrite E1, E2. clear E1 E2.
    destruct (w t cc) as [[t1 n1] e1] eqn:E.
    destruct (is_err e1) eqn:Ee; [reflexivity|]. apply is_err_none in Ee. subst e1.
    destruct (Hw _ _ _ _ _ W E) as (full & W1 & _ & [L _ _]).
    destruct (Hp _ _ _ _ _ W E eq_refl) as [Hn|[F0 F1]].
    - subst n1. rewrite skipn_nlen. now rewrite !retry_nil.
    - apply IH; [exact W1|]. unfold rmu in *. rewrite F0 in Hmu. rewrite F1, skipn_length. lia.
  Qed.

  Lemma progress_otw : progress (otw_write A true).
  Proof.
    intros t c t' n e W H E. left. destruct (otw_write_spec A _ _ _ _ _ W H) as (_&_&[_ _ F]). auto.
  Qed.

  Lemma progress_lower : progress (lower_write A).
  Proof.
    intros [s ob] c t' n e [Ws Wb] H E. cbn in *. unfold lower_write in H. cbn in H. destruct ob as [b|].
    - left. destruct (bufio_write_gen A true s b c) as [[[s1 b1] n1] e1] eqn:Eg. inversion H; subst; clear H.
      destruct (bufio_write_gen_spec A _ _ _ _ _ _ _ _ Ws Wb Eg) as (_&_&_&_&_&[_ _ F]). auto.
    - destruct (sink_write A s c) as [[s1 n1] e1] eqn:Es. inversion H; subst; clear H.
      pose proof (sink_write_spec A _ _ _ _ _ Ws Es) as P. cbn.
      destruct (sw_full _ _ _ _ _ _ P eq_refl) as [Hn|(_&F0&F1)]; auto.
  Qed.

  (* the fuel given by write_to is enough for both writers it is used with *)
  Theorem write_to_fuel_enough : forall w, (w = otw_write A true \/ w = lower_write A) ->
    forall (c : list A) (t : st) k, wf_st A t ->
    retry A w (length c + 2) t c = retry A w (length c + 2 + k) t c.
  Proof.
    intros w Hw c t k W.
    assert (Hok : writer_ok A w) by (destruct Hw; subst; [apply writer_ok_otw|apply writer_ok_lower]).
    assert (Hp : progress w) by (destruct Hw; subst; [apply progress_otw|apply progress_lower]).
    induction k as [|k IHk]; [now rewrite Nat.add_0_r|].
    rewrite IHk. replace (length c + 2 + S k)%nat with (S (length c + 2 + k)) by lia.
    apply retry_fuel_enough; auto. unfold rmu. destruct (s_fired (snk t)); lia.
  Qed.
End Termination.
