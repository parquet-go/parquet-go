(** C14 — writer side: the destination io.Writer with a fault script, the
    writers layered on it (bufio.Writer, offsetTrackingWriter), the transfer
    loops of the standard library used by the writer (memory.Buffer.WriteTo,
    io.Copy, bufio.Writer.ReadFrom) and the sequence of write sites executed by
    Flush/Close.  Executable, no proofs.

    Go sources mirrored (line numbers of `git show 6b7b39f:writer.go`; the
    functions are named so that the sites can be found after the lines moved):
      writer.go:2941-2966   offsetTrackingWriter.{Write,WriteString,ReadFrom}
      writer.go:1242-1259   writer.close
      writer.go:1266-1279   writer.writeFileHeader
      writer.go:1281-1301   writer.writeDeferredBloomFilters
      writer.go:1303-1499   writer.writeFileFooter
      writer.go:1501-1850   writer.writeRowGroup
      writer.go:2404-2455   ColumnWriter.writeBloomFilter
      writer.go:2608-2674   ColumnWriter.writeDictionaryPage
      internal/memory/buffer.go:78-94  Buffer.WriteTo
      bufio.Writer.{Flush,Write,WriteString,ReadFrom}, io.Copy (Go 1.24 standard library)

    Offsets and counts are [N]; the byte type is a parameter. *)
From Coq Require Import List Arith Bool NArith.
Import ListNotations.
Open Scope N_scope.

(** error values that matter: nil, the destination's own error, io.ErrShortWrite *)
Inductive err := ENone | ESink | EShort.

Definition is_err (e : err) : bool := match e with ENone => false | _ => true end.

(** (A) fault scripts of the destination.
    [ErrAt k]: the destination accepts the bytes before absolute offset [k] and
    answers every write reaching [k] with the accepted count and an error.
    [ShortAt k]: the first write reaching [k] accepts only the bytes before [k]
    and returns a nil error (once); every other write is complete.
    [FullErrAt k]: the write that takes the byte before offset [k] (it starts
    before [k] and reaches it) accepts ALL its bytes and returns the full
    count together with an error (a quota reached with this write, a failed
    commit of the block); every other write is complete with a nil error.
    The position is beyond [k] afterwards, so this happens once. *)
Inductive fault := NoFault | ErrAt (k : N) | ShortAt (k : N) | FullErrAt (k : N).

Section Sink.
  Variable A : Type.

  Definition nlen (p : list A) : N := N.of_nat (length p).

  (* linear-time reversal (= rev, Proofs.frev_rev) *)
  Definition frev (l : list A) : list A := rev_append l [].

  (* accepted bytes are kept reversed; s_pos caches their number *)
  Record sink := mkSink { s_rev : list A; s_pos : N; s_flt : fault; s_fired : bool }.

  Definition sink_bytes (s : sink) : list A := frev (s_rev s).

  Definition sink_accept (s : sink) (p : list A) (fired : bool) : sink :=
    mkSink (rev_append p (s_rev s)) (s_pos s + nlen p) (s_flt s) fired.

  (** one Write call on the destination: (state, n, err) *)
  Definition sink_write (s : sink) (p : list A) : sink * N * err :=
    let len := nlen p in
    match s_flt s with
    | NoFault => (sink_accept s p (s_fired s), len, ENone)
    | ErrAt k =>
        if s_pos s + len <=? k then (sink_accept s p (s_fired s), len, ENone)
        else let n := k - s_pos s in
             (sink_accept s (firstn (N.to_nat n) p) (s_fired s), n, ESink)
    | ShortAt k =>
        if s_fired s || (s_pos s + len <=? k) then (sink_accept s p (s_fired s), len, ENone)
        else let n := k - s_pos s in
             (sink_accept s (firstn (N.to_nat n) p) true, n, ENone)
    | FullErrAt k =>
        (sink_accept s p (s_fired s), len,
         if (s_pos s <? k) && (k <=? s_pos s + len) then ESink else ENone)
    end.

  (** (B) bufio.Writer of size b_size (>= 1) over the destination.
      b_rev: buffered bytes (reversed), b_n = b.n, b_err = sticky b.err *)
  Record bufw := mkBuf { b_size : N; b_rev : list A; b_n : N; b_err : err }.

  Definition b_avail (b : bufw) : N := b_size b - b_n b.

  Definition b_push (b : bufw) (chunk : list A) : bufw :=
    mkBuf (b_size b) (rev_append chunk (b_rev b)) (b_n b + nlen chunk) (b_err b).

  (* func (b *Writer) Flush() error *)
  Definition bufio_flush (s : sink) (b : bufw) : sink * bufw * err :=
    if is_err (b_err b) then (s, b, b_err b)
    else if b_n b =? 0 then (s, b, ENone)
    else
      let data := frev (b_rev b) in
      let '(s', n, e) := sink_write s data in
      (* if n < b.n && err == nil { err = io.ErrShortWrite } *)
      let e' := if negb (is_err e) && (n <? b_n b) then EShort else e in
      if is_err e' then
        (* copy(b.buf[0:b.n-n], b.buf[n:b.n]); b.n -= n; b.err = err *)
        (s', mkBuf (b_size b) (frev (skipn (N.to_nat n) data)) (b_n b - n) e', e')
      else (s', mkBuf (b_size b) [] 0 ENone, ENone).

  (* the loop of Write (direct = true) and of WriteString when the underlying
     writer is no io.StringWriter (direct = false):
       for len(p) > b.Available() && b.err == nil {
         if b.Buffered() == 0 { n, b.err = b.wr.Write(p) }       // Write only
         else { n = copy(b.buf[b.n:], p); b.n += n; b.Flush() }
         nn += n; p = p[n:] }
     returns the remaining p and nn *)
  Fixpoint bufio_loop (direct : bool) (fuel : nat) (s : sink) (b : bufw) (p : list A) (nn : N)
    : sink * bufw * list A * N :=
    match fuel with
    | O => (s, b, p, nn)
    | S f =>
        if (b_avail b <? nlen p) && negb (is_err (b_err b)) then
          if direct && (b_n b =? 0) then
            let '(s', n, e) := sink_write s p in
            bufio_loop direct f s' (mkBuf (b_size b) (b_rev b) (b_n b) e) (skipn (N.to_nat n) p) (nn + n)
          else
            let n := N.min (b_avail b) (nlen p) in
            let '(s', b2, _) := bufio_flush s (b_push b (firstn (N.to_nat n) p)) in
            bufio_loop direct f s' b2 (skipn (N.to_nat n) p) (nn + n)
        else (s, b, p, nn)
    end.

  Definition bufio_fuel (p : list A) : nat := 2 * length p + 3.

  (* func (b *Writer) Write(p []byte) / WriteString(s string).  The loop ends
     after at most [bufio_fuel] rounds under the fault model (Termination:
     bufio_loop_exits); should the fuel run out the model answers
     io.ErrShortWrite instead of inventing a success. *)
  Definition bufio_write_gen (direct : bool) (s : sink) (b : bufw) (p : list A) : sink * bufw * N * err :=
    let '(s', b', p', nn) := bufio_loop direct (bufio_fuel p) s b p 0 in
    if is_err (b_err b') then (s', b', nn, b_err b')
    else if b_avail b' <? nlen p' then (s', b', nn, EShort)
    else (s', b_push b' p', nn + nlen p', ENone).

  (* func (b *Writer) ReadFrom(r io.Reader) when b.wr is no io.ReaderFrom: the
     bytes of r enter the buffer, which is flushed whenever it is full before
     more is read, and once more at EOF if it is exactly full *)
  Fixpoint bufio_fill (s : sink) (b : bufw) (data : list A) : sink * bufw * err :=
    match data with
    | [] => if b_avail b =? 0 then bufio_flush s b else (s, b, ENone)
    | x :: rest =>
        if b_avail b =? 0 then
          let '(s', b', e) := bufio_flush s b in
          if is_err e then (s', b', e) else bufio_fill s' (b_push b' [x]) rest
        else bufio_fill s (b_push b [x]) rest
    end.

  Definition bufio_read_from (s : sink) (b : bufw) (data : list A) : sink * bufw * err :=
    if is_err (b_err b) then (s, b, b_err b) else bufio_fill s b data.

  (** the writer below offsetTrackingWriter: the destination itself
      (WriteBufferSize <= 0, newWriter) or a bufio.Writer (bufio.NewWriterSize in newWriter) *)
  Record st := mkSt { snk : sink; bw : option bufw }.

  Definition content (t : st) : list A :=
    sink_bytes (snk t) ++ match bw t with None => [] | Some b => frev (b_rev b) end.

  (* w.writer.Write(b) *)
  Definition lower_write (t : st) (p : list A) : st * N * err :=
    match bw t with
    | None => let '(s, n, e) := sink_write (snk t) p in (mkSt s None, n, e)
    | Some b => let '(s, b', n, e) := bufio_write_gen true (snk t) b p in (mkSt s (Some b'), n, e)
    end.

  (* io.WriteString(w.writer, s): the destination of the harness is no
     io.StringWriter, bufio.Writer is *)
  Definition lower_write_string (t : st) (p : list A) : st * N * err :=
    match bw t with
    | None => let '(s, n, e) := sink_write (snk t) p in (mkSt s None, n, e)
    | Some b => let '(s, b', n, e) := bufio_write_gen false (snk t) b p in (mkSt s (Some b'), n, e)
    end.

  (** offsetTrackingWriter.Write / WriteString (writer.go:2941-2959).
      [cur = true]: the current code, a short count with a nil error becomes
      io.ErrShortWrite; [cur = false]: the code before commit 1e4fc72, which
      returned (n, nil) unchanged. *)
  Definition otw_fix (cur : bool) (len : N) (r : st * N * err) : st * N * err :=
    let '(t, n, e) := r in
    if cur && negb (is_err e) && (n <? len) then (t, n, EShort) else (t, n, e).

  Definition otw_write (cur : bool) (t : st) (p : list A) : st * N * err :=
    otw_fix cur (nlen p) (lower_write t p).

  Definition otw_write_string (cur : bool) (t : st) (p : list A) : st * N * err :=
    otw_fix cur (nlen p) (lower_write_string t p).

  (** one Write call issued by a write site: (is a WriteString, bytes) *)
  Definition piece : Type := bool * list A.

  Definition write_piece (cur : bool) (t : st) (pc : piece) : st * N * err :=
    if fst pc then otw_write_string cur t (snd pc) else otw_write cur t (snd pc).

  (* callers that issue Write after Write and return at the first error
     (thrift encoder, writeDictionaryPage, writeBloomFilter, footer) *)
  Fixpoint write_pieces (cur : bool) (t : st) (ps : list piece) : st * err :=
    match ps with
    | [] => (t, ENone)
    | pc :: r => let '(t', _, e) := write_piece cur t pc in
                 if is_err e then (t', e) else write_pieces cur t' r
    end.

  (* memory.Buffer.WriteTo (internal/memory/buffer.go:78): for each chunk
       for err == nil && b.seek < len { n, e := w.Write(chunk[offset:]); b.seek += n; err = e }
     i.e. a short count with a nil error is followed by a write of the rest.
     Fuel: see bufio_write_gen. *)
  Fixpoint retry (w : st -> list A -> st * N * err) (fuel : nat) (t : st) (c : list A) : st * err :=
    match c with
    | [] => (t, ENone)
    | _ =>
        match fuel with
        | O => (t, EShort)
        | S f => let '(t', n, e) := w t c in
                 if is_err e then (t', e) else retry w f t' (skipn (N.to_nat n) c)
        end
    end.

  Fixpoint write_to (w : st -> list A -> st * N * err) (t : st) (chunks : list piece) : st * err :=
    match chunks with
    | [] => (t, ENone)
    | c :: r => let '(t', e) := retry w (length (snd c) + 2) t (snd c) in
                if is_err e then (t', e) else write_to w t' r
    end.

  (* io.Copy(dst, src) when src has no WriteTo and dst no ReadFrom (the generic
     loop over 32 KiB reads):  nw, ew := dst.Write(buf[0:nr]); ...
       if ew != nil { err = ew; break }; if nr != nw { err = io.ErrShortWrite; break } *)
  Fixpoint copy_loop (s : sink) (chunks : list piece) : sink * err :=
    match chunks with
    | [] => (s, ENone)
    | c :: r => let '(s', n, e) := sink_write s (snd c) in
                if is_err e then (s', e)
                else if n <? nlen (snd c) then (s', EShort)
                else copy_loop s' r
    end.

  (** how a site moves its bytes *)
  Inductive mech :=
  | MWrite         (* Write/WriteString calls on offsetTrackingWriter, stop at the first error *)
  | MWriteTo       (* io.Copy(&w.writer, memory.Buffer) = Buffer.WriteTo(&w.writer)  (writeRowGroup, writer.go:1624) *)
  | MLowerWriteTo  (* w.writer.ReadFrom(memory.Buffer) = io.Copy(w.writer.writer, buf) = Buffer.WriteTo(w.writer.writer): below offsetTrackingWriter (writer.go:1294, 2961-2966) *)
  | MLowerCopy.    (* w.writer.ReadFrom(r) with r an *os.File or io.SectionReader: io.Copy(w.writer.writer, r): generic loop on the destination, bufio.Writer.ReadFrom on a bufio.Writer *)

  Definition site_data_of (ps : list piece) : list A := concat (map snd ps).

  Definition run_mech (cur : bool) (m : mech) (t : st) (ps : list piece) : st * err :=
    match m with
    | MWrite => write_pieces cur t ps
    | MWriteTo => write_to (otw_write cur) t ps
    | MLowerWriteTo => write_to lower_write t ps
    | MLowerCopy =>
        match bw t with
        | None => let '(s, e) := copy_loop (snk t) ps in (mkSt s None, e)
        | Some b => let '(s, b', e) := bufio_read_from (snk t) b (site_data_of ps) in (mkSt s (Some b'), e)
        end
    end.
End Sink.

Arguments mkSink {A}. Arguments mkBuf {A}. Arguments mkSt {A}.
Arguments s_rev {A}. Arguments s_pos {A}. Arguments s_flt {A}. Arguments s_fired {A}.
Arguments b_size {A}. Arguments b_rev {A}. Arguments b_n {A}. Arguments b_err {A}.
Arguments snk {A}. Arguments bw {A}.

(** (C) the write sites of Flush/Close, in the order in which the code reaches
    them, and for each whether every caller on the way up to the API call looks
    at the returned error.  The line numbers are the checks, read from
    /repo/writer.go; the fault sweep of harness/c14 validates each flag (a site
    whose error is dropped shows up as a nil Close with bytes missing). *)
Inductive kind :=
| KHeader           (* writeFileHeader 1275-1276 `_, err := w.writer.WriteString(magic); return err`; callers: close 1243, writeRowGroup 1551 *)
| KCopiedDict       (* writeRowGroup 1567 `if _, err := w.writer.ReadFrom(...); err != nil` *)
| KCopiedData       (* writeRowGroup 1578 *)
| KDictPage         (* writeDictionaryPage 2666, 2669 `if _, err := output.Write(...); err != nil`; caller writeRowGroup 1603 *)
| KDictPageEnc      (* writeDictionaryPage 2654, 2657; caller 1603 *)
| KDataPages        (* writeRowGroup 1624 `if _, err := io.Copy(&w.writer, c.pageBuffer); err != nil` *)
| KCopiedBloom      (* writeRowGroup 1658 *)
| KBloomInline      (* writeBloomFilter 2450 `if err := e.Encode(&h); err != nil`, 2453-2454 `_, err := w.Write(filterBytes); return err`; caller writeRowGroup 1698 *)
| KBloomInlineEnc   (* writeBloomFilter 2442, 2445-2446; caller 1698 *)
| KBloomDeferred    (* writeDeferredBloomFilters 1294 `if _, err := w.writer.ReadFrom(bf.buf); err != nil`; caller close 1249 *)
| KColumnIndex      (* writeFileFooter 1362 `else if err := encoder.Encode(&columnIndexes[j]); err != nil` *)
| KColumnIndexEnc   (* writeFileFooter 1359 *)
| KOffsetIndex      (* writeFileFooter 1388 *)
| KOffsetIndexEnc   (* writeFileFooter 1385 *)
| KFooter           (* writeFileFooter 1490 `if err := encoder.Encode(&w.fileMetaData); err != nil` *)
| KFooterCrypto     (* writeFileFooter 1445 FileCryptoMetaData, 1449 encrypted footer *)
| KFooterSigned     (* writeFileFooter 1471 plaintext footer, 1480 signature *)
| KFooterTail.      (* writeFileFooter 1497-1498 (1455-1456, 1485-1486 with encryption) `_, err := w.writer.Write(w.footer[:]); return err` *)

(* every row of the table is `true` because every site listed above is
   followed by `if err != nil { return ... err }` (or returns the error) and
   the callers do the same: writeRowGroup <- flush 1262-1263 <- close 1246 /
   Writer.Flush; writeDeferredBloomFilters <- close 1249; writeFileFooter
   <- close 1252; close <- Writer.Close <- GenericWriter.Close.  The thrift
   encoder returns the first error of its Write calls
   (encoding/thrift/encode.go structEncoder.encode, compact.go compactWriter,
   binary.go binaryWriter.write/writeString/writeByte). *)
Definition site_checked (k : kind) : bool :=
  match k with
  | KHeader => true | KCopiedDict => true | KCopiedData => true
  | KDictPage => true | KDictPageEnc => true | KDataPages => true
  | KCopiedBloom => true | KBloomInline => true | KBloomInlineEnc => true
  | KBloomDeferred => true
  | KColumnIndex => true | KColumnIndexEnc => true
  | KOffsetIndex => true | KOffsetIndexEnc => true
  | KFooter => true | KFooterCrypto => true | KFooterSigned => true
  | KFooterTail => true
  end.

(* close, writer.go:1255-1257 `if w.buffer != nil { return w.buffer.Flush() }` *)
Definition final_flush_checked : bool := true.

Definition all_kinds : list kind :=
  [KHeader; KCopiedDict; KCopiedData; KDictPage; KDictPageEnc; KDataPages; KCopiedBloom;
   KBloomInline; KBloomInlineEnc; KBloomDeferred; KColumnIndex; KColumnIndexEnc;
   KOffsetIndex; KOffsetIndexEnc; KFooter; KFooterCrypto; KFooterSigned; KFooterTail].

Definition all_sites_checked : bool := forallb site_checked all_kinds && final_flush_checked.

Section Close.
  Variable A : Type.

  Record site := mkSite { st_kind : kind; st_mech : mech; st_pieces : list (piece A) }.

  Definition site_data (x : site) : list A := site_data_of A (st_pieces x).
  Definition all_data (xs : list site) : list A := concat (map site_data xs).

  (* the sites in order; the first error a caller looks at ends the run.
     Result: state, error, index of the site that reported (length xs = none). *)
  Fixpoint run_sites (cur : bool) (chk : kind -> bool) (i : nat) (t : st A) (xs : list site)
    : st A * err * nat :=
    match xs with
    | [] => (t, ENone, i)
    | x :: r =>
        let '(t', e) := run_mech A cur (st_mech x) t (st_pieces x) in
        if is_err e && chk (st_kind x) then (t', e, i) else run_sites cur chk (S i) t' r
    end.

  (** everything the API calls of one file life do to the destination: the
      sites (whichever of Write/Flush/Close reaches them) and the final
      w.buffer.Flush() of close (writer.go:1256).  Reporting index
      [length xs] designates that final flush. *)
  Definition close (cur : bool) (chk : kind -> bool) (chk_flush : bool) (t : st A) (xs : list site)
    : st A * err * nat :=
    let '(t', e, i) := run_sites cur chk 0 t xs in
    if is_err e then (t', e, i)
    else match bw t' with
         | None => (t', ENone, i)
         | Some b => let '(s, b', e') := bufio_flush A (snk t') b in
                     (mkSt s (Some b'), if chk_flush then e' else ENone, i)
         end.

  Definition init (f : fault) (bufsize : option N) : st A :=
    mkSt (mkSink [] 0 f false)
         (match bufsize with None => None | Some sz => Some (mkBuf sz [] 0 ENone) end).

  (* what the harness compares: error, reporting site, number of bytes the
     destination holds, and whether they are exactly the bytes of all sites *)
  Definition close_current (f : fault) (bufsize : option N) (xs : list site) : st A * err * nat :=
    close true site_checked final_flush_checked (init f bufsize) xs.

  Definition close_pinned (f : fault) (bufsize : option N) (xs : list site) : st A * err * nat :=
    close false site_checked final_flush_checked (init f bufsize) xs.
End Close.

Arguments mkSite {A}. Arguments st_kind {A}. Arguments st_mech {A}. Arguments st_pieces {A}.

(** instance used by the oracle: bytes are N; list equality for "complete" *)
Fixpoint bytes_eqb (a b : list N) : bool :=
  match a, b with
  | [], [] => true
  | x :: a', y :: b' => (x =? y) && bytes_eqb a' b'
  | _, _ => false
  end.

Definition close_verdict (cur : bool) (f : fault) (bufsize : option N) (xs : list (site N))
  : err * nat * N * bool :=
  let '(t, e, i) := close N cur site_checked final_flush_checked (init N f bufsize) xs in
  (e, i, s_pos (snk t), bytes_eqb (sink_bytes N (snk t)) (all_data N xs)).
