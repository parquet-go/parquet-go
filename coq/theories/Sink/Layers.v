(** C14 — the layers above a Write-like function run a sequence of operations
    and stop at the first error.  [R data t t' e] relates the bytes a layer was
    asked to append, the states around it and the error returned; [outcome R]
    is what the sequencing needs from [R], and every layer preserves it. *)
From Coq Require Import List Arith Bool NArith.
From PQ Require Import Sink.Model.
Import ListNotations.
Open Scope N_scope.

Lemma is_err_none : forall e, is_err e = false <-> e = ENone.
Proof. destruct e; cbn; split; congruence. Qed.

Section Layers.
  Variable A : Type.
  Notation st := (st A).

  Record outcome (R : list A -> st -> st -> err -> Prop) : Prop := {
    o_nil : forall t, R [] t t ENone;
    o_stop : forall d t e, is_err e = true -> R d t t e;
    o_err : forall d d' t t' e, is_err e = true -> R d t t' e -> R d' t t' e;
    o_seq : forall d1 d2 t t1 t2 e, R d1 t t1 ENone -> R d2 t1 t2 e -> R (d1 ++ d2) t t2 e
  }.

  Variable R : list A -> st -> st -> err -> Prop.
  Hypothesis HR : outcome R.

  Definition writer_R (w : st -> list A -> st * N * err) : Prop :=
    forall t c t' n e, w t c = (t', n, e) -> R (firstn (N.to_nat n) c) t t' e.

  Lemma write_pieces_lift :
    (forall t pc t' n e, write_piece A true t pc = (t', n, e) -> R (snd pc) t t' e) ->
    forall ps t t' e, write_pieces A true t ps = (t', e) -> R (site_data_of A ps) t t' e.
  Proof.
    intros Hw. induction ps as [|pc ps IH]; intros t t' e H; cbn in H.
    - inversion H; subst. apply (o_nil _ HR).
    - destruct (write_piece A true t pc) as [[t1 n1] e1] eqn:E. apply Hw in E.
      destruct (is_err e1) eqn:Ee.
      + inversion H; subst. eapply (o_err _ HR); eauto.
      + apply is_err_none in Ee. subst e1. apply (o_seq _ HR _ _ _ t1); auto.
  Qed.

  Lemma retry_lift w : writer_R w -> forall fuel c t t' e,
    retry A w fuel t c = (t', e) -> R c t t' e.
  Proof.
    intros Hw. induction fuel as [|f IH]; intros c t t' e H.
    - destruct c; cbn in H; inversion H; subst; [apply (o_nil _ HR)|now apply (o_stop _ HR)].
    - destruct c as [|x c]; [cbn in H; inversion H; subst; apply (o_nil _ HR)|].
      cbn [retry] in H. remember (x :: c) as cc.
      destruct (w t cc) as [[t1 n1] e1] eqn:E. apply Hw in E.
      destruct (is_err e1) eqn:Ee.
      + inversion H; subst. eapply (o_err _ HR); eauto.
      + apply is_err_none in Ee. subst e1. rewrite <- (firstn_skipn (N.to_nat n1) cc).
        apply (o_seq _ HR _ _ _ t1); auto.
  Qed.

  Lemma write_to_lift w : writer_R w -> forall chunks t t' e,
    write_to A w t chunks = (t', e) -> R (site_data_of A chunks) t t' e.
  Proof.
    intros Hw. induction chunks as [|c r IH]; intros t t' e H; cbn in H.
    - inversion H; subst. apply (o_nil _ HR).
    - destruct (retry A w (length (snd c) + 2) t (snd c)) as [t1 e1] eqn:E.
      apply (retry_lift w Hw) in E.
      destruct (is_err e1) eqn:Ee.
      + inversion H; subst. eapply (o_err _ HR); eauto.
      + apply is_err_none in Ee. subst e1. apply (o_seq _ HR _ _ _ t1); auto.
  Qed.

  Lemma run_sites_lift chk : (forall k, chk k = true) -> forall (xs : list (site A)),
    (forall x, In x xs -> forall t t' e,
       run_mech A true (st_mech x) t (st_pieces x) = (t', e) -> R (site_data A x) t t' e) ->
    forall i t t' e j, run_sites A true chk i t xs = (t', e, j) -> R (all_data A xs) t t' e.
  Proof.
    intros Hchk. induction xs as [|x r IH]; intros Hm i t t' e j H; cbn [run_sites] in H.
    - inversion H; subst. apply (o_nil _ HR).
    - destruct (run_mech A true (st_mech x) t (st_pieces x)) as [t1 e1] eqn:E.
      apply (Hm x (or_introl eq_refl)) in E. rewrite Hchk, andb_true_r in H.
      destruct (is_err e1) eqn:Ee.
      + inversion H; subst. eapply (o_err _ HR); eauto.
      + apply is_err_none in Ee. subst e1.
        apply (o_seq _ HR (site_data A x) (all_data A r) _ t1); [exact E|].
        eapply IH; [|exact H]. intros y Hy. apply Hm. now right.
  Qed.
End Layers.

