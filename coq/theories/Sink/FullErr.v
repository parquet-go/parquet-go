(** C14 — a destination that takes every byte of a write and returns an error
    with the full count ([FullErrAt k], Sink/Model.v): the error reaches the
    caller of Write/Flush/Close on every path, ordinary write sites and the
    copy path alike.

    Invariant [Q]: as long as no call has returned an error, either the write
    that trips the fault has not happened yet (the position is below [k]) or
    the error sits in the sticky error of the bufio.Writer, from where the
    next operation on the buffer returns it.  Every mechanism of the model
    keeps [Q] or returns an error; a Close that returned nil has written
    every byte, so the position is not below [k], and the final flush
    returned the sticky error if there was one. *)
From Coq Require Import List Arith Bool NArith Lia.
From Coq Require Import ZifyBool.
From PQ Require Import Sink.Model Sink.Layers Sink.Proofs Sink.Copy Sink.CopyProofs.
Import ListNotations.
Open Scope N_scope.

Arguments Model.frev : simpl never.
Arguments Model.nlen : simpl never.

Section FullErr.
  Variable A : Type.
  Variable k : N.

  Notation sink := (sink A).
  Notation bufw := (bufw A).
  Notation st := (st A).
  Notation nlen := (nlen A).

  Definition fe (s : sink) : Prop := s_flt s = FullErrAt k.

  Definition Qb (s : sink) (b : bufw) : Prop :=
    fe s /\ (s_pos s < k \/ is_err (b_err b) = true).

  Definition Q (t : st) : Prop :=
    match bw t with
    | None => fe (snk t) /\ s_pos (snk t) < k
    | Some b => Qb (snk t) b
    end.

  Lemma is_err_cases : forall e, is_err e = true \/ e = ENone.
  Proof. destruct e; cbn; auto. Qed.

  Lemma sink_write_fe : forall (s : sink) p s' n e,
    fe s -> sink_write A s p = (s', n, e) ->
    fe s' /\ (s_pos s < k -> e = ENone -> s_pos s' < k).
  Proof.
    intros s p s' n e Hf H. unfold sink_write in H. unfold fe in Hf. rewrite Hf in H.
    inversion H; subst; clear H. split; [exact Hf|].
    intros Hp He. cbn.
    destruct ((s_pos s <? k) && (k <=? s_pos s + nlen p)) eqn:G; [discriminate|].
    lia.
  Qed.

  Lemma flush_Q : forall (s : sink) (b : bufw) s' b' e,
    Qb s b -> bufio_flush A s b = (s', b', e) -> Qb s' b' /\ b_err b' = e.
  Proof.
    intros s b s' b' e [Hf Hq] H. unfold bufio_flush in H.
    destruct (is_err (b_err b)) eqn:Ee.
    { inversion H; subst. split; [split; auto|reflexivity]. }
    destruct (b_n b =? 0).
    { assert (Hb : b_err b = ENone) by (apply is_err_none; exact Ee).
      inversion H; subst. split; [split; [exact Hf|]|exact Hb].
      destruct Hq as [Hq|Hq]; [left; exact Hq|discriminate Hq]. }
    destruct (sink_write A s (frev A (b_rev b))) as [[s1 n] e1] eqn:Ew.
    destruct (sink_write_fe _ _ _ _ _ Hf Ew) as [Hf1 Hp1].
    destruct (is_err (if negb (is_err e1) && (n <? b_n b) then EShort else e1)) eqn:E2.
    - inversion H; subst; clear H. split; [|reflexivity]. split; [exact Hf1|]. right. exact E2.
    - inversion H; subst; clear H. split; [|reflexivity]. split; [exact Hf1|]. left.
      destruct Hq as [Hq|Hq]; [|congruence].
      apply Hp1; [exact Hq|]. destruct e1; cbn in E2; try discriminate; reflexivity.
  Qed.

  Lemma push_Q : forall (s : sink) (b : bufw) c, Qb s b -> Qb s (b_push A b c).
  Proof. intros s b c [Hf Hq]. split; [exact Hf|]. exact Hq. Qed.

  Lemma loop_Q : forall direct fuel (s : sink) (b : bufw) p nn s' b' p' nn',
    Qb s b -> bufio_loop A direct fuel s b p nn = (s', b', p', nn') -> Qb s' b'.
  Proof.
    intros direct fuel. induction fuel as [|f IH]; intros s b p nn s' b' p' nn' HQ H.
    - cbn in H. inversion H; subst. exact HQ.
    - cbn [bufio_loop] in H.
      destruct ((b_avail A b <? nlen p) && negb (is_err (b_err b))) eqn:G.
      2:{ inversion H; subst. exact HQ. }
      destruct (direct && (b_n b =? 0)).
      + destruct (sink_write A s p) as [[s1 n] e1] eqn:Ew.
        destruct HQ as [Hf Hq].
        destruct (sink_write_fe _ _ _ _ _ Hf Ew) as [Hf1 Hp1].
        eapply IH; [|exact H]. split; [exact Hf1|]. cbn [b_err].
        destruct (is_err_cases e1) as [E|E]; [right; exact E|]. left.
        apply andb_true_iff in G. destruct G as [_ G].
        destruct Hq as [Hq|Hq]; [apply Hp1; assumption|].
        rewrite Hq in G. discriminate.
      + destruct (bufio_flush A s (b_push A b (firstn (N.to_nat (N.min (b_avail A b) (nlen p))) p))) as [[s1 b2] e1] eqn:Ef.
        destruct (flush_Q _ _ _ _ _ (push_Q _ _ _ HQ) Ef) as [HQ1 _].
        eapply IH; eauto.
  Qed.

  Lemma write_gen_Q : forall direct (s : sink) (b : bufw) p s' b' n e,
    Qb s b -> bufio_write_gen A direct s b p = (s', b', n, e) -> Qb s' b'.
  Proof.
    intros direct s b p s' b' n e HQ H. unfold bufio_write_gen in H.
    destruct (bufio_loop A direct (bufio_fuel A p) s b p 0) as [[[s1 b1] p1] nn] eqn:El.
    pose proof (loop_Q _ _ _ _ _ _ _ _ _ _ HQ El) as HQ1.
    destruct (is_err (b_err b1)); [inversion H; subst; exact HQ1|].
    destruct (b_avail A b1 <? nlen p1); inversion H; subst; [exact HQ1|].
    apply push_Q. exact HQ1.
  Qed.

  Lemma fill_Q : forall data (s : sink) (b : bufw) s' b' e,
    Qb s b -> bufio_fill A s b data = (s', b', e) -> Qb s' b'.
  Proof.
    induction data as [|x r IH]; intros s b s' b' e HQ H; cbn [bufio_fill] in H.
    - destruct (b_avail A b =? 0).
      + apply (flush_Q _ _ _ _ _ HQ H).
      + inversion H; subst. exact HQ.
    - destruct (b_avail A b =? 0).
      + destruct (bufio_flush A s b) as [[s1 b1] e1] eqn:Ef.
        destruct (flush_Q _ _ _ _ _ HQ Ef) as [HQ1 _].
        destruct (is_err e1); [inversion H; subst; exact HQ1|].
        eapply IH; [|exact H]. apply push_Q. exact HQ1.
      + eapply IH; [|exact H]. apply push_Q. exact HQ.
  Qed.

  Definition keeps (t' : st) (e : err) : Prop := is_err e = true \/ Q t'.

  Lemma lower_gen_Q : forall direct (t : st) p t' n e,
    Q t ->
    match bw t with
    | None => let '(s, n, e) := sink_write A (snk t) p in (mkSt s None, n, e)
    | Some b => let '(s, b', n, e) := bufio_write_gen A direct (snk t) b p in (mkSt s (Some b'), n, e)
    end = (t', n, e) ->
    keeps t' e.
  Proof.
    intros direct [s ob] p t' n e HQ H. unfold Q in HQ. cbn in *. destruct ob as [b|].
    - destruct (bufio_write_gen A direct s b p) as [[[s1 b1] n1] e1] eqn:E.
      inversion H; subst; clear H. right. unfold Q. cbn. eapply write_gen_Q; eauto.
    - destruct (sink_write A s p) as [[s1 n1] e1] eqn:E.
      inversion H; subst; clear H. destruct HQ as [Hf Hp].
      destruct (sink_write_fe _ _ _ _ _ Hf E) as [Hf1 Hp1].
      destruct (is_err_cases e) as [E1|E1]; [left; exact E1|].
      right. unfold Q. cbn. split; [exact Hf1|]. apply Hp1; assumption.
  Qed.

  Lemma otw_fix_Q : forall len (r : st * N * err) t' n e,
    (forall t1 n1 e1, r = (t1, n1, e1) -> keeps t1 e1) ->
    otw_fix A true len r = (t', n, e) -> keeps t' e.
  Proof.
    intros len [[t1 n1] e1] t' n e Hr H. specialize (Hr _ _ _ eq_refl).
    unfold otw_fix in H. cbn [andb] in H.
    destruct (negb (is_err e1) && (n1 <? len)); inversion H; subst; clear H.
    - left. reflexivity.
    - exact Hr.
  Qed.

  Lemma otw_write_Q : forall (t : st) p t' n e,
    Q t -> otw_write A true t p = (t', n, e) -> keeps t' e.
  Proof.
    intros t p t' n e HQ H. unfold otw_write in H.
    eapply otw_fix_Q; [|exact H]. intros t1 n1 e1 E. unfold lower_write in E.
    eapply (lower_gen_Q true); eauto.
  Qed.

  Lemma otw_write_string_Q : forall (t : st) p t' n e,
    Q t -> otw_write_string A true t p = (t', n, e) -> keeps t' e.
  Proof.
    intros t p t' n e HQ H. unfold otw_write_string in H.
    eapply otw_fix_Q; [|exact H]. intros t1 n1 e1 E. unfold lower_write_string in E.
    eapply (lower_gen_Q false); eauto.
  Qed.

  Lemma lower_write_Q : forall (t : st) p t' n e,
    Q t -> lower_write A t p = (t', n, e) -> keeps t' e.
  Proof. intros. unfold lower_write in *. eapply (lower_gen_Q true); eauto. Qed.

  Definition R_Q (_ : list A) (t t' : st) (e : err) : Prop := Q t -> keeps t' e.

  Lemma outcome_Q : outcome A R_Q.
  Proof.
    split; unfold R_Q.
    - intros t H. right. exact H.
    - intros d t e He _. left. exact He.
    - intros d d' t t' e He _ _. left. exact He.
    - intros d1 d2 t t1 t2 e H1 H2 HQ. destruct (H1 HQ) as [K|K]; [discriminate|]. auto.
  Qed.

  Lemma write_piece_Q : forall t pc t' n e,
    write_piece A true t pc = (t', n, e) -> R_Q (snd pc) t t' e.
  Proof.
    intros t pc t' n e E HQ. unfold write_piece in E.
    destruct (fst pc); [eapply otw_write_string_Q | eapply otw_write_Q]; eauto.
  Qed.

  Lemma copy_loop_Q : forall chunks (s s' : sink) e,
    fe s -> s_pos s < k -> copy_loop A s chunks = (s', e) ->
    is_err e = true \/ (fe s' /\ s_pos s' < k).
  Proof.
    induction chunks as [|c r IH]; intros s s' e Hf Hp H; cbn in H.
    - inversion H; subst. right. split; assumption.
    - destruct (sink_write A s (snd c)) as [[s1 n1] e1] eqn:E.
      destruct (sink_write_fe _ _ _ _ _ Hf E) as [Hf1 Hp1].
      destruct (is_err e1) eqn:Ee; [inversion H; subst; left; exact Ee|].
      destruct (n1 <? nlen (snd c)); [inversion H; subst; left; reflexivity|].
      eapply IH; [exact Hf1| |exact H]. apply Hp1; [exact Hp|].
      destruct e1; cbn in Ee; congruence.
  Qed.

  Lemma run_mech_Q : forall m ps (t t' : st) e,
    Q t -> run_mech A true m t ps = (t', e) -> keeps t' e.
  Proof.
    intros m ps t t' e HQ H. destruct m; cbn [run_mech] in H.
    - exact (write_pieces_lift A _ outcome_Q write_piece_Q _ _ _ _ H HQ).
    - refine (write_to_lift A _ outcome_Q _ _ _ _ _ _ H HQ).
      intros t0 c t1 n e0 E HQ0. exact (otw_write_Q _ _ _ _ _ HQ0 E).
    - refine (write_to_lift A _ outcome_Q _ _ _ _ _ _ H HQ).
      intros t0 c t1 n e0 E HQ0. exact (lower_write_Q _ _ _ _ _ HQ0 E).
    - destruct t as [s ob]. unfold Q in HQ. cbn in *. destruct ob as [b|].
      + unfold bufio_read_from in H. destruct (is_err (b_err b)) eqn:Ee.
        * inversion H; subst. left. exact Ee.
        * destruct (bufio_fill A s b (site_data_of A ps)) as [[s1 b1] e1] eqn:Ef.
          inversion H; subst; clear H. right. unfold Q. cbn. eapply fill_Q; eauto.
      + destruct (copy_loop A s ps) as [s1 e1] eqn:Ec. inversion H; subst; clear H.
        destruct HQ as [Hf Hp].
        destruct (copy_loop_Q _ _ _ _ Hf Hp Ec) as [K|K]; [left; exact K|right; exact K].
  Qed.

  Lemma run_sites_Q : forall chk, (forall kd, chk kd = true) ->
    forall (xs : list (site A)) i (t t' : st) e j,
    Q t -> run_sites A true chk i t xs = (t', e, j) -> keeps t' e.
  Proof.
    intros chk Hchk xs i t t' e j HQ H.
    refine (run_sites_lift A _ outcome_Q chk Hchk xs _ _ _ _ _ _ H HQ).
    intros x _ t0 t1 e1 E HQ0. exact (run_mech_Q _ _ _ _ _ HQ0 E).
  Qed.

  Lemma init_Q : forall bs, 0 < k -> Q (init A (FullErrAt k) bs).
  Proof.
    intros [sz|] Hk; unfold Q, Qb, fe; cbn; [split; [reflexivity|left; exact Hk] | split; [reflexivity|exact Hk]].
  Qed.

  Lemma final_flush_Q : forall (s : sink) (b : bufw) s' b' e,
    Qb s b -> bufio_flush A s b = (s', b', e) -> k <= s_pos s' -> e <> ENone.
  Proof.
    intros s b s' b' e HQ H Hk E.
    destruct (flush_Q _ _ _ _ _ HQ H) as [[_ Hq] Hb]. subst e.
    destruct Hq as [Hq|Hq]; [lia|]. rewrite Hb in Hq. discriminate.
  Qed.

  Lemma run_items_Q : forall chk, (forall kd, chk kd = true) ->
    forall (xs : list (item A)) i (t : st) q t' e j,
    Q t -> run_items A true true chk i t q xs = (t', e, j) -> is_cerr e = true \/ Q t'.
  Proof.
    intros chk Hchk. induction xs as [|x r IH]; intros i t q t' e j HQ H; cbn [run_items] in H.
    - inversion H; subst. right. exact HQ.
    - destruct x as [x|kd ps a|ps a|m].
      + destruct (run_mech A true (st_mech x) t (st_pieces x)) as [t1 e1] eqn:E.
        pose proof (run_mech_Q _ _ _ _ _ HQ E) as K.
        rewrite Hchk, andb_true_r in H.
        destruct (is_err e1) eqn:Ee; [inversion H; subst; left; reflexivity|].
        destruct K as [K|K]; [congruence|]. eapply IH; eauto.
      + destruct (run_mech A true MLowerCopy t (take_pieces A a ps)) as [t1 e1] eqn:E.
        pose proof (run_mech_Q _ _ _ _ _ HQ E) as K.
        rewrite Hchk, andb_true_r in H.
        destruct (is_err e1) eqn:Ee; [inversion H; subst; left; reflexivity|].
        destruct K as [K|K]; [congruence|].
        cbn [andb] in H. destruct (src_short A ps a); [inversion H; subst; left; reflexivity|].
        eapply IH; eauto.
      + cbn [andb] in H. destruct (src_short A ps a); [inversion H; subst; left; reflexivity|].
        eapply IH; eauto.
      + destruct (run_sites A true chk 0 t (map (fun ps => mkSite KBloomDeferred m ps) q)) as [[t1 e1] i1] eqn:E.
        pose proof (run_sites_Q chk Hchk _ _ _ _ _ _ HQ E) as K.
        destruct (is_err e1) eqn:Ee; [inversion H; subst; left; reflexivity|].
        destruct K as [K|K]; [congruence|]. eapply IH; eauto.
  Qed.

  Theorem copy_full_err_fault_surfaces : forall chk, (forall kd, chk kd = true) ->
    forall bs (xs : list (item A)) t' e i,
    0 < k -> k <= nlen (declared A [] xs) ->
    close_items A true true chk true (init A (FullErrAt k) bs) xs = (t', e, i) -> e <> CNil.
  Proof.
    intros chk Hchk bs xs t' e i Hk0 Hk H E. subst e.
    destruct (close_items_nil_complete A chk Hchk _ _ _ _ (init_wf A _ bs) H) as (W&_&C&_).
    rewrite init_content in C. cbn in C.
    assert (Hpos : s_pos (snk t') = nlen (declared A [] xs)).
    { destruct W as [[Hp _] _]. unfold Model.sink_bytes in C. rewrite Hp, <- C, nlen_frev. reflexivity. }
    unfold close_items in H.
    destruct (run_items A true true chk 0 (init A (FullErrAt k) bs) [] xs) as [[t1 e1] i1] eqn:Er.
    pose proof (run_items_Q chk Hchk _ _ _ _ _ _ _ (init_Q bs Hk0) Er) as K.
    destruct (is_cerr e1) eqn:Ee; [inversion H; subst; discriminate|].
    destruct K as [K|K]; [congruence|].
    destruct t1 as [s1 ob]. unfold Q in K. cbn in *. destruct ob as [b|].
    - destruct (bufio_flush A s1 b) as [[s2 b2] e2] eqn:Ef.
      destruct (is_err e2) eqn:E2; [inversion H|].
      inversion H; subst; clear H. cbn in Hpos.
      apply (final_flush_Q _ _ _ _ _ K Ef); [lia|]. destruct e2; cbn in E2; congruence.
    - inversion H; subst; clear H. cbn in Hpos. destruct K as [_ K]. lia.
  Qed.
  (** an error returned with the full count by the write that takes the byte
      before offset [k], 0 < k <= size of the file, is reported by Write,
      Flush or Close *)
  Theorem full_err_fault_surfaces : forall chk, (forall kd, chk kd = true) ->
    forall bs (xs : list (site A)) t' e i,
    0 < k -> k <= nlen (all_data A xs) ->
    close A true chk true (init A (FullErrAt k) bs) xs = (t', e, i) ->
    e <> ENone.
  Proof.
    intros chk Hchk bs xs t' e i Hk0 Hk H E. subst e.
    pose proof (close_as_items A true true chk true (init A (FullErrAt k) bs) xs) as C.
    rewrite H in C. rewrite <- (declared_plain A []) in Hk.
    exact (copy_full_err_fault_surfaces chk Hchk _ _ _ _ _ Hk0 Hk C eq_refl).
  Qed.
End FullErr.
