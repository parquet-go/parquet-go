(** C14 — liveness of the writer side of Sink/Model.v: with a destination that
    never fails, every Write of every layer takes all its bytes and returns
    nil, whatever the buffer size (>= 1), the mechanism and the cutting of the
    bytes into Write calls. *)
From Coq Require Import List Arith Bool NArith Lia.
From Coq Require Import ZifyBool.
From PQ Require Import Sink.Model Sink.Proofs Sink.Termination.
Import ListNotations.
Open Scope N_scope.

Section Liveness.
  Variable A : Type.

  Notation sink := (sink A).
  Notation bufw := (bufw A).
  Notation st := (st A).
  Notation nlen := (nlen A).

  (** the destination never fails and the bufio.Writer (if any) has no sticky
      error and room for at least one byte *)
  Definition healthy (t : st) : Prop :=
    s_flt (snk t) = NoFault /\
    match bw t with Some b => b_err b = ENone /\ 1 <= b_size b | None => True end.

  Lemma sink_write_nofault : forall (s : sink) p,
    s_flt s = NoFault -> sink_write A s p = (sink_accept A s p (s_fired s), nlen p, ENone).
  Proof. intros s p H. unfold sink_write. rewrite H. reflexivity. Qed.

  Lemma bufio_flush_nofault : forall (s : sink) (b : bufw) s' b' e,
    wf_sink A s -> wf_buf A b -> s_flt s = NoFault -> b_err b = ENone ->
    bufio_flush A s b = (s', b', e) ->
    e = ENone /\ b_err b' = ENone /\ s_flt s' = NoFault /\ b_size b' = b_size b /\
    wf_sink A s' /\ wf_buf A b'.
  Proof.
    intros s b s' b' e Ws Wb Hf He H.
    pose proof (bufio_flush_spec A _ _ _ _ _ Ws Wb H) as P.
    assert (E : e = ENone) by (apply (fl_nofault _ _ _ _ _ _ P); assumption).
    split; [exact E|]. split; [rewrite (fl_err _ _ _ _ _ _ P); exact E|].
    split; [rewrite (fl_flt _ _ _ _ _ _ P); exact Hf|].
    split; [apply (fl_size _ _ _ _ _ _ P)|].
    split; [apply (fl_wfs _ _ _ _ _ _ P) | apply (fl_wfb _ _ _ _ _ _ P)].
  Qed.

  Lemma bufio_loop_nofault : forall direct fuel (s : sink) (b : bufw) p nn s' b' p' nn',
    wf_sink A s -> wf_buf A b -> s_flt s = NoFault -> b_err b = ENone ->
    bufio_loop A direct fuel s b p nn = (s', b', p', nn') ->
    b_err b' = ENone.
  Proof.
    intros direct fuel. induction fuel as [|f IH]; intros s b p nn s' b' p' nn' Ws Wb Hf He H.
    - cbn in H. inversion H; subst. exact He.
    - cbn [bufio_loop] in H.
      destruct ((b_avail A b <? nlen p) && negb (is_err (b_err b))).
      2:{ inversion H; subst. exact He. }
      destruct (direct && (b_n b =? 0)).
      + rewrite (sink_write_nofault s p Hf) in H.
        eapply IH in H; eauto.
        * pose proof (sink_write_spec A s p _ _ _ Ws (sink_write_nofault s p Hf)) as P.
          apply (sw_wf _ _ _ _ _ _ P).
      + set (n := N.min (b_avail A b) (nlen p)) in *.
        destruct (bufio_flush A s (b_push A b (firstn (N.to_nat n) p))) as [[s1 b2] e1] eqn:Ef.
        destruct (bufio_flush_nofault _ _ _ _ _ Ws (b_push_wf A _ _ Wb) Hf He Ef) as (_&E2&F2&_&W1&W2).
        eapply IH in H; eauto.
  Qed.

  Lemma bufio_write_gen_nofault : forall direct (s : sink) (b : bufw) p s' b' n e,
    wf_sink A s -> wf_buf A b -> s_flt s = NoFault -> b_err b = ENone -> 1 <= b_size b ->
    bufio_write_gen A direct s b p = (s', b', n, e) ->
    e = ENone /\ n = nlen p /\ b_err b' = ENone.
  Proof.
    intros direct s b p s' b' n e Ws Wb Hf He Hsz H.
    pose proof (bufio_write_gen_error_is_sticky A _ _ _ _ _ _ _ _ Ws Wb Hsz H) as Est.
    destruct (bufio_write_gen_spec A _ _ _ _ _ _ _ _ Ws Wb H) as (_&_&_&_&_&[_ _ Full]).
    assert (Eb : b_err b' = ENone).
    { unfold bufio_write_gen in H.
      destruct (bufio_loop A direct (bufio_fuel A p) s b p 0) as [[[s1 b1] p1] nn] eqn:El.
      pose proof (bufio_loop_nofault _ _ _ _ _ _ _ _ _ _ Ws Wb Hf He El) as E1.
      destruct (is_err (b_err b1)); [inversion H; subst; exact E1|].
      destruct (b_avail A b1 <? nlen p1); inversion H; subst; exact E1. }
    rewrite Eb in Est. split; [exact Est|]. split; [apply Full; [reflexivity|exact Est]|exact Eb].
  Qed.

  (** a Write-like function that always takes everything on a healthy state *)
  Definition live (w : st -> list A -> st * N * err) : Prop :=
    forall t c t' n e, wf_st A t -> healthy t -> w t c = (t', n, e) ->
      e = ENone /\ n = nlen c /\ healthy t' /\ wf_st A t'.

  Lemma lower_gen_nofault : forall direct (t : st) p t' n e,
    wf_st A t -> healthy t ->
    match bw t with
    | None => let '(s, n, e) := sink_write A (snk t) p in (mkSt s None, n, e)
    | Some b => let '(s, b', n, e) := bufio_write_gen A direct (snk t) b p in (mkSt s (Some b'), n, e)
    end = (t', n, e) ->
    e = ENone /\ n = nlen p /\ healthy t' /\ wf_st A t'.
  Proof.
    intros direct t p t' n e W Hh H.
    pose proof (lower_gen_spec A direct t p t' n e W H) as (W'&(F&_&_)&_).
    destruct t as [s ob]. destruct W as [Ws Wb]. destruct Hh as [Hf Hb]. cbn in *.
    destruct ob as [b|].
    - destruct Hb as [He Hsz].
      destruct (bufio_write_gen A direct s b p) as [[[s1 b1] n1] e1] eqn:E.
      inversion H; subst; clear H.
      destruct (bufio_write_gen_nofault _ _ _ _ _ _ _ _ Ws Wb Hf He Hsz E) as (E1&E2&E3).
      destruct (bufio_write_gen_spec A _ _ _ _ _ _ _ _ Ws Wb E) as (_&_&_&Sz&_&_).
      split; [exact E1|]. split; [exact E2|]. split; [|exact W'].
      split; cbn; [cbn in F; congruence|]. split; [exact E3|lia].
    - rewrite (sink_write_nofault s p Hf) in H. inversion H; subst; clear H.
      split; [reflexivity|]. split; [reflexivity|]. split; [|exact W'].
      split; cbn; [exact Hf|exact I].
  Qed.

  Lemma live_lower : live (lower_write A).
  Proof. intros t c t' n e W Hh H. eapply lower_gen_nofault; eauto. Qed.

  Lemma live_lower_string : live (lower_write_string A).
  Proof. intros t c t' n e W Hh H. eapply lower_gen_nofault; eauto. Qed.

  Lemma otw_fix_live : forall cur p (r : st * N * err) t' n e,
    (forall t1 n1 e1, r = (t1, n1, e1) -> e1 = ENone /\ n1 = nlen p /\ healthy t1 /\ wf_st A t1) ->
    otw_fix A cur (nlen p) r = (t', n, e) ->
    e = ENone /\ n = nlen p /\ healthy t' /\ wf_st A t'.
  Proof.
    intros cur p [[t1 n1] e1] t' n e Hr H. destruct (Hr _ _ _ eq_refl) as (E1&E2&Hh&W). subst e1 n1.
    unfold otw_fix in H. cbn [is_err negb] in H. rewrite N.ltb_irrefl, andb_false_r in H.
    inversion H; subst. split; [reflexivity|]. split; [reflexivity|]. split; assumption.
  Qed.

  Lemma live_otw : forall cur, live (otw_write A cur).
  Proof.
    intros cur t c t' n e W Hh H. unfold otw_write in H.
    eapply otw_fix_live; [|exact H]. intros t1 n1 e1 Hr. eapply live_lower; eauto.
  Qed.

  Lemma live_otw_string : forall cur, live (otw_write_string A cur).
  Proof.
    intros cur t c t' n e W Hh H. unfold otw_write_string in H.
    eapply otw_fix_live; [|exact H]. intros t1 n1 e1 Hr. eapply live_lower_string; eauto.
  Qed.

  Definition op_live (t' : st) (e : err) : Prop := e = ENone /\ healthy t' /\ wf_st A t'.

  Lemma write_pieces_nofault : forall cur ps (t t' : st) e,
    wf_st A t -> healthy t -> write_pieces A cur t ps = (t', e) -> op_live t' e.
  Proof.
    intros cur. induction ps as [|pc ps IH]; intros t t' e W Hh H; cbn in H.
    - inversion H; subst. split; [reflexivity|split; assumption].
    - destruct (write_piece A cur t pc) as [[t1 n1] e1] eqn:E.
      assert (P : e1 = ENone /\ n1 = nlen (snd pc) /\ healthy t1 /\ wf_st A t1).
      { unfold write_piece in E. destruct (fst pc); [eapply live_otw_string | eapply live_otw]; eauto. }
      destruct P as (E1&_&Hh1&W1). subst e1. cbn in H. eapply IH; eauto.
  Qed.

  Lemma retry_nofault : forall w, live w -> forall fuel c (t t' : st) e,
    (1 <= fuel)%nat -> wf_st A t -> healthy t -> retry A w fuel t c = (t', e) -> op_live t' e.
  Proof.
    intros w Hw fuel c t t' e Hfu W Hh H.
    destruct c as [|x c].
    - rewrite retry_nil in H. inversion H; subst. split; [reflexivity|split; assumption].
    - destruct fuel as [|f]; [lia|]. cbn [retry] in H. remember (x :: c) as cc.
      destruct (w t cc) as [[t1 n1] e1] eqn:E.
      destruct (Hw _ _ _ _ _ W Hh E) as (E1&E2&Hh1&W1). subst e1 n1. cbn in H.
      rewrite skipn_nlen, retry_nil in H. inversion H; subst.
      split; [reflexivity|split; assumption].
  Qed.

  Lemma write_to_nofault : forall w, live w -> forall chunks (t t' : st) e,
    wf_st A t -> healthy t -> write_to A w t chunks = (t', e) -> op_live t' e.
  Proof.
    intros w Hw. induction chunks as [|c r IH]; intros t t' e W Hh H; cbn in H.
    - inversion H; subst. split; [reflexivity|split; assumption].
    - destruct (retry A w (length (snd c) + 2) t (snd c)) as [t1 e1] eqn:E.
      assert (Hfu : (1 <= length (snd c) + 2)%nat) by lia.
      destruct (retry_nofault w Hw _ _ _ _ _ Hfu W Hh E) as (E1&Hh1&W1). subst e1. cbn in H.
      eapply IH; eauto.
  Qed.

  Lemma copy_loop_nofault : forall chunks (s s' : sink) e,
    wf_sink A s -> s_flt s = NoFault -> copy_loop A s chunks = (s', e) ->
    e = ENone /\ s_flt s' = NoFault /\ wf_sink A s'.
  Proof.
    induction chunks as [|c r IH]; intros s s' e W Hf H; cbn in H.
    - inversion H; subst. auto.
    - pose proof (sink_write_spec A s (snd c) _ _ _ W (sink_write_nofault s (snd c) Hf)) as P.
      rewrite (sink_write_nofault s (snd c) Hf) in H. cbn [is_err] in H. rewrite N.ltb_irrefl in H.
      eapply IH in H; eauto. apply (sw_wf _ _ _ _ _ _ P).
  Qed.

  Lemma bufio_fill_nofault : forall data (s : sink) (b : bufw) s' b' e,
    wf_sink A s -> wf_buf A b -> s_flt s = NoFault -> b_err b = ENone ->
    bufio_fill A s b data = (s', b', e) ->
    e = ENone /\ b_err b' = ENone /\ s_flt s' = NoFault /\ b_size b' = b_size b /\
    wf_sink A s' /\ wf_buf A b'.
  Proof.
    induction data as [|x r IH]; intros s b s' b' e Ws Wb Hf He H; cbn [bufio_fill] in H.
    - destruct (b_avail A b =? 0).
      + eapply bufio_flush_nofault; eauto.
      + inversion H; subst. split; [reflexivity|]. split; [exact He|]. split; [exact Hf|]. split; [reflexivity|]. split; assumption.
    - destruct (b_avail A b =? 0).
      + destruct (bufio_flush A s b) as [[s1 b1] e1] eqn:Ef.
        destruct (bufio_flush_nofault _ _ _ _ _ Ws Wb Hf He Ef) as (E1&E2&F1&Sz&W1&W2). subst e1. cbn in H.
        destruct (IH _ _ _ _ _ W1 (b_push_wf A _ [x] W2) F1 E2 H) as (R1&R2&R3&R4&R5&R6).
        split; [exact R1|]. split; [exact R2|]. split; [exact R3|]. split; [cbn in R4; congruence|]. split; assumption.
      + destruct (IH _ _ _ _ _ Ws (b_push_wf A _ [x] Wb) Hf He H) as (R1&R2&R3&R4&R5&R6).
        split; [exact R1|]. split; [exact R2|]. split; [exact R3|]. split; [exact R4|]. split; assumption.
  Qed.

  Lemma run_mech_nofault : forall cur m ps (t t' : st) e,
    wf_st A t -> healthy t -> run_mech A cur m t ps = (t', e) -> op_live t' e.
  Proof.
    intros cur m ps t t' e W Hh H. destruct m; cbn [run_mech] in H.
    - eapply write_pieces_nofault; eauto.
    - eapply write_to_nofault; eauto. apply live_otw.
    - eapply write_to_nofault; eauto. apply live_lower.
    - destruct t as [s ob]. destruct W as [Ws Wb]. destruct Hh as [Hf Hb]. cbn in *. destruct ob as [b|].
      + destruct Hb as [He Hsz]. unfold bufio_read_from in H. rewrite He in H. cbn [is_err] in H.
        destruct (bufio_fill A s b (site_data_of A ps)) as [[s1 b1] e1] eqn:Ef.
        inversion H; subst; clear H.
        destruct (bufio_fill_nofault _ _ _ _ _ _ Ws Wb Hf He Ef) as (R1&R2&R3&R4&R5&R6).
        split; [exact R1|]. split; split; cbn; auto. split; [exact R2|lia].
      + destruct (copy_loop A s ps) as [s1 e1] eqn:Ec. inversion H; subst; clear H.
        destruct (copy_loop_nofault _ _ _ _ Ws Hf Ec) as (R1&R2&R3).
        split; [exact R1|]. split; split; cbn; auto.
  Qed.

  Notation site := (site A).

  Lemma run_sites_nofault : forall cur chk (xs : list site) i (t t' : st) e j,
    wf_st A t -> healthy t -> run_sites A cur chk i t xs = (t', e, j) ->
    e = ENone /\ j = (i + length xs)%nat /\ healthy t' /\ wf_st A t'.
  Proof.
    intros cur chk. induction xs as [|x r IH]; intros i t t' e j W Hh H; cbn [run_sites] in H.
    - inversion H; subst. split; [reflexivity|]. split; [cbn; lia|]. split; assumption.
    - destruct (run_mech A cur (st_mech x) t (st_pieces x)) as [t1 e1] eqn:E.
      destruct (run_mech_nofault _ _ _ _ _ _ W Hh E) as (E1&Hh1&W1). subst e1. cbn in H.
      destruct (IH _ _ _ _ _ W1 Hh1 H) as (R1&R2&R3&R4).
      split; [exact R1|]. split; [cbn [length]; lia|]. split; assumption.
  Qed.

  Lemma init_healthy : forall bs, (forall sz, bs = Some sz -> 1 <= sz) -> healthy (init A NoFault bs).
  Proof.
    intros bs H. split; [reflexivity|]. destruct bs as [sz|]; cbn; [|exact I].
    split; [reflexivity|]. apply H. reflexivity.
  Qed.
End Liveness.
