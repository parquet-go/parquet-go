(** C14 — proofs about the copy path model Sink/Copy.v, and the theorems about
    plain sites that are its instances at [map IPlain]. *)
From Coq Require Import List Arith Bool NArith Lia.
From Coq Require Import ZifyBool.
From PQ Require Import Sink.Model Sink.Proofs Sink.Liveness Sink.Copy.
Import ListNotations.
Open Scope N_scope.

Arguments Model.frev : simpl never.
Arguments Model.nlen : simpl never.

Section CopyProofs.
  Variable A : Type.

  Notation st := (st A).
  Notation nlen := (nlen A).
  Notation item := (item A).
  Notation sd := (site_data_of A).
  Notation content := (content A).

  Lemma take_pieces_short : forall ps a, src_short A ps a = true ->
    nlen (sd (take_pieces A a ps)) = a.
  Proof.
    intros ps a H. rewrite (take_pieces_data A). unfold src_short in H. apply nlen_firstn. lia.
  Qed.

  Lemma first_short_none : forall (xs : list item) i, first_short A i xs = None <-> has_short A xs = false.
  Proof.
    induction xs as [|x r IH]; intros i; cbn; [tauto|].
    destruct (item_short A x); cbn; [split; discriminate|]. apply IH.
  Qed.

  Lemma first_short_some : forall (xs : list item) i k, first_short A i xs = Some k -> has_short A xs = true.
  Proof.
    intros xs i k H. destruct (has_short A xs) eqn:E; [reflexivity|].
    apply (first_short_none xs i) in E. congruence.
  Qed.

  (** Close (and every call before it) returned nil: the destination holds
      every module with its declared length, and no source was short *)
  Theorem copy_nil_means_complete : forall chk, (forall k, chk k = true) ->
    forall f bs (xs : list item) t' i,
    close_items A true true chk true (init A f bs) xs = (t', CNil, i) ->
    sink_bytes A (snk t') = declared A [] xs /\ has_short A xs = false.
  Proof.
    intros chk Hchk f bs xs t' i H.
    destruct (close_items_nil_complete A chk Hchk _ _ _ _ (init_wf A f bs) H) as (_&_&C&Hs).
    rewrite init_content in C. split; assumption.
  Qed.

  (** a source that ends early is reported, whatever the destination does *)
  Theorem copy_source_short_reported : forall chk, (forall k, chk k = true) ->
    forall f bs (xs : list item) t' e i,
    has_short A xs = true ->
    close_items A true true chk true (init A f bs) xs = (t', e, i) -> e <> CNil.
  Proof.
    intros chk Hchk f bs xs t' e i Hs H E. subst e.
    destruct (copy_nil_means_complete chk Hchk _ _ _ _ _ H) as [_ Hn]. congruence.
  Qed.

  (** a failing destination is reported on the copy path as well *)
  Theorem copy_err_fault_surfaces : forall chk, (forall k, chk k = true) ->
    forall k bs (xs : list item) t' e i,
    k < nlen (declared A [] xs) ->
    close_items A true true chk true (init A (ErrAt k) bs) xs = (t', e, i) -> e <> CNil.
  Proof.
    intros chk Hchk k bs xs t' e i Hk H E. subst e.
    destruct (close_items_nil_complete A chk Hchk _ _ _ _ (init_wf A _ bs) H) as (W&(F&_&_)&C&_).
    rewrite init_content in C. cbn in C, F.
    destruct W as [[Hp Hf] _]. rewrite F in Hf.
    assert (s_pos (snk t') = nlen (declared A [] xs)).
    { unfold Model.sink_bytes in C. rewrite Hp, <- C, nlen_frev. reflexivity. }
    lia.
  Qed.

  (** an error of the destination at offset k inside the file is reported *)
  Theorem err_fault_surfaces : forall chk, (forall k, chk k = true) ->
    forall k bs (xs : list (site A)) t' e i,
    k < nlen (all_data A xs) ->
    close A true chk true (init A (ErrAt k) bs) xs = (t', e, i) ->
    e <> ENone.
  Proof.
    intros chk Hchk k bs xs t' e i Hk H E. subst e.
    pose proof (close_as_items A true true chk true (init A (ErrAt k) bs) xs) as C.
    rewrite H in C. rewrite <- (declared_plain A []) in Hk.
    exact (copy_err_fault_surfaces chk Hchk _ _ _ _ _ _ Hk C eq_refl).
  Qed.

  (** *** a destination that never fails: the call that copies the first short
      section reports io.ErrUnexpectedEOF; without a short source everything
      returns nil *)
  Lemma run_items_nofault : forall cur chk (xs : list item) i (t : st) q t' e j,
    wf_st A t -> healthy A t -> run_items A cur true chk i t q xs = (t', e, j) ->
    healthy A t' /\ wf_st A t' /\
    match first_short A i xs with
    | Some k => e = CSrc /\ j = k
    | None => e = CNil /\ j = (i + length xs)%nat
    end.
  Proof.
    intros cur chk. induction xs as [|x r IH]; intros i t q t' e j W Hh H; cbn [run_items] in H.
    - inversion H; subst. split; [exact Hh|]. split; [exact W|]. cbn. split; [reflexivity|lia].
    - destruct x as [x|k ps a|ps a|m]; cbn [first_short item_short].
      + destruct (run_mech A cur (st_mech x) t (st_pieces x)) as [t1 e1] eqn:E.
        destruct (run_mech_nofault A _ _ _ _ _ _ W Hh E) as (E1&Hh1&W1). subst e1. cbn in H.
        destruct (IH _ _ _ _ _ _ W1 Hh1 H) as (R1&R2&R3).
        split; [exact R1|]. split; [exact R2|].
        destruct (first_short A (S i) r); [exact R3|]. destruct R3 as [R3 R4]. split; [exact R3|cbn [length]; lia].
      + destruct (run_mech A cur MLowerCopy t (take_pieces A a ps)) as [t1 e1] eqn:E.
        destruct (run_mech_nofault A _ _ _ _ _ _ W Hh E) as (E1&Hh1&W1). subst e1. cbn [is_err andb] in H.
        destruct (src_short A ps a).
        * inversion H; subst. split; [exact Hh1|]. split; [exact W1|]. split; reflexivity.
        * destruct (IH _ _ _ _ _ _ W1 Hh1 H) as (R1&R2&R3).
          split; [exact R1|]. split; [exact R2|].
          destruct (first_short A (S i) r); [exact R3|]. destruct R3 as [R3 R4]. split; [exact R3|cbn [length]; lia].
      + cbn [andb] in H. destruct (src_short A ps a).
        * inversion H; subst. split; [exact Hh|]. split; [exact W|]. split; reflexivity.
        * destruct (IH _ _ _ _ _ _ W Hh H) as (R1&R2&R3).
          split; [exact R1|]. split; [exact R2|].
          destruct (first_short A (S i) r); [exact R3|]. destruct R3 as [R3 R4]. split; [exact R3|cbn [length]; lia].
      + destruct (run_sites A cur chk 0 t (map (fun ps => mkSite KBloomDeferred m ps) q)) as [[t1 e1] i1] eqn:E.
        destruct (run_sites_nofault A _ _ _ _ _ _ _ _ W Hh E) as (E1&_&Hh1&W1). subst e1. cbn [is_err] in H.
        destruct (IH _ _ _ _ _ _ W1 Hh1 H) as (R1&R2&R3).
        split; [exact R1|]. split; [exact R2|].
        destruct (first_short A (S i) r); [exact R3|]. destruct R3 as [R3 R4]. split; [exact R3|cbn [length]; lia].
  Qed.

  Theorem copy_short_reported_by_copying_call : forall chk bs (xs : list item) k t' e i,
    (forall sz, bs = Some sz -> 1 <= sz) ->
    first_short A 0 xs = Some k ->
    close_items A true true chk true (init A NoFault bs) xs = (t', e, i) ->
    e = CSrc /\ i = k.
  Proof.
    intros chk bs xs k t' e i Hbs Hk H. unfold close_items in H.
    destruct (run_items A true true chk 0 (init A NoFault bs) [] xs) as [[t1 e1] i1] eqn:E.
    destruct (run_items_nofault _ _ _ _ _ _ _ _ _ (init_wf A NoFault bs) (init_healthy A bs Hbs) E) as (_&_&R).
    rewrite Hk in R. destruct R as [R1 R2]. subst e1 i1. cbn [is_cerr] in H. inversion H; subst. split; reflexivity.
  Qed.

  Theorem copy_fault_free_complete : forall chk, (forall k, chk k = true) ->
    forall bs (xs : list item) t' e i,
    (forall sz, bs = Some sz -> 1 <= sz) ->
    has_short A xs = false ->
    close_items A true true chk true (init A NoFault bs) xs = (t', e, i) ->
    e = CNil /\ i = length xs /\ sink_bytes A (snk t') = declared A [] xs.
  Proof.
    intros chk Hchk bs xs t' e i Hbs Hs H.
    assert (E : e = CNil /\ i = length xs).
    { unfold close_items in H.
      destruct (run_items A true true chk 0 (init A NoFault bs) [] xs) as [[t1 e1] i1] eqn:Er.
      destruct (run_items_nofault _ _ _ _ _ _ _ _ _ (init_wf A NoFault bs) (init_healthy A bs Hbs) Er) as (Hh1&W1&R).
      apply (first_short_none xs 0) in Hs. rewrite Hs in R. destruct R as [R1 R2]. subst e1 i1.
      cbn [is_cerr] in H.
      destruct t1 as [s1 ob]. destruct W1 as [Ws Wb]. destruct Hh1 as [Hf Hb]. cbn in *.
      destruct ob as [b|].
      - destruct Hb as [He Hsz].
        destruct (bufio_flush A s1 b) as [[s2 b2] e2] eqn:Ef.
        destruct (bufio_flush_nofault A _ _ _ _ _ Ws Wb Hf He Ef) as (R1&_). subst e2.
        inversion H; subst. split; reflexivity.
      - inversion H; subst. split; reflexivity. }
    destruct E as [E1 E2]. subst e. split; [reflexivity|]. split; [exact E2|].
    eapply copy_nil_means_complete; eauto.
  Qed.

  Lemma has_short_plain : forall xs : list (site A), has_short A (map IPlain xs) = false.
  Proof. induction xs; cbn; auto. Qed.

  (** Without a fault every site returns nil, the final flush of Close returns
      nil, and the destination holds the concatenation of all modules. *)
  Theorem fault_free_complete : forall chk chk_flush, (forall k, chk k = true) -> chk_flush = true ->
    forall bs (xs : list (site A)) t' e i,
    (forall sz, bs = Some sz -> 1 <= sz) ->
    close A true chk chk_flush (init A NoFault bs) xs = (t', e, i) ->
    e = ENone /\ i = length xs /\ sink_bytes A (snk t') = all_data A xs.
  Proof.
    intros chk chk_flush Hchk -> bs xs t' e i Hbs H.
    pose proof (close_as_items A true true chk true (init A NoFault bs) xs) as C. rewrite H in C.
    destruct (copy_fault_free_complete chk Hchk _ _ _ _ _ Hbs (has_short_plain xs) C) as (E & Hi & B).
    rewrite map_length in Hi. rewrite declared_plain in B.
    destruct e; [auto|discriminate E|discriminate E].
  Qed.
End CopyProofs.
