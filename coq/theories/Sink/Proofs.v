(** C14 — writer side proofs about Sink/Model.v, and about the items of
    Sink/Copy.v as far as a nil Close is concerned. *)
From Coq Require Import List Arith Bool NArith Lia.
From Coq Require Import ZifyBool.
From PQ Require Import Base.ListExtra Sink.Model Sink.Copy Sink.Layers.
Import ListNotations.
Open Scope N_scope.

Lemma is_err_true : forall e, is_err e = true <-> e <> ENone.
Proof. destruct e; cbn; split; congruence. Qed.

Arguments Model.frev : simpl never.
Arguments Model.nlen : simpl never.

Section SinkProofs.
  Variable A : Type.

  Notation sink := (sink A).
  Notation bufw := (bufw A).
  Notation st := (st A).
  Notation nlen := (nlen A).
  Notation frev := (frev A).
  Notation sink_bytes := (sink_bytes A).
  Notation content := (content A).

  Lemma frev_rev : forall l : list A, frev l = rev l.
  Proof. intros. unfold Model.frev. rewrite rev_append_rev. apply app_nil_r. Qed.

  Lemma nlen_app : forall a b : list A, nlen (a ++ b) = nlen a + nlen b.
  Proof. intros. unfold Model.nlen. rewrite app_length. lia. Qed.

  Lemma nlen_nil : nlen [] = 0.
  Proof. reflexivity. Qed.

  Lemma nlen_zero : forall l : list A, nlen l = 0 -> l = [].
  Proof. intros [|x l]; cbn; [reflexivity|]. unfold Model.nlen. cbn. lia. Qed.

  Lemma nlen_rev : forall l : list A, nlen (rev l) = nlen l.
  Proof. intros. unfold Model.nlen. now rewrite rev_length. Qed.

  Lemma nlen_frev : forall l : list A, nlen (frev l) = nlen l.
  Proof. intros. rewrite frev_rev. apply nlen_rev. Qed.

  Lemma nlen_rev_append : forall a b : list A, nlen (rev_append a b) = nlen a + nlen b.
  Proof. intros. rewrite rev_append_rev, nlen_app, nlen_rev. reflexivity. Qed.

  Lemma nlen_firstn : forall (n : N) (l : list A), n <= nlen l -> nlen (firstn (N.to_nat n) l) = n.
  Proof. intros. unfold Model.nlen in *. rewrite firstn_length. lia. Qed.

  Lemma nlen_skipn : forall (n : N) (l : list A), nlen (skipn (N.to_nat n) l) = nlen l - n.
  Proof. intros. unfold Model.nlen. rewrite skipn_length. lia. Qed.

  Lemma firstn_nlen : forall l : list A, firstn (N.to_nat (nlen l)) l = l.
  Proof. intros. unfold Model.nlen. rewrite Nat2N.id. apply firstn_all. Qed.

  Lemma skipn_nlen : forall l : list A, skipn (N.to_nat (nlen l)) l = [].
  Proof. intros. unfold Model.nlen. rewrite Nat2N.id. apply skipn_all. Qed.

  Lemma frev_rev_append : forall a b : list A, frev (rev_append a b) = frev b ++ a.
  Proof.
    intros. rewrite !frev_rev, rev_append_rev, rev_app_distr, rev_involutive. reflexivity.
  Qed.

  Definition wf_sink (s : sink) : Prop :=
    s_pos s = nlen (s_rev s) /\
    match s_flt s with
    | NoFault => True
    | ErrAt k => s_pos s <= k
    | ShortAt k => s_fired s = false -> s_pos s <= k
    | FullErrAt _ => True
    end.

  Lemma sink_bytes_accept : forall (s : sink) p f,
    sink_bytes (sink_accept A s p f) = sink_bytes s ++ p.
  Proof. intros. unfold Model.sink_bytes, sink_accept. cbn. apply frev_rev_append. Qed.

  Record sink_write_post (s : sink) (p : list A) (s' : sink) (n : N) (e : err) : Prop := {
    sw_wf : wf_sink s';
    sw_flt : s_flt s' = s_flt s;
    sw_le : n <= nlen p;
    sw_bytes : sink_bytes s' = sink_bytes s ++ firstn (N.to_nat n) p;
    sw_pos : s_pos s' = s_pos s + n;
    sw_noshort : e <> EShort;
    sw_full : e = ENone -> n = nlen p \/ (n < nlen p /\ s_fired s = false /\ s_fired s' = true);
    sw_fired : s_fired s' = s_fired s \/ (n < nlen p /\ e = ENone /\ s_fired s' = true);
    sw_sink : e = ESink -> (n < nlen p /\ exists k, s_flt s = ErrAt k) \/
                           (n = nlen p /\ exists k, s_flt s = FullErrAt k /\ s_pos s < k <= s_pos s + n);
    sw_nofault : s_flt s = NoFault -> e = ENone
  }.

  Lemma complete_write_post : forall (s : sink) p e,
    wf_sink (sink_accept A s p (s_fired s)) -> e <> EShort ->
    (e = ESink -> exists k, s_flt s = FullErrAt k /\ s_pos s < k <= s_pos s + nlen p) ->
    (s_flt s = NoFault -> e = ENone) ->
    sink_write_post s p (sink_accept A s p (s_fired s)) (nlen p) e.
  Proof.
    intros s p e W Hn Hs Hf. split.
    - exact W.
    - reflexivity.
    - apply N.le_refl.
    - now rewrite sink_bytes_accept, firstn_nlen.
    - reflexivity.
    - exact Hn.
    - intros _. now left.
    - now left.
    - intros E. right. split; [reflexivity|]. now apply Hs.
    - exact Hf.
  Qed.

  Lemma sink_write_spec : forall (s : sink) p s' n e,
    wf_sink s -> sink_write A s p = (s', n, e) -> sink_write_post s p s' n e.
  Proof.
    intros s p s' n e [Hpos Hf] H. unfold sink_write in H.
    assert (Wpos : forall q f, s_pos (sink_accept A s q f) = nlen (s_rev (sink_accept A s q f))).
    { intros q f. cbn. rewrite nlen_rev_append. lia. }
    destruct (s_flt s) as [|k|k|k] eqn:Ef.
    - inversion H; subst; clear H. apply complete_write_post; try discriminate; [|reflexivity].
      split; [apply Wpos|cbn; now rewrite Ef].
    - destruct (s_pos s + nlen p <=? k) eqn:Ele.
      + inversion H; subst; clear H. apply complete_write_post; try discriminate; [|reflexivity].
        split; [apply Wpos|cbn; rewrite Ef; lia].
      + inversion H; subst; clear H.
        assert (Hn : k - s_pos s <= nlen p) by lia.
        split.
        * split; [apply Wpos|cbn; rewrite Ef, nlen_firstn by lia; lia].
        * reflexivity.
        * lia.
        * rewrite sink_bytes_accept. reflexivity.
        * cbn. rewrite nlen_firstn by lia. reflexivity.
        * congruence.
        * congruence.
        * left. reflexivity.
        * intros _. left. split; [lia|]. exists k. exact Ef.
        * congruence.
    - destruct (s_fired s || (s_pos s + nlen p <=? k)) eqn:Ele.
      + inversion H; subst; clear H. apply complete_write_post; try discriminate; [|reflexivity].
        split; [apply Wpos|cbn; rewrite Ef]. intros Hfi. rewrite Hfi in Ele. specialize (Hf Hfi). lia.
      + apply orb_false_iff in Ele. destruct Ele as [Hfi Hle].
        inversion H; subst; clear H.
        assert (Hk : s_pos s <= k) by (apply Hf; exact Hfi).
        assert (Hn : k - s_pos s < nlen p) by lia.
        split.
        * split; [apply Wpos|cbn; rewrite Ef]. intros Hc. discriminate Hc.
        * reflexivity.
        * lia.
        * rewrite sink_bytes_accept. reflexivity.
        * cbn. rewrite nlen_firstn by lia. reflexivity.
        * congruence.
        * intros _. right. split; [lia|]. split; [exact Hfi | reflexivity].
        * right. split; [lia|]. split; reflexivity.
        * congruence.
        * congruence.
    - inversion H; subst; clear H.
      apply complete_write_post.
      + split; [apply Wpos|cbn; now rewrite Ef].
      + destruct ((s_pos s <? k) && (k <=? s_pos s + nlen p)); discriminate.
      + intros He. exists k. split; [exact Ef|].
        destruct ((s_pos s <? k) && (k <=? s_pos s + nlen p)) eqn:E; [lia|discriminate He].
      + congruence.
  Qed.

  Definition wf_buf (b : bufw) : Prop := b_n b = nlen (b_rev b).

  Definition cont (s : sink) (b : bufw) : list A := sink_bytes s ++ frev (b_rev b).

  Lemma frev_frev : forall l : list A, frev (frev l) = l.
  Proof. intros. rewrite !frev_rev. apply rev_involutive. Qed.

  Lemma b_push_wf : forall (b : bufw) c, wf_buf b -> wf_buf (b_push A b c).
  Proof. unfold wf_buf, b_push. intros. cbn. rewrite nlen_rev_append. lia. Qed.

  Lemma b_push_bytes : forall (b : bufw) c, frev (b_rev (b_push A b c)) = frev (b_rev b) ++ c.
  Proof. intros. cbn. apply frev_rev_append. Qed.

  Record flush_post (s : sink) (b : bufw) (s' : sink) (b' : bufw) (e : err) : Prop := {
    fl_wfs : wf_sink s';
    fl_wfb : wf_buf b';
    fl_cont : cont s' b' = cont s b;
    fl_flt : s_flt s' = s_flt s;
    fl_size : b_size b' = b_size b;
    fl_err : b_err b' = e;
    fl_ok : e = ENone -> b_rev b' = [] /\ b_n b' = 0;
    fl_nofault : s_flt s = NoFault -> b_err b = ENone -> e = ENone;
    fl_fired : s_fired s = true -> s_fired s' = true
  }.

  Lemma sw_fired_mono : forall (s : sink) p s' n e,
    sink_write_post s p s' n e -> s_fired s = true -> s_fired s' = true.
  Proof. intros s p s' n e H Hf. destruct (sw_fired _ _ _ _ _ H) as [E|(_&_&E)]; congruence. Qed.

  Lemma bufio_flush_spec : forall (s : sink) (b : bufw) s' b' e,
    wf_sink s -> wf_buf b -> bufio_flush A s b = (s', b', e) -> flush_post s b s' b' e.
  Proof.
    intros s b s' b' e Hs Hb H. unfold bufio_flush in H.
    destruct (is_err (b_err b)) eqn:Eerr.
    { inversion H; subst; clear H. split; try reflexivity; try assumption.
      - intros E. rewrite E in Eerr. discriminate.
      - intros _ E. rewrite E in Eerr. discriminate.
      - intros F; exact F. }
    destruct (b_n b =? 0) eqn:En.
    { inversion H; subst; clear H. apply is_err_none in Eerr. split; try reflexivity; try assumption.
      - intros _. split; [|lia]. apply nlen_zero. unfold wf_buf in Hb. lia.
      - intros F; exact F. }
    destruct (sink_write A s (frev (b_rev b))) as [[s1 n] e1] eqn:Ew.
    pose proof (sink_write_spec _ _ _ _ _ Hs Ew) as P.
    assert (Hdata : nlen (frev (b_rev b)) = b_n b) by (rewrite nlen_frev; symmetry; exact Hb).
    destruct (is_err (if negb (is_err e1) && (n <? b_n b) then EShort else e1)) eqn:Ee.
    - inversion H; subst; clear H. split.
      + apply (sw_wf _ _ _ _ _ P).
      + unfold wf_buf. cbn. rewrite nlen_frev, nlen_skipn. lia.
      + unfold cont. cbn. rewrite (sw_bytes _ _ _ _ _ P), frev_frev, <- app_assoc, firstn_skipn. reflexivity.
      + apply (sw_flt _ _ _ _ _ P).
      + reflexivity.
      + reflexivity.
      + intros E. rewrite E in Ee. discriminate.
      + intros Hnf _. pose proof (sw_nofault _ _ _ _ _ P Hnf) as E1. subst e1. cbn in *.
        destruct (sw_full _ _ _ _ _ P eq_refl) as [Hn|(Hn&Hf&_)].
        * assert (n <? b_n b = false) by lia. rewrite H in Ee. discriminate.
        * exfalso. destruct Hs as [_ Hs]. rewrite Hnf in Hs.
          pose proof (sw_fired _ _ _ _ _ P) as F. pose proof (sw_wf _ _ _ _ _ P) as W.
          unfold sink_write in Ew. rewrite Hnf in Ew. inversion Ew; subst. lia.
      + apply (sw_fired_mono _ _ _ _ _ P).
    - inversion H; subst; clear H.
      assert (E1 : e1 = ENone).
      { destruct e1; cbn in Ee; try discriminate; reflexivity. }
      subst e1. cbn in Ee.
      assert (Hn : n = b_n b).
      { destruct (n <? b_n b) eqn:L; [discriminate|]. pose proof (sw_le _ _ _ _ _ P). lia. }
      split.
      + apply (sw_wf _ _ _ _ _ P).
      + reflexivity.
      + unfold cont. cbn. rewrite (sw_bytes _ _ _ _ _ P), Hn, <- Hdata, firstn_nlen, app_nil_r. reflexivity.
      + apply (sw_flt _ _ _ _ _ P).
      + reflexivity.
      + reflexivity.
      + intros _. split; reflexivity.
      + reflexivity.
      + apply (sw_fired_mono _ _ _ _ _ P).
  Qed.

  Lemma split_combine : forall (n n2 : N) (p : list A),
    n <= nlen p -> n2 <= nlen (skipn (N.to_nat n) p) ->
    firstn (N.to_nat n) p ++ firstn (N.to_nat n2) (skipn (N.to_nat n) p) = firstn (N.to_nat (n + n2)) p /\
    skipn (N.to_nat n2) (skipn (N.to_nat n) p) = skipn (N.to_nat (n + n2)) p /\
    n + n2 <= nlen p.
  Proof.
    intros n n2 p H1 H2. rewrite nlen_skipn in H2.
    rewrite N2Nat.inj_add, firstn_add, skipn_add. repeat split; lia.
  Qed.

  Record loop_post (s : sink) (b : bufw) (p : list A) (nn : N)
                   (s' : sink) (b' : bufw) (p' : list A) (nn' : N) : Prop := {
    lp_wfs : wf_sink s';
    lp_wfb : wf_buf b';
    lp_n : exists n, nn' = nn + n /\ n <= nlen p /\ p' = skipn (N.to_nat n) p /\
                     cont s' b' = cont s b ++ firstn (N.to_nat n) p;
    lp_flt : s_flt s' = s_flt s;
    lp_size : b_size b' = b_size b;
    lp_fired : s_fired s = true -> s_fired s' = true
  }.

  Lemma bufio_loop_spec : forall direct fuel (s : sink) (b : bufw) p nn s' b' p' nn',
    wf_sink s -> wf_buf b ->
    bufio_loop A direct fuel s b p nn = (s', b', p', nn') ->
    loop_post s b p nn s' b' p' nn'.
  Proof.
    intros direct fuel. induction fuel as [|f IH]; intros s b p nn s' b' p' nn' Hs Hb H.
    - cbn in H. inversion H; subst; clear H. split; auto.
      exists 0. cbn. rewrite app_nil_r. repeat split; lia.
    - cbn [bufio_loop] in H.
      destruct ((b_avail A b <? nlen p) && negb (is_err (b_err b))) eqn:G.
      2:{ inversion H; subst; clear H. split; auto.
          exists 0. cbn. rewrite app_nil_r. repeat split; lia. }
      destruct (direct && (b_n b =? 0)) eqn:D.
      + apply andb_true_iff in D. destruct D as [_ D].
        assert (Hnil : b_rev b = []) by (apply nlen_zero; unfold wf_buf in Hb; lia).
        destruct (sink_write A s p) as [[s1 n] e1] eqn:Ew.
        pose proof (sink_write_spec _ _ _ _ _ Hs Ew) as P.
        apply IH in H; [| apply (sw_wf _ _ _ _ _ P) | unfold wf_buf in *; cbn; exact Hb].
        destruct H as [W1 W2 (n2 & E1 & E2 & E3 & E4) F1 F2 F3].
        destruct (split_combine n n2 p (sw_le _ _ _ _ _ P) E2) as (C1 & C2 & C3).
        split; auto.
        * exists (n + n2). repeat split; [rewrite E1; apply eq_sym, N.add_assoc | exact C3 | rewrite E3; exact C2 |].
          rewrite E4. unfold cont. cbn [b_rev]. rewrite (sw_bytes _ _ _ _ _ P), Hnil.
          change (frev []) with (@nil A). rewrite !app_nil_r, <- app_assoc, C1. reflexivity.
        * rewrite F1. apply (sw_flt _ _ _ _ _ P).
        * intros Hf. apply F3. apply (sw_fired_mono _ _ _ _ _ P Hf).
      + set (n := N.min (b_avail A b) (nlen p)) in *.
        destruct (bufio_flush A s (b_push A b (firstn (N.to_nat n) p))) as [[s1 b2] e1] eqn:Ef.
        pose proof (bufio_flush_spec _ _ _ _ _ Hs (b_push_wf _ _ Hb) Ef) as P.
        apply IH in H; [| apply (fl_wfs _ _ _ _ _ P) | apply (fl_wfb _ _ _ _ _ P)].
        destruct H as [W1 W2 (n2 & E1 & E2 & E3 & E4) F1 F2 F3].
        assert (Hn : n <= nlen p) by apply N.le_min_r.
        destruct (split_combine n n2 p Hn E2) as (C1 & C2 & C3).
        split; auto.
        * exists (n + n2). repeat split; [rewrite E1; apply eq_sym, N.add_assoc | exact C3 | rewrite E3; exact C2 |].
          rewrite E4, (fl_cont _ _ _ _ _ P). unfold cont. rewrite b_push_bytes.
          rewrite <- !app_assoc, C1. reflexivity.
        * rewrite F1. apply (fl_flt _ _ _ _ _ P).
        * rewrite F2. apply (fl_size _ _ _ _ _ P).
        * intros Hf. apply F3. apply (fl_fired _ _ _ _ _ P Hf).
  Qed.

  Record write_post (c c' : list A) (p : list A) (n : N) (e : err) (buffered : bool) : Prop := {
    wp_le : n <= nlen p;
    wp_cont : c' = c ++ firstn (N.to_nat n) p;
    wp_full : buffered = true -> e = ENone -> n = nlen p
  }.

  Lemma bufio_write_gen_spec : forall direct (s : sink) (b : bufw) p s' b' n e,
    wf_sink s -> wf_buf b ->
    bufio_write_gen A direct s b p = (s', b', n, e) ->
    wf_sink s' /\ wf_buf b' /\ s_flt s' = s_flt s /\ b_size b' = b_size b /\
    (s_fired s = true -> s_fired s' = true) /\
    write_post (cont s b) (cont s' b') p n e true.
  Proof.
    intros direct s b p s' b' n e Hs Hb H. unfold bufio_write_gen in H.
    destruct (bufio_loop A direct (bufio_fuel A p) s b p 0) as [[[s1 b1] p1] nn] eqn:El.
    pose proof (bufio_loop_spec _ _ _ _ _ _ _ _ _ _ Hs Hb El) as [W1 W2 (n1 & E1 & E2 & E3 & E4) F1 F2 F3].
    destruct (is_err (b_err b1)) eqn:Ee.
    { inversion H; subst; clear H.
      split; [exact W1|]. split; [exact W2|]. split; [exact F1|]. split; [exact F2|]. split; [exact F3|].
      split.
      - lia.
      - replace (0 + n1) with n1 by lia. exact E4.
      - intros _ E. rewrite E in Ee. discriminate. }
    destruct (b_avail A b1 <? nlen p1) eqn:Ea.
    { inversion H; subst; clear H.
      split; [exact W1|]. split; [exact W2|]. split; [exact F1|]. split; [exact F2|]. split; [exact F3|].
      split.
      - lia.
      - replace (0 + n1) with n1 by lia. exact E4.
      - intros _ E. discriminate. }
    inversion H; subst; clear H.
    assert (Hp1 : nlen (skipn (N.to_nat n1) p) <= nlen (skipn (N.to_nat n1) p)) by lia.
    destruct (split_combine n1 _ p E2 Hp1) as (C1 & C2 & C3).
    rewrite firstn_nlen in C1.
    split; [exact W1|]. split; [apply b_push_wf; exact W2|]. split; [exact F1|]. split; [exact F2|]. split; [exact F3|].
    split.
    - lia.
    - unfold cont in *. rewrite b_push_bytes, app_assoc, E4, <- app_assoc.
      replace (0 + n1 + nlen (skipn (N.to_nat n1) p)) with (n1 + nlen (skipn (N.to_nat n1) p)) by lia.
      rewrite <- C1. reflexivity.
    - intros _ _. rewrite nlen_skipn. lia.
  Qed.

  Definition wf_st (t : st) : Prop :=
    wf_sink (snk t) /\ match bw t with Some b => wf_buf b | None => True end.

  Definition buffered (t : st) : bool := match bw t with Some _ => true | None => false end.

  Definition same_shape (t t' : st) : Prop :=
    s_flt (snk t') = s_flt (snk t) /\ buffered t' = buffered t /\
    (s_fired (snk t) = true -> s_fired (snk t') = true).

  Lemma same_shape_refl : forall t, same_shape t t.
  Proof. intros. repeat split; auto. Qed.

  Lemma same_shape_trans : forall t1 t2 t3, same_shape t1 t2 -> same_shape t2 t3 -> same_shape t1 t3.
  Proof. intros t1 t2 t3 (A1&A2&A3) (B1&B2&B3). repeat split; try congruence. auto. Qed.

  Lemma content_raw : forall s, content (mkSt s None) = sink_bytes s.
  Proof. intros. unfold Model.content. cbn. apply app_nil_r. Qed.

  Lemma content_buf : forall s b, content (mkSt s (Some b)) = cont s b.
  Proof. reflexivity. Qed.

  Definition w_post (t : st) (p : list A) (t' : st) (n : N) (e : err) (full : bool) : Prop :=
    wf_st t' /\ same_shape t t' /\ write_post (content t) (content t') p n e full.

  Lemma lower_gen_spec : forall direct (t : st) p t' n e,
    wf_st t ->
    match bw t with
    | None => let '(s, n, e) := sink_write A (snk t) p in (mkSt s None, n, e)
    | Some b => let '(s, b', n, e) := bufio_write_gen A direct (snk t) b p in (mkSt s (Some b'), n, e)
    end = (t', n, e) ->
    w_post t p t' n e (buffered t).
  Proof.
    intros direct [s ob] p t' n e [Hs Hb] H. cbn in *. destruct ob as [b|].
    - destruct (bufio_write_gen A direct s b p) as [[[s1 b1] n1] e1] eqn:E.
      inversion H; subst; clear H.
      destruct (bufio_write_gen_spec _ _ _ _ _ _ _ _ Hs Hb E) as (W1&W2&F1&F2&F3&P).
      split; [split; assumption|]. split; [repeat split; assumption|]. exact P.
    - destruct (sink_write A s p) as [[s1 n1] e1] eqn:E.
      inversion H; subst; clear H.
      pose proof (sink_write_spec _ _ _ _ _ Hs E) as P.
      split; [split; [apply (sw_wf _ _ _ _ _ P) | exact I]|].
      split; [repeat split; [apply (sw_flt _ _ _ _ _ P) | apply (sw_fired_mono _ _ _ _ _ P)]|].
      rewrite !content_raw. split.
      + apply (sw_le _ _ _ _ _ P).
      + apply (sw_bytes _ _ _ _ _ P).
      + cbn. discriminate.
  Qed.

  Lemma lower_write_spec : forall (t : st) p t' n e,
    wf_st t -> lower_write A t p = (t', n, e) -> w_post t p t' n e (buffered t).
  Proof. intros. eapply lower_gen_spec; eauto. Qed.

  Lemma lower_write_string_spec : forall (t : st) p t' n e,
    wf_st t -> lower_write_string A t p = (t', n, e) -> w_post t p t' n e (buffered t).
  Proof. intros. eapply lower_gen_spec; eauto. Qed.

  Lemma otw_fix_spec : forall (t : st) p r t' n e full,
    (forall t1 n1 e1, r = (t1, n1, e1) -> w_post t p t1 n1 e1 full) ->
    otw_fix A true (nlen p) r = (t', n, e) -> w_post t p t' n e true.
  Proof.
    intros t p [[t1 n1] e1] t' n e full Hr H. specialize (Hr _ _ _ eq_refl).
    destruct Hr as (W&S&[L C F]). unfold otw_fix in H. cbn [andb] in H.
    destruct (negb (is_err e1) && (n1 <? nlen p)) eqn:G; inversion H; subst; clear H.
    - split; [exact W|]. split; [exact S|]. split; auto. discriminate.
    - split; [exact W|]. split; [exact S|]. split; auto.
      intros _ E. subst. cbn in G. lia.
  Qed.

  Lemma otw_write_spec : forall (t : st) p t' n e,
    wf_st t -> otw_write A true t p = (t', n, e) -> w_post t p t' n e true.
  Proof.
    intros t p t' n e W H. unfold otw_write in H.
    eapply otw_fix_spec; [|exact H]. intros. eapply lower_write_spec; eauto.
  Qed.

  Lemma otw_write_string_spec : forall (t : st) p t' n e,
    wf_st t -> otw_write_string A true t p = (t', n, e) -> w_post t p t' n e true.
  Proof.
    intros t p t' n e W H. unfold otw_write_string in H.
    eapply otw_fix_spec; [|exact H]. intros. eapply lower_write_string_spec; eauto.
  Qed.

  Definition op_post (t t' : st) (e : err) (data : list A) : Prop :=
    wf_st t' /\ same_shape t t' /\ (e = ENone -> content t' = content t ++ data).

  Definition R_op (d : list A) (t t' : st) (e : err) : Prop := wf_st t -> op_post t t' e d.

  Lemma outcome_op : outcome A R_op.
  Proof.
    split; unfold R_op.
    - intros t W. split; [exact W|]. split; [apply same_shape_refl|]. intros _. now rewrite app_nil_r.
    - intros d t e He W. split; [exact W|]. split; [apply same_shape_refl|]. intros ->. discriminate.
    - intros d d' t t' e He H W. destruct (H W) as (W1&S1&_).
      split; [exact W1|]. split; [exact S1|]. intros ->. discriminate.
    - intros d1 d2 t t1 t2 e H1 H2 W. destruct (H1 W) as (W1&S1&C1). destruct (H2 W1) as (W2&S2&C2).
      split; [exact W2|]. split; [eapply same_shape_trans; eauto|].
      intros E. rewrite (C2 E), (C1 eq_refl). symmetry. apply app_assoc.
  Qed.

  Definition writer_ok (w : st -> list A -> st * N * err) : Prop :=
    forall t c t' n e, wf_st t -> w t c = (t', n, e) -> exists full, w_post t c t' n e full.

  Lemma writer_ok_R w : writer_ok w -> writer_R A R_op w.
  Proof.
    intros Hw t c t' n e E W. destruct (Hw _ _ _ _ _ W E) as (full & W1 & S1 & [L C F]).
    split; [exact W1|]. split; [exact S1|]. intros _. exact C.
  Qed.

  Lemma writer_ok_otw : writer_ok (otw_write A true).
  Proof. intros t c t' n e W H. exists true. eapply otw_write_spec; eauto. Qed.

  Lemma writer_ok_lower : writer_ok (lower_write A).
  Proof. intros t c t' n e W H. eexists. eapply lower_write_spec; eauto. Qed.

  Lemma write_piece_spec : forall (t : st) pc t' n e,
    wf_st t -> write_piece A true t pc = (t', n, e) -> w_post t (snd pc) t' n e true.
  Proof.
    intros t pc t' n e W E. unfold write_piece in E.
    destruct (fst pc); [eapply otw_write_string_spec | eapply otw_write_spec]; eauto.
  Qed.

  Lemma write_piece_op : forall t pc t' n e,
    write_piece A true t pc = (t', n, e) -> R_op (snd pc) t t' e.
  Proof.
    intros t pc t' n e E W. destruct (write_piece_spec _ _ _ _ _ W E) as (W1&S1&[L C F]).
    split; [exact W1|]. split; [exact S1|].
    intros E'. now rewrite C, (F eq_refl E'), firstn_nlen.
  Qed.

  Lemma copy_loop_spec : forall chunks (s s' : sink) e,
    wf_sink s -> copy_loop A s chunks = (s', e) ->
    wf_sink s' /\ s_flt s' = s_flt s /\ (s_fired s = true -> s_fired s' = true) /\
    (e = ENone -> sink_bytes s' = sink_bytes s ++ site_data_of A chunks).
  Proof.
    induction chunks as [|c r IH]; intros s s' e W H; cbn in H.
    - inversion H; subst. split; [exact W|]. split; [reflexivity|]. split; [auto|].
      intros _. cbn. now rewrite app_nil_r.
    - destruct (sink_write A s (snd c)) as [[s1 n1] e1] eqn:E.
      pose proof (sink_write_spec _ _ _ _ _ W E) as P.
      destruct (is_err e1) eqn:Ee.
      { inversion H; subst; clear H.
        split; [apply (sw_wf _ _ _ _ _ P)|]. split; [apply (sw_flt _ _ _ _ _ P)|].
        split; [apply (sw_fired_mono _ _ _ _ _ P)|]. intros E'. subst. discriminate. }
      destruct (n1 <? nlen (snd c)) eqn:L.
      { inversion H; subst; clear H.
        split; [apply (sw_wf _ _ _ _ _ P)|]. split; [apply (sw_flt _ _ _ _ _ P)|].
        split; [apply (sw_fired_mono _ _ _ _ _ P)|]. discriminate. }
      destruct (IH _ _ _ (sw_wf _ _ _ _ _ P) H) as (W2&F2&M2&C2).
      split; [exact W2|]. split; [rewrite F2; apply (sw_flt _ _ _ _ _ P)|].
      split; [intros Hf; apply M2; apply (sw_fired_mono _ _ _ _ _ P Hf)|].
      intros E'. rewrite (C2 E'), (sw_bytes _ _ _ _ _ P).
      assert (n1 = nlen (snd c)) by (pose proof (sw_le _ _ _ _ _ P); lia). subst n1.
      rewrite firstn_nlen. unfold site_data_of. cbn. now rewrite app_assoc.
  Qed.

  Lemma cont_push : forall (s : sink) (b : bufw) c, cont s (b_push A b c) = cont s b ++ c.
  Proof. intros. unfold cont. rewrite b_push_bytes. now rewrite app_assoc. Qed.

  Lemma bufio_fill_spec : forall data (s : sink) (b : bufw) s' b' e,
    wf_sink s -> wf_buf b -> bufio_fill A s b data = (s', b', e) ->
    wf_sink s' /\ wf_buf b' /\ s_flt s' = s_flt s /\ (s_fired s = true -> s_fired s' = true) /\
    (e = ENone -> cont s' b' = cont s b ++ data).
  Proof.
    induction data as [|x r IH]; intros s b s' b' e Ws Wb H; cbn [bufio_fill] in H.
    - destruct (b_avail A b =? 0).
      + pose proof (bufio_flush_spec _ _ _ _ _ Ws Wb H) as P.
        split; [apply (fl_wfs _ _ _ _ _ P)|]. split; [apply (fl_wfb _ _ _ _ _ P)|].
        split; [apply (fl_flt _ _ _ _ _ P)|]. split; [apply (fl_fired _ _ _ _ _ P)|].
        intros _. rewrite (fl_cont _ _ _ _ _ P). now rewrite app_nil_r.
      + inversion H; subst. split; [exact Ws|]. split; [exact Wb|]. split; [reflexivity|]. split; [auto|].
        intros _. now rewrite app_nil_r.
    - destruct (b_avail A b =? 0).
      + destruct (bufio_flush A s b) as [[s1 b1] e1] eqn:Ef.
        pose proof (bufio_flush_spec _ _ _ _ _ Ws Wb Ef) as P.
        destruct (is_err e1) eqn:Ee.
        * inversion H; subst; clear H.
          split; [apply (fl_wfs _ _ _ _ _ P)|]. split; [apply (fl_wfb _ _ _ _ _ P)|].
          split; [apply (fl_flt _ _ _ _ _ P)|]. split; [apply (fl_fired _ _ _ _ _ P)|].
          intros E'. subst. discriminate.
        * destruct (IH _ _ _ _ _ (fl_wfs _ _ _ _ _ P) (b_push_wf _ [x] (fl_wfb _ _ _ _ _ P)) H) as (W1&W2&F&M&C).
          split; [exact W1|]. split; [exact W2|]. split; [rewrite F; apply (fl_flt _ _ _ _ _ P)|].
          split; [intros Hf; apply M; apply (fl_fired _ _ _ _ _ P Hf)|].
          intros E'. rewrite (C E'), cont_push, (fl_cont _ _ _ _ _ P), <- app_assoc. reflexivity.
      + destruct (IH _ _ _ _ _ Ws (b_push_wf _ [x] Wb) H) as (W1&W2&F&M&C).
        split; [exact W1|]. split; [exact W2|]. split; [exact F|]. split; [exact M|].
        intros E'. rewrite (C E'), cont_push, <- app_assoc. reflexivity.
  Qed.

  Lemma run_mech_spec : forall m ps (t t' : st) e,
    wf_st t -> run_mech A true m t ps = (t', e) -> op_post t t' e (site_data_of A ps).
  Proof.
    intros m ps t t' e W H. destruct m; cbn [run_mech] in H.
    - exact (write_pieces_lift A _ outcome_op write_piece_op _ _ _ _ H W).
    - exact (write_to_lift A _ outcome_op _ (writer_ok_R _ writer_ok_otw) _ _ _ _ H W).
    - exact (write_to_lift A _ outcome_op _ (writer_ok_R _ writer_ok_lower) _ _ _ _ H W).
    - destruct t as [s ob]. destruct W as [Ws Wb]. cbn in *. destruct ob as [b|].
      + unfold bufio_read_from in H. destruct (is_err (b_err b)) eqn:Ee.
        * inversion H; subst; clear H. split; [split; assumption|]. split; [apply same_shape_refl|].
          intros E'. rewrite E' in Ee. discriminate.
        * destruct (bufio_fill A s b (site_data_of A ps)) as [[s1 b1] e1] eqn:Ef.
          inversion H; subst; clear H.
          destruct (bufio_fill_spec _ _ _ _ _ _ Ws Wb Ef) as (W1&W2&F&M&C).
          split; [split; assumption|]. split; [repeat split; assumption|].
          intros E'. rewrite !content_buf. auto.
      + destruct (copy_loop A s ps) as [s1 e1] eqn:Ec.
        inversion H; subst; clear H.
        destruct (copy_loop_spec _ _ _ _ Ws Ec) as (W1&F&M&C).
        split; [split; [assumption|exact I]|]. split; [repeat split; assumption|].
        intros E'. rewrite !content_raw. auto.
  Qed.

  Notation site := (site A).

  Lemma run_sites_spec : forall chk, (forall k, chk k = true) -> forall (xs : list site) i (t t' : st) e j,
    wf_st t -> run_sites A true chk i t xs = (t', e, j) ->
    op_post t t' e (all_data A xs).
  Proof.
    intros chk Hchk xs i t t' e j W H.
    refine (run_sites_lift A _ outcome_op chk Hchk xs _ _ _ _ _ _ H W).
    intros x _ t0 t1 e1 E W0. exact (run_mech_spec _ _ _ _ _ W0 E).
  Qed.

  Lemma init_wf : forall f bs, wf_st (init A f bs).
  Proof.
    intros f bs. split.
    - split; cbn; [reflexivity|]. destruct f; auto; lia.
    - cbn. destruct bs; [reflexivity|exact I].
  Qed.

  Lemma init_content : forall f bs, content (init A f bs) = [].
  Proof. intros f [sz|]; reflexivity. Qed.

  Notation sd := (site_data_of A).

  Lemma sd_cons : forall (pc : piece A) r, sd (pc :: r) = snd pc ++ sd r.
  Proof. reflexivity. Qed.

  Lemma take_pieces_data : forall ps a,
    sd (take_pieces A a ps) = firstn (N.to_nat a) (sd ps).
  Proof.
    induction ps as [|pc r IH]; intros a; cbn [take_pieces].
    - cbn. now rewrite firstn_nil.
    - destruct (a =? 0) eqn:E0.
      + assert (a = 0) by lia. subst a. reflexivity.
      + rewrite !sd_cons. rewrite firstn_app.
        destruct (nlen (snd pc) <=? a) eqn:E1.
        * rewrite sd_cons, IH. unfold Model.nlen in *.
          rewrite (@firstn_all2 _ (N.to_nat a) (snd pc)) by lia. f_equal. f_equal. lia.
        * unfold Model.nlen in *. rewrite sd_cons. cbn [snd fst].
          replace (N.to_nat a - length (snd pc))%nat with O by lia.
          cbn. reflexivity.
  Qed.

  Lemma take_pieces_full : forall ps a, src_short A ps a = false -> sd (take_pieces A a ps) = sd ps.
  Proof.
    intros ps a H. rewrite take_pieces_data. unfold src_short, Model.nlen in H.
    apply firstn_all2. lia.
  Qed.

  Lemma all_data_deferred : forall m (q : list (list (piece A))),
    all_data A (map (fun ps => mkSite KBloomDeferred m ps) q) = concat (map sd q).
  Proof.
    intros m. induction q as [|ps q IH]; [reflexivity|].
    cbn [map]. unfold all_data in *. cbn [map concat]. rewrite IH. reflexivity.
  Qed.

  Lemma run_items_spec : forall chk, (forall k, chk k = true) ->
    forall (xs : list (item A)) i (t : st) q t' j,
    wf_st t -> run_items A true true chk i t q xs = (t', CNil, j) ->
    wf_st t' /\ same_shape t t' /\
    content t' = content t ++ declared A (map sd q) xs /\ has_short A xs = false.
  Proof.
    intros chk Hchk. induction xs as [|x r IH]; intros i t q t' j W H; cbn [run_items] in H.
    - inversion H; subst. split; [exact W|]. split; [apply same_shape_refl|].
      split; [cbn; now rewrite app_nil_r|reflexivity].
    - destruct x as [x|k ps a|ps a|m].
      + destruct (run_mech A true (st_mech x) t (st_pieces x)) as [t1 e1] eqn:E.
        destruct (run_mech_spec _ _ _ _ _ W E) as (W1&S1&C1).
        rewrite Hchk, andb_true_r in H.
        destruct (is_err e1) eqn:Ee; [inversion H|].
        apply is_err_none in Ee. subst e1.
        destruct (IH _ _ _ _ _ W1 H) as (W2&S2&C2&Hs).
        split; [exact W2|]. split; [eapply same_shape_trans; eauto|].
        split; [|exact Hs].
        rewrite C2, (C1 eq_refl). cbn [declared]. unfold site_data. now rewrite app_assoc.
      + destruct (run_mech A true MLowerCopy t (take_pieces A a ps)) as [t1 e1] eqn:E.
        destruct (run_mech_spec _ _ _ _ _ W E) as (W1&S1&C1).
        rewrite Hchk, andb_true_r in H.
        destruct (is_err e1) eqn:Ee; [inversion H|].
        apply is_err_none in Ee. subst e1. cbn [andb] in H.
        destruct (src_short A ps a) eqn:Es; [inversion H|].
        destruct (IH _ _ _ _ _ W1 H) as (W2&S2&C2&Hs).
        split; [exact W2|]. split; [eapply same_shape_trans; eauto|].
        split; [|cbn; rewrite Es; exact Hs].
        rewrite C2, (C1 eq_refl), (take_pieces_full _ _ Es). cbn [declared]. now rewrite app_assoc.
      + cbn [andb] in H. destruct (src_short A ps a) eqn:Es; [inversion H|].
        destruct (IH _ _ _ _ _ W H) as (W2&S2&C2&Hs).
        split; [exact W2|]. split; [exact S2|].
        split; [|cbn; rewrite Es; exact Hs].
        rewrite C2. cbn [declared]. rewrite map_app. cbn [map]. rewrite (take_pieces_full _ _ Es). reflexivity.
      + destruct (run_sites A true chk 0 t (map (fun ps => mkSite KBloomDeferred m ps) q)) as [[t1 e1] i1] eqn:E.
        destruct (run_sites_spec chk Hchk _ _ _ _ _ _ W E) as (W1&S1&C1).
        destruct (is_err e1) eqn:Ee; [inversion H|].
        apply is_err_none in Ee. subst e1.
        destruct (IH _ _ _ _ _ W1 H) as (W2&S2&C2&Hs).
        split; [exact W2|]. split; [eapply same_shape_trans; eauto|].
        split; [|exact Hs].
        rewrite C2, (C1 eq_refl), all_data_deferred. cbn [declared map]. now rewrite app_assoc.
  Qed.

  Lemma close_items_nil_complete : forall chk, (forall k, chk k = true) ->
    forall (t : st) (xs : list (item A)) t' i,
    wf_st t -> close_items A true true chk true t xs = (t', CNil, i) ->
    wf_st t' /\ same_shape t t' /\
    sink_bytes (snk t') = content t ++ declared A [] xs /\ has_short A xs = false.
  Proof.
    intros chk Hchk t xs t' i W H. unfold close_items in H.
    destruct (run_items A true true chk 0 t [] xs) as [[t1 e1] i1] eqn:E.
    destruct e1; cbn [is_cerr] in H; try (inversion H; fail).
    destruct (run_items_spec chk Hchk _ _ _ _ _ _ W E) as (W1&S1&C1&Hs). cbn [map] in C1.
    destruct t1 as [s1 ob]. destruct W1 as [Ws Wb]. cbn in *. destruct ob as [b|].
    - destruct (bufio_flush A s1 b) as [[s2 b2] e2] eqn:Ef.
      pose proof (bufio_flush_spec _ _ _ _ _ Ws Wb Ef) as P.
      destruct (is_err e2) eqn:Ee; [inversion H|].
      apply is_err_none in Ee. subst e2. inversion H; subst; clear H.
      destruct (fl_ok _ _ _ _ _ P eq_refl) as [Hnil _].
      split; [split; [apply (fl_wfs _ _ _ _ _ P) | apply (fl_wfb _ _ _ _ _ P)]|].
      split.
      + destruct S1 as (A1&A2&A3). repeat split; cbn in *.
        * rewrite (fl_flt _ _ _ _ _ P). exact A1.
        * exact A2.
        * intros Hf. apply (fl_fired _ _ _ _ _ P). auto.
      + split; [|exact Hs]. cbn. rewrite <- C1, content_buf, <- (fl_cont _ _ _ _ _ P). unfold cont. rewrite Hnil.
        change (frev []) with (@nil A). now rewrite app_nil_r.
    - inversion H; subst; clear H.
      split; [split; [assumption|exact I]|]. split; [exact S1|].
      split; [|exact Hs]. cbn. rewrite <- C1, content_raw. reflexivity.
  Qed.

  Lemma run_items_plain : forall cur cnt chk (xs : list site) i (t : st) q,
    run_items A cur cnt chk i t q (map IPlain xs) =
    let '(t', e, j) := run_sites A cur chk i t xs in (t', if is_err e then CDst e else CNil, j).
  Proof.
    intros cur cnt chk. induction xs as [|x r IH]; intros i t q; cbn [map run_items run_sites]; [reflexivity|].
    destruct (run_mech A cur (st_mech x) t (st_pieces x)) as [t1 e1].
    destruct (is_err e1 && chk (st_kind x)) eqn:G.
    - apply andb_true_iff in G. destruct G as [G _]. rewrite G. reflexivity.
    - apply IH.
  Qed.

  Lemma close_as_items : forall cur cnt chk cf (t : st) (xs : list site),
    close_items A cur cnt chk cf t (map IPlain xs) =
    let '(t', e, i) := close A cur chk cf t xs in (t', if is_err e then CDst e else CNil, i).
  Proof.
    intros. unfold close_items, close. rewrite run_items_plain.
    destruct (run_sites A cur chk 0 t xs) as [[t1 e1] i1].
    destruct (is_err e1) eqn:E; cbn [is_cerr]; [now rewrite E|].
    destruct (bw t1) as [b|]; [|reflexivity].
    destruct (bufio_flush A (snk t1) b) as [[s b'] e']. destruct cf; reflexivity.
  Qed.

  Lemma declared_plain : forall q (xs : list site), declared A q (map IPlain xs) = all_data A xs.
  Proof. intros q xs. induction xs as [|x r IH]; cbn; [reflexivity|]. now rewrite IH. Qed.
  Lemma close_nil_complete : forall chk, (forall k, chk k = true) ->
    forall (t : st) (xs : list site) t' i,
    wf_st t -> close A true chk true t xs = (t', ENone, i) ->
    wf_st t' /\ same_shape t t' /\ sink_bytes (snk t') = content t ++ all_data A xs.
  Proof.
    intros chk Hchk t xs t' i W H.
    pose proof (close_as_items true true chk true t xs) as C. rewrite H in C.
    destruct (close_items_nil_complete chk Hchk _ _ _ _ W C) as (W' & S' & B & _).
    now rewrite declared_plain in B.
  Qed.

  Lemma wf_sink_pos : forall s : sink, wf_sink s -> s_pos s = nlen (sink_bytes s).
  Proof. intros s [H _]. unfold Model.sink_bytes. rewrite nlen_frev. exact H. Qed.

  Theorem close_nil_means_complete : forall chk, (forall k, chk k = true) ->
    forall f bs (xs : list site) t' i,
    close A true chk true (init A f bs) xs = (t', ENone, i) ->
    sink_bytes (snk t') = all_data A xs.
  Proof.
    intros chk Hchk f bs xs t' i H.
    destruct (close_nil_complete chk Hchk _ _ _ _ (init_wf f bs) H) as (_&_&C).
    rewrite C, init_content. reflexivity.
  Qed.

  Theorem short_fault_surfaces : forall chk, (forall k, chk k = true) ->
    forall f bs (xs : list site) t' e i,
    close A true chk true (init A f bs) xs = (t', e, i) ->
    e <> ENone \/ sink_bytes (snk t') = all_data A xs.
  Proof.
    intros chk Hchk f bs xs t' e i H. destruct e; [right|left; discriminate|left; discriminate].
    eapply close_nil_means_complete; eauto.
  Qed.

  (** *** unbuffered writer: a short count of the destination is always reported
      (unless the bytes travel below offsetTrackingWriter through
      memory.Buffer.WriteTo, which retries) *)
  Definition raw (t : st) : Prop := bw t = None.

  Lemma raw_shape : forall t t', same_shape t t' -> raw t -> raw t'.
  Proof.
    intros [s ob] [s' ob'] (_&B&_) R. unfold raw, buffered in *. cbn in *. subst ob.
    destruct ob'; [discriminate|reflexivity].
  Qed.

  Definition keeps_fired (t t' : st) (e : err) : Prop :=
    e = ENone -> s_fired (snk t') = s_fired (snk t).

  Lemma otw_raw_fired : forall (str : bool) (t : st) p t' n e,
    wf_st t -> raw t ->
    (if str then otw_write_string A true t p else otw_write A true t p) = (t', n, e) ->
    keeps_fired t t' e.
  Proof.
    intros str [s ob] p t' n e [Ws _] R H. unfold raw in R. cbn in R. subst ob.
    assert (H' : otw_fix A true (nlen p) (let '(s0, n0, e0) := sink_write A s p in (mkSt s0 None, n0, e0)) = (t', n, e))
      by (destruct str; exact H).
    clear H. destruct (sink_write A s p) as [[s1 n1] e1] eqn:E.
    pose proof (sink_write_spec _ _ _ _ _ Ws E) as P.
    unfold otw_fix in H'. cbn [andb] in H'.
    destruct (negb (is_err e1) && (n1 <? nlen p)) eqn:G; inversion H'; subst; clear H'.
    - intros E'. discriminate.
    - intros E'. subst. cbn in *. destruct (sw_fired _ _ _ _ _ P) as [F|(L&_&_)]; [exact F|lia].
  Qed.

  Definition R_raw (_ : list A) (t t' : st) (e : err) : Prop :=
    wf_st t -> raw t -> wf_st t' /\ raw t' /\ keeps_fired t t' e.

  Lemma outcome_raw : outcome A R_raw.
  Proof.
    split; unfold R_raw.
    - intros t W Rw. split; [exact W|]. split; [exact Rw|]. intros _. reflexivity.
    - intros d t e He W Rw. split; [exact W|]. split; [exact Rw|]. intros ->. discriminate.
    - intros d d' t t' e He H W Rw. destruct (H W Rw) as (W1&R1&_).
      split; [exact W1|]. split; [exact R1|]. intros ->. discriminate.
    - intros d1 d2 t t1 t2 e H1 H2 W Rw. destruct (H1 W Rw) as (W1&R1&K1). destruct (H2 W1 R1) as (W2&R2&K2).
      split; [exact W2|]. split; [exact R2|]. intros E. unfold keeps_fired in *. rewrite (K2 E). now apply K1.
  Qed.

  Lemma write_piece_raw : forall t pc t' n e,
    write_piece A true t pc = (t', n, e) -> R_raw (snd pc) t t' e.
  Proof.
    intros t pc t' n e E W Rw. destruct (write_piece_spec _ _ _ _ _ W E) as (W1&S1&_).
    split; [exact W1|]. split; [exact (raw_shape _ _ S1 Rw)|].
    exact (otw_raw_fired (fst pc) t (snd pc) t' n e W Rw E).
  Qed.

  Definition no_lower_write_to (xs : list site) : Prop :=
    forall x, In x xs -> st_mech x <> MLowerWriteTo.

  Lemma copy_loop_fired : forall chunks (s s' : sink) e,
    wf_sink s -> copy_loop A s chunks = (s', e) -> e = ENone -> s_fired s' = s_fired s.
  Proof.
    induction chunks as [|c r IH]; intros s s' e W H E'; cbn in H.
    - inversion H; subst. reflexivity.
    - destruct (sink_write A s (snd c)) as [[s1 n1] e1] eqn:E.
      pose proof (sink_write_spec _ _ _ _ _ W E) as P.
      destruct (is_err e1) eqn:Ee; [inversion H; subst; discriminate|].
      destruct (n1 <? nlen (snd c)) eqn:L; [inversion H; subst; discriminate|].
      rewrite (IH _ _ _ (sw_wf _ _ _ _ _ P) H E').
      destruct (sw_fired _ _ _ _ _ P) as [F|(L'&_&_)]; [exact F|lia].
  Qed.

  Lemma run_mech_raw : forall m ps (t t' : st) e,
    m <> MLowerWriteTo -> run_mech A true m t ps = (t', e) -> R_raw (site_data_of A ps) t t' e.
  Proof.
    intros m ps t t' e Hm H. destruct m; cbn [run_mech] in H; try congruence.
    - exact (write_pieces_lift A _ outcome_raw write_piece_raw _ _ _ _ H).
    - refine (write_to_lift A _ outcome_raw _ _ _ _ _ _ H).
      intros t0 c t1 n e0 E. exact (write_piece_raw t0 (false, c) t1 n e0 E).
    - intros W Rw. destruct (run_mech_spec MLowerCopy ps _ _ _ W H) as (W1&S1&_).
      split; [exact W1|]. split; [exact (raw_shape _ _ S1 Rw)|].
      destruct t as [s ob]. unfold raw in Rw. cbn in Rw. subst ob. destruct W as [Ws _]. cbn in *.
      destruct (copy_loop A s ps) as [s1 e1] eqn:Ec. inversion H; subst; clear H.
      intros E'. cbn. eapply copy_loop_fired; eauto.
  Qed.

  Lemma run_sites_raw : forall chk, (forall k, chk k = true) -> forall (xs : list site) i (t t' : st) e j,
    no_lower_write_to xs -> wf_st t -> raw t ->
    run_sites A true chk i t xs = (t', e, j) -> keeps_fired t t' e.
  Proof.
    intros chk Hchk xs i t t' e j Hn W Rw H.
    refine (proj2 (proj2 (run_sites_lift A _ outcome_raw chk Hchk xs _ _ _ _ _ _ H W Rw))).
    intros x Hx t0 t1 e1. apply run_mech_raw, Hn, Hx.
  Qed.

  Theorem short_fault_unbuffered_reported : forall chk, (forall k, chk k = true) ->
    forall k (xs : list site) t' e i,
    no_lower_write_to xs -> k < nlen (all_data A xs) ->
    close A true chk true (init A (ShortAt k) None) xs = (t', e, i) ->
    e <> ENone.
  Proof.
    intros chk Hchk k xs t' e i Hn Hk H E. subst e.
    destruct (close_nil_complete chk Hchk _ _ _ _ (init_wf _ None) H) as (W&(F&_&_)&C).
    rewrite init_content in C. cbn in C, F.
    unfold close in H.
    destruct (run_sites A true chk 0 (init A (ShortAt k) None) xs) as [[t1 e1] i1] eqn:E.
    destruct (is_err e1) eqn:Ee; [inversion H; subst; discriminate|].
    apply is_err_none in Ee. subst e1.
    pose proof (run_sites_raw chk Hchk _ _ _ _ _ _ Hn (init_wf _ None) eq_refl E eq_refl) as K.
    destruct (run_sites_spec chk Hchk _ _ _ _ _ _ (init_wf _ None) E) as (_&S1&_).
    pose proof (raw_shape _ _ S1 eq_refl) as R1. unfold raw in R1. rewrite R1 in H.
    inversion H; subst; clear H. cbn in K.
    destruct W as [[Hp Hf] _]. rewrite F in Hf. specialize (Hf K).
    assert (s_pos (snk t') = nlen (all_data A xs)).
    { unfold Model.sink_bytes in C. rewrite Hp, <- C, nlen_frev. reflexivity. }
    lia.
  Qed.

  Lemma all_kinds_complete : forall k, In k all_kinds.
  Proof. destruct k; cbn; tauto. Qed.

  Lemma checked_all : all_sites_checked = true ->
    (forall k, site_checked k = true) /\ final_flush_checked = true.
  Proof.
    unfold all_sites_checked. intros H. apply andb_true_iff in H. destruct H as [H1 H2].
    split; [|exact H2]. intros k. rewrite forallb_forall in H1. apply H1, all_kinds_complete.
  Qed.
End SinkProofs.
