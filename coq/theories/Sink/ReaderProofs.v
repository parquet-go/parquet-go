(** C14 — reader side proofs about Sink/Reader.v. *)
From Coq Require Import List Arith Bool NArith Lia.
From Coq Require Import ZifyBool.
From PQ Require Import Base.ListExtra Sink.Reader.
Import ListNotations.
Open Scope N_scope.

Lemma is_rerr_none : forall e, is_rerr e = false <-> e = RNone.
Proof. destruct e; cbn; split; congruence. Qed.

Theorem readat_never_masks : forall len r,
  readerat_ok len r ->
  fst (readat_wrap len r) = fst r /\
  (snd (readat_wrap len r) = RNone <-> fst r = len) /\
  (fst r < len -> snd (readat_wrap len r) = snd r /\ snd r <> RNone).
Proof.
  intros len [n e] [Hle Herr]. cbn in *. unfold readat_wrap. cbn.
  destruct (n =? len) eqn:E; cbn.
  - split; [reflexivity|]. split; [split; intros; [lia|reflexivity]|]. intros; lia.
  - split; [reflexivity|]. split.
    + split; intros H; [|lia]. exfalso. apply Herr; [lia|exact H].
    + intros H. split; [reflexivity|]. apply Herr. exact H.
Qed.

(* an error that comes with a full buffer (io.EOF at the end of the source) is dropped *)
Lemma readat_full_buffer_ok : forall len e, readat_wrap len (len, e) = (len, RNone).
Proof. intros. unfold readat_wrap. cbn. now rewrite N.eqb_refl. Qed.

Lemma readat_wrap_ok : forall len r, readerat_ok len r -> readerat_ok len (readat_wrap len r).
Proof.
  intros len r H. destruct (readat_never_masks len r H) as (A & B & C). destruct H as [H1 H2].
  split; [rewrite A; exact H1|]. rewrite A. intros L. destruct (C L) as [E N']. rewrite E. exact N'.
Qed.

(** File.ReadAt never returns fewer bytes than asked for with a nil error *)
Theorem file_readat_ok : forall size ra off len,
  (forall o l, readerat_ok l (ra o l)) ->
  readerat_ok len (file_readat size ra off len).
Proof.
  intros size ra off len Hra. unfold file_readat.
  destruct (size <=? off) eqn:E1.
  { split; cbn; [lia|discriminate]. }
  destruct (size - off <? len) eqn:E2.
  - pose proof (readat_wrap_ok _ _ (Hra off (size - off))) as [H1 H2].
    destruct (readat_wrap (size - off) (ra off (size - off))) as [n e]. cbn in *.
    split; cbn; [lia|]. intros _. destruct (is_rerr e) eqn:Ee; [|discriminate].
    intros ->. discriminate.
  - apply readat_wrap_ok, Hra.
Qed.

Lemma flen_app : forall a b, flen (a ++ b) = flen a + flen b.
Proof. intros. unfold flen. rewrite app_length. lia. Qed.

Lemma image_readat_ok : forall f off len, readerat_ok len (image_readat f off len).
Proof.
  intros f [o|] len; unfold image_readat; cbn.
  - destruct (flen f <=? o) eqn:E; cbn.
    + split; cbn; [lia|discriminate].
    + split; cbn; [lia|]. intros L. destruct (N.min len (flen f - o) <? len) eqn:E2; [discriminate|lia].
  - split; cbn; [lia|discriminate].
Qed.

(* a read which needs a byte the image does not have fails *)
Lemma read_range_beyond : forall f off len, 0 < len -> flen f < off + len -> read_range f off len = RdErr.
Proof.
  intros f off len Hl Hb. unfold read_range, image_readat.
  destruct (flen f <=? off) eqn:E.
  - unfold readat_wrap. cbn [fst snd]. destruct (0 =? len) eqn:E0; [lia|]. reflexivity.
  - unfold readat_wrap. cbn [fst snd].
    assert (Hm : N.min len (flen f - off) = flen f - off) by lia. rewrite Hm.
    destruct (flen f - off =? len) eqn:E0; [lia|].
    destruct (flen f - off <? len) eqn:E1; [reflexivity|lia].
Qed.

Lemma slice_prefix : forall p q off len, off + len <= flen p -> slice (p ++ q) off len = slice p off len.
Proof.
  intros p q off len H. unfold slice, flen in *.
  rewrite skipn_app, firstn_app.
  replace (N.to_nat len - length (skipn (N.to_nat off) p))%nat with O by (rewrite skipn_length; lia).
  cbn. now rewrite app_nil_r.
Qed.

(* a read inside the image returns its bytes, which are those of any extension *)
Lemma read_range_inside : forall p q off len, off + len <= flen p ->
  read_range p off len = RdOk (slice (p ++ q) off len).
Proof.
  intros p q off len H. rewrite slice_prefix by exact H. unfold read_range, image_readat.
  destruct (flen p <=? off) eqn:E.
  - assert (len = 0) by lia. subst len. unfold readat_wrap. cbn. reflexivity.
  - assert (Hm : N.min len (flen p - off) = len) by lia. rewrite Hm.
    unfold readat_wrap. cbn [fst snd]. rewrite N.eqb_refl. cbn. reflexivity.
Qed.

Lemma read_all_beyond : forall f rs,
  (exists off len, In (off, len) rs /\ 0 < len /\ flen f < off + len) -> read_all f rs = None.
Proof.
  intros f. induction rs as [|[o l] r IH]; intros (off & len & Hin & Hl & Hb).
  - destruct Hin.
  - cbn. destruct Hin as [E|Hin].
    + inversion E; subst. rewrite read_range_beyond by assumption. reflexivity.
    + destruct (read_range f o l); [reflexivity|]. rewrite IH; [reflexivity|]. exists off, len. auto.
Qed.

Lemma skipn_slice : forall f (off a b : N), skipn (N.to_nat a) (slice f off (a + b)) = slice f (off + a) b.
Proof.
  intros. unfold slice. rewrite skipn_firstn_comm, <- skipn_add.
  replace (N.to_nat (a + b) - N.to_nat a)%nat with (N.to_nat b) by lia.
  replace (N.to_nat off + N.to_nat a)%nat with (N.to_nat (off + a)) by lia. reflexivity.
Qed.

Lemma firstn_slice : forall f (off a b : N), firstn (N.to_nat a) (slice f off (a + b)) = slice f off a.
Proof.
  intros. unfold slice. rewrite firstn_firstn. f_equal. lia.
Qed.

Lemma tail_magic : forall f, 8 <= flen f -> skipn 4 (slice f (flen f - 8) 8) = slice f (flen f - 4) 4.
Proof.
  intros f H. change 4%nat with (N.to_nat 4). change 8 with (4 + 4) at 2.
  rewrite skipn_slice. f_equal. lia.
Qed.

Lemma tail_length : forall f, firstn 4 (slice f (flen f - 8) 8) = slice f (flen f - 8) 4.
Proof.
  intros f. change 4%nat with (N.to_nat 4). change 8 with (4 + 4) at 2. apply firstn_slice.
Qed.

Lemma tail_read_size_bounds : forall o rbs L, 8 <= tail_read_size o rbs L /\ (8 <= L -> tail_read_size o rbs L <= L).
Proof.
  intros. unfold tail_read_size. cbn zeta.
  destruct (o && (8 <=? N.min rbs L)) eqn:E; [|lia].
  apply andb_true_iff in E. destruct E as [_ E]. apply N.leb_le in E. lia.
Qed.

Theorem open_core_cfg_tail_stages : forall (M : Type) o rbs hk L (hdr tail : list byte) (d : N -> N -> option M),
  open_core_cfg M false o rbs hk L hdr tail d = open_core M hk L hdr tail d.
Proof.
  intros. unfold open_core_cfg, open_core. cbn [negb andb].
  destruct (L <? 4) eqn:E1; [reflexivity|].
  destruct (negb (is_magic hdr)); [reflexivity|].
  destruct (beqb hdr magic_pare && negb hk); [reflexivity|].
  pose proof (tail_read_size_bounds o rbs L) as [B1 B2].
  destruct (L <? 8) eqn:E2.
  - replace (L <? tail_read_size o rbs L) with true by lia. reflexivity.
  - replace (L <? tail_read_size o rbs L) with false by lia.
    destruct (negb (is_magic (skipn 4 tail))); [reflexivity|].
    destruct (le32 (firstn 4 tail) <=? tail_read_size o rbs L - 8) eqn:E3; cbn [negb andb]; [|reflexivity].
    replace (L <? le32 (firstn 4 tail) + 8) with false by lia. reflexivity.
Qed.

Section OpenCfgProofs.
  Variable M : Type.
  Variable decode : list byte -> option M.

  Theorem open_cfg_ok_valid_trailer : forall sm o rbs hk f m,
    open_file_cfg M decode sm o rbs hk f = OpenOk m -> valid_trailer M decode f.
  Proof.
    intros sm o rbs hk f m H. unfold open_file_cfg, open_core_cfg in H.
    destruct (negb sm && (flen f <? 4)); [discriminate|].
    destruct (negb sm && negb (is_magic (slice f 0 4))); [discriminate|].
    destruct (negb sm && (beqb (slice f 0 4) magic_pare && negb hk)); [discriminate|].
    pose proof (tail_read_size_bounds o rbs (flen f)) as [B1 B2].
    destruct (flen f <? tail_read_size o rbs (flen f)) eqn:E2; [discriminate|].
    assert (H8 : 8 <= flen f) by lia.
    rewrite tail_magic, !tail_length in H by exact H8.
    destruct (negb (is_magic (slice f (flen f - 4) 4))) eqn:E3; [discriminate|].
    destruct (negb (le32 (slice f (flen f - 8) 4) <=? tail_read_size o rbs (flen f) - 8) && (flen f <? le32 (slice f (flen f - 8) 4) + 8)) eqn:E4; [discriminate|].
    destruct (beqb (slice f (flen f - 4) 4) magic_pare && negb hk); [discriminate|].
    destruct (decode (slice f (flen f - 8 - le32 (slice f (flen f - 8) 4)) (le32 (slice f (flen f - 8) 4)))) eqn:E5; [|discriminate].
    unfold valid_trailer. split; [exact H8|]. split; [now apply negb_false_iff in E3|].
    split; [lia|]. rewrite E5. discriminate.
  Qed.

  Theorem prefix_rejected_cfg : forall sm o rbs hk f p q,
    f = p ++ q -> q <> [] ->
    (exists e, open_file_cfg M decode sm o rbs hk p = OpenErr e) \/
    (exists m', open_file_cfg M decode sm o rbs hk p = OpenOk m' /\ valid_trailer M decode p /\
       (forall rs, (exists off len, In (off, len) rs /\ 0 < len /\ flen p < off + len) -> read_all p rs = None) /\
       (forall off len, off + len <= flen p -> read_range p off len = RdOk (slice f off len))).
  Proof.
    intros sm o rbs hk f p q Hf Hq. destruct (open_file_cfg M decode sm o rbs hk p) as [e|m'] eqn:E.
    - left. exists e. reflexivity.
    - right. exists m'. split; [reflexivity|]. split; [eapply open_cfg_ok_valid_trailer; eauto|].
      split; [apply read_all_beyond|]. intros. subst f. apply read_range_inside. assumption.
  Qed.

  Corollary prefix_without_trailer_rejected_cfg : forall sm o rbs hk p,
    ~ valid_trailer M decode p -> exists e, open_file_cfg M decode sm o rbs hk p = OpenErr e.
  Proof.
    intros sm o rbs hk p H. destruct (open_file_cfg M decode sm o rbs hk p) as [e|m'] eqn:E; [exists e; reflexivity|].
    exfalso. apply H. eapply open_cfg_ok_valid_trailer; eauto.
  Qed.
End OpenCfgProofs.

Section OpenProofs.
  Variable M : Type.
  Variable decode : list byte -> option M.

  Lemma open_file_cfg_default : forall hk f,
    open_file_cfg M decode false false 0 hk f = open_file M decode hk f.
  Proof. intros. apply open_core_cfg_tail_stages. Qed.

  Theorem open_ok_valid_trailer : forall hk f m,
    open_file M decode hk f = OpenOk m -> valid_trailer M decode f.
  Proof. intros hk f m. rewrite <- open_file_cfg_default. apply open_cfg_ok_valid_trailer. Qed.

  (** every strict prefix of a file is rejected by OpenFile unless the prefix
      itself ends in a trailer that decodes; and then whatever the footer found
      there describes, the first read that needs a byte beyond the prefix fails
      and the reads inside it see the bytes of the file *)
  Theorem prefix_rejected : forall hk f p q,
    f = p ++ q -> q <> [] ->
    (exists e, open_file M decode hk p = OpenErr e) \/
    (exists m', open_file M decode hk p = OpenOk m' /\ valid_trailer M decode p /\
       (forall rs, (exists off len, In (off, len) rs /\ 0 < len /\ flen p < off + len) -> read_all p rs = None) /\
       (forall off len, off + len <= flen p -> read_range p off len = RdOk (slice f off len))).
  Proof. intros hk f p q. rewrite <- open_file_cfg_default. apply prefix_rejected_cfg. Qed.

  Corollary prefix_without_trailer_rejected : forall hk p,
    ~ valid_trailer M decode p -> exists e, open_file M decode hk p = OpenErr e.
  Proof. intros hk p. rewrite <- open_file_cfg_default. apply prefix_without_trailer_rejected_cfg. Qed.

  Lemma open_short : forall hk p, flen p < 8 -> exists e, open_file M decode hk p = OpenErr e.
  Proof.
    intros. apply prefix_without_trailer_rejected. intros (H8 & _). lia.
  Qed.

  Lemma open_bad_tail : forall hk p, is_magic (slice p (flen p - 4) 4) = false ->
    exists e, open_file M decode hk p = OpenErr e.
  Proof.
    intros. apply prefix_without_trailer_rejected. intros (_ & Hm & _). congruence.
  Qed.

  Lemma open_footer_range : forall hk p, flen p < le32 (slice p (flen p - 8) 4) + 8 ->
    exists e, open_file M decode hk p = OpenErr e.
  Proof.
    intros. apply prefix_without_trailer_rejected. intros (_ & _ & Hr & _). lia.
  Qed.
End OpenProofs.

Fixpoint sumN (l : list (N * N)) : N := match l with [] => 0 | (h, b) :: r => h + b + sumN r end.

(* the source ends before the end of the chunk: never a plain end of chunk *)
Theorem chunk_early_end_reported : forall pages size avail consumed,
  consumed + sumN pages = size -> consumed <= avail -> avail < size ->
  snd (read_pages true size avail consumed pages) = PUnexpected.
Proof.
  induction pages as [|[h b] r IH]; intros size avail consumed Hs Hc Ha; cbn [read_pages sumN] in *.
  - lia.
  - unfold end_of_chunk. destruct (avail <=? consumed) eqn:E1; cbn [snd].
    + assert (consumed <? size = true) by lia. rewrite H. reflexivity.
    + destruct (avail <? consumed + h) eqn:E0; [reflexivity|].
      destruct ((avail =? consumed + h) && (0 <? b)) eqn:E3; [reflexivity|].
      destruct (consumed + h + b <=? avail) eqn:E2; [|reflexivity].
      specialize (IH size avail (consumed + h + b)).
      destruct (read_pages true size avail (consumed + h + b) r) as [k e]. cbn in *. apply IH; lia.
Qed.

Lemma read_pages_app_complete : forall cur a b size avail consumed,
  consumed + sumN a <= avail -> (forall h x, In (h, x) a -> 0 < h) ->
  read_pages cur size avail consumed (a ++ b) =
  (let '(k, e) := read_pages cur size avail (consumed + sumN a) b in ((length a + k)%nat, e)).
Proof.
  induction a as [|[h x] r IH]; intros b size avail consumed Ha Hp; cbn [app sumN length].
  - rewrite N.add_0_r. destruct (read_pages cur size avail consumed b). reflexivity.
  - cbn [read_pages]. cbn [sumN] in Ha.
    assert (0 < h) by (apply (Hp h x); left; reflexivity).
    destruct (avail <=? consumed) eqn:E1; [lia|].
    destruct (avail <? consumed + h) eqn:E0; [lia|].
    destruct ((avail =? consumed + h) && (0 <? x)) eqn:E3; [lia|].
    destruct (consumed + h + x <=? avail) eqn:E2; [|lia].
    rewrite IH; [|lia|intros h' x' Hin; apply (Hp h' x'); right; assumption].
    replace (consumed + h + x + sumN r) with (consumed + (h + x + sumN r)) by lia.
    destruct (read_pages cur size avail (consumed + (h + x + sumN r)) b). reflexivity.
Qed.

Theorem chunk_complete_read : forall cur pages size avail consumed,
  consumed + sumN pages = size -> size <= avail -> (forall h b, In (h, b) pages -> 0 < h) ->
  read_pages cur size avail consumed pages = (length pages, PEnd).
Proof.
  intros cur pages size avail consumed Hs Ha Hp.
  rewrite <- (app_nil_r pages) at 1. rewrite read_pages_app_complete by (auto; lia).
  cbn [read_pages]. unfold end_of_chunk.
  assert (H : consumed + sumN pages <? size = false) by lia.
  now rewrite H, andb_false_r, Nat.add_0_r.
Qed.

(* the pages returned before the end are a prefix of the chunk's pages *)
Lemma read_pages_count : forall cur pages size avail consumed,
  (fst (read_pages cur size avail consumed pages) <= length pages)%nat.
Proof.
  induction pages as [|[h b] r IH]; intros; cbn [read_pages length]; [cbn; lia|].
  destruct (avail <=? consumed); cbn [fst]; [lia|].
  destruct (avail <? consumed + h); cbn [fst]; [lia|].
  destruct ((avail =? consumed + h) && (0 <? b)); cbn [fst]; [lia|].
  destruct (consumed + h + b <=? avail); cbn [fst]; [|lia].
  specialize (IH size avail (consumed + h + b)).
  destruct (read_pages cur size avail (consumed + h + b) r). cbn in *. lia.
Qed.

Lemma pages_len_sumN l : pages_len l = sumN l.
Proof. induction l as [|[h b] r IH]; cbn; [reflexivity|now rewrite IH]. Qed.

Lemma sumN_app a b : sumN (a ++ b) = sumN a + sumN b.
Proof. induction a as [|[h x] r IH]; cbn; [reflexivity|rewrite IH; lia]. Qed.

(* [chunk_early_end_reported] without [consumed <= avail]: the stream may be
   positioned beyond the end of the source *)
Lemma chunk_early_end_reported_from : forall pages size avail consumed,
  consumed + sumN pages = size -> 0 < sumN pages -> avail < size ->
  snd (read_pages true size avail consumed pages) = PUnexpected.
Proof.
  intros pages size avail consumed Hs Hp Ha.
  destruct (N.le_gt_cases consumed avail) as [Hc|Hc].
  - apply chunk_early_end_reported; assumption.
  - destruct pages as [|[h b] r]; [cbn in Hp; lia|].
    cbn [read_pages]. assert (E : avail <=? consumed = true) by lia. rewrite E. cbn [snd].
    unfold end_of_chunk. cbn [sumN] in *. assert (E2 : consumed <? size = true) by lia. now rewrite E2.
Qed.

(* a seek followed by a read to the end of the chunk over a source that ends
   before the chunk does never ends with a plain io.EOF, with or without
   offset index, wherever the source ends (inside a skipped page or later) *)
Theorem seek_early_end_reported : forall noindex size avail dict skipped rest,
  sumN dict + sumN skipped + sumN rest = size -> 0 < sumN rest -> avail < size ->
  snd (seek_read_pages true noindex size avail dict skipped rest) = PUnexpected.
Proof.
  intros noindex size avail dict skipped rest Hs Hr Ha. unfold seek_read_pages.
  destruct noindex; rewrite ?(pages_len_sumN dict), ?(pages_len_sumN skipped).
  - pose proof (chunk_early_end_reported_from (skipped ++ rest) size avail (sumN dict)) as H.
    rewrite sumN_app in H.
    destruct (read_pages true size avail (sumN dict) (skipped ++ rest)) as [k e]. cbn [snd] in *.
    apply H; lia.
  - apply chunk_early_end_reported_from; lia.
Qed.

(* over a complete source exactly the pages from the row of the seek on are returned *)
Theorem seek_complete_read : forall cur noindex size avail dict skipped rest,
  sumN dict + sumN skipped + sumN rest = size -> size <= avail ->
  (forall h b, In (h, b) (skipped ++ rest) -> 0 < h) ->
  seek_read_pages cur noindex size avail dict skipped rest = (length rest, PEnd).
Proof.
  intros cur noindex size avail dict skipped rest Hs Ha Hp. unfold seek_read_pages.
  destruct noindex; rewrite ?(pages_len_sumN dict), ?(pages_len_sumN skipped).
  - rewrite read_pages_app_complete; [|lia|intros h b Hin; apply (Hp h b), in_or_app; left; assumption].
    rewrite (chunk_complete_read cur rest size avail (sumN dict + sumN skipped));
      [f_equal; lia|lia|lia|intros h b Hin; apply (Hp h b), in_or_app; right; assumption].
  - apply chunk_complete_read; [lia|lia|intros h b Hin; apply (Hp h b), in_or_app; right; assumption].
Qed.
