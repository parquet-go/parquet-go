(** C14 — proofs about the reader's demand Sink/Demand.v. *)
From Coq Require Import List Arith Bool NArith Lia.
From Coq Require Import ZifyBool.
From PQ Require Import Sink.Reader Sink.ReaderProofs Sink.Demand.
Import ListNotations.
Open Scope N_scope.

(** consecutive non-empty reads from position p to position q *)
Fixpoint contig (p : N) (rs : list (N * N)) (q : N) : Prop :=
  match rs with
  | [] => p = q
  | r :: rest => fst r = p /\ 0 < snd r /\ contig (p + snd r) rest q
  end.

Lemma contig_le : forall rs p q, contig p rs q -> p <= q.
Proof.
  induction rs as [|r rest IH]; intros p q H; cbn in H; [lia|].
  destruct H as (_ & Hl & H). apply IH in H. lia.
Qed.

Lemma contig_in : forall rs p q r, contig p rs q -> In r rs ->
  p <= fst r /\ fst r + snd r <= q /\ 0 < snd r.
Proof.
  induction rs as [|x rest IH]; intros p q r H Hin; [destruct Hin|].
  cbn in H. destruct H as (Hf & Hl & H). destruct Hin as [<-|Hin].
  - pose proof (contig_le _ _ _ H). lia.
  - destruct (IH _ _ _ H Hin) as (A1 & A2 & A3). lia.
Qed.

Lemma contig_app : forall a b p q s, contig p a q -> contig q b s -> contig p (a ++ b) s.
Proof.
  induction a as [|x a IH]; intros b p q s H1 H2; cbn in *.
  - subst. exact H2.
  - destruct H1 as (Hf & Hl & H1). split; [exact Hf|]. split; [exact Hl|]. eapply IH; eauto.
Qed.

(* the last read ends where the sequence ends *)
Lemma contig_last : forall rs p q, contig p rs q -> p < q ->
  exists r, In r rs /\ fst r + snd r = q /\ 0 < snd r.
Proof.
  induction rs as [|x rest IH]; intros p q H Hlt; cbn in H; [lia|].
  destruct H as (Hf & Hl & H).
  destruct (N.eq_dec (p + snd x) q) as [E|E].
  - exists x. split; [left; reflexivity|]. split; [lia|exact Hl].
  - pose proof (contig_le _ _ _ H).
    assert (L : p + snd x < q) by lia.
    destruct (IH _ _ H L) as (r & Hin & Hr). exists r. split; [right; exact Hin|exact Hr].
Qed.

Lemma contig_shift : forall s rs p q, contig p rs q -> contig (s + p) (shift s rs) (s + q).
Proof.
  intros s. induction rs as [|x rest IH]; intros p q H; cbn in *.
  - lia.
  - destruct H as (Hf & Hl & H). split; [lia|]. split; [exact Hl|].
    replace (s + p + snd x) with (s + (p + snd x)) by lia. apply IH. exact H.
Qed.

Lemma take_eof : forall fuel B size direct pos buf m,
  size <= pos -> fst (fst (take fuel B size direct pos buf m)) = [].
Proof.
  intros [|f] B size direct pos buf m H; cbn; [reflexivity|].
  destruct (m <=? buf); [reflexivity|].
  destruct (size <=? pos) eqn:E; [reflexivity|lia].
Qed.

Lemma take_spec : forall fuel B size direct pos buf m rs p b,
  1 <= B -> buf <= pos -> pos <= size -> (N.to_nat (m - buf) < fuel)%nat ->
  take fuel B size direct pos buf m = (rs, p, b) ->
  contig pos rs p /\ b <= p /\ p <= size /\
  (pos - buf + m <= size -> p - b = pos - buf + m).
Proof.
  induction fuel as [|f IH]; intros B size direct pos buf m rs p b HB Hb Hp Hfu H; [lia|].
  cbn [take] in H.
  destruct (m <=? buf) eqn:E1.
  { inversion H; subst; clear H. cbn. repeat split; lia. }
  destruct (size <=? pos) eqn:E2.
  { inversion H; subst; clear H. cbn. repeat split; lia. }
  set (m' := m - buf) in *.
  set (r := if direct && (B <=? m') then N.min m' (size - pos) else N.min B (size - pos)) in *.
  assert (Hr : 1 <= r /\ r <= size - pos).
  { unfold r. destruct (direct && (B <=? m')); unfold m'; lia. }
  destruct (take f B size direct (pos + r) r m') as [[rs1 p1] b1] eqn:Et.
  inversion H; subst; clear H.
  assert (G1 : r <= pos + r) by lia.
  assert (G2 : pos + r <= size) by lia.
  assert (G3 : (N.to_nat (m' - r) < f)%nat) by (unfold m' in *; lia).
  destruct (IH _ _ _ _ _ _ _ _ _ HB G1 G2 G3 Et) as (C & B1 & P1 & K).
  split; [cbn; split; [reflexivity|split; [lia|exact C]]|].
  split; [exact B1|]. split; [exact P1|].
  intros Hc. unfold m' in *. rewrite K; lia.
Qed.

Lemma pages_reads_spec : forall pages B size pos buf,
  1 <= B -> buf <= pos -> pos <= size ->
  exists q b', contig pos (pages_reads B size pos buf pages) q /\ b' <= q /\ q <= size /\
               (pos - buf + sum_pages pages <= size -> q - b' = pos - buf + sum_pages pages).
Proof.
  induction pages as [|[h b] r IH]; intros B size pos buf HB Hb Hp; cbn [pages_reads sum_pages].
  - exists pos, buf. cbn. repeat split; lia.
  - destruct (take (S (N.to_nat h)) B size false pos buf h) as [[r1 p1] b1] eqn:E1.
    assert (F1 : (N.to_nat (h - buf) < S (N.to_nat h))%nat) by lia.
    destruct (take_spec _ _ _ _ _ _ _ _ _ _ HB Hb Hp F1 E1) as (C1 & B1 & P1 & K1).
    destruct (take (S (N.to_nat b)) B size true p1 b1 b) as [[r2 p2] b2] eqn:E2.
    assert (F2 : (N.to_nat (b - b1) < S (N.to_nat b))%nat) by lia.
    destruct (take_spec _ _ _ _ _ _ _ _ _ _ HB B1 P1 F2 E2) as (C2 & B2 & P2 & K2).
    destruct (IH B size p2 b2 HB B2 P2) as (q & b' & C3 & B3 & P3 & K3).
    exists q, b'. split; [eapply contig_app; [exact C1|eapply contig_app; eauto]|].
    split; [exact B3|]. split; [exact P3|].
    intros Hc.
    (* one step at a time: the three truncated subtractions together cost lia a large case split *)
    assert (D1 : p1 - b1 = pos - buf + h) by (apply K1; clear - Hc; lia).
    assert (D2 : p2 - b2 = pos - buf + h + b) by (rewrite <- D1; apply K2; rewrite D1; clear - Hc; lia).
    rewrite K3; rewrite D2; clear - Hc; lia.
Qed.

(* the reads of a chunk stay inside its section *)
Lemma chunk_reads_inside : forall B c r, 1 <= B -> In r (chunk_reads B c) ->
  ck_start c <= fst r /\ fst r + snd r <= ck_start c + ck_size c /\ 0 < snd r.
Proof.
  intros B c r HB Hin. unfold chunk_reads in Hin.
  destruct (pages_reads_spec (ck_pages c) B (ck_size c) 0 0 HB (N.le_refl 0) (N.le_0_l _)) as (q & b' & C & _ & P & _).
  pose proof (contig_shift (ck_start c) _ _ _ C) as C'.
  destruct (contig_in _ _ _ _ C' Hin) as (A1 & A2 & A3). lia.
Qed.

(* and, when the pages add up to the size of the chunk, tile it *)
Lemma chunk_reads_tile : forall B c, 1 <= B -> sum_pages (ck_pages c) = ck_size c ->
  contig (ck_start c) (chunk_reads B c) (ck_start c + ck_size c).
Proof.
  intros B c HB Hs. unfold chunk_reads.
  destruct (pages_reads_spec (ck_pages c) B (ck_size c) 0 0 HB (N.le_refl 0) (N.le_0_l _)) as (q & b' & C & Bq & P & K).
  assert (K0 : 0 - 0 + sum_pages (ck_pages c) <= ck_size c) by lia.
  assert (q = ck_size c) by (specialize (K K0); lia). subst q.
  replace (ck_start c) with (ck_start c + 0) at 1 by lia. apply contig_shift. exact C.
Qed.

Lemma fold_hull_inv : forall rs acc, (fst acc = 0 -> snd acc = 0) ->
  (fst (fold_left hull_step rs acc) = 0 -> snd (fold_left hull_step rs acc) = 0).
Proof.
  induction rs as [|r rs IH]; intros acc H; cbn [fold_left]; [exact H|].
  apply IH. unfold hull_step.
  destruct ((0 <? fst r) && (0 <? snd r)) eqn:E; [|exact H].
  cbn [fst snd]. destruct ((fst acc =? 0) || (fst r <? fst acc)) eqn:G; lia.
Qed.

Lemma hull_pos : forall rs, 0 < snd (hull rs) -> 0 < fst (hull rs).
Proof.
  intros rs H. unfold hull in *. cbn [fst snd] in *.
  pose proof (fold_hull_inv rs (0, 0) (fun _ => eq_refl)) as I. cbn [fst snd] in I.
  destruct (N.eq_dec (fst (fold_left hull_step rs (0, 0))) 0) as [E|E]; [|lia].
  rewrite (I E) in H. lia.
Qed.

Definition inside (r d : N * N) : Prop := fst d <= fst r /\ fst r + snd r <= fst d + snd d.

Lemma inside_refl : forall r, inside r r.
Proof. intros r. unfold inside. lia. Qed.

Lemma bloom_reads_inside : forall B size c r, 1 <= B -> In r (bloom_reads B size c) ->
  inside r (fst (ck_bloom c), size - fst (ck_bloom c)).
Proof.
  intros B size c r HB Hin. unfold bloom_reads in Hin.
  destruct (0 <? fst (ck_bloom c)); [|destruct Hin].
  destruct (take (S (N.to_nat (snd (ck_bloom c)))) B size false (fst (ck_bloom c)) 0 (snd (ck_bloom c))) as [[rs p] b] eqn:E.
  destruct (N.le_gt_cases size (fst (ck_bloom c))) as [Hle|Hgt].
  - pose proof (take_eof (S (N.to_nat (snd (ck_bloom c)))) B size false (fst (ck_bloom c)) 0 (snd (ck_bloom c)) Hle) as Z.
    rewrite E in Z. cbn in Z. subst rs. destruct Hin.
  - assert (F1 : 0 <= fst (ck_bloom c)) by lia.
    assert (F2 : fst (ck_bloom c) <= size) by lia.
    assert (F3 : (N.to_nat (snd (ck_bloom c) - 0) < S (N.to_nat (snd (ck_bloom c))))%nat) by lia.
    destruct (take_spec _ _ _ _ _ _ _ _ _ _ HB F1 F2 F3 E) as (C & _ & P & _).
    destruct (contig_in _ _ _ _ C Hin) as (A1 & A2 & A3). unfold inside. cbn [fst snd]. lia.
Qed.

Theorem demand_inside_declared : forall t r,
  1 <= ft_bufsize t -> In r (full_demand t) ->
  exists d, In d (declared_ranges t) /\ inside r d.
Proof.
  intros t r HB Hin. unfold full_demand, open_demand in Hin.
  rewrite !in_app_iff in Hin. destruct Hin as [[Hin|[Hin|[Hin|Hin]]]|Hin].
  - destruct Hin as [<-|[<-|[]]].
    + exists (0, 4). split; [cbn; auto|apply inside_refl].
    + exists (ft_size t - 8, 8). split; [cbn; auto|apply inside_refl].
  - destruct (0 <? ft_footer t); [|destruct Hin]. destruct Hin as [<-|[]].
    eexists. split; [right; right; left; reflexivity|apply inside_refl].
  - unfold index_reads in Hin. rewrite in_app_iff in Hin. destruct Hin as [Hin|Hin].
    + destruct (0 <? fst (hull (map ck_ci (ft_rows t)))); [|destruct Hin]. destruct Hin as [<-|[]].
      eexists. split; [do 3 right; left; reflexivity|apply inside_refl].
    + destruct (0 <? fst (hull (map ck_oi (ft_rows t)))); [|destruct Hin]. destruct Hin as [<-|[]].
      eexists. split; [do 4 right; left; reflexivity|apply inside_refl].
  - apply in_flat_map in Hin. destruct Hin as (c & Hc & Hin).
    exists (fst (ck_bloom c), ft_size t - fst (ck_bloom c)). split.
    + unfold declared_ranges. apply in_app_iff. right. apply in_flat_map. exists c. split; [exact Hc|].
      right. unfold bloom_reads in Hin. destruct (0 <? fst (ck_bloom c)); [left; reflexivity|destruct Hin].
    + eapply bloom_reads_inside; eauto.
  - unfold read_demand in Hin. apply in_flat_map in Hin. destruct Hin as (c & Hc & Hin).
    exists (ck_start c, ck_size c). split.
    + unfold declared_ranges. apply in_app_iff. right. apply in_flat_map. exists c. split; [exact Hc|cbn; auto].
    + destruct (chunk_reads_inside _ _ _ HB Hin) as (A1 & A2 & _). unfold inside. cbn [fst snd]. lia.
Qed.

(** *** a needed range that ends beyond the available bytes: some requested
    read needs a byte which is not there *)
Theorem needed_range_is_requested : forall t d,
  1 <= ft_bufsize t -> chunks_tile t -> In d (needed_ranges t) -> 0 < snd d ->
  exists r, In r (full_demand t) /\ 0 < snd r /\ fst r + snd r = fst d + snd d.
Proof.
  intros t d HB Ht Hin Hl. unfold needed_ranges in Hin. apply in_app_iff in Hin.
  unfold full_demand, open_demand. destruct Hin as [Hin|Hin].
  - destruct Hin as [<-|[<-|[<-|[<-|[<-|[]]]]]].
    + exists (0, 4). split; [cbn; auto|cbn; lia].
    + exists (ft_size t - 8, 8). split; [cbn; auto|cbn; lia].
    + cbn [snd] in Hl. exists (ft_size t - (ft_footer t + 8), ft_footer t). split; [|cbn; lia].
      apply in_app_iff. left. apply in_app_iff. right. apply in_app_iff. left.
      destruct (0 <? ft_footer t) eqn:E; [left; reflexivity|lia].
    + pose proof (hull_pos _ Hl) as Hp. exists (hull (map ck_ci (ft_rows t))). split; [|lia].
      apply in_app_iff. left. apply in_app_iff. right. apply in_app_iff. right. apply in_app_iff. left.
      unfold index_reads. apply in_app_iff. left.
      destruct (0 <? fst (hull (map ck_ci (ft_rows t)))) eqn:E; [left; reflexivity|lia].
    + pose proof (hull_pos _ Hl) as Hp. exists (hull (map ck_oi (ft_rows t))). split; [|lia].
      apply in_app_iff. left. apply in_app_iff. right. apply in_app_iff. right. apply in_app_iff. left.
      unfold index_reads. apply in_app_iff. right.
      destruct (0 <? fst (hull (map ck_oi (ft_rows t)))) eqn:E; [left; reflexivity|lia].
  - apply in_map_iff in Hin. destruct Hin as (c & <- & Hc). cbn [fst snd] in *.
    pose proof (chunk_reads_tile _ c HB (Ht c Hc)) as C.
    assert (L : ck_start c < ck_start c + ck_size c) by lia.
    destruct (contig_last _ _ _ C L) as (r & Hr & Hend & Hpos).
    exists r. split; [|split; [exact Hpos|exact Hend]].
    apply in_app_iff. right. unfold read_demand. apply in_flat_map. exists c. split; assumption.
Qed.

Theorem full_read_of_cut_file_fails : forall t d p,
  1 <= ft_bufsize t -> chunks_tile t -> In d (needed_ranges t) -> 0 < snd d ->
  flen p < fst d + snd d ->
  read_all p (full_demand t) = None.
Proof.
  intros t d p HB Ht Hin Hl Hcut.
  destruct (needed_range_is_requested t d HB Ht Hin Hl) as (r & Hr & Hpos & Hend).
  apply read_all_beyond. exists (fst r), (snd r). split; [destruct r; exact Hr|]. split; [exact Hpos|lia].
Qed.

(* every byte of a needed range is requested: the demand covers it *)
Lemma contig_covers : forall rs p q x, contig p rs q -> p <= x < q ->
  exists r, In r rs /\ fst r <= x < fst r + snd r.
Proof.
  induction rs as [|y rest IH]; intros p q x H Hx; cbn in H; [lia|].
  destruct H as (Hf & Hl & H).
  destruct (N.lt_ge_cases x (p + snd y)) as [L|G].
  - exists y. split; [left; reflexivity|lia].
  - assert (L : p + snd y <= x < q) by lia.
    destruct (IH _ _ x H L) as (r & Hin & Hr). exists r. split; [right; exact Hin|exact Hr].
Qed.

Theorem chunk_fully_requested : forall t c x,
  1 <= ft_bufsize t -> chunks_tile t -> In c (ft_rows t) ->
  ck_start c <= x < ck_start c + ck_size c ->
  exists r, In r (read_demand t) /\ fst r <= x < fst r + snd r.
Proof.
  intros t c x HB Ht Hc Hx.
  pose proof (chunk_reads_tile _ c HB (Ht c Hc)) as C.
  destruct (contig_covers _ _ _ x C Hx) as (r & Hr & Hin).
  exists r. split; [|exact Hin]. unfold read_demand. apply in_flat_map. exists c. split; assumption.
Qed.
