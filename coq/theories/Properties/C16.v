(** C16 — values handed to the caller are not changed by later library
    activity.  The model is Conc/Ownership.v (an ownership
    heap on top of the refcount protocol of C15), the proofs
    Conc/OwnershipProofs.v.

    What is proved: for the ownership MODEL (cells tagged Live rc / Pooled /
    Detached / CallerOwned; the API calls as sequences of primitive heap
    updates that mirror row_group.go, column_chunk.go, buffer.go,
    type_byte_array.go) and for every history.  That the Go code touches memory
    only as the model says (in particular aliasing through unsafe that never
    passes a hooked pool) is explored by harness/c16 with the poison hook, not
    proved. *)
From Coq Require Import List.
From PQ Require Import Conc.Sem Conc.Refcount Conc.Ownership Conc.OwnershipProofs.
Import ListNotations.

Section C16.
  (* content of page p of reader r: any pure function of the files *)
  Variable pagefun : nat -> nat -> nat.

  (** Readers start without a page; a reader whose values reference page
      memory (byte array columns) detaches its pages ([readers_ok]: what
      newRowGroupRows sets up).  Then for EVERY history of primitives — hence
      every history of ReadRows (any number of page crossings), typed reads,
      clones, seeks, closes, ReadPage / Retain / Release by the caller, writes,
      and any amount of pool churn by other readers and writers — every value
      of every batch the caller is still entitled to (rows of the last
      ReadRows of a reader until the next call on that reader; page values
      while the caller holds the page; clones and Go values from Read[T]
      indefinitely) references a cell that is caller memory, detached, or a
      live retained buffer — never a pooled one — and the cell holds exactly
      the content the value had when it was handed out. *)
  Theorem C16_no_dangling : forall rds ps st b v,
    readers_ok rds ->
    run (ostep pagefun) (mkO [] rds []) ps = Some st ->
    In b (held st) -> In v (bvals b) -> not_dangling st v.
  Proof. exact (no_dangling pagefun). Qed.

  (** hence pool churn (another reader or writer, or the poison hook,
      overwriting a pooled cell) does not change what an entitled value reads *)
  Theorem C16_churn_preserves_values : forall st c w st' b v c0 x,
    OInv st -> ostep pagefun st (PChurn c w) = Some st' ->
    In b (held st) -> In v (bvals b) -> vcell v = Some c0 ->
    nth_error (heap st) c0 = Some x -> nth_error (heap st') c0 = Some x.
  Proof. exact (churn_preserves_values pagefun). Qed.

  (** no library operation — in particular no write path, which only READS
      the cells the caller passes in — modifies a cell of the caller *)
  Theorem C16_writer_reads_only : forall st l st' c x,
    OInv st -> ostep pagefun st l = Some st' ->
    nth_error (heap st) c = Some x -> ctag x = TCaller ->
    nth_error (heap st') c = Some x.
  Proof. exact (caller_cells_untouched pagefun). Qed.

  (** the invariant behind the three statements is preserved by every primitive *)
  Theorem C16_invariant_step : forall st l st', OInv st -> ostep pagefun st l = Some st' -> OInv st'.
  Proof. exact (ostep_inv pagefun). Qed.

  (** the replay run by the oracle on the harness's histories never reports a
      changed value *)
  Theorem C16_replay_all_ok : forall n ops,
    Forall (fun p => snd p = true) (replay pagefun (oinit n true) 0 ops).
  Proof.
    intros n ops. apply replay_all_ok. apply (init_oinv (readers (oinit n true))). apply oinit_ok.
  Qed.
End C16.

(** releasing a cell is the unref (and, at zero, the put) of protocol P1 *)
Theorem C16_unref_refines_refcount : forall x n o k,
  ctag x = TLive (S n) ->
  exists s', buf_step (BLive true (S n)) EUnref = Some s' /\
             tag_of_bstate s' = Some (ctag (unref_cell x o k)) /\
             (n = 0 -> buf_step s' EPut = Some BPooled).
Proof. exact unref_refines_P1. Qed.

Print Assumptions C16_no_dangling.
Print Assumptions C16_churn_preserves_values.
Print Assumptions C16_writer_reads_only.
Print Assumptions C16_invariant_step.
Print Assumptions C16_replay_all_ok.
Print Assumptions C16_unref_refines_refcount.

Definition C16_full_statement : Prop :=
  (* the property is about the memory of a Go process; the theorems are about
     the ownership model.  The tie is harness/c16 (poison hook, churn, snapshot
     comparison) and the replay of its histories by the extracted model. *)
  True.

(** * Non-vacuity *)
Definition ex_pagefun (r p : nat) : nat := (r + 1) * 100 + p.

(* two readers of byte array columns; ReadRows crossing a page, churn, clone,
   seek, close, typed read: the entitled batches after each operation *)
Definition ex_ops : list op :=
  [OReadRows 0 1; OReadRows 1 0; OChurn 7; OClone 0; OSeek 0 3; OChurn 9; OClose 1;
   OReadTyped 0 2; OChurn 3; OReadRows 0 0].

Example C16_ex_replay :
  replay ex_pagefun (oinit 2 true) 0 ex_ops =
  [([0], true); ([0; 1], true); ([0; 1], true); ([0; 1; 3], true); ([1; 3], true);
   ([1; 3], true); ([3], true); ([3; 7], true); ([3; 7], true); ([3; 7; 9], true)].
Proof. vm_compute. reflexivity. Qed.

(* the hypothesis is satisfiable and the conclusion is about real references:
   after ReadRows crossing one page the batch holds a value referencing a
   DETACHED cell and one referencing the LIVE current page *)
Example C16_ex_values :
  let st := do_op ex_pagefun (oinit 1 true) 0 (OReadRows 0 1) in
  map (fun x => (ctag x, cval x)) (heap st) = [(TDetached, 100); (TLive 1, 101)] /\
  map bvals (held st) = [[mkValue (Some 0) 100; mkValue (Some 1) 101]].
Proof. vm_compute. split; reflexivity. Qed.

(** The seeded defect "rowGroupRows does not detach byte array pages"
    (readers with rbytes = true, rdetach = false: [readers_ok] fails): the page
    crossed during ReadRows goes back to the pool and the rows just returned
    reference a pooled, poisoned cell. *)
Theorem C16_no_detach_refuted :
  exists ops, existsb (fun p => negb (snd p)) (replay ex_pagefun (oinit 1 false) 0 ops) = true.
Proof. exists [OReadRows 0 1]. vm_compute. reflexivity. Qed.

(** The value-level reader of a column chunk (column_chunk.go
    columnChunkValueReader made by NewColumnChunkValueReader: rdetach = false,
    [readers_ok] does not hold for it) is safe only because ReadValues returns at
    the end of a page: a call ends the window of the previous batch (PEnd),
    releases the page to the pool (PRelease) and loads the next one (here into
    the very cell just released); one batch never spans two pages.  Replayed
    with churn after each call: the batch of the last call is intact. *)
Example C16_ex_value_reader :
  let st1 := run_prims ex_pagefun (oinit 1 false) [PEnd 0; PLoad 0 0; PCollect 0 0] in
  let st2 := churn_all ex_pagefun st1 7 (length (heap st1)) in
  let st3 := run_prims ex_pagefun st2 [PEnd 0; PRelease 0; PLoad 0 0; PCollect 0 1] in
  let st4 := churn_all ex_pagefun st3 9 (length (heap st3)) in
  (map bid (held st2), state_ok st2) = ([0], true) /\
  (map bid (held st4), state_ok st4) = ([1], true).
Proof. vm_compute. split; reflexivity. Qed.

(** The seeded defect "the value reader tops up a batch from the following
    pages": the released page is recycled for the next page of the same call
    while the batch still references it. *)
Theorem C16_value_reader_top_up_refuted :
  let st := run_prims ex_pagefun (oinit 1 false)
              [PEnd 0; PLoad 0 0; PCollect 0 0; PRelease 0; PLoad 0 0; PCollect 0 0] in
  map bid (held st) = [0] /\ state_ok st = false.
Proof. vm_compute. split; reflexivity. Qed.

(* a write reads a caller cell and leaves it as it was *)
Example C16_ex_write :
  let st := run_prims ex_pagefun (oinit 1 true) [PLoad 0 0; PCollect 0 0; PCopy 0 1] in
  match ostep ex_pagefun st (PWrite 1 2) with
  | Some st' => nth_error (heap st') 1 = nth_error (heap st) 1 /\
                option_map ctag (nth_error (heap st) 1) = Some TCaller
  | None => False
  end.
Proof. vm_compute. split; reflexivity. Qed.
