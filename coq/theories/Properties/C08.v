(** C08 — seeking to a row then reading equals skipping to that row
    sequentially.  Statements; the general theorems are in Cursor/.

    The theorems are about the executable model of the page cursor
    (Cursor/Model.v: FilePages.ReadPage / SeekToRow with and without an offset
    index, rowGroupRows.ReadRows / SeekToRow / Reset on top), for EVERY chunk
    layout with non-empty pages and EVERY finite history.  The abstract
    specification (Cursor/Spec.v) is a single row position.

    Above the page cursor (Cursor/Multi.v, Cursor/AsyncPages.v): rowGroupRows
    over several columns with different page layouts, multiPages (the
    concatenation of the row groups), columnPages (Cursor/ColumnPages.v: the
    pages of a column of a file, one page cursor per row group), reader /
    Reader / GenericReader, multi row groups nested in multi row groups
    (Cursor/Nested.v), CopyRows inside the histories (Cursor/Copy.v), and
    asyncPages under every interleaving of its two goroutines.

    Beside the page cursor (Cursor/Forward.v): the row readers that seek
    forward only by reading and dropping rows of the reader underneath
    (forwardRowSeeker behind ConvertRowReader, mergedRowGroupRows and
    concatenatingRowsWrapper behind the Rows() of merged row groups), for every
    way the reader underneath cuts its batches short; and the row window of the
    columnar variant reader over leaf columns that are opened lazily
    (Cursor/VariantLeaves.v). *)
From Coq Require Import List Arith Bool Lia.
From PQ Require Import Conc.Sem Conc.Async.
From PQ Require Import Cursor.Model Cursor.Spec Cursor.Proofs Cursor.Rows.
From PQ Require Import Cursor.Multi Cursor.MultiProofs Cursor.AsyncPages Cursor.AsyncPagesProofs.
From PQ Require Import Cursor.Nested Cursor.NestedProofs.
From PQ Require Import Cursor.ColumnPages Cursor.ColumnPagesProofs.
From PQ Require Import Cursor.Forward Cursor.ForwardProofs.
From PQ Require Import Cursor.VariantLeaves Cursor.VariantLeavesProofs.
From PQ Require Import Cursor.Copy Cursor.CopyProofs.
Import ListNotations.

(** ** Page cursor with an offset index *)

Theorem C08_cursor_refines_position : forall pages ops,
  positive pages -> run_indexed pages ops = run_spec pages ops.
Proof.
  intros pages ops Hp.
  exact (run_refines _ _ _ _ _ _ _ (step_indexed_sim pages Hp) ops _ _ (inv_indexed_init pages)).
Qed.

(** After SeekToRow k, whatever happened before, the pages returned by the
    following reads hold exactly the rows k, k+1, ... : a prefix of the rows of
    the chunk from k on, all of them once io.EOF is returned; every returned
    page is non-empty. *)
Theorem C08_seek_then_read_rows_from_k : forall pages h k m,
  positive pages ->
  let after := skipn (S (length h)) (run_indexed pages (h ++ SeekToRow k :: repeat ReadPage m)) in
  let rows := concat (map out_rows after) in
  rows = firstn (length rows) (skipn k (seq 0 (total_rows pages))) /\
  (In EOF after -> rows = skipn k (seq 0 (total_rows pages))) /\
  Forall good_out after.
Proof.
  intros pages h k m Hp. rewrite (C08_cursor_refines_position _ _ Hp). unfold run_spec.
  rewrite run_after_cons. apply spec_reads_from, spec_seek_lands.
Qed.

(** The same, stated against a fresh cursor that reads the chunk sequentially
    to the end and drops the first k rows. *)
Theorem C08_seek_then_read_equals_sequential_skip : forall pages h k m m',
  positive pages ->
  let after := skipn (S (length h)) (run_indexed pages (h ++ SeekToRow k :: repeat ReadPage m)) in
  let fresh := run_indexed pages (repeat ReadPage m') in
  In EOF fresh ->
  let rows := concat (map out_rows after) in
  rows = firstn (length rows) (skipn k (concat (map out_rows fresh))) /\
  (In EOF after -> rows = skipn k (concat (map out_rows fresh))).
Proof.
  intros pages h k m m' Hp. cbv zeta. rewrite !(C08_cursor_refines_position _ _ Hp). unfold run_spec.
  rewrite run_after_cons. intros Hf.
  destruct (spec_reads_from pages m' 0 0 (or_introl eq_refl)) as (_ & Hall & _). rewrite (Hall Hf).
  destruct (spec_reads_from pages m _ k (spec_seek_lands pages (exec (spec_step pages) 0 h) k))
    as (H1 & H2 & _). split; assumption.
Qed.

Theorem C08_sequential_read_returns_all_rows : forall pages m,
  positive pages ->
  let outs := run_indexed pages (repeat ReadPage m) in
  let rows := concat (map out_rows outs) in
  rows = firstn (length rows) (seq 0 (total_rows pages)) /\
  (In EOF outs -> rows = seq 0 (total_rows pages)).
Proof.
  intros pages m Hp. rewrite (C08_cursor_refines_position _ _ Hp).
  destruct (spec_reads_from pages m 0 0 (or_introl eq_refl)) as (H1 & H2 & _). split; assumption.
Qed.

(** ** Page cursor without an offset index (with or without dictionary page) *)

Theorem C08_cursor_noindex_refines_position : forall pages ops,
  positive pages -> run_noindex pages ops = run_spec_noindex pages ops.
Proof. exact (noindex_refines_gen false). Qed.

Theorem C08_noindex_seek_then_read_rows_from_k : forall pages h k m,
  positive pages ->
  let after := skipn (S (length h)) (run_noindex pages (h ++ SeekToRow k :: repeat ReadPage m)) in
  let rows := concat (map out_rows after) in
  rows = firstn (length rows) (skipn k (seq 0 (total_rows pages))) /\
  (In EOF after -> rows = skipn k (seq 0 (total_rows pages))) /\
  Forall good_out after.
Proof.
  intros pages h k m Hp. rewrite (C08_cursor_noindex_refines_position _ _ Hp). unfold run_spec_noindex.
  rewrite run_after_cons, run_spec_noindex_reads. apply spec_reads_from. left; reflexivity.
Qed.

(** ** Offset index loaded in the middle of a history (SkipPageIndex)

    Every chunk, with or without a dictionary page: the index-less seek leaves
    the page counter at the first data page (file.go:1565-1568). *)
Theorem C08_lazy_index_refines_position : forall pages ops,
  positive pages -> run_lazy pages ops = run_spec_lazy pages ops.
Proof.
  intros pages ops Hp.
  exact (run_refines _ _ _ _ _ _ _ (step_lazy_sim pages Hp) ops _ _ (inv_lazy_init pages)).
Qed.

(** ** Batch row reader (one column) over either cursor: every history of
    ReadRows (any batch sizes), SeekToRow and Reset *)

Theorem C08_rows_reader_refines_position : forall pages ops,
  positive pages -> run_rows_indexed pages ops = run_rspec true pages ops.
Proof. intros. apply (rows_refines_gen indexed_cursor true); [assumption|apply reset_always_allowed]. Qed.

Theorem C08_rows_reader_noindex_refines_position : forall pages ops,
  positive pages -> run_rows_noindex pages ops = run_rspec false pages ops.
Proof. intros. apply (rows_refines_gen (noindex_cursor false) true); [assumption|apply reset_always_allowed]. Qed.

(** After SeekToRow k, reads of any batch sizes n1, n2, ... return exactly the
    first n1 + n2 + ... rows of the chunk from k on. *)
Theorem C08_rows_reader_seek_then_read : forall pages h k ns,
  positive pages ->
  concat (map rout_rows (skipn (S (length h))
    (run_rows_indexed pages (h ++ RSeek k :: map RRead ns)))) =
  firstn (list_sum ns) (skipn k (seq 0 (total_rows pages))).
Proof.
  intros pages h k ns Hp. rewrite C08_rows_reader_refines_position by assumption. apply rspec_seek_then_read.
Qed.

Theorem C08_rows_reader_noindex_seek_then_read : forall pages h k ns,
  positive pages ->
  concat (map rout_rows (skipn (S (length h))
    (run_rows_noindex pages (h ++ RSeek k :: map RRead ns)))) =
  firstn (list_sum ns) (skipn k (seq 0 (total_rows pages))).
Proof.
  intros pages h k ns Hp. rewrite C08_rows_reader_noindex_refines_position by assumption.
  apply rspec_seek_then_read.
Qed.

Print Assumptions C08_cursor_refines_position.
Print Assumptions C08_seek_then_read_rows_from_k.
Print Assumptions C08_seek_then_read_equals_sequential_skip.
Print Assumptions C08_sequential_read_returns_all_rows.
Print Assumptions C08_cursor_noindex_refines_position.
Print Assumptions C08_noindex_seek_then_read_rows_from_k.
Print Assumptions C08_lazy_index_refines_position.
Print Assumptions C08_rows_reader_refines_position.
Print Assumptions C08_rows_reader_noindex_refines_position.
Print Assumptions C08_rows_reader_seek_then_read.
Print Assumptions C08_rows_reader_noindex_seek_then_read.

(** ** Non-vacuity: a concrete layout and history *)

Definition ex_pages : chunk := [4; 4; 4; 4; 4; 4; 4].
Definition ex_history : list op := [ReadPage; SeekToRow 21; SeekToRow 2; ReadPage; ReadPage].

Example C08_ex_positive : positive ex_pages.
Proof. repeat constructor. Qed.

Example C08_ex_run :
  run_indexed ex_pages ex_history = [Rows 0 4; SeekOk; SeekOk; Rows 2 2; Rows 4 4].
Proof. vm_compute. reflexivity. Qed.

Example C08_ex_spec : run_spec ex_pages ex_history = run_indexed ex_pages ex_history.
Proof. vm_compute. reflexivity. Qed.

(** seeks at, and beyond, the end succeed and the reads return io.EOF; a
    backward seek afterwards works *)
Example C08_ex_end :
  run_indexed ex_pages [SeekToRow 28; ReadPage; SeekToRow 40; ReadPage; ReadPage; SeekToRow 27; ReadPage; ReadPage]
  = [SeekOk; EOF; SeekOk; EOF; EOF; SeekOk; Rows 27 1; EOF].
Proof. vm_compute. reflexivity. Qed.

(** a chunk without pages rejects every row but 0 *)
Example C08_ex_empty :
  run_indexed [] [SeekToRow 0; ReadPage; SeekToRow 1] = [SeekOk; EOF; OutOfRange].
Proof. vm_compute. reflexivity. Qed.

Example C08_ex_rows :
  run_rows_indexed ex_pages [RRead 3; RSeek 26; RRead 5; RSeek 6; RRead 3]
  = [RRows [0; 1; 2] false; RSeekOk; RRows [26; 27] true; RSeekOk; RRows [6; 7; 8] false].
Proof. vm_compute. reflexivity. Qed.

Example C08_ex_after_eof : In EOF (run_indexed ex_pages (repeat ReadPage 8)).
Proof. vm_compute. tauto. Qed.

(** ** The pinned tree (before b7bb510) refutes the property

    The faithful model of the old SeekToRow (the cached page is served again
    whenever the target is the last returned page, a pending re-serve is never
    cancelled) returns page 5 instead of page 1 on the history
    ReadPage; SeekToRow(row in page 5); SeekToRow(2); ReadPage; ReadPage. *)
Theorem C08_pinned_refuted :
  exists pages ops, positive pages /\ run_pinned pages ops <> run_spec pages ops.
Proof.
  exists ex_pages, ex_history. split; [exact C08_ex_positive|]. vm_compute. discriminate.
Qed.

Example C08_pinned_run :
  run_pinned ex_pages ex_history = [Rows 0 4; SeekOk; SeekOk; Rows 2 2; Rows 20 4].
Proof. vm_compute. reflexivity. Qed.

(** Before 5c1fea6 the index-less seek restarted f.index at 1 on a chunk with
    a dictionary page while the stream was at data page 0; once the offset
    index was loaded the "already positioned at the target page" shortcut
    believed it.  The faithful model of that code violates the statement. *)
Theorem C08_lazy_index_dictionary_pinned_refuted :
  exists pages ops, positive pages /\ run_lazy_pinned true pages ops <> run_spec_lazy pages ops.
Proof.
  exists [4; 4; 4], [Op (SeekToRow 0); LoadIndex; Op (SeekToRow 4); Op ReadPage].
  split; [repeat constructor|]. vm_compute. discriminate.
Qed.

(** Before 3b258db rowGroupRows.Reset rewound the columns but kept r.rowIndex,
    so a SeekToRow to the row the reader was at before the Reset was skipped. *)
Theorem C08_rows_reader_reset_pinned_refuted :
  exists pages ops, positive pages /\ run_rows_indexed_pinned pages ops <> run_rspec true pages ops.
Proof.
  exists [4; 4; 4], [RRead 5; RReset; RSeek 5; RRead 2].
  split; [repeat constructor|]. vm_compute. discriminate.
Qed.

(** the same histories on the current code *)
Example C08_ex_lazy_dictionary :
  run_lazy [4; 4; 4] [Op (SeekToRow 0); LoadIndex; Op (SeekToRow 4); Op ReadPage]
  = [SeekOk; Done; SeekOk; Rows 4 4].
Proof. vm_compute. reflexivity. Qed.

Example C08_ex_reset :
  run_rows_indexed [4; 4; 4] [RRead 5; RReset; RSeek 5; RRead 2]
  = [RRows [0; 1; 2; 3; 4] false; RDone; RSeekOk; RRows [5; 6] false].
Proof. vm_compute. reflexivity. Qed.

Print Assumptions C08_pinned_refuted.
Print Assumptions C08_lazy_index_dictionary_pinned_refuted.
Print Assumptions C08_rows_reader_reset_pinned_refuted.

(** * The layers above the page cursor *)

(** ** rowGroupRows over SEVERAL columns with DIFFERENT page layouts

    [layout_ok N cols]: at least one column, every column chunk has non-empty
    pages and [N] rows.  Every column is read through its own page cursor (the
    cursor of the theorems above); rows are assembled by reading from every
    column; a seek positions every column; r.rowIndex is advanced by every
    batch, also the one that comes back with io.EOF.  For every history of
    ReadRows (any batch sizes) / SeekToRow / Reset the outputs are those of one
    row position, and every assembled row holds the same row of every column. *)
Theorem C08_rows_multi_column : forall N cols ops,
  layout_ok N cols -> run_mrows_indexed cols ops = run_mspec true (length cols) N ops.
Proof. exact (mrows_refines indexed_cursor). Qed.

Theorem C08_rows_multi_column_noindex : forall N cols ops,
  layout_ok N cols -> run_mrows_noindex cols ops = run_mspec false (length cols) N ops.
Proof. exact (mrows_refines (noindex_cursor false)). Qed.

Theorem C08_rows_multi_column_seek_then_read : forall N cols h k ns,
  layout_ok N cols ->
  concat (map mout_rows (skipn (S (length h))
    (run_mrows_indexed cols (h ++ RSeek k :: map RRead ns)))) =
  widen (length cols) (firstn (list_sum ns) (skipn k (seq 0 N))).
Proof.
  intros N cols h k ns Hl. rewrite (C08_rows_multi_column N) by assumption. apply mspec_seek_then_read.
Qed.

(** the column reader of the multi-column model is the one-column reader of
    the theorems above *)
Theorem C08_column_reader_same : forall cstep fuel,
  @gread_rows state cstep fuel = read_rows cstep fuel.
Proof. reflexivity. Qed.

(** The stale-position defect class (seeded: r.rowIndex not advanced when the
    final batch comes back with io.EOF, so that a later SeekToRow to the row at
    which that batch started is skipped) violates the statement. *)
Theorem C08_rows_multi_column_stale_rowindex_refuted :
  exists N cols ops, layout_ok N cols /\
    run_mrows_indexed_stale cols ops <> run_mspec true (length cols) N ops.
Proof.
  exists 12, [[4; 4; 4]; [5; 7]; [12]], [RSeek 10; RRead 5; RSeek 10; RRead 1].
  split; [split; [discriminate|repeat constructor]|]. vm_compute. discriminate.
Qed.

(** ** multiPages: the page cursor of a column over several row groups

    [mp_locate]: the global row number -> (row group, row within it) of
    multiPages.SeekToRow. *)
Theorem C08_global_row_to_row_group : forall chunks k idx k',
  mp_locate (map total_rows chunks) 0 k = (idx, k') ->
  idx <= length chunks /\ k = mp_offset chunks idx + k' /\
  (idx < length chunks -> k' < total_rows (nth idx chunks [])).
Proof.
  intros chunks k idx k' H. apply mp_locate_spec in H. destruct H as (d & -> & Hd & Hk & Hlt).
  cbn [Nat.add]. repeat split; assumption.
Qed.

Theorem C08_multi_pages_refines_position : forall chunks ops,
  Forall positive chunks ->
  run_mpages_indexed chunks ops = run_spec_noindex (concat chunks) ops.
Proof. exact (mpages_refines indexed_cursor). Qed.

Theorem C08_multi_pages_noindex_refines_position : forall chunks ops,
  Forall positive chunks ->
  run_mpages_noindex chunks ops = run_spec_noindex (concat chunks) ops.
Proof. exact (mpages_refines (noindex_cursor false)). Qed.

(** ** MultiRowGroup over multi row groups (Cursor/Nested.v)

    [t] is an expression of applications of parquet.MultiRowGroup to row groups
    of files, nested to any depth ([rg_wf]: every application has an argument);
    [rg_eval false t] is the value multiRowGroup.init builds.  When it is a
    multi row group, its flattened chunks are the chunks of the files in the
    order of the expression and rowCounts holds the number of rows of each of
    them; the pages of its column then behave as one row position over the
    concatenation of the row groups, for every history. *)
Theorem C08_nested_flattening : forall t ch cnt gs,
  rg_wf t -> rg_eval false t = VMulti ch cnt gs ->
  ch = rg_leaves t /\ cnt = map total_rows ch.
Proof.
  intros t ch cnt gs Hwf E. destruct (nested_flatten t Hwf) as [Hc Ho]. rewrite E in *.
  cbn in Hc, Ho. split; [exact Hc|exact (proj1 Ho)].
Qed.

Theorem C08_nested_multi_pages_refines_position : forall t ch cnt gs ops,
  rg_wf t -> rg_eval false t = VMulti ch cnt gs -> Forall positive (rg_leaves t) ->
  run_nested_indexed t ops = run_spec_noindex (concat (rg_leaves t)) ops.
Proof. exact (nested_refines indexed_cursor). Qed.

Theorem C08_nested_multi_pages_noindex_refines_position : forall t ch cnt gs ops,
  rg_wf t -> rg_eval false t = VMulti ch cnt gs -> Forall positive (rg_leaves t) ->
  run_nested_noindex t ops = run_spec_noindex (concat (rg_leaves t)) ops.
Proof. exact (nested_refines (noindex_cursor false)). Qed.

(** ** The pages of a column of a file, Column.Pages() (Cursor/ColumnPages.v)

    columnPages keeps one page cursor per row group for the life of the
    reader; [chunks] is the page layout of the chunk of the column in every row
    group.  For every history of ReadPage / SeekToRow, backward seeks out of a
    row group that has been partly read included, the outputs are those of one
    row position over the concatenation of the row groups: SeekToRow rewinds
    every row group after the target. *)
Theorem C08_column_pages_refines_position : forall chunks ops,
  Forall positive chunks ->
  run_cpages_indexed chunks ops = run_spec_noindex (concat chunks) ops.
Proof.
  intros chunks ops Hp. exact (cpages_refines indexed_cursor chunks Hp ops).
Qed.

Theorem C08_column_pages_noindex_refines_position : forall chunks ops,
  Forall positive chunks ->
  run_cpages_noindex chunks ops = run_spec_noindex (concat chunks) ops.
Proof.
  intros chunks ops Hp.
  exact (cpages_refines (noindex_cursor false) chunks Hp ops).
Qed.

(** The seeded defect class: a SeekToRow that leaves the row group that was
    being read where the reads left it does not have the property. *)
Theorem C08_column_pages_upto_last_refuted :
  exists chunks ops, Forall positive chunks /\
    run_cpages_upto_last chunks ops <> run_spec_noindex (concat chunks) ops.
Proof.
  exists [[2; 2]; [3; 3]], [SeekToRow 4; ReadPage; SeekToRow 3; ReadPage; ReadPage].
  split; [repeat constructor|]. vm_compute. discriminate.
Qed.

(** ** Reader / GenericReader / the rows of a multiRowGroup

    [file_ok rg_rows cols]: [cols] gives, for every column, the page layout of
    its chunk in every row group; every chunk has non-empty pages and the
    chunks of row group j have [nth j rg_rows] rows.  For every history of
    ReadRows / Reader.Read / GenericReader.Read / SeekToRow / Reset, seeks
    across row groups, reads spanning a boundary and reads after the end
    included, the outputs are those of one row position over the
    concatenation of the row groups. *)
Theorem C08_rows_multi_row_group : forall rg_rows cols ops,
  file_ok rg_rows cols ->
  run_mgrows_indexed cols ops = run_mspec false (length cols) (list_sum rg_rows) ops.
Proof. exact (mgrows_refines indexed_cursor). Qed.

Theorem C08_reader_multi_row_group : forall rg_rows cols ops,
  file_ok rg_rows cols ->
  run_reader_indexed cols ops = run_xspec (length cols) (list_sum rg_rows) ops.
Proof. exact (reader_refines indexed_cursor). Qed.

Theorem C08_reader_multi_row_group_noindex : forall rg_rows cols ops,
  file_ok rg_rows cols ->
  run_reader_noindex cols ops = run_xspec (length cols) (list_sum rg_rows) ops.
Proof. exact (reader_refines (noindex_cursor false)). Qed.

(** a file with one row group is read through the row group itself *)
Theorem C08_reader_one_row_group : forall N cols ops,
  layout_ok N cols -> 0 < N ->
  run_reader1_indexed cols ops = run_xspec (length cols) N ops.
Proof.
  intros N cols ops H HN.
  exact (reader1_refines indexed_cursor N cols ops H (or_intror HN)).
Qed.

Theorem C08_reader_one_row_group_noindex : forall N cols ops,
  layout_ok N cols -> run_reader1_noindex cols ops = run_xspec (length cols) N ops.
Proof.
  intros N cols ops H.
  exact (reader1_refines (noindex_cursor false) N cols ops H
           (or_introl eq_refl)).
Qed.

Theorem C08_reader_seek_then_read : forall rg_rows cols h k ns,
  file_ok rg_rows cols ->
  concat (map mout_rows (skipn (S (length h))
    (run_reader_indexed cols (h ++ XSeek k :: map XReadRows ns)))) =
  widen (length cols) (firstn (list_sum ns) (skipn k (seq 0 (list_sum rg_rows)))).
Proof.
  intros rg_rows cols h k ns Hf. rewrite (C08_reader_multi_row_group rg_rows) by assumption.
  apply xspec_seek_then_read.
Qed.

(** ** parquet.CopyRows as an operation of the histories of a row reader

    Cursor/Copy.v: CopyRows(dst, reader) over a reader without a bulk shortcut
    is ReadRows(42) until io.EOF ([copy_loop], row.go copyRows /
    Writer.ReadRowsFrom); [run_k]: histories of reader operations and copies.
    The copy is defined on the run function of the reader model, so every
    refinement theorem above carries over to histories with copies
    ([C08_copy_histories_*]); and over one row position the copy hands over
    exactly the rows from the position to the end, ends on io.EOF and leaves
    the reader at the end ([C08_copy_hands_over_the_rest*]): the reads that
    follow return no row, a seek back followed by reads returns the rows from
    there.  The readers that take a shortcut (rowBufferRows.WriteRowsTo) have
    no model of their own: they are compared by execution with [run_k] over the
    rowGroupRows model of one-page columns. *)
Theorem C08_copy_histories_rows_multi_column : forall N cols fuel ops,
  layout_ok N cols -> run_mrows_indexed_k cols fuel ops = run_mspec_k true (length cols) N fuel ops.
Proof. intros. apply run_k_ext. intros. now apply C08_rows_multi_column. Qed.

Theorem C08_copy_histories_rows_multi_column_noindex : forall N cols fuel ops,
  layout_ok N cols -> run_mrows_noindex_k cols fuel ops = run_mspec_k false (length cols) N fuel ops.
Proof. intros. apply run_k_ext. intros. now apply C08_rows_multi_column_noindex. Qed.

Theorem C08_copy_histories_rows_multi_row_group : forall rg_rows cols fuel ops,
  file_ok rg_rows cols ->
  run_mgrows_indexed_k cols fuel ops = run_mspec_k false (length cols) (list_sum rg_rows) fuel ops.
Proof. intros. apply run_k_ext. intros. now apply C08_rows_multi_row_group. Qed.

Theorem C08_copy_histories_reader : forall rg_rows cols fuel ops,
  file_ok rg_rows cols ->
  run_reader_indexed_k cols fuel ops = run_xspec_k (length cols) (list_sum rg_rows) fuel ops.
Proof. intros. apply run_k_ext. intros. now apply C08_reader_multi_row_group. Qed.

Theorem C08_copy_histories_reader_noindex : forall rg_rows cols fuel ops,
  file_ok rg_rows cols ->
  run_reader_noindex_k cols fuel ops = run_xspec_k (length cols) (list_sum rg_rows) fuel ops.
Proof. intros. apply run_k_ext. intros. now apply C08_reader_multi_row_group_noindex. Qed.

Theorem C08_copy_histories_reader_one_row_group : forall N cols fuel ops,
  layout_ok N cols -> 0 < N ->
  run_reader1_indexed_k cols fuel ops = run_xspec_k (length cols) N fuel ops.
Proof. intros. apply run_k_ext. intros. now apply C08_reader_one_row_group. Qed.

Theorem C08_copy_hands_over_the_rest : forall strict ncols N fuel pre,
  N < copy_batch * fuel ->
  let pos := exec (mspec_step strict ncols N) 0 pre in
  exists pre', copy_loop RRead (run_mspec strict ncols N) fuel pre [] =
                 (pre', MRows (wide ncols (seq pos (N - pos))) true)
               /\ exec (mspec_step strict ncols N) 0 pre' = Nat.max pos N.
Proof.
  intros strict ncols N fuel pre Hf pos.
  apply (spec_copy_loop rop RRead (mspec_step strict ncols N) strict ncols N (fun _ => eq_refl)
           fuel pre [] pos); [reflexivity|lia].
Qed.

Theorem C08_copy_hands_over_the_rest_reader : forall ncols N fuel pre,
  N < copy_batch * fuel ->
  let pos := exec (xspec_step ncols N) 0 pre in
  exists pre', copy_loop XReadRows (run_xspec ncols N) fuel pre [] =
                 (pre', MRows (wide ncols (seq pos (N - pos))) true)
               /\ exec (xspec_step ncols N) 0 pre' = Nat.max pos N.
Proof.
  intros ncols N fuel pre Hf pos.
  apply (spec_copy_loop xop XReadRows (xspec_step ncols N) false ncols N (fun _ => eq_refl)
           fuel pre [] pos); [reflexivity|lia].
Qed.

Print Assumptions C08_copy_histories_rows_multi_column.
Print Assumptions C08_copy_histories_reader.
Print Assumptions C08_copy_hands_over_the_rest.
Print Assumptions C08_copy_hands_over_the_rest_reader.

(** non-vacuity: 10 rows in two columns (pages 4+6 and 10), SeekToRow(6), a
    copy, a read: rows 6..9 are handed over, then nothing is left *)
Example C08_copy_example :
  run_mrows_indexed_k [[4; 6]; [10]] 3 [KOp (RSeek 6); KCopy; KOp (RRead 3)] =
  [MSeekOk; MRows [[6; 6]; [7; 7]; [8; 8]; [9; 9]] true; MRows [] true].
Proof. vm_compute. reflexivity. Qed.

(** ** asyncPages: every interleaving of the consumer and the producer goroutine

    [axstep]: the protocol of Conc/Async.v (channels, version counter) running
    next to a real page cursor.  For every program of ReadPage / SeekToRow
    calls and EVERY schedule: what the calls returned so far is a prefix of
    what the synchronous cursor returns for the program, all of it once the
    consumer has finished; and as long as the consumer has a call to make or to
    finish some step is enabled (no deadlock).  Uses [async_versioned] and
    [async_no_deadlock] of property C15. *)
Theorem C08_async_equals_sync : forall pages calls sched x,
  positive pages -> pages <> [] -> Forall noclose calls ->
  Sem.run (axstep (step_indexed pages)) (axinit init calls) sched = Some x ->
  let sync := run_indexed pages (map op_of_call calls) in
  xouts x = firstn (length (xouts x)) sync /\
  (ax_finished x = true -> xouts x = sync) /\
  (wants (xa x) -> exists l x', axstep (step_indexed pages) x l = Some x').
Proof.
  intros pages calls sched x Hp Hne.
  apply (async_equals_sync state _ (inv_indexed pages) pages init (inv_indexed_init pages)).
  intros u p o Hu. rewrite (spec_step_nonempty pages Hne). now apply step_indexed_sim.
Qed.

Theorem C08_async_noindex_equals_sync : forall pages calls sched x,
  positive pages -> Forall noclose calls ->
  Sem.run (axstep (step_noindex false pages)) (axinit init calls) sched = Some x ->
  let sync := run_noindex pages (map op_of_call calls) in
  xouts x = firstn (length (xouts x)) sync /\
  (ax_finished x = true -> xouts x = sync) /\
  (wants (xa x) -> exists l x', axstep (step_noindex false pages) x l = Some x').
Proof.
  intros pages calls sched x Hp.
  exact (async_equals_sync state _ (inv_stream pages) pages init (inv_stream_init pages)
           (step_noindex_sim false pages Hp) calls sched x).
Qed.

Print Assumptions C08_rows_multi_column.
Print Assumptions C08_rows_multi_column_noindex.
Print Assumptions C08_rows_multi_column_seek_then_read.
Print Assumptions C08_rows_multi_column_stale_rowindex_refuted.
Print Assumptions C08_global_row_to_row_group.
Print Assumptions C08_multi_pages_refines_position.
Print Assumptions C08_multi_pages_noindex_refines_position.
Print Assumptions C08_nested_flattening.
Print Assumptions C08_nested_multi_pages_refines_position.
Print Assumptions C08_nested_multi_pages_noindex_refines_position.
Print Assumptions C08_column_pages_refines_position.
Print Assumptions C08_column_pages_noindex_refines_position.
Print Assumptions C08_column_pages_upto_last_refuted.
Print Assumptions C08_rows_multi_row_group.
Print Assumptions C08_reader_multi_row_group.
Print Assumptions C08_reader_multi_row_group_noindex.
Print Assumptions C08_reader_one_row_group.
Print Assumptions C08_reader_one_row_group_noindex.
Print Assumptions C08_reader_seek_then_read.
Print Assumptions C08_async_equals_sync.
Print Assumptions C08_async_noindex_equals_sync.

(** ** Non-vacuity of the hypotheses and statements *)

Definition ex_cols : list chunk := [[4; 4; 4]; [5; 7]; [12]; [1; 1; 10]].

Example C08_ex_layout_ok : layout_ok 12 ex_cols.
Proof. split; [discriminate|repeat constructor]. Qed.

(* the final batch comes back with io.EOF; the seek to the row at which it
   started is honoured *)
Example C08_ex_multi_column :
  run_mrows_indexed ex_cols [RRead 3; RSeek 10; RRead 5; RSeek 10; RRead 1; RSeek 6; RRead 2; RReset; RRead 1]
  = [MRows [[0;0;0;0]; [1;1;1;1]; [2;2;2;2]] false; MSeekOk;
     MRows [[10;10;10;10]; [11;11;11;11]] true; MSeekOk; MRows [[10;10;10;10]] false; MSeekOk;
     MRows [[6;6;6;6]; [7;7;7;7]] false; MDone; MRows [[0;0;0;0]] false].
Proof. vm_compute. reflexivity. Qed.

Example C08_ex_multi_column_stale :
  run_mrows_indexed_stale ex_cols [RSeek 10; RRead 5; RSeek 10; RRead 1]
  = [MSeekOk; MRows [[10;10;10;10]; [11;11;11;11]] true; MSeekOk; MRows [] true].
Proof. vm_compute. reflexivity. Qed.

(* two columns, three row groups of 8, 6 and 3 rows *)
Definition ex_file : list (list chunk) := [[[4; 4]; [3; 3]; [3]]; [[8]; [1; 5]; [2; 1]]].

Example C08_ex_file_ok : file_ok [8; 6; 3] ex_file.
Proof. split; [discriminate|repeat constructor]. Qed.

Example C08_ex_multi_pages :
  run_mpages_indexed [[4; 4]; [3; 3]; [3]]
    [ReadPage; ReadPage; ReadPage; SeekToRow 15; ReadPage; ReadPage; SeekToRow 9; ReadPage; SeekToRow 40; ReadPage]
  = [Rows 0 4; Rows 4 4; Rows 8 3; SeekOk; Rows 15 2; EOF; SeekOk; Rows 9 2; SeekOk; EOF].
Proof. vm_compute. reflexivity. Qed.

(* Column.Pages(): a backward seek out of the second row group after one of its
   pages was read, a seek to the last row of a row group, a seek to the number
   of rows of the first row group (it stops at the end of that row group) *)
Example C08_ex_column_pages :
  run_cpages_indexed [[4; 4]; [3; 3]; [3]]
    [SeekToRow 8; ReadPage; SeekToRow 7; ReadPage; ReadPage; ReadPage; SeekToRow 8; ReadPage; SeekToRow 40; ReadPage; SeekToRow 0; ReadPage]
  = [SeekOk; Rows 8 3; SeekOk; Rows 7 1; Rows 8 3; Rows 11 3; SeekOk; Rows 8 3; SeekOk; EOF; SeekOk; Rows 0 4].
Proof. vm_compute. reflexivity. Qed.

Example C08_ex_column_pages_upto_last :
  run_cpages_upto_last [[4; 4]; [3; 3]; [3]] [SeekToRow 8; ReadPage; SeekToRow 7; ReadPage; ReadPage]
  = [SeekOk; Rows 8 3; SeekOk; Rows 7 1; Rows 11 3].
Proof. vm_compute. reflexivity. Qed.

(* four row groups of 3, 4, 2 and 5 rows combined three levels deep: the
   flattened chunks and their row counts, and a history with a seek to every
   row group boundary; had init taken the row counts from the row groups of the
   nested multi row group ([rg_eval true], counts 7, 2, 5 for four chunks), the
   seeks would land in the wrong chunk *)
Definition ex_nest : rgtree :=
  RGNode [RGNode [RGNode [RGLeaf [2; 1]; RGLeaf [4]]; RGLeaf [1; 1]]; RGLeaf [3; 2]].

Example C08_ex_nested_wf : rg_wf ex_nest /\ Forall positive (rg_leaves ex_nest).
Proof. split; [cbn; repeat split; discriminate|repeat constructor]. Qed.

Example C08_ex_nested_value :
  exists gs, rg_eval false ex_nest = VMulti [[2; 1]; [4]; [1; 1]; [3; 2]] [3; 4; 2; 5] gs.
Proof. eexists. vm_compute. reflexivity. Qed.

Example C08_ex_nested_run :
  run_nested_indexed ex_nest [SeekToRow 3; ReadPage; SeekToRow 7; ReadPage; SeekToRow 10; ReadPage; SeekToRow 14; ReadPage]
  = [SeekOk; Rows 3 4; SeekOk; Rows 7 1; SeekOk; Rows 10 2; SeekOk; EOF].
Proof. vm_compute. reflexivity. Qed.

Example C08_ex_nested_children_counts_differ :
  (exists gs, rg_eval true ex_nest = VMulti [[2; 1]; [4]; [1; 1]; [3; 2]] [7; 2; 5] gs) /\
  run_nested_children_counts ex_nest [SeekToRow 7; ReadPage] = [SeekOk; Rows 3 4].
Proof. split; [eexists|]; vm_compute; reflexivity. Qed.

Example C08_ex_locate : mp_locate (map total_rows [[4; 4]; [3; 3]; [3]]) 0 15 = (2, 1).
Proof. vm_compute. reflexivity. Qed.

(* a read spanning two boundaries, a seek into the last row group, Read after
   the end, a backward seek across a boundary *)
Example C08_ex_reader :
  run_reader_indexed ex_file
    [XReadRows 3; XRead1; XSeek 7; XGRead 8; XSeek 15; XReadRows 5; XRead1; XSeek 7; XRead1; XReset; XReadRows 1]
  = [MRows [[0;0]; [1;1]; [2;2]] false; MRows [[3;3]] false; MSeekOk;
     MRows [[7;7]; [8;8]; [9;9]; [10;10]; [11;11]; [12;12]; [13;13]; [14;14]] false; MSeekOk;
     MRows [[15;15]; [16;16]] true; MRows [] true; MSeekOk; MRows [[7;7]] false; MDone;
     MRows [[0;0]] false].
Proof. vm_compute. reflexivity. Qed.

(* a complete schedule of the two goroutines for the history that exhibited
   the repaired defect, found by the executable scheduler *)
Definition ex_calls : list cop := [CRead; CSeek 21; CSeek 2; CRead; CRead].
Definition ex_sched : list alabel :=
  snd (ax_sched (step_indexed ex_pages)
         [3;1;4;1;5;9;2;6;5;3;5;8;9;7;9;3;2;3;8;4;6;2;6;4;3;3;8;3;2;7;9;5;0;2;8;8;4;1;9;7;1;6;9;3;9;9;3;7;5;1;0;5;8;2;0;9;7;4;9;4]
         (axinit init ex_calls)).

Example C08_ex_async :
  exists x, Sem.run (axstep (step_indexed ex_pages)) (axinit init ex_calls) ex_sched = Some x /\
            ax_finished x = true /\
            xouts x = [Rows 0 4; SeekOk; SeekOk; Rows 2 2; Rows 4 4] /\
            xouts x = run_indexed ex_pages (map op_of_call ex_calls).
Proof. vm_compute. eexists. repeat split. Qed.

Example C08_ex_noclose : Forall noclose ex_calls.
Proof. repeat constructor; discriminate. Qed.

(** ** Readers that seek forward only (Cursor/Forward.v)

    forwardRowSeeker (ConvertRowReader), mergedRowGroupRows and
    concatenatingRowsWrapper (the Rows() of the row groups MergeRowGroups
    returns) satisfy SeekToRow by reading rows of the reader underneath and
    dropping them: inside ReadRows, skipping whole batches and the head of the
    batch the target lies in (forwardRowSeeker), in a loop in front of the read
    (mergedRowGroupRows), or at once in SeekToRow, 64 rows at a time
    (concatenatingRowsWrapper).  For EVERY number of rows, EVERY policy of the
    reader underneath (the c-th call returns at most [pol c] rows; io.EOF with
    the last rows or after them) and EVERY finite history of ReadRows(n) and
    SeekToRow(k), the outputs are [sound]: every batch starts at the row
    position (the target of the last successful seek plus the rows read since)
    and stays within the rows, a read of n > 0 rows returns rows unless the
    position is at or past the end, io.EOF only comes with or after the last
    row, a seek is only refused when it goes backward, and only fails with
    io.EOF when its target is the end or beyond. *)
Theorem C08_forward_row_seeker_sound : forall N eofl pol ops,
  sound N 0 ops (run_fws N eofl pol ops).
Proof.
  intros. apply (run_gen_sound fws _ (fws_inv N) fws_pos N (fws_step_ok N eofl pol) ops (mkF u0 0 0)).
  unfold fws_inv, u0; simpl; lia.
Qed.

Theorem C08_merged_rows_sound : forall N eofl pol ops,
  sound N 0 ops (run_lz N eofl pol ops).
Proof.
  intros. apply (run_gen_sound lzs _ (lz_inv N) lz_pos N (lz_step_ok N eofl pol) ops (mkL u0 0 0)).
  unfold lz_inv, u0; simpl; lia.
Qed.

Theorem C08_concatenating_rows_sound : forall N eofl pol ops,
  sound N 0 ops (run_eg N eofl pol ops).
Proof.
  intros. apply (run_gen_sound egs _ (eg_inv N) e_index N (eg_step_ok N eofl pol) ops (mkE u0 0)).
  unfold eg_inv, u0; simpl; lia.
Qed.

(** The statement in the words of the property: after any history, a seek to
    k that succeeds followed by a read that returns rows returns rows from k
    on. *)
Theorem C08_forward_seek_then_read : forall N ops outs pos k n f c e,
  sound N pos (ops ++ [FSeek k; FRead n]) (outs ++ [FSeekOk; FRows f c e]) ->
  length ops = length outs ->
  0 < c -> f = k /\ k + c <= N.
Proof. exact sound_app_seek_read. Qed.

(** mergedRowGroupRows.ReadRows with one conditional read in place of the
    loop drops at most one batch: a seek farther than the next batch is not
    honoured. *)
Theorem C08_merged_rows_drop_once_refuted :
  ~ sound 10 0 [FSeek 5; FRead 2] (run_lz_once 10 false (fun _ => 0) [FSeek 5; FRead 2]).
Proof. vm_compute. intros (_ & H & _). destruct H as [H _]; [lia | discriminate]. Qed.

Print Assumptions C08_forward_row_seeker_sound.
Print Assumptions C08_merged_rows_sound.
Print Assumptions C08_concatenating_rows_sound.
Print Assumptions C08_forward_seek_then_read.
Print Assumptions C08_merged_rows_drop_once_refuted.

(* 10 rows, batches cut to 4, 1, 3, 4, 1, ... rows, io.EOF with the last rows:
   a seek into the second batch, a refused seek backward, a seek accepted
   because the rows before it were only skipped, a seek beyond the end *)
Example C08_ex_forward_row_seeker :
  run_fws 10 true (cycle [4; 1; 3]) [FSeek 5; FRead 8; FSeek 2; FRead 1; FSeek 9; FSeek 8; FRead 3; FSeek 12; FRead 1]
  = [FSeekOk; FRows 5 3 false; FRefused; FRows 8 1 false; FSeekOk; FRefused; FRows 9 1 true; FSeekOk; FRows 10 0 true].
Proof. vm_compute. reflexivity. Qed.

Example C08_ex_merged_rows :
  run_lz 10 false (cycle [4; 1; 3]) [FSeek 7; FSeek 5; FRead 2; FRead 8; FSeek 12; FRead 1] =
  [FSeekOk; FSeekOk; FRows 5 2 false; FRows 7 1 false; FSeekOk; FRows 0 0 true] /\
  run_lz_once 10 false (fun _ => 0) [FSeek 5; FRead 2] = [FSeekOk; FRows 2 2 false].
Proof. split; vm_compute; reflexivity. Qed.

Example C08_ex_concatenating_rows :
  run_eg 10 true (fun _ => 0) [FRead 2; FSeek 1; FSeek 6; FRead 8; FSeek 10; FSeek 12] =
  [FRows 0 2 false; FRefused; FSeekOk; FRows 6 4 true; FSeekOk; FSeekEOF].
Proof. vm_compute. reflexivity. Qed.

(** ** The row window of the columnar variant reader (Cursor/VariantLeaves.v)

    VariantReader keeps one row offset for all cursors; the page reader of a
    leaf column is opened the first time a cursor that needs it takes part in
    Next, and SeekToRow is recorded per open leaf and applied at its next
    window.  For EVERY number of leaf columns, EVERY number of rows and EVERY
    finite history of cursor creations, Next(n) and SeekToRow(k), the windows
    are those of one row offset and every leaf that is read delivers the rows
    of the window, wherever in the history its cursor was created (before the
    first Next, after reads, between a SeekToRow and the next Next). *)
Theorem C08_variant_window_refines_offset : forall nleaves N ops,
  run_variant nleaves N ops = run_vspec nleaves N ops.
Proof.
  intros. unfold run_variant, run_vspec, vinit.
  rewrite (variant_refines_gen N ops (mkV 0 (repeat leaf0 nleaves))).
  - simpl. rewrite map_in_repeat. reflexivity.
  - apply repeat_leaf0_ok.
Qed.

(** Had SeekToRow marked the leaves that are not open yet and open() not
    positioned the page reader at the offset of the reader, a leaf whose
    cursor is created after the reader advanced would read from row 0. *)
Theorem C08_variant_late_leaf_seeded_refuted :
  run_variant_seeded 2 20 [VCreate 0; VNext 10; VCreate 1; VNext 5]
  <> run_vspec 2 20 [VCreate 0; VNext 10; VCreate 1; VNext 5].
Proof. vm_compute. discriminate. Qed.

Print Assumptions C08_variant_window_refines_offset.
Print Assumptions C08_variant_late_leaf_seeded_refuted.

(* a cursor created after a Next, another between SeekToRow and Next, a seek
   beyond the rows, the end of the rows *)
Example C08_ex_variant :
  run_variant 3 20 [VCreate 0; VNext 8; VCreate 1; VNext 4; VSeek 15; VCreate 2; VNext 9; VNext 1; VSeek 21; VSeek 3; VNext 2]
  = [VDone; VWindow 0 8 [Some 0; None; None]; VDone; VWindow 8 4 [Some 8; Some 8; None]; VSeekOk; VDone;
     VWindow 15 5 [Some 15; Some 15; Some 15]; VEOF; VOutOfRange; VSeekOk; VWindow 3 2 [Some 3; Some 3; Some 3]].
Proof. vm_compute. reflexivity. Qed.

Example C08_ex_variant_seeded :
  run_variant_seeded 2 20 [VCreate 0; VNext 10; VCreate 1; VNext 5]
  = [VDone; VWindow 0 10 [Some 0; None]; VDone; VWindow 10 5 [Some 10; Some 0]].
Proof. vm_compute. reflexivity. Qed.
