(** C09 — merging sorted row groups (or row readers) yields a sorted, complete,
    per-input-stable sequence; with duplicate dropping exactly one row per
    distinct key remains.  The proofs are in Merge/*Proofs.v.

    A row is (key, input, seq); keys are compared by [cmp : K -> K -> Z], whose
    sign is the order (Go: func(Row, Row) int).  [sorted] is
    [StronglySorted (fun a b => cmp (key a) (key b) <= 0)]. *)
From Coq Require Import List ZArith Lia Sorting.Sorted Sorting.Permutation.
From PQ Require Import Merge.Model Merge.Instance Merge.AbstractProofs Merge.RunLengthProofs
  Merge.Merge2Proofs Merge.DedupeProofs Merge.SegmentsProofs Merge.TreeProofs Merge.InstanceProofs
  Merge.Refine Merge.RefineMergeProofs Merge.RefineCutProofs Merge.RefineProofs Merge.ProgressProofs
  Merge.Nested Merge.NestedProofs.
Import ListNotations.
Open Scope Z_scope.

Section C09.
  (* any key type with any comparison that is a total preorder *)
  Variable K : Type.
  Variable cmp : K -> K -> Z.
  Hypothesis cmp_opp : forall a b, cmp a b < 0 <-> cmp b a > 0.
  Hypothesis cmp_trans : forall a b d, cmp a b <= 0 -> cmp b d <= 0 -> cmp a d <= 0.

  Notation row := (row K).
  Notation sorted := (sorted K cmp).

  (** (1) The abstract scheduler.  [sched cmp st out st']: starting from the
      inputs [st] (any number of them), [out] is emitted by repeatedly taking a
      head that compares <= every head, leaving [st'].  Whatever the choices
      among minimal heads, a complete run is sorted, a permutation of the
      inputs, and the rows of input i appear in it exactly as in input i. *)
  Theorem C09_merge_abstract_correct : forall (st : list (list row)) out st',
    sched cmp st out st' -> all_empty K st' ->
    Forall sorted st -> tagged K st ->
    sorted out /\ Permutation (concat st) out /\ forall i, of_input K i out = nth i st [].
  Proof. exact (sched_complete_correct K cmp cmp_opp cmp_trans). Qed.

  (* every prefix of a run: sorted, below everything not yet emitted, and what
     is left of each input is its suffix *)
  Theorem C09_merge_abstract_prefix : forall (st : list (list row)) out st',
    sched cmp st out st' -> Forall sorted st -> tagged K st ->
    sorted out /\
    (forall a b, In a out -> In b (concat st') -> rle K cmp a b) /\
    Permutation (concat st) (out ++ concat st') /\
    (forall i, nth i st [] = of_input K i out ++ nth i st' []) /\
    Forall sorted st' /\ tagged K st' /\ length st' = length st.
  Proof. exact (sched_correct K cmp cmp_opp cmp_trans). Qed.

  Theorem C09_merge_abstract_Sorted : forall (st : list (list row)) out st',
    sched cmp st out st' -> all_empty K st' -> Forall sorted st -> tagged K st ->
    Sorted (rle K cmp) out.
  Proof.
    intros st out st' H1 H2 H3 H4. apply StronglySorted_Sorted.
    exact (proj1 (sched_complete_correct K cmp cmp_opp cmp_trans st out st' H1 H2 H3 H4)).
  Qed.

  (** (2) runLength: on a sorted window the galloping search returns the length
      of the longest prefix whose rows compare <= max against the bound
      (max = 0 in the k-way run mode, max = -1 in the 2-way emitRun). *)
  Theorem C09_runLength_spec : forall (w : list row) bound mx,
    mx = 0 \/ mx = -1 -> sorted w ->
    run_length cmp w bound mx = length (take_while K (fun r => rcmp cmp r bound <=? mx) w).
  Proof. exact (run_length_spec K cmp cmp_opp cmp_trans). Qed.

  (** (3) mergedRowReader2: for every chunking of the two sources ([ch0],
      [ch1]) and every sequence of ReadRows slice lengths ([batches]) the rows
      emitted so far are a run of the abstract scheduler on the two inputs, and
      nothing is left when io.EOF is reported. *)
  Theorem C09_merge2_refines : forall (in0 in1 : list row) ch0 ch1 batches outs eof m',
    sorted in0 -> sorted in1 ->
    merge2 cmp in0 in1 ch0 ch1 batches = (outs, eof, m') ->
    sched cmp [in0; in1] (concat outs) [remaining_opt (m_r0 m'); remaining_opt (m_r1 m')] /\
    (eof = true -> remaining_opt (m_r0 m') = [] /\ remaining_opt (m_r1 m') = []).
  Proof.
    intros in0 in1 ch0 ch1 batches outs eof m' H0 H1 H.
    destruct (merge2_refines K cmp cmp_opp cmp_trans _ _ _ _ _ _ _ _ H0 H1 H) as [R1 R2].
    split; [exact R1|]. intros E. specialize (R2 E). unfold abs2, st2 in R2. now inversion R2.
  Qed.

  Theorem C09_merge2_correct : forall (in0 in1 : list row) ch0 ch1 batches outs m',
    sorted in0 -> sorted in1 ->
    (forall r, In r in0 -> input r = 0%nat) -> (forall r, In r in1 -> input r = 1%nat) ->
    merge2 cmp in0 in1 ch0 ch1 batches = (outs, true, m') ->
    sorted (concat outs) /\ Permutation (in0 ++ in1) (concat outs) /\
    of_input K 0 (concat outs) = in0 /\ of_input K 1 (concat outs) = in1.
  Proof. exact (merge2_correct K cmp cmp_opp cmp_trans). Qed.

  (* when the two heads compare equal, the row of input 0 is emitted first *)
  Theorem C09_merge2_ties_input0_first : forall f room (b0 b1 : buf K) prev streak h0 t0 h1 t1,
    b_win b0 = h0 :: t0 -> b_win b1 = h1 :: t1 -> rcmp cmp h0 h1 = 0 -> (1 <= room)%nat ->
    exists rest, fst (fst (fst (fst (loop2 K cmp (S f) room b0 b1 prev streak)))) = h0 :: rest.
  Proof. exact (loop2_tie_first K cmp). Qed.

  (** (4) The tournament tree of losers.  [Shape k L w hd W]: for the heads
      [hd] (None = exhausted reader) [W] gives the winner of every subtree, the
      stored losers [L] and the overall winner [w] are consistent with it, and
      every game was won by a head that compares <= the loser's.
      [TreeInv k L w hd] = exists W, Shape k L w hd W. *)

  (* established by the initial tournament *)
  Theorem C09_loser_tree_initial : forall (bufs : list (buf K)) leaves,
    length leaves = length bufs ->
    (forall i, (i < length bufs)%nat -> nth i leaves (-1) = lv K (heads K bufs) i) ->
    let r := play_initial K cmp (S (length bufs)) bufs leaves (repeat 0 (length bufs)) 0 in
    TreeInv K cmp (length bufs) (fst r) (snd r) (heads K bufs).
  Proof. exact (play_initial_inv K cmp cmp_opp). Qed.

  (* restored by replayGames after the head of the winner [wn] changed (or the
     winner was exhausted: the walk then starts with the candidate -1) *)
  Theorem C09_loser_tree_replay : forall k L hd W wn,
    Shape K cmp k L (Z.of_nat wn) hd W ->
    forall bufs : list (buf K), length bufs = k ->
    (forall i, i <> wn -> heads K bufs i = hd i) ->
    let r := replay_walk K cmp k bufs L (lv K (heads K bufs) wn) (parent (k + wn)) in
    TreeInv K cmp k (fst r) (snd r) (heads K bufs).
  Proof. exact (replay_walk_inv K cmp cmp_opp). Qed.

  (* tree[0]: the overall winner is a minimal head *)
  Theorem C09_loser_tree_winner_minimal : forall k L w hd W,
    Shape K cmp k L w hd W -> forall i, (i < k)%nat -> ole K cmp (ph K hd w) (hd i).
  Proof. exact (winner_minimal K cmp cmp_opp cmp_trans). Qed.

  (* the runner-up lies on the winner's path: every other reader is dominated
     by a loser stored at a node between the winner's leaf and the root *)
  Theorem C09_loser_tree_runner_up_on_path : forall k L hd W wn,
    Shape K cmp k L (Z.of_nat wn) hd W -> forall i, (i < k)%nat -> i <> wn ->
    exists a, up (parent (k + wn)) a /\ ole K cmp (ph K hd (loser L a)) (hd i) /\ loser L a <> Z.of_nat wn.
  Proof. exact (path_covers K cmp cmp_opp cmp_trans). Qed.

  Theorem C09_loser_tree :
    (forall (bufs : list (buf K)) leaves,
       length leaves = length bufs ->
       (forall i, (i < length bufs)%nat -> nth i leaves (-1) = lv K (heads K bufs) i) ->
       let r := play_initial K cmp (S (length bufs)) bufs leaves (repeat 0 (length bufs)) 0 in
       TreeInv K cmp (length bufs) (fst r) (snd r) (heads K bufs)) /\
    (forall k L hd W wn,
       Shape K cmp k L (Z.of_nat wn) hd W ->
       forall bufs : list (buf K), length bufs = k ->
       (forall i, i <> wn -> heads K bufs i = hd i) ->
       let r := replay_walk K cmp k bufs L (lv K (heads K bufs) wn) (parent (k + wn)) in
       TreeInv K cmp k (fst r) (snd r) (heads K bufs)) /\
    (forall k L w hd W,
       Shape K cmp k L w hd W -> forall i, (i < k)%nat -> ole K cmp (ph K hd w) (hd i)) /\
    (forall k L hd W wn,
       Shape K cmp k L (Z.of_nat wn) hd W -> forall i, (i < k)%nat -> i <> wn ->
       exists a, up (parent (k + wn)) a /\ ole K cmp (ph K hd (loser L a)) (hd i) /\ loser L a <> Z.of_nat wn).
  Proof.
    exact (conj C09_loser_tree_initial (conj C09_loser_tree_replay
            (conj C09_loser_tree_winner_minimal C09_loser_tree_runner_up_on_path))).
  Qed.

  (* hence runBound is <= the head of every other reader *)
  Theorem C09_loser_tree_run_bound : forall (m : mk K) hd wn,
    KPre K cmp m hd -> k_winner m = Z.of_nat wn ->
    forall j y, j <> wn -> hd j = Some y -> ole K cmp (run_bound K cmp m) (Some y).
  Proof. exact (run_bound_spec K cmp cmp_opp cmp_trans). Qed.

  (** (5) mergedRowReader: for any number of inputs, every chunking of the
      sources and every sequence of slice lengths, the rows emitted so far are
      a run of the abstract scheduler; nothing is left at io.EOF. *)
  Theorem C09_mergeK_refines : forall (ins : list (list row)) chunks batches outs eof m',
    Forall sorted ins -> mergek cmp ins chunks batches = (outs, eof, m') ->
    sched cmp ins (concat outs) (map remaining (k_bufs m')) /\
    (eof = true -> all_empty K (map remaining (k_bufs m'))).
  Proof. exact (mergek_refines K cmp cmp_opp cmp_trans). Qed.

  Theorem C09_mergeK_correct : forall (ins : list (list row)) chunks batches outs m',
    Forall sorted ins -> tagged K ins -> mergek cmp ins chunks batches = (outs, true, m') ->
    sorted (concat outs) /\ Permutation (concat ins) (concat outs) /\
    forall i, of_input K i (concat outs) = nth i ins [].
  Proof.
    intros ins chunks batches outs m' Hs Ht H.
    destruct (mergek_refines K cmp cmp_opp cmp_trans _ _ _ _ _ _ Hs H) as [R1 R2].
    exact (sched_complete_correct K cmp cmp_opp cmp_trans _ _ _ R1 (R2 eq_refl) Hs Ht).
  Qed.

  (** (6) Duplicate dropping: over a sorted sequence, however it is cut into
      batches, the kept rows are the first rows of the runs of equal keys
      ([firsts]); they are strictly increasing (one row per key), every key is
      represented, and they are rows of the input in their order. *)
  Theorem C09_dedupe_one_per_key : forall bs : list (list row),
    sorted (concat bs) ->
    let out := concat (dedupe_batches cmp None bs) in
    out = firsts K cmp (concat bs) /\
    StronglySorted (fun a b => rcmp cmp a b < 0) out /\
    (forall x, In x (concat bs) -> exists y, In y out /\ rcmp cmp x y = 0) /\
    subseq K out (concat bs).
  Proof. exact (dedupe_one_per_key K cmp cmp_opp cmp_trans). Qed.

  Theorem C09_dedupe_batch_independent : forall bs : list (list row),
    concat (dedupe_batches cmp None bs) = dedupe_spec cmp (concat bs).
  Proof. exact (dedupe_batches_spec K cmp). Qed.

  (** (7) Segments.  [content rg] are the rows of the row group with range
      [rg]; [merged seg] is what the merge of a segment delivers.  When the
      ranges are true bounds, the segments formed by the sweep over the ranges
      sorted by min (the contract of slices.SortFunc is the hypothesis
      [Permutation rs sorted_rs /\ by_min sorted_rs]) are pairwise ordered, and
      concatenating the merged segments is sorted and complete. *)
  Theorem C09_segments_pairwise_ordered : forall rs : list (range K),
    by_min K cmp rs ->
    concat (segments_sorted cmp rs) = rs /\
    ForallOrdPairs (fun s s' => forall a b, In a s -> In b s' -> cmp (r_max a) (r_min b) < 0)
                   (segments_sorted cmp rs).
  Proof. exact (segments_sorted_spec K cmp cmp_opp cmp_trans). Qed.

  Theorem C09_segments_concat_sorted :
    forall (content : range K -> list row) (merged : list (range K) -> list row) rs sorted_rs,
    Permutation rs sorted_rs -> by_min K cmp sorted_rs ->
    (forall rg r, In rg rs -> In r (content rg) ->
       cmp (r_min rg) (key r) <= 0 /\ cmp (key r) (r_max rg) <= 0) ->
    (forall seg, In seg (segments_sorted cmp sorted_rs) ->
       sorted (merged seg) /\ Permutation (merged seg) (flat_map content seg)) ->
    sorted (flat_map merged (segments_sorted cmp sorted_rs)) /\
    Permutation (flat_map merged (segments_sorted cmp sorted_rs)) (flat_map content rs).
  Proof. exact (segments_concat_sorted K cmp cmp_opp cmp_trans). Qed.

  (* the insertion sort that slices.SortFunc runs on at most 12 elements meets the contract *)
  Theorem C09_sort_ranges_contract : forall rs : list (range K),
    Permutation rs (sort_ranges cmp rs) /\ by_min K cmp (sort_ranges cmp rs).
  Proof. exact (sort_ranges_spec K cmp cmp_opp cmp_trans). Qed.

  (** (8) Refinement of an overlapping segment (merge_refine.go).  [ts] are the
      row groups of the segment in the order of the segment: the rows of each,
      cut at the page boundaries of its first sorting column ([t_pages], any
      layout), its bounds minRow / maxRow and whether its page index supports
      the cut lookups.  [col0 k] is the value of the first sorting column of
      the key [k], ordered by [cmp0]; a strict inequality on it is a strict
      inequality of the keys.  When refineSegment returns a plan -- lone
      stretches of at least [thr] rows sliced off at page boundaries found by
      cutAbove / cutBelow, the regions in between merged -- reading the plan
      (a single part as it is, several parts through the stable merge)
      delivers exactly the rows of the stable merge of the whole segment, in
      the same order: same sequence, ties included (on equal keys the row of
      the row group that comes first in the segment goes first). *)
  Theorem C09_refine_plan_equiv :
    forall (V : Type) (col0 : K -> V) (cmp0 : V -> V -> Z),
    (forall a b, cmp0 a b < 0 <-> cmp0 b a > 0) ->
    (forall a b d, cmp0 a b <= 0 -> cmp0 b d <= 0 -> cmp0 a d <= 0) ->
    (forall a b, cmp0 (col0 a) (col0 b) < 0 -> cmp a b < 0) ->
    forall (thr : nat) (ts : list (target K)) (dk : K) (plan : list piece),
    (forall j, (j < length ts)%nat ->
       let t := tgt K ts dk j in
       sorted (t_rows t) /\ t_rows t <> [] /\
       (forall r, In r (t_rows t) -> cmp (t_min t) (key r) <= 0 /\ cmp (key r) (t_max t) <= 0) /\
       (t_cuts t = true -> Forall (fun pg => pg <> []) (t_pages t))) ->
    refine_segment K cmp V col0 cmp0 true thr ts dk = Some plan ->
    refined_rows K cmp ts dk plan = segment_rows cmp ts.
  Proof.
    intros V col0 cmp0 H1 H2 H3 thr ts dk plan Hok.
    exact (refine_plan_equiv K cmp V col0 cmp0 cmp_opp cmp_trans H1 H2 H3 thr ts dk Hok plan).
  Qed.

  (* the reference merge of the statement above is a merge: a complete run of
     the abstract scheduler of (1) *)
  Theorem C09_stable_merge_is_a_run : forall st : list (list row),
    Forall sorted st -> exists st', sched cmp st (smerge cmp st) st' /\ all_empty K st'.
  Proof. exact (smerge_sched K cmp cmp_opp cmp_trans). Qed.

  (** ... and whatever merge procedure reads the regions -- each [out] of
      [outs] is a complete run of the abstract scheduler on the parts of its
      piece, which is what mergedRowReader2 and mergedRowReader deliver by (3)
      and (5) -- the concatenation of what the plan delivers is a complete run
      of the abstract scheduler on the whole segment; so by (1) it is sorted,
      a permutation of the rows of the segment, and keeps every row group's
      rows in their order. *)
  Theorem C09_refine_plan_any_merge :
    forall (V : Type) (col0 : K -> V) (cmp0 : V -> V -> Z),
    (forall a b, cmp0 a b < 0 <-> cmp0 b a > 0) ->
    (forall a b d, cmp0 a b <= 0 -> cmp0 b d <= 0 -> cmp0 a d <= 0) ->
    (forall a b, cmp0 (col0 a) (col0 b) < 0 -> cmp a b < 0) ->
    forall (thr : nat) (ts : list (target K)) (dk : K) (plan : list piece) (outs : list (list row)),
    (forall j, (j < length ts)%nat ->
       let t := tgt K ts dk j in
       sorted (t_rows t) /\ t_rows t <> [] /\
       (forall r, In r (t_rows t) -> cmp (t_min t) (key r) <= 0 /\ cmp (key r) (t_max t) <= 0) /\
       (t_cuts t = true -> Forall (fun pg => pg <> []) (t_pages t))) ->
    refine_segment K cmp V col0 cmp0 true thr ts dk = Some plan ->
    Forall2 (fun pc out => exists st', sched cmp (map (part_rows K ts dk) pc) out st' /\ all_empty K st') plan outs ->
    (exists st', sched cmp (map (@t_rows K) ts) (concat outs) st' /\ all_empty K st') /\
    (tagged K (map (@t_rows K) ts) ->
       sorted (concat outs) /\ Permutation (concat (map (@t_rows K) ts)) (concat outs) /\
       forall i, of_input K i (concat outs) = nth i (map (@t_rows K) ts) []).
  Proof.
    intros V col0 cmp0 H1 H2 H3 thr ts dk plan outs Hok Hplan Hruns.
    destruct (refine_plan_sched K cmp V col0 cmp0 cmp_opp cmp_trans H1 H2 H3 thr ts dk Hok plan outs Hplan Hruns)
      as [st' [Hrun He]].
    split; [exists st'; split; assumption|]. intros Ht.
    exact (sched_complete_correct K cmp cmp_opp cmp_trans _ _ _ Hrun He (ts_rows_sorted K cmp ts dk Hok) Ht).
  Qed.

  (* any two complete runs of the scheduler on the same inputs -- for instance
     what Go's readers deliver for the refined and for the unrefined plan of a
     segment -- carry equal keys at equal positions: they differ only by the
     order of rows with equal keys *)
  Theorem C09_runs_same_keys : forall (st : list (list row)) out1 st1 out2 st2 i a b,
    Forall sorted st -> tagged K st ->
    sched cmp st out1 st1 -> all_empty K st1 -> sched cmp st out2 st2 -> all_empty K st2 ->
    nth_error out1 i = Some a -> nth_error out2 i = Some b -> cmp (key a) (key b) = 0.
  Proof.
    intros st out1 st1 out2 st2 i a b Hs Ht R1 E1 R2 E2 Ha Hb.
    destruct (sched_complete_correct K cmp cmp_opp cmp_trans _ _ _ R1 E1 Hs Ht) as [S1 [P1 _]].
    destruct (sched_complete_correct K cmp cmp_opp cmp_trans _ _ _ R2 E2 Hs Ht) as [S2 [P2 _]].
    exact (sorted_perm_same_keys K cmp cmp_opp cmp_trans out1 out2 i a b S1 S2
             (Permutation_trans (Permutation_sym P1) P2) Ha Hb).
  Qed.

  (** the cut lookups are conservative for every page layout and whatever page
      sort.Search lands on: all rows at or after cutAbove(k) are strictly above
      [k], all rows before cutBelow(k) strictly below *)
  Theorem C09_cut_lookups_conservative :
    forall (V : Type) (col0 : K -> V) (cmp0 : V -> V -> Z),
    (forall a b, cmp0 a b < 0 <-> cmp0 b a > 0) ->
    (forall a b d, cmp0 a b <= 0 -> cmp0 b d <= 0 -> cmp0 a d <= 0) ->
    (forall a b, cmp0 (col0 a) (col0 b) < 0 -> cmp a b < 0) ->
    forall (t : target K) (k : K), sorted (t_rows t) -> Forall (fun pg => pg <> []) (t_pages t) ->
    (forall r, In r (skipn (cut_above_gen K V col0 cmp0 true t k) (t_rows t)) -> cmp k (key r) < 0) /\
    (forall r, In r (firstn (cut_below K V col0 cmp0 t k) (t_rows t)) -> cmp (key r) k < 0).
  Proof.
    intros V col0 cmp0 H1 H2 H3 t k Hs Hp. split; intros r.
    - exact (cut_above_safe K cmp V col0 cmp0 cmp_opp cmp_trans H1 H2 H3 t Hs Hp k r).
    - exact (cut_below_safe K cmp V col0 cmp0 cmp_opp cmp_trans H1 H2 H3 t Hs Hp k r).
  Qed.

  (** (9) Progress.  The sources honour the RowReader contract (a call with
      room returns a row or io.EOF: [buf_read]); then every ReadRows call with
      room on a merged reader returns at least one row or io.EOF -- for
      mergedRowReader2 in every state, for mergedRowReader after any history
      of calls on sorted inputs -- and with more calls than rows, each with
      room, io.EOF has been reported: the merge terminates. *)
  Theorem C09_merge2_progress : forall (m : m2 K) n out eof m',
    (1 <= n)%nat -> read_rows2 K cmp m n = (out, eof, m') -> out <> [] \/ eof = true.
  Proof. exact (read_rows2_progress K cmp). Qed.

  Theorem C09_merge2_terminates : forall (in0 in1 : list row) ch0 ch1 batches outs eof m',
    sorted in0 -> sorted in1 -> Forall (fun n => (1 <= n)%nat) batches ->
    (length in0 + length in1 < length batches)%nat ->
    merge2 cmp in0 in1 ch0 ch1 batches = (outs, eof, m') -> eof = true.
  Proof. exact (merge2_terminates K cmp cmp_opp cmp_trans). Qed.

  Theorem C09_mergeK_progress : forall (ins : list (list row)) chunks history outs eof m' n out e m'',
    Forall sorted ins -> mergek cmp ins chunks history = (outs, eof, m') ->
    (1 <= n)%nat -> read_rowsk K cmp m' n = (out, e, m'') -> out <> [] \/ e = true.
  Proof. exact (mergek_progress K cmp cmp_opp cmp_trans). Qed.

  Theorem C09_mergeK_terminates : forall (ins : list (list row)) chunks batches outs eof m',
    Forall sorted ins -> Forall (fun n => (1 <= n)%nat) batches ->
    (length (concat ins) < length batches)%nat ->
    mergek cmp ins chunks batches = (outs, eof, m') -> eof = true.
  Proof. exact (mergek_terminates K cmp cmp_opp cmp_trans). Qed.
End C09.

Print Assumptions C09_merge_abstract_correct.
Print Assumptions C09_merge_abstract_prefix.
Print Assumptions C09_merge_abstract_Sorted.
Print Assumptions C09_runLength_spec.
Print Assumptions C09_merge2_refines.
Print Assumptions C09_merge2_correct.
Print Assumptions C09_merge2_ties_input0_first.
Print Assumptions C09_loser_tree_initial.
Print Assumptions C09_loser_tree_replay.
Print Assumptions C09_loser_tree_winner_minimal.
Print Assumptions C09_loser_tree_runner_up_on_path.
Print Assumptions C09_loser_tree.
Print Assumptions C09_loser_tree_run_bound.
Print Assumptions C09_mergeK_refines.
Print Assumptions C09_mergeK_correct.
Print Assumptions C09_dedupe_one_per_key.
Print Assumptions C09_dedupe_batch_independent.
Print Assumptions C09_segments_pairwise_ordered.
Print Assumptions C09_segments_concat_sorted.
Print Assumptions C09_sort_ranges_contract.
Print Assumptions C09_refine_plan_equiv.
Print Assumptions C09_stable_merge_is_a_run.
Print Assumptions C09_refine_plan_any_merge.
Print Assumptions C09_runs_same_keys.
Print Assumptions C09_cut_lookups_conservative.
Print Assumptions C09_merge2_progress.
Print Assumptions C09_merge2_terminates.
Print Assumptions C09_mergeK_progress.
Print Assumptions C09_mergeK_terminates.

(** The comparator the library builds (compareRowsFuncOfColumnValues): tuples
    of optional integers, each column ascending or descending with nulls first
    or last, is a total preorder; so the theorems apply to it. *)
Theorem C09_comparator_total_preorder : forall cfg,
  (forall a b, cmpL cfg a b < 0 <-> cmpL cfg b a > 0) /\
  (forall a b d, cmpL cfg a b <= 0 -> cmpL cfg b d <= 0 -> cmpL cfg a d <= 0).
Proof. intros cfg. split; [exact (cmpL_opp cfg)|exact (cmpL_trans cfg)]. Qed.

Theorem C09_mergeK_correct_keys : forall cfg (ins : list (list keyL)) chunks batches outs m',
  Forall (sorted keyL (cmpL cfg)) (tag_all ins) ->
  tagged keyL (tag_all ins) ->
  mergek (cmpL cfg) (tag_all ins) chunks batches = (outs, true, m') ->
  sorted keyL (cmpL cfg) (concat outs) /\ Permutation (concat (tag_all ins)) (concat outs) /\
  forall i, of_input keyL i (concat outs) = nth i (tag_all ins) [].
Proof.
  intros cfg ins. exact (C09_mergeK_correct keyL (cmpL cfg) (cmpL_opp cfg) (cmpL_trans cfg) (tag_all ins)).
Qed.

Print Assumptions C09_comparator_total_preorder.
Print Assumptions C09_mergeK_correct_keys.

(** Non-vacuity: concrete sorted, tagged inputs with duplicate keys within and
    across inputs and a null key; the readers run to io.EOF on them. *)
Definition ex_cfg1 : list colcfg := [(false, false)].
Definition ex_ins : list (list keyL) :=
  [[[Some 1]; [Some 5]; [Some 5]; [None]]; [[Some 2]; [Some 5]]; [[Some 0]; [Some 5]; [Some 9]]].

Example C09_ex_inputs_sorted : Forall (sorted keyL (cmpL ex_cfg1)) (tag_all ex_ins).
Proof.
  unfold tag_all, ex_ins, tag; cbn [tag_all_from].
  constructor; [|constructor; [|constructor; [|constructor]]];
    apply keys_sorted_sorted; apply sortedb_Sorted; reflexivity.
Qed.

Example C09_ex_inputs_tagged : tagged keyL (tag_all ex_ins).
Proof. exact (tag_all_tagged ex_ins). Qed.

Example C09_ex_mergek_runs_to_eof :
  c09_mergek ex_cfg1 [[2%nat]; []; [1%nat; 1%nat]] [2%nat; 3%nat; 2%nat; 64%nat; 1%nat; 1%nat; 1%nat] ex_ins =
  ([[(2, 0)]; [(0, 0); (1, 0); (1, 1)]; [(0, 1)]; [(0, 2); (2, 1)]; [(2, 2)]; [(0, 3)]], true)%nat.
Proof. vm_compute. reflexivity. Qed.

Example C09_ex_merge2_runs_to_eof :
  c09_merge2 ex_cfg1 [] [1%nat] [3%nat; 3%nat; 3%nat; 3%nat] (nth 0 ex_ins []) (nth 1 ex_ins []) =
  ([[(0, 0); (1, 0)]; [(0, 1); (1, 1)]; [(0, 2); (0, 3)]], true)%nat.
Proof. vm_compute. reflexivity. Qed.

(* a run of the abstract scheduler exists on these inputs (the reference merge) *)
Example C09_ex_scheduler_run :
  exists out st', sched (cmpL ex_cfg1) (tag_all ex_ins) out st' /\ all_empty keyL st' /\ length out = 9%nat.
Proof.
  destruct (ref_merge_sched keyL (cmpL ex_cfg1) (cmpL_opp _) (cmpL_trans _) 9 (tag_all ex_ins)) as [st' [H1 H2]];
    [cbn; lia|].
  exists (ref_merge keyL (cmpL ex_cfg1) 9 (tag_all ex_ins)), st'. repeat split; auto.
Qed.

Example C09_ex_dedupe :
  c09_dedupe ex_cfg1 [[[Some 1]; [Some 1]; [Some 2]]; [[Some 2]; [Some 2]]; [[Some 2]; [Some 3]; [None]; [None]]] =
  [[0; 2]; [6; 7]]%nat.
Proof. vm_compute. reflexivity. Qed.

(* ranges that are true bounds: three row groups, two of them touching *)
Example C09_ex_segments :
  c09_segments ex_cfg1 0 [[[Some 1]; [Some 3]]; [[Some 10]; [Some 12]]; [[Some 3]; [Some 4]]; []] =
  [[0; 2]; [1]]%nat.
Proof. vm_compute. reflexivity. Qed.

(** The bounds of the tree before commit 77fc8c6 (first / last non-null page
    only) refute the segment theorem's conclusion on the faithful model of
    that code: the sorted row groups [1,2,null] and [3,4,null] (ascending,
    nulls last) get the "bounds" [1,2] and [3,4] (the null row is above its
    "max": they are not bounds), fall into two segments, and the plan
    concatenates them: 1,2,null,3,4,null is not sorted.  The current code
    reports the bounds as unavailable and merges. *)
Theorem C09_pinned_segments_refuted :
  exists cfg (ins : list (list keyL)),
    Forall (fun l => Sorted (fun a b => cmpL cfg a b <= 0) l) ins /\
    plan_segments true cfg 0 ins = [[0%nat]; [1%nat]] /\
    ~ Sorted (fun a b => cmpL cfg a b <= 0) (map (@key keyL) (plan_rows true cfg 0 64 false ins)) /\
    (exists lo hi, row_group_bounds true cfg 0 (nth 0 ins []) = Some (lo, hi) /\ cmpL cfg [None] hi > 0) /\
    plan_segments false cfg 0 ins = [[0%nat; 1%nat]] /\
    Sorted (fun a b => cmpL cfg a b <= 0) (map (@key keyL) (plan_rows false cfg 0 64 false ins)).
Proof.
  exists ex_cfg, ex_inputs. split; [exact ex_inputs_sorted|].
  split; [exact (proj1 ex_pinned_plan)|]. split; [exact ex_pinned_not_sorted|].
  split; [exists [Some 1], [Some 2]; exact ex_pinned_bounds_wrong|].
  split; [exact (proj1 (proj2 ex_current_plan))|exact (proj2 (proj2 ex_current_plan))].
Qed.

Print Assumptions C09_pinned_segments_refuted.

(** ** Inputs that are themselves merged row groups (Merge/Nested.v)

    A row group whose rows are computed -- the output of an earlier
    MergeRowGroups, a deduplicated row group, a MultiRowGroup -- exposes as
    ColumnChunks() the column chunks of its own inputs one after the other:
    their first and last pages do not bound its first and last rows.  The
    current code (merge.go rowsFollowColumnChunks) reports the bounds of such
    an input as unavailable: whenever one of the non-empty inputs is of that
    kind the plan is a single segment holding every input in argument order,
    merged whole, to which (3) and (5) apply. *)
Theorem C09_computed_input_single_segment : forall (cfg : list colcfg) (xs : list ninput) (x : ninput),
  In x xs -> n_computed x = true -> n_rows x <> [] ->
  nested_segments false cfg xs = [List.seq 0 (length xs)].
Proof. exact nested_one_segment. Qed.

Theorem C09_computed_input_not_refined : forall cfg ins layouts cuts computed,
  some_computed ins computed = true ->
  (length (c09_refine_nested cfg ins layouts cuts computed) <= 1)%nat.
Proof. exact refine_nested_one_piece. Qed.

(** The tree before commit 4f9d711 read the bounds of such an input off the
    pages of its concatenated column chunks.  On the faithful model of that
    code: A = 0..9 and B = 4..5 are merged (rows 0,1,2,3,4,4,5,5,6,7,8,9, the
    column chunks are those of A then B), the result is merged with C = 7..8.
    The pages give the merged input the "bounds" 0..5, C is taken for disjoint
    and the plan concatenates: ...,9,7,8 is not sorted.  The current code
    builds one segment and merges. *)
Theorem C09_pinned_nested_refuted :
  exists cfg (a b c : list keyL),
    Forall (fun l => Sorted (fun x y => cmpL cfg x y <= 0) l) [a; b; c] /\
    let ab := merged_input cfg 64 [a; b] in
    let xs := [ab; (c, None)] in
    Forall (fun x => Sorted (fun x y => cmpL cfg x y <= 0) (n_rows x)) xs /\
    n_computed ab = true /\
    nested_segments true cfg xs = [[0%nat]; [1%nat]] /\
    ~ Sorted (fun x y => cmpL cfg x y <= 0) (map (@key keyL) (nested_rows true cfg 64 xs)) /\
    nested_segments false cfg xs = [[0%nat; 1%nat]] /\
    Sorted (fun x y => cmpL cfg x y <= 0) (map (@key keyL) (nested_rows false cfg 64 xs)).
Proof.
  exists exn_cfg, exn_A, exn_B, exn_C. split; [exact exn_leaves_sorted|]. cbv zeta.
  split; [exact exn_inputs_sorted|]. split; [exact (proj2 exn_AB_rows)|].
  split; [exact (proj1 exn_pinned_plan)|]. split; [exact exn_pinned_not_sorted|].
  split; [exact (proj1 exn_current_plan)|exact (proj1 (proj2 exn_current_plan))].
Qed.

Print Assumptions C09_computed_input_single_segment.
Print Assumptions C09_computed_input_not_refined.
Print Assumptions C09_pinned_nested_refuted.

(** ** Refinement: non-vacuity and the ">=" variant of cutAbove

    Two row groups sorted on two ascending integer columns, pages of two
    rows, threshold 2.  A covers first-column values 1..5 and ends with
    (5,1), (5,9); B starts with four rows of first-column value 5 (two pages
    whose earliest value is 5 = the first column of A's maxRow) and goes on
    to 9.  The plan: A's rows [0,4) as they are, then the merge of A's rows
    [4,6) with B's rows [0,4), then B's rows [4,8) as they are. *)
Definition ex_rcfg : list colcfg := [(false, false); (false, false)].
Definition ex_rA : list keyL :=
  [[Some 1; Some 0]; [Some 2; Some 0]; [Some 3; Some 0]; [Some 4; Some 0]; [Some 5; Some 1]; [Some 5; Some 9]].
Definition ex_rB : list keyL :=
  [[Some 5; Some 0]; [Some 5; Some 2]; [Some 5; Some 3]; [Some 5; Some 4];
   [Some 6; Some 0]; [Some 7; Some 0]; [Some 8; Some 0]; [Some 9; Some 0]].
Definition ex_rts : list (target keyL) :=
  [mkTarget (split_pages [2; 2; 2]%nat (tag 0 ex_rA)) [Some 1; Some 0] [Some 5; Some 9] true;
   mkTarget (split_pages [2; 2; 2; 2]%nat (tag 1 ex_rB)) [Some 5; Some 0] [Some 9; Some 0] true].

Example C09_ex_refine_plan :
  refine_segment keyL (cmpL ex_rcfg) (option Z) col0L (cmp0L ex_rcfg) true 2 ex_rts [] =
  Some [[mkPart 0 0 4]; [mkPart 0 4 2; mkPart 1 0 4]; [mkPart 1 4 4]]%nat.
Proof. vm_compute. reflexivity. Qed.

(* the hypotheses of C09_refine_plan_equiv hold of this segment *)
Example C09_ex_refine_hyps : forall j, (j < length ex_rts)%nat ->
  let t := tgt keyL ex_rts [] j in
  sorted keyL (cmpL ex_rcfg) (t_rows t) /\ t_rows t <> [] /\
  (forall r, In r (t_rows t) -> cmpL ex_rcfg (t_min t) (key r) <= 0 /\ cmpL ex_rcfg (key r) (t_max t) <= 0) /\
  (t_cuts t = true -> Forall (fun pg => pg <> []) (t_pages t)).
Proof.
  intros [|[|j]] Hj; [| |cbn in Hj; lia]; cbn zeta;
    [change (t_rows (tgt keyL ex_rts [] 0)) with (tag 0 ex_rA)|change (t_rows (tgt keyL ex_rts [] 1)) with (tag 1 ex_rB)].
  all: split; [apply keys_sorted_sorted, sortedb_Sorted; reflexivity|]; split; [discriminate|]; split.
  1, 3: intros r Hr; cbn in Hr; repeat (destruct Hr as [<-|Hr]; [vm_compute; split; discriminate|]); contradiction.
  all: intros _; cbn; repeat (constructor; [discriminate|]); constructor.
Qed.

(* so the plan and the merge of the whole segment deliver the same rows; they are: *)
Example C09_ex_refine_rows :
  refined_rows keyL (cmpL ex_rcfg) ex_rts []
    [[mkPart 0 0 4]; [mkPart 0 4 2; mkPart 1 0 4]; [mkPart 1 4 4]]%nat = segment_rows (cmpL ex_rcfg) ex_rts /\
  ids (segment_rows (cmpL ex_rcfg) ex_rts) =
    [(0, 0); (0, 1); (0, 2); (0, 3); (1, 0); (0, 4); (1, 1); (1, 2); (1, 3); (0, 5); (1, 4); (1, 5); (1, 6); (1, 7)]%nat.
Proof.
  split; [|vm_compute; reflexivity].
  exact (refine_plan_equiv_keys (false, false) [(false, false)] 2 ex_rts _ C09_ex_refine_hyps C09_ex_refine_plan).
Qed.

(** With "orderCompare(earliest(p), kv) >= 0" in cutAbove (the search then
    stops at the first page whose earliest value is at or above the key: a
    page that starts with the boundary value lands above the cut) the same
    segment, which satisfies every hypothesis of C09_refine_plan_equiv, gets
    a plan that slices B off whole behind A's remainder: (5,9) of A is
    delivered before (5,0) of B.  The rows of that plan are not sorted and
    differ from the merge of the segment. *)
Theorem C09_cutabove_ge_refuted :
  exists (ts : list (target keyL)) (plan : list piece),
    (forall j, (j < length ts)%nat ->
       let t := tgt keyL ts [] j in
       sorted keyL (cmpL ex_rcfg) (t_rows t) /\ t_rows t <> [] /\
       (forall r, In r (t_rows t) -> cmpL ex_rcfg (t_min t) (key r) <= 0 /\ cmpL ex_rcfg (key r) (t_max t) <= 0) /\
       (t_cuts t = true -> Forall (fun pg => pg <> []) (t_pages t))) /\
    refine_segment keyL (cmpL ex_rcfg) (option Z) col0L (cmp0L ex_rcfg) false 2 ts [] = Some plan /\
    refined_rows keyL (cmpL ex_rcfg) ts [] plan <> segment_rows (cmpL ex_rcfg) ts /\
    ~ Sorted (fun a b => cmpL ex_rcfg a b <= 0) (map (@key keyL) (refined_rows keyL (cmpL ex_rcfg) ts [] plan)).
Proof.
  exists ex_rts, [[mkPart 0 0 4]; [mkPart 0 4 2]; [mkPart 1 0 8]]%nat.
  split; [exact C09_ex_refine_hyps|]. split; [vm_compute; reflexivity|]. split.
  - vm_compute. discriminate.
  - rewrite <- sortedb_Sorted. vm_compute. discriminate.
Qed.

Print Assumptions C09_ex_refine_rows.
Print Assumptions C09_cutabove_ge_refuted.
