(** C10 — sorting buffers and the sorting writer output a correctly ordered
    permutation.  The theorems of Sort/*.v, with their instances for the
    values of the correspondence runs.

    The model (Sort/Model.v) mirrors optionalColumnBuffer (row -> value map,
    definition levels, Less through nullsGoFirst/nullsGoLast, Swap, Page with
    the cyclic reorder and the renumbering), reversedColumnBuffer,
    Buffer.configure / Less / Swap / WriteRows and the row comparator of
    compare.go.  Columns are required or optional (any max definition level);
    a repeated column (Sort/Repeated.v) and the SortingWriter (Sort/Writer.v)
    have their own sections below. *)
From Coq Require Import List ZArith NArith Bool Arith Lia Permutation Sorting.Sorted.
From PQ Require Import Sort.Model Sort.ListLemmas Sort.ColProofs
     Sort.TypedProofs Sort.CmpProofs Sort.BufProofs Sort.ViewProofs Sort.OrderProofs Sort.Instances
     Sort.Repeated Sort.RepeatedProofs Sort.Kinds.
From PQ Require Merge.Model Merge.AbstractProofs.
From PQ Require Import Sort.Writer Sort.WriterProofs Sort.WriterInstance.
Import ListNotations.

Section C10.
  (* any value type; [lt] is the Less of the base column buffer on two values,
     [cmp] the Compare of the column type: a total preorder (equivalently its
     strict part is a strict weak order), and Less is "Compare < 0" *)
  Variable V : Type.
  Variable lt : V -> V -> bool.
  Variable cmp : V -> V -> Z.
  Hypothesis lt_cmp : forall a b, lt a b = true <-> (cmp a b < 0)%Z.
  Hypothesis cmp_opp : forall a b, (cmp a b < 0 <-> cmp b a > 0)%Z.
  Hypothesis cmp_trans : forall a b d, (cmp a b <= 0 -> cmp b d <= 0 -> cmp a d <= 0)%Z.

  (** For EVERY history of operations (Write batch through WriteValues or
      through the typed run path | Swap i j | Page | Page of ONE column k, which
      is what the column-level API does: ColumnBuffers()[k].Page(), Pages(),
      ReadValuesAt with a pending reorder) on a buffer of required and
      optional columns: the logical rows (every column read through its row ->
      value map) are exactly what the same operations do to a plain list of
      whole rows — Write appends, Swap exchanges two rows, Page (of all columns
      or of one) changes nothing — and so are the rows a reader of the pages of
      the columns sees (every column read through its own Page, whether or not
      its values had been moved into row order before, which is also what the
      Page of a clone of the column holds: Clone copies every field of the
      column); they are a permutation of the rows written. *)
  Theorem C10_swaps_preserve_rows : forall schema sorting ops,
    schema <> [] -> Forall (op_ok V schema) ops ->
    buffer_rows V (reach V schema sorting ops) = spec_run V schema ops /\
    buffer_page_rows V (reach V schema sorting ops) = spec_run V schema ops /\
    Permutation (spec_run V schema ops) (written V schema ops).
  Proof. exact (swaps_preserve_rows V). Qed.

  (** Swap i j exchanges exactly rows i and j, each intact across all columns. *)
  Theorem C10_swap_exchanges_rows : forall schema sorting ops i j,
    schema <> [] -> Forall (op_ok V schema) ops ->
    buffer_rows V (reach V schema sorting (ops ++ [OSwap i j])) =
    swapl (buffer_rows V (reach V schema sorting ops)) i j.
  Proof. exact (swap_exchanges_rows V). Qed.

  Theorem C10_swapl_exchanges_exactly : forall (l : list (row V)) i j k,
    i < length l -> j < length l ->
    nth_error (swapl l i j) k = nth_error l (if Nat.eqb k i then j else if Nat.eqb k j then i else k).
  Proof. exact (@nth_error_swapl (row V)). Qed.

  (** ColumnBuffers()[k].ReadValuesAt(values[:n], off) after EVERY such history
      delivers the cells [off, off+n) of column k of the rows of the
      specification (nulls at the positions of the null rows, fewer than n
      cells at the end of the column), and leaves column k as Page leaves it. *)
  Theorem C10_read_values_at_is_window_of_rows : forall schema sorting ops k off n,
    Forall (op_ok V schema) ops -> k < length schema ->
    buffer_read_values_at V (reach V schema sorting ops) k off n
      = firstn n (skipn off (map (fun r => nth k r (dcell V)) (spec_run V schema ops))) /\
    fst (col_read_values_at V (nth k (columns (reach V schema sorting ops)) (dcol V)) off n)
      = col_page V (nth k (columns (reach V schema sorting ops)) (dcol V)).
  Proof. exact (read_values_at_rows V). Qed.

  (** After Page, in every optional column the base values are in row order:
      the non-null rows are numbered 0..k-1 in place, the column is no longer
      marked reordered, the representation invariant holds (so later writes and
      sorts stay consistent), and the page read sequentially is the logical
      content, which is the column of the rows of the specification. *)
  Theorem C10_page_puts_base_in_row_order : forall schema sorting ops k o,
    Forall (op_ok V schema) ops -> k < length schema ->
    nth k (columns (reach V schema sorting (ops ++ [OPage]))) (dcol V) = COpt o ->
    nn (rows o) = seq 0 (length (base o)) /\
    reordered o = false /\
    ocol_ok V o /\
    page_values V (maxdef o) (deflevels o) (base o) = ocol_cells V o /\
    ocol_cells V o = map (fun r => nth k r (dcell V)) (spec_run V schema ops).
  Proof. exact (page_in_row_order V). Qed.

  (** The typed write path (runs of rows sharing a level, row indexes of a
      non-null run filled by broadcastRangeInt32) leaves the column in the same
      state as WriteValues, whatever the run lengths. *)
  Theorem C10_typed_write_is_write_values : forall (c : ocol V) vs,
    write_typed V c vs = write_values V c vs.
  Proof. exact (write_typed_eq V). Qed.

  (** The decision rule of the comparator of one sorting column, outright. *)
  Theorem C10_comparator_rule : forall (desc nf : bool) (x y : V),
    cmp_col V cmp true desc nf None None = 0%Z /\
    cmp_col V cmp true desc nf None (Some y) = (if nf then -1 else 1)%Z /\
    cmp_col V cmp true desc nf (Some x) None = (if nf then 1 else -1)%Z /\
    cmp_col V cmp true desc nf (Some x) (Some y) = (if desc then - cmp x y else cmp x y)%Z /\
    cmp_col V cmp false desc nf (Some x) (Some y) = (if desc then - cmp x y else cmp x y)%Z.
  Proof. intros [|] [|] x y; repeat split; reflexivity. Qed.

  (** For every direction x nulls first/last x nullable combination: the Less
      of the column as Buffer.configure sets it up (null ordering [xorb nf desc],
      wrapped in reversedColumnBuffer when descending) is the comparator. *)
  Theorem C10_column_less_is_comparator : forall (cols : list (col V)) k md desc nf i j,
    col_ok V md (xorb nf desc) (nth k cols (dcol V)) ->
    i < col_len V (nth k cols (dcol V)) -> j < col_len V (nth k cols (dcol V)) ->
    sorted_less V lt cols (k, desc) i j =
    (cmp_col V cmp (negb (N.eqb md 0)) desc nf
             (fst (nth i (col_cells V (nth k cols (dcol V))) (dcell V)))
             (fst (nth j (col_cells V (nth k cols (dcol V))) (dcell V))) <? 0)%Z.
  Proof. exact (sorted_less_spec V lt cmp lt_cmp cmp_opp). Qed.

  (** Buffer.Less i j  <->  comparator (row i) (row j) < 0, after any history. *)
  Theorem C10_less_is_comparator : forall schema sorting ops i j,
    schema <> [] -> sorting_ok schema sorting -> Forall (op_ok V schema) ops ->
    let b := reach V schema sorting ops in
    i < buffer_len V b -> j < buffer_len V b ->
    (buffer_less V lt b i j = true <->
     (compare_rows V cmp schema sorting (buffer_row V b i) (buffer_row V b j) < 0)%Z).
  Proof. exact (less_is_comparator V lt cmp lt_cmp cmp_opp). Qed.

  (** Buffer.Less is a strict weak order on the rows of the buffer:
      irreflexive, transitive, incomparability transitive. *)
  Theorem C10_less_strict_weak_order : forall schema sorting ops,
    schema <> [] -> sorting_ok schema sorting -> Forall (op_ok V schema) ops ->
    let b := reach V schema sorting ops in less_swo V lt b (buffer_len V b).
  Proof. exact (less_strict_weak_order V lt cmp lt_cmp cmp_opp cmp_trans). Qed.

  (** Whatever exchanges a sort routine performs after any history: if the
      result has no adjacent inversion for Less, the rows are a permutation of
      the rows written and every pair i <= j is ordered by the comparator. *)
  Theorem C10_sorted_after_swaps : forall schema sorting ops l,
    schema <> [] -> sorting_ok schema sorting -> Forall (op_ok V schema) ops ->
    let b' := reach V schema sorting (ops ++ swap_ops V l) in
    sorted_by_less V lt b' (buffer_len V b') ->
    Permutation (buffer_rows V b') (buffer_rows V (reach V schema sorting ops)) /\
    Permutation (buffer_rows V b') (written V schema ops) /\
    forall i j, i <= j -> j < length (buffer_rows V b') ->
      (compare_rows V cmp schema sorting (nth i (buffer_rows V b') []) (nth j (buffer_rows V b') []) <= 0)%Z.
  Proof. exact (sorted_after_swaps V lt cmp lt_cmp cmp_opp cmp_trans). Qed.

  Section SortContract.
    (* sort.Sort only calls Len, Less and Swap; its contract: when Less is a
       strict weak order on the n elements, the exchanges it performs leave no
       adjacent inversion *)
    Variable sort_swaps : buffer V -> list (nat * nat).
    Hypothesis sort_sorts : forall b n, n = buffer_len V b -> less_swo V lt b n ->
      sorted_by_less V lt (run_ops V b (swap_ops V (sort_swaps b))) n.

    Theorem C10_sorted_after_sort : forall schema sorting ops,
      schema <> [] -> sorting_ok schema sorting -> Forall (op_ok V schema) ops ->
      let b := reach V schema sorting ops in
      let b' := run_ops V b (swap_ops V (sort_swaps b)) in
      Permutation (buffer_rows V b') (buffer_rows V b) /\
      Permutation (buffer_rows V b') (written V schema ops) /\
      forall i j, i <= j -> j < length (buffer_rows V b') ->
        (compare_rows V cmp schema sorting (nth i (buffer_rows V b') []) (nth j (buffer_rows V b') []) <= 0)%Z.
    Proof.
      exact (fun schema sorting ops =>
               sorted_after_sort V lt cmp lt_cmp cmp_opp cmp_trans sort_swaps schema sorting ops sort_sorts).
    Qed.
  End SortContract.
End C10.

Print Assumptions C10_swaps_preserve_rows.
Print Assumptions C10_swap_exchanges_rows.
Print Assumptions C10_swapl_exchanges_exactly.
Print Assumptions C10_read_values_at_is_window_of_rows.
Print Assumptions C10_page_puts_base_in_row_order.
Print Assumptions C10_typed_write_is_write_values.
Print Assumptions C10_comparator_rule.
Print Assumptions C10_column_less_is_comparator.
Print Assumptions C10_less_is_comparator.
Print Assumptions C10_less_strict_weak_order.
Print Assumptions C10_sorted_after_swaps.
Print Assumptions C10_sorted_after_sort.

(** The instantiation the library uses in the correspondence runs: INT64 and
    BYTE_ARRAY values (the hypotheses hold of them). *)
Theorem C10_sval_less_is_comparator : forall schema sorting ops i j,
  schema <> [] -> sorting_ok schema sorting -> Forall (op_ok sval schema) ops ->
  let b := reach sval schema sorting ops in
  i < buffer_len sval b -> j < buffer_len sval b ->
  (buffer_less sval lt_sval b i j = true <->
   (compare_rows sval cmp_sval schema sorting (buffer_row sval b i) (buffer_row sval b j) < 0)%Z).
Proof. exact (C10_less_is_comparator sval lt_sval cmp_sval lt_sval_cmp cmp_sval_opp). Qed.

Theorem C10_sval_sorted_after_swaps : forall schema sorting ops l,
  schema <> [] -> sorting_ok schema sorting -> Forall (op_ok sval schema) ops ->
  let b' := reach sval schema sorting (ops ++ swap_ops sval l) in
  sorted_by_less sval lt_sval b' (buffer_len sval b') ->
  Permutation (buffer_rows sval b') (buffer_rows sval (reach sval schema sorting ops)) /\
  Permutation (buffer_rows sval b') (written sval schema ops) /\
  forall i j, i <= j -> j < length (buffer_rows sval b') ->
    (compare_rows sval cmp_sval schema sorting (nth i (buffer_rows sval b') []) (nth j (buffer_rows sval b') []) <= 0)%Z.
Proof. exact (C10_sorted_after_swaps sval lt_sval cmp_sval lt_sval_cmp cmp_sval_opp cmp_sval_trans). Qed.

Print Assumptions C10_sval_less_is_comparator.
Print Assumptions C10_sval_sorted_after_swaps.

(** * The kinds of the sorting columns

    The statements above hold of every kind of sorting column whose Compare
    is the comparison of the integers its values denote (Sort/Kinds.v: BOOLEAN,
    the signed and unsigned integers of every width, DATE, TIME, TIMESTAMP,
    DECIMAL on integers and on two's complement byte strings, FLOAT and
    DOUBLE without NaN): for ANY [key] into the integers, "Compare = the sign
    of key a - key b" and "Less = key a < key b" meet the hypotheses.  (The
    byte string kinds are the [VB] values of the instance above.)  In the
    correspondence runs a column of such a kind holds the images of the
    integers the oracle's model compares under a strictly increasing map (so
    [key (emb z) ] orders as [z]); that the Go code compares each kind as its
    key says is decided there by the harness's own comparator. *)
Theorem C10_keyed_less_is_comparator : forall (V : Type) (key : V -> Z) schema sorting ops i j,
  schema <> [] -> sorting_ok schema sorting -> Forall (op_ok V schema) ops ->
  let b := reach V schema sorting ops in
  i < buffer_len V b -> j < buffer_len V b ->
  (buffer_less V (lt_key V key) b i j = true <->
   (compare_rows V (cmp_key V key) schema sorting (buffer_row V b i) (buffer_row V b j) < 0)%Z).
Proof.
  exact (fun V key => C10_less_is_comparator V (lt_key V key) (cmp_key V key) (lt_key_cmp V key) (cmp_key_opp V key)).
Qed.

Theorem C10_keyed_less_strict_weak_order : forall (V : Type) (key : V -> Z) schema sorting ops,
  schema <> [] -> sorting_ok schema sorting -> Forall (op_ok V schema) ops ->
  let b := reach V schema sorting ops in less_swo V (lt_key V key) b (buffer_len V b).
Proof.
  exact (fun V key => C10_less_strict_weak_order V (lt_key V key) (cmp_key V key)
                        (lt_key_cmp V key) (cmp_key_opp V key) (cmp_key_trans V key)).
Qed.

Theorem C10_keyed_sorted_after_swaps : forall (V : Type) (key : V -> Z) schema sorting ops l,
  schema <> [] -> sorting_ok schema sorting -> Forall (op_ok V schema) ops ->
  let b' := reach V schema sorting (ops ++ swap_ops V l) in
  sorted_by_less V (lt_key V key) b' (buffer_len V b') ->
  Permutation (buffer_rows V b') (buffer_rows V (reach V schema sorting ops)) /\
  Permutation (buffer_rows V b') (written V schema ops) /\
  forall i j, i <= j -> j < length (buffer_rows V b') ->
    (compare_rows V (cmp_key V key) schema sorting (nth i (buffer_rows V b') []) (nth j (buffer_rows V b') []) <= 0)%Z.
Proof.
  exact (fun V key => C10_sorted_after_swaps V (lt_key V key) (cmp_key V key)
                        (lt_key_cmp V key) (cmp_key_opp V key) (cmp_key_trans V key)).
Qed.

Print Assumptions C10_keyed_less_is_comparator.
Print Assumptions C10_keyed_less_strict_weak_order.
Print Assumptions C10_keyed_sorted_after_swaps.

(** The keys order values as the parquet format says where a comparison of
    the raw bits would not: INT(8|16|32, signed) keys (32 bits each) read as unsigned
    numbers put -1 above 149 (the keys say below); 2^63 as
    UINT(64) is above 1; -0.0 = +0.0 and -1.5 < 1.5 as DOUBLE; the two's
    complement bytes ff fe (-2) are below 00 01 (1) as DECIMAL. *)
Example C10_ex_kind_keys :
  (cmp_key N (key_signed 32) 4294967295%N 149%N < 0 /\ cmp_key N (key_unsigned 32) 4294967295%N 149%N > 0)%Z /\
  (cmp_key N (key_unsigned 64) 9223372036854775808%N 1%N > 0 /\ cmp_key N (key_signed 64) 9223372036854775808%N 1%N < 0)%Z /\
  (cmp_key N (key_float 64) 9223372036854775808%N 0%N = 0 /\
   cmp_key N (key_float 64) 13832806255468478464%N 4609434218613702656%N < 0)%Z /\
  (cmp_key (list N) key_decimal [255; 254]%N [0; 1]%N < 0 /\ Search.Model.cmp_bytes [255; 254]%N [0; 1]%N > 0)%Z /\
  (cmp_key bool key_bool false true < 0)%Z.
Proof. vm_compute. repeat split; reflexivity. Qed.

(** * Repeated columns (column_buffer_repeated.go)

    The model is Sort/Repeated.v (writeRow / WriteValues, Less with the
    descending flag, Swap, Page).  A value is (repetition level, definition
    level, option value); a batch handed to WriteValues is well formed
    ([batch_ok]) when every value is present exactly at the maximum definition
    level and the batch starts a row (its first value has repetition level 0:
    Buffer.WriteRows hands the column the values of whole rows).  A row of the
    column is the sequence of values from one repetition level 0 up to the
    next. *)
Section C10_repeated.
  Variable V : Type.
  Variable lt : V -> V -> bool.
  Variable cmp : V -> V -> Z.
  Hypothesis lt_cmp : forall a b, lt a b = true <-> (cmp a b < 0)%Z.
  Hypothesis cmp_opp : forall a b, (cmp a b < 0 <-> cmp b a > 0)%Z.
  Hypothesis cmp_trans : forall a b d, (cmp a b <= 0 -> cmp b d <= 0 -> cmp a d <= 0)%Z.

  (** WriteValues (the loop that cuts the values into rows and writeRow) appends
      the levels, the non-null values and one row entry (offset into the
      levels, offset into the base column) for each value of repetition level
      0 -- for every batch, well formed or not. *)
  Theorem C10_repeated_write_appends : forall (c : rcol V) vs,
    rcol_write V c vs = flat_write V c vs.
  Proof. exact (rcol_write_flat V). Qed.

  (** Swap i j exchanges exactly the rows i and j, each with all its values and
      levels, in every state. *)
  Theorem C10_repeated_swap_exchanges_rows : forall (c : rcol V) i j,
    rcol_rows V (rcol_swap V c i j) = swapl (rcol_rows V c) i j /\
    Permutation (rcol_rows V (rcol_swap V c i j)) (rcol_rows V c).
  Proof. intros. split; [apply rcol_swap_rows|apply rcol_swap_perm]. Qed.

  (** For EVERY history of operations (WriteValues of well-formed batches |
      Swap i j | Page): the logical rows (each read through its row entry) are
      what the same operations do to a plain list of rows -- a write appends
      the rows of the batch, Swap exchanges two rows, Page changes nothing --;
      so are the rows of the column rebuilt by Page and the rows a reader of the
      page sees (the page read sequentially, cut at repetition level 0): Page
      returns the rows in buffer order with all their values; and they are a
      permutation of the rows written. *)
  Theorem C10_repeated_rows_preserved : forall md desc nfo ops,
    Forall (rop_ok V md) ops ->
    rcol_rows V (rreach V md desc nfo ops) = rspec_run V ops /\
    rcol_page_rows V (rreach V md desc nfo ops) = rspec_run V ops /\
    rcol_rows V (rcol_page V (rreach V md desc nfo ops)) = rspec_run V ops /\
    Permutation (rspec_run V ops) (rwritten V ops).
  Proof. exact (repeated_rows_preserved V). Qed.

  (** The representation invariant (levels of equal length, one base value for
      each maximum definition level, every row entry at a repetition level 0
      with the base offset of its first value, entries in level order unless
      reordered) holds after every history; Page clears the reordered flag. *)
  Theorem C10_repeated_invariant : forall md desc nfo ops,
    Forall (rop_ok V md) ops ->
    rcol_ok V (rreach V md desc nfo ops) /\ cfg_is V md desc (rreach V md desc nfo ops) nfo /\
    rreordered V (rcol_page V (rreach V md desc nfo ops)) = false.
  Proof.
    intros md desc nfo ops H. destruct (rreach_inv V md desc nfo ops H) as (R1 & R2 & _).
    split; [exact R1|]. split; [exact R2|]. exact (proj1 (proj2 (page_ok V _ R1))).
  Qed.

  (** Less i j = (comparator (values of row i) (values of row j) < 0), after any
      history, for every direction x nulls first/last: the comparator is the
      loop of compareRowsFuncOfColumnValues over the values of one sorting
      column -- the first pair of elements that differs decides, by Type.Compare
      negated when Descending, inside CompareNullsFirst / CompareNullsLast; then
      the shorter sequence sorts first, also when Descending.  The column is
      set up as Buffer.configure does: null ordering [xorb nf desc], descending
      flag [desc] (a repeated column is not wrapped in reversedColumnBuffer). *)
  Theorem C10_repeated_less_is_comparator : forall md nf desc ops i j,
    Forall (rop_ok V md) ops ->
    let c := rreach V md desc (xorb nf desc) ops in
    i < length (rrows V c) -> j < length (rrows V c) ->
    rcol_less V lt c i j =
    (cmp_values V (cmp_col V cmp true desc nf)
                (map (rv_val V) (nth i (rcol_rows V c) []))
                (map (rv_val V) (nth j (rcol_rows V c) [])) <? 0)%Z.
  Proof.
    intros md nf desc ops i j H c. destruct (rreach_inv V md desc (xorb nf desc) ops H) as (R1 & R2 & _).
    exact (rcol_less_spec V lt cmp lt_cmp cmp_opp md nf desc c i j R1 R2).
  Qed.

  (* the decision rule of the value-sequence comparator, outright *)
  Theorem C10_repeated_comparator_rule : forall (c : option V -> option V -> Z) x y a b,
    cmp_values V c [] [] = 0%Z /\
    cmp_values V c [] (y :: b) = (-1)%Z /\
    cmp_values V c (x :: a) [] = 1%Z /\
    cmp_values V c (x :: a) (y :: b) = (if (c x y =? 0)%Z then cmp_values V c a b else c x y).
  Proof. intros. repeat split; reflexivity. Qed.

  (** Less is a strict weak order on the rows of the column. *)
  Theorem C10_repeated_less_strict_weak_order : forall md nf desc ops,
    Forall (rop_ok V md) ops ->
    let c := rreach V md desc (xorb nf desc) ops in rless_swo V lt c (length (rrows V c)).
  Proof.
    intros md nf desc ops H c. destruct (rreach_inv V md desc (xorb nf desc) ops H) as (R1 & R2 & _).
    exact (rcol_less_swo V lt cmp lt_cmp cmp_opp cmp_trans md nf desc c R1 R2).
  Qed.

  (** Whatever exchanges a sort routine performs after any history: if the
      result has no adjacent inversion for Less, the rows are a permutation of
      the rows written (each intact) ordered by the comparator. *)
  Theorem C10_repeated_sorted_after_swaps : forall md nf desc ops l,
    Forall (rop_ok V md) ops ->
    let c := rreach V md desc (xorb nf desc) ops in
    let c' := rreach V md desc (xorb nf desc) (ops ++ rswap_ops V l) in
    rsorted_by_less V lt c' (length (rrows V c')) ->
    Permutation (rcol_rows V c') (rcol_rows V c) /\
    Permutation (rcol_rows V c') (rwritten V ops) /\
    forall i j, i <= j -> j < length (rcol_rows V c') ->
      (cmp_values V (cmp_col V cmp true desc nf) (row_vals V c' i) (row_vals V c' j) <= 0)%Z.
  Proof. exact (repeated_sorted_after_swaps V lt cmp lt_cmp cmp_opp cmp_trans). Qed.

  Section SortContract.
    (* the contract of sort.Sort, as for the buffers above *)
    Variable sort_swaps : rcol V -> list (nat * nat).
    Hypothesis sort_sorts : forall c n, n = length (rrows V c) -> rless_swo V lt c n ->
      rsorted_by_less V lt (fold_left (rcol_apply V) (rswap_ops V (sort_swaps c)) c) n.

    Theorem C10_repeated_sorted_after_sort : forall md nf desc ops,
      Forall (rop_ok V md) ops ->
      let c := rreach V md desc (xorb nf desc) ops in
      let c' := fold_left (rcol_apply V) (rswap_ops V (sort_swaps c)) c in
      Permutation (rcol_rows V c') (rcol_rows V c) /\
      Permutation (rcol_rows V c') (rwritten V ops) /\
      forall i j, i <= j -> j < length (rcol_rows V c') ->
        (cmp_values V (cmp_col V cmp true desc nf) (row_vals V c' i) (row_vals V c' j) <= 0)%Z.
    Proof.
      exact (fun md nf desc =>
               repeated_sorted_after_sort V lt cmp lt_cmp cmp_opp cmp_trans md nf desc sort_swaps sort_sorts).
    Qed.
  End SortContract.
End C10_repeated.

(** Buffer.Less over any mix of sorting columns (required, optional,
    repeated): when the Less of each sorting column is "its comparator < 0"
    (C10_column_less_is_comparator, C10_repeated_less_is_comparator) the walk
    over the sorting columns is the lexicographic comparator. *)
Theorem C10_buffer_less_lexicographic : forall ls cs i j,
  Forall2 (fun (l : nat -> nat -> bool) (c : nat -> nat -> Z) =>
             l i j = (c i j <? 0)%Z /\ l j i = (c j i <? 0)%Z /\
             (c i j < 0 <-> c j i > 0)%Z /\ (c j i < 0 <-> c i j > 0)%Z) ls cs ->
  less_walk ls i j = (lex_cmp cs i j <? 0)%Z.
Proof. exact less_walk_lexicographic. Qed.

Print Assumptions C10_repeated_write_appends.
Print Assumptions C10_repeated_swap_exchanges_rows.
Print Assumptions C10_repeated_rows_preserved.
Print Assumptions C10_repeated_invariant.
Print Assumptions C10_repeated_less_is_comparator.
Print Assumptions C10_repeated_less_strict_weak_order.
Print Assumptions C10_repeated_sorted_after_swaps.
Print Assumptions C10_repeated_sorted_after_sort.
Print Assumptions C10_buffer_less_lexicographic.

(** [C10_full_statement] (below) for one repeated column holding the INT64 /
    BYTE_ARRAY values of the correspondence runs, for histories of well-formed
    batches. *)
Theorem C10_repeated_full_statement :
  forall (md : N) (nf desc : bool) (ops : list (rop sval)),
    Forall (rop_ok sval md) ops ->
    let c := fold_left (rcol_apply sval) ops (new_rcol sval md (xorb nf desc) desc) in
    rcol_rows sval (rcol_page sval c) = rcol_rows sval c /\
    rcol_page_rows sval c = rcol_rows sval c /\
    forall i j, i < length (rrows sval c) -> j < length (rrows sval c) ->
      rcol_less sval lt_sval c i j =
      (cmp_values sval (cmp_col sval cmp_sval true desc nf)
                  (map (rv_val sval) (nth i (rcol_rows sval c) []))
                  (map (rv_val sval) (nth j (rcol_rows sval c) [])) <? 0)%Z.
Proof.
  intros md nf desc ops H c.
  destruct (C10_repeated_rows_preserved sval md desc (xorb nf desc) ops H) as (R1 & R2 & R3 & _).
  change c with (rreach sval md desc (xorb nf desc) ops).
  split; [now rewrite R3, R1|]. split; [now rewrite R2, R1|].
  intros i j. exact (C10_repeated_less_is_comparator sval lt_sval cmp_sval lt_sval_cmp cmp_sval_opp md nf desc ops i j H).
Qed.

Print Assumptions C10_repeated_full_statement.

(** The well-formedness hypothesis is needed: a value at the maximum
    definition level that carries no value (which the writers of the library
    never produce) is read back as a null by the rows while Less looks for it in
    the base column; Less and the comparator then disagree. *)
Theorem C10_repeated_illformed_refuted :
  let ops := [RWrite [mkRval 0%N 1%N (Some (VI 5)); mkRval 0%N 1%N None]] in
  ~ Forall (rop_ok sval 1%N) ops /\
  let c := fold_left (rcol_apply sval) ops (new_rcol sval 1%N false false) in
  rcol_less sval lt_sval c 0 1 = false /\
  (cmp_values sval (cmp_col sval cmp_sval true false false)
              (map (rv_val sval) (nth 0 (rcol_rows sval c) []))
              (map (rv_val sval) (nth 1 (rcol_rows sval c) [])) <? 0)%Z = true.
Proof.
  split.
  - intros H. inversion H as [|? ? Hx _]; subst. destruct Hx as [Hv _].
    inversion Hv as [|? ? _ Hv']; subst.
    inversion Hv' as [|? ? Hb _]; subst. unfold rval_ok in Hb. simpl in Hb.
    destruct Hb as [Hb _]. now apply Hb.
  - vm_compute. split; reflexivity.
Qed.

(** What remains outside the theorems, kept visible: a row whose values are
    split over two WriteValues calls (the second batch starting at a non-zero
    repetition level) is outside [rop_ok]; and the history theorems of the
    multi-column buffer (C10_swaps_preserve_rows, C10_less_is_comparator)
    quantify over schemas of required and optional columns -- a buffer that
    also has repeated columns is covered column by column
    (C10_repeated_rows_preserved, C10_repeated_less_is_comparator) and through
    C10_buffer_less_lexicographic, not by one statement over the whole buffer: *)
Definition C10_full_statement : Prop :=
  forall (md : N) (nf desc : bool) (ops : list (rop sval)),
    (* any batches of well-formed values, rows split across batches included *)
    Forall (fun o => match o with RWrite vs => Forall (rval_ok sval md) vs | _ => True end) ops ->
    (match flat_map (fun o => match o with RWrite vs => vs | _ => [] end) ops with
     | v :: _ => rv_rep sval v = 0%N | [] => True end) ->
    let c := fold_left (rcol_apply sval) ops (new_rcol sval md (xorb nf desc) desc) in
    rcol_rows sval (rcol_page sval c) = rcol_rows sval c /\
    rcol_page_rows sval c = rcol_rows sval c /\
    forall i j, i < length (rrows sval c) -> j < length (rrows sval c) ->
      rcol_less sval lt_sval c i j =
      (cmp_values sval (cmp_col sval cmp_sval true desc nf)
                  (map (rv_val sval) (nth i (rcol_rows sval c) []))
                  (map (rv_val sval) (nth j (rcol_rows sval c) [])) <? 0)%Z.

(* the repeated model on the rows [1 3] / [1 2]: they
   are ordered by their second elements; descending, the prefix [1] still
   sorts before [1 3], and the empty list last (nulls last) *)
Definition rv (r d : N) (v : option Z) : rval sval := mkRval r d (option_map VI v).
Example C10_ex_repeated :
  c10_rep 1 false false [RWrite [rv 0 1 (Some 1%Z); rv 1 1 (Some 3%Z); rv 0 1 (Some 1%Z); rv 1 1 (Some 2%Z)]] =
  ([[rv 0 1 (Some 1%Z); rv 1 1 (Some 3%Z)]; [rv 0 1 (Some 1%Z); rv 1 1 (Some 2%Z)]],
   [[rv 0 1 (Some 1%Z); rv 1 1 (Some 3%Z)]; [rv 0 1 (Some 1%Z); rv 1 1 (Some 2%Z)]],
   [[false; false]; [true; false]], [[0; 1]; [-1; 0]]%Z) /\
  snd (fst (c10_rep 1 false true [RWrite [rv 0 1 (Some 1%Z); rv 1 1 (Some 3%Z); rv 0 1 (Some 1%Z); rv 0 0 None]])) =
  [[false; false; true]; [true; false; true]; [false; false; false]].
Proof. vm_compute. split; reflexivity. Qed.

(** * Non-vacuity: a concrete buffer.  Columns: required INT64 id, optional
    INT64 (max level 1), optional BYTE_ARRAY nested in an optional group (max
    level 2); sorted by column 1 descending nulls last, then column 2 ascending
    nulls first.  History: typed write of 4 rows, the 3 exchanges a sort
    performs, Page, a second write, one more exchange. *)
Definition ex_schema : list N := [0; 1; 2]%N.
Definition ex_sorting : list sortcol := [mkSortcol 1 true false; mkSortcol 2 false true].
Definition ex_batch1 : list (list (wval sval)) :=
  [[WVal (VI 1); WVal (VI 5); WNull 1%N];
   [WVal (VI 2); WNull 0%N;   WVal (VB [97%N])];
   [WVal (VI 3); WVal (VI 7); WVal (VB [98%N])];
   [WVal (VI 4); WVal (VI 5); WNull 0%N]].
Definition ex_batch2 : list (list (wval sval)) :=
  [[WVal (VI 5); WVal (VI 9); WVal (VB [])]].
Definition ex_sort1 : list (nat * nat) := [(0, 2); (1, 2); (2, 3)].
Definition ex_ops : list (op sval) :=
  OWrite true ex_batch1 :: swap_ops sval ex_sort1 ++ [OPage; OWrite false ex_batch2].
Definition ex_sort2 : list (nat * nat) := [(0, 4); (1, 4); (2, 4); (3, 4)].

Example C10_ex_schema_ok : ex_schema <> [] /\ sorting_ok ex_schema ex_sorting.
Proof.
  split; [discriminate|]. split.
  - simpl. repeat constructor; simpl; intuition discriminate.
  - repeat constructor; simpl; lia.
Qed.

Example C10_ex_ops_ok : Forall (op_ok sval ex_schema) ex_ops.
Proof.
  unfold ex_ops, ex_batch1, ex_batch2, op_ok, wrow_ok, wv_col_ok. simpl.
  repeat constructor; simpl; try discriminate.
Qed.

(* the second sort leaves no adjacent inversion: the hypothesis of
   C10_sorted_after_swaps holds of this history *)
Example C10_ex_sorted :
  let b' := reach sval ex_schema ex_sorting (ex_ops ++ swap_ops sval ex_sort2) in
  sorted_by_less sval lt_sval b' (buffer_len sval b').
Proof.
  intros b' i Hi. assert (E : buffer_len sval b' = 5) by (vm_compute; reflexivity).
  rewrite E in Hi. destruct i as [|[|[|[|i]]]]; try lia; vm_compute; reflexivity.
Qed.

(* and its conclusion is what evaluation gives: ids 5,3,1,4,2 (rows 1 and 4
   have equal keys: value 5, then null) *)
Example C10_ex_rows :
  map (fun r => fst (nth 0 r (dcell sval)))
      (buffer_page_rows sval (reach sval ex_schema ex_sorting (ex_ops ++ swap_ops sval ex_sort2))) =
  [Some (VI 5); Some (VI 3); Some (VI 1); Some (VI 4); Some (VI 2)].
Proof. vm_compute. reflexivity. Qed.

Example C10_ex_less_matrix :
  less_matrix (reach sval ex_schema ex_sorting (ex_ops ++ swap_ops sval ex_sort2)) =
  [[false; true;  true;  true;  true];
   [false; false; true;  true;  true];
   [false; false; false; false; true];
   [false; false; false; false; true];
   [false; false; false; false; false]].
Proof. vm_compute. reflexivity. Qed.

(* ReadValuesAt on the sorted buffer of the example, before anything read it (the values of
   the optional columns are not yet in row order): 3 cells of column 1 from offset 1, and a
   destination longer than what is left of column 2 *)
Example C10_ex_read_values_at :
  let b := reach sval ex_schema ex_sorting (ex_ops ++ swap_ops sval ex_sort2) in
  buffer_read_values_at sval b 1 1 3 = [(Some (VI 7), 1%N); (Some (VI 5), 1%N); (Some (VI 5), 1%N)] /\
  buffer_read_values_at sval b 2 3 9 = [(None, 0%N); (Some (VB [97%N]), 2%N)] /\
  map (fun r => nth 1 r (dcell sval)) (spec_run sval ex_schema (ex_ops ++ swap_ops sval ex_sort2)) =
  [(Some (VI 9), 1%N); (Some (VI 7), 1%N); (Some (VI 5), 1%N); (Some (VI 5), 1%N); (None, 0%N)].
Proof. vm_compute. repeat split; reflexivity. Qed.

(** (0) before 0e9a630, ReadValuesAt of an optional column read the base values where they
    were: after the two exchanges that sort (3,30) (1,null) (2,20) by the first column, the
    levels are in the new order and the values are not: [null; 30; 20] instead of the column
    [null; 20; 30] of the rows, which C10_read_values_at_is_window_of_rows gives for the
    present code. *)
Definition rva_ops : list (op sval) :=
  [OWrite false [[WVal (VI 3); WVal (VI 30)]; [WVal (VI 1); WNull 0%N]; [WVal (VI 2); WVal (VI 20)]];
   OSwap 0 1; OSwap 1 2].

Theorem C10_read_values_at_without_page_refuted :
  let b := reach sval [0; 1]%N [mkSortcol 0 false false] rva_ops in
  let column := map (fun r => nth 1 r (dcell sval)) (spec_run sval [0; 1]%N rva_ops) in
  match nth 1 (columns b) (dcol sval) with
  | COpt o => ocol_read_values_at_pinned sval o 0 3
  | CReq _ => []
  end <> column /\
  buffer_read_values_at sval b 1 0 3 = column /\
  column = [(None, 0%N); (Some (VI 20), 1%N); (Some (VI 30), 1%N)].
Proof. vm_compute. split; [discriminate|split; reflexivity]. Qed.

(** (a) before 61e14ff, Page renumbered "rows[i] = i" at the non-null counter:
    write [v0; null; v1], one exchange (what sort.Sort does), Page, write one
    more row, the exchange sorting it to the front, Page: the logical rows and the rows read from the pages are no
    longer the rows written (row 4 comes back with the value of row 3: whole
    rows are not intact), so the statement of
    C10_swaps_preserve_rows fails for the faithful model of that code. *)
Definition pin_schema : list N := [0; 1]%N.
Definition pin_sorting : list sortcol := [mkSortcol 1 false false].
Definition pin_ops : list (op sval) :=
  [OWrite false [[WVal (VI 1); WVal (VI 5)]; [WVal (VI 2); WNull 0%N]; [WVal (VI 3); WVal (VI 3)]];
   OSwap 0 2; OPage;
   OWrite false [[WVal (VI 4); WVal (VI 1)]]; OSwap 0 3; OPage].

Theorem C10_pinned_page_renumbering_refuted :
  pin_schema <> [] /\ Forall (op_ok sval pin_schema) pin_ops /\
  let '(rs, prs, _, _) := c10_run false true pin_schema pin_sorting pin_ops in
  rs <> spec_run sval pin_schema pin_ops /\
  prs <> spec_run sval pin_schema pin_ops /\
  (exists r, In r prs /\ ~ In r (written sval pin_schema pin_ops)) /\
  (* whereas the model of the current code gives the specification *)
  let '(rs', prs', _, _) := c10_run false false pin_schema pin_sorting pin_ops in
  rs' = spec_run sval pin_schema pin_ops /\ prs' = spec_run sval pin_schema pin_ops.
Proof.
  split; [discriminate|]. split.
  - unfold pin_ops, op_ok, wrow_ok, wv_col_ok. simpl. repeat constructor; simpl; try discriminate.
  - vm_compute. split; [discriminate|]. split; [discriminate|]. split.
    + exists [(Some (VI 4), 0%N); (Some (VI 3), 1%N)]. split; [left; reflexivity|].
      intros [H|[H|[H|[H|[]]]]]; discriminate.
    + split; reflexivity.
Qed.

(** (b) before 6fbdd78, Buffer.configure handed the declared null ordering to
    the column also when it was wrapped in reversedColumnBuffer: for
    Descending + nulls last, Less puts the null row before the value row while
    the comparator orders it after: C10_less_is_comparator fails. *)
Definition pin2_sorting : list sortcol := [mkSortcol 1 true false].
Definition pin2_ops : list (op sval) :=
  [OWrite false [[WVal (VI 1); WVal (VI 5)]; [WVal (VI 2); WNull 0%N]]].

Theorem C10_pinned_null_ordering_refuted :
  pin_schema <> [] /\ sorting_ok pin_schema pin2_sorting /\ Forall (op_ok sval pin_schema) pin2_ops /\
  let b := run_ops sval (configure_pinned sval pin_schema pin2_sorting) pin2_ops in
  buffer_less sval lt_sval b 1 0 = true /\
  ~ (compare_rows sval cmp_sval pin_schema pin2_sorting (buffer_row sval b 1) (buffer_row sval b 0) < 0)%Z /\
  (* whereas the current configure agrees with the comparator *)
  let b' := reach sval pin_schema pin2_sorting pin2_ops in
  buffer_less sval lt_sval b' 1 0 = false /\ buffer_less sval lt_sval b' 0 1 = true.
Proof.
  split; [discriminate|]. split; [|split].
  - split; simpl; repeat constructor; simpl; auto.
  - unfold pin2_ops, op_ok, wrow_ok, wv_col_ok. simpl. repeat constructor; simpl; try discriminate.
  - vm_compute. split; [reflexivity|]. split; [discriminate|]. split; reflexivity.
Qed.

(** * The sorting writer (sorting.go)

    Model: Sort/Writer.v.  A history is a list of Write batch | Flush | Close |
    Reset; [sw_run] gives the rows of every file closed, [sw_written] the rows
    written to each of them (Close ends a file, Reset abandons what was written
    since).  [maxrows] is NewSortingWriter's sortRowCount.  The two contracts:

      sort_contract A cmp sortf  :=  forall l, Permutation (sortf l) l /\
                                     StronglySorted (fun a b => cmp a b <= 0) (sortf l)
        -- sort.Sort on the RowBuffer: C10_writer_sort_contract derives it from
           the exchange-level contract used for the buffers above;
      merge_contract A cmp merge :=  forall st, Forall sorted st ->
                                     exists st', sched cmp st (merge st) st' /\ all_empty st'
        -- the rows MergeRowGroups delivers are a complete run of the abstract
           merge scheduler of C09: C10_writer_merge_contract (C09_mergeK_refines +
           C09_mergeK_terminates). *)
Section C10_writer.
  Variable A : Type.
  Variable cmp : A -> A -> Z.
  Hypothesis cmp_opp : forall a b, (cmp a b < 0 <-> cmp b a > 0)%Z.
  Hypothesis cmp_trans : forall a b d, (cmp a b <= 0 -> cmp b d <= 0 -> cmp a d <= 0)%Z.

  (** Every file closed holds a sorted permutation of all the rows written to
      it -- for every size of the sort runs, every batching of the writes and
      every placement of Flush, Close and Reset. *)
  Theorem C10_sorting_writer_sorted_permutation :
    forall (sortf : list A -> list A) (merge : list (list (Merge.Model.row A)) -> list (Merge.Model.row A))
           (maxrows : nat) (keep_last : bool) (ops : list (swop A)),
    1 <= maxrows -> sort_contract A cmp sortf -> merge_contract A cmp merge ->
    Forall2 (fun out w => StronglySorted (fun a b => (cmp a b <= 0)%Z) out /\ Permutation out w)
            (sw_run A cmp sortf merge maxrows false keep_last ops) (sw_written A [] ops).
  Proof.
    intros sortf merge maxrows keep_last ops Hm Hs Hg.
    exact (sorting_writer_sorted_permutation A cmp cmp_opp cmp_trans sortf merge maxrows Hm Hs Hg keep_last ops).
  Qed.

  (** Stability, as the code has it: sort.Sort is not stable, so rows of equal
      keys inside a run come in any order; the merge keeps every run's order. *)
  Theorem C10_sorting_writer_runs_keep_order :
    forall sortf merge (maxrows : nat) (keep_last : bool) (ops : list (swop A)),
    1 <= maxrows -> sort_contract A cmp sortf -> merge_contract A cmp merge ->
    let s1 := sw_flush A cmp sortf false keep_last
                (fst (sw_exec A cmp sortf merge maxrows false keep_last ops)) in
    let m := merge (sw_runs A s1) in
    Merge.AbstractProofs.sorted A cmp m /\ Permutation (concat (sw_runs A s1)) m /\
    forall i, Merge.AbstractProofs.of_input A i m = nth i (sw_runs A s1) [].
  Proof.
    intros sortf merge maxrows keep_last ops Hm Hs Hg.
    exact (sorting_writer_runs_keep_order A cmp cmp_opp cmp_trans sortf merge maxrows Hm Hs Hg keep_last ops).
  Qed.

  (** With DropDuplicatedRows (and the code as it is: the dedupe state reset
      after each run) every file closed holds exactly one row for each key
      written to it: the rows are strictly increasing, every key written is
      represented, and every row is one of the rows written to that file --
      whatever the run size and whatever the writer wrote before (previous files
      closed, or abandoned by Reset). *)
  Theorem C10_sorting_writer_dedupe_one_per_key :
    forall sortf merge (maxrows : nat) (ops : list (swop A)),
    1 <= maxrows -> sort_contract A cmp sortf -> merge_contract A cmp merge ->
    Forall2 (fun out w =>
               StronglySorted (fun a b => (cmp a b < 0)%Z) out /\
               (forall a, In a w -> exists b, In b out /\ cmp a b = 0%Z) /\
               (forall b, In b out -> In b w))
            (sw_run A cmp sortf merge maxrows true false ops) (sw_written A [] ops).
  Proof.
    intros sortf merge maxrows ops Hm Hs Hg.
    exact (sorting_writer_dedupe_one_per_key A cmp cmp_opp cmp_trans sortf merge maxrows Hm Hs Hg ops).
  Qed.

  (** ... hence independent of the run size, of the sort and merge routines and
      of the history: files written with the same keys carry equal keys at
      equal positions. *)
  Theorem C10_sorting_writer_dedupe_independent :
    forall sortf1 merge1 maxrows1 ops1 sortf2 merge2 maxrows2 ops2,
    1 <= maxrows1 -> sort_contract A cmp sortf1 -> merge_contract A cmp merge1 ->
    1 <= maxrows2 -> sort_contract A cmp sortf2 -> merge_contract A cmp merge2 ->
    Forall2 (same_keys cmp) (sw_written A [] ops1) (sw_written A [] ops2) ->
    Forall2 (Forall2 (fun a b => cmp a b = 0%Z))
            (sw_run A cmp sortf1 merge1 maxrows1 true false ops1)
            (sw_run A cmp sortf2 merge2 maxrows2 true false ops2).
  Proof. exact (sorting_writer_dedupe_independent A cmp cmp_opp cmp_trans). Qed.

  (** The contracts hold of what the Go code runs.  sort.Sort acts on the
      RowBuffer through Less (compare < 0) and Swap: under the same exchange
      level contract as for the buffers its result is a sorted permutation. *)
  Theorem C10_writer_sort_contract : forall sort_swaps : list A -> list (nat * nat),
    (forall l, rb_swo A cmp l ->
       forall i, S i < length l -> rb_less A cmp (rb_swaps A l (sort_swaps l)) (S i) i = false) ->
    sort_contract A cmp (fun l => rb_swaps A l (sort_swaps l)).
  Proof. exact (rb_sort_contract A cmp cmp_opp cmp_trans). Qed.

  Theorem C10_writer_rowbuffer_less_swo : forall l, rb_swo A cmp l.
  Proof. exact (rb_less_swo A cmp cmp_opp cmp_trans). Qed.

  (** The merged reader of merge.go over any number of row groups, any
      chunking of the sources, read with slices of b >= 1 rows to io.EOF. *)
  Theorem C10_writer_merge_contract : forall chunks b, 1 <= b ->
    merge_contract A cmp (mergek_all cmp chunks b).
  Proof. intros chunks b Hb. exact (mergek_all_contract A cmp chunks b cmp_opp cmp_trans Hb). Qed.

  (* the sort and the merge the oracle runs *)
  Theorem C10_writer_model_contracts :
    sort_contract A cmp (isort A cmp) /\ merge_contract A cmp (Merge.Model.ref_merge_all cmp).
  Proof. split; [exact (isort_contract A cmp cmp_opp cmp_trans)|exact (ref_merge_contract A cmp cmp_opp cmp_trans)]. Qed.
End C10_writer.

Print Assumptions C10_sorting_writer_sorted_permutation.
Print Assumptions C10_sorting_writer_runs_keep_order.
Print Assumptions C10_sorting_writer_dedupe_one_per_key.
Print Assumptions C10_sorting_writer_dedupe_independent.
Print Assumptions C10_writer_sort_contract.
Print Assumptions C10_writer_rowbuffer_less_swo.
Print Assumptions C10_writer_merge_contract.
Print Assumptions C10_writer_model_contracts.

(** The model the oracle runs ([sw_model]: rows of INT64 / BYTE_ARRAY cells
    with the index of their arrival, the comparator of the sorting columns,
    insertion sort, reference merge): no hypothesis left. *)
Theorem C10_sval_sorting_writer_sorted_permutation : forall sorting maxrows keep_last ops,
  1 <= maxrows ->
  Forall2 (fun out w => StronglySorted (fun a b => (cmpW sorting a b <= 0)%Z) out /\ Permutation out w)
          (sw_model sorting maxrows false keep_last ops) (sw_written witem [] ops).
Proof.
  intros sorting maxrows keep_last ops Hm.
  destruct (C10_writer_model_contracts witem _ (cmpW_opp sorting) (cmpW_trans sorting)) as [S M].
  exact (sorting_writer_sorted_permutation witem _ (cmpW_opp sorting) (cmpW_trans sorting) _ _ maxrows Hm S M
           keep_last ops).
Qed.

Theorem C10_sval_sorting_writer_dedupe_one_per_key : forall sorting maxrows ops,
  1 <= maxrows ->
  Forall2 (fun out w =>
             StronglySorted (fun a b => (cmpW sorting a b < 0)%Z) out /\
             (forall a, In a w -> exists b, In b out /\ cmpW sorting a b = 0%Z) /\
             (forall b, In b out -> In b w))
          (sw_model sorting maxrows true false ops) (sw_written witem [] ops).
Proof.
  intros sorting maxrows ops Hm.
  destruct (C10_writer_model_contracts witem _ (cmpW_opp sorting) (cmpW_trans sorting)) as [S M].
  exact (sorting_writer_dedupe_one_per_key witem _ (cmpW_opp sorting) (cmpW_trans sorting) _ _ maxrows Hm S M ops).
Qed.

(* its comparator is the row comparator of compare.go (the model of
   Schema.Comparator above) on rows whose required sorting cells hold values,
   and a total preorder on all rows *)
Theorem C10_sval_writer_comparator : forall schema sorting (a b : witem),
  row_wf sval schema sorting (snd a) -> row_wf sval schema sorting (snd b) ->
  cmpW sorting a b = compare_rows sval cmp_sval schema sorting (snd a) (snd b).
Proof.
  intros schema sorting a b W1 W2. symmetry. now apply (compare_rows_opt_eq sval cmp_sval).
Qed.

Theorem C10_sval_writer_comparator_total_preorder : forall sorting,
  (forall a b, (cmpW sorting a b < 0 <-> cmpW sorting b a > 0)%Z) /\
  (forall a b d, (cmpW sorting a b <= 0 -> cmpW sorting b d <= 0 -> cmpW sorting a d <= 0)%Z).
Proof. intros sorting. split; [exact (cmpW_opp sorting)|exact (cmpW_trans sorting)]. Qed.

Print Assumptions C10_sval_sorting_writer_sorted_permutation.
Print Assumptions C10_sval_sorting_writer_dedupe_one_per_key.
Print Assumptions C10_sval_writer_comparator.
Print Assumptions C10_sval_writer_comparator_total_preorder.

(** Non-vacuity: one writer, sort runs of 4 rows, two files.  First file: keys
    5 3 7 3 1 7 9 2; second file (after Close and Reset): 12 9 10 | Flush | 12
    11 10 -- its smallest key, 9, is the greatest key of the last run of the
    first file.  Rows are (index of arrival, key). *)
Definition wi (id : nat) (k : Z) : witem := (id, [(Some (VI k), 0%N)]).
Definition ex_w_sorting : list sortcol := [mkSortcol 0 false false].
Definition ex_w_ops : list (swop witem) :=
  [SWWrite [wi 0 5; wi 1 3; wi 2 7; wi 3 3; wi 4 1; wi 5 7; wi 6 9; wi 7 2]; SWClose; SWReset;
   SWWrite [wi 8 12; wi 9 9; wi 10 10]; SWFlush; SWWrite [wi 11 12; wi 12 11; wi 13 10]; SWClose].

Example C10_ex_sorting_writer :
  c10_sw ex_w_sorting 4 false false ex_w_ops = [[4; 7; 1; 3; 0; 2; 5; 6]; [9; 10; 13; 12; 8; 11]] /\
  c10_sw ex_w_sorting 4 true false ex_w_ops = [[4; 7; 1; 0; 2; 6]; [9; 10; 12; 8]] /\
  c10_sw ex_w_sorting 1 true false ex_w_ops = [[4; 7; 1; 0; 2; 6]; [9; 10; 12; 8]] /\
  c10_sw ex_w_sorting 100 true false ex_w_ops = [[4; 7; 1; 0; 2; 6]; [9; 10; 12; 8]] /\
  map (map (@fst nat (row sval))) (sw_written witem [] ex_w_ops) =
    [[0; 1; 2; 3; 4; 5; 6; 7]; [8; 9; 10; 11; 12; 13]].
Proof. vm_compute. repeat split; reflexivity. Qed.

(** Without "defer w.dedupe.reset()" in sortAndWriteBufferedRows ([keep_last] =
    true: the last key kept by the deduplication of a run survives into the
    next run, also across Close and Reset) the statement of
    C10_sorting_writer_dedupe_one_per_key fails for the faithful model of that
    code: the row with key 9 of the second file is dropped as a duplicate of
    the last row of the first file, and no row with its key remains. *)
Theorem C10_sorting_writer_no_reset_refuted :
  let outs := sw_model ex_w_sorting 4 true true ex_w_ops in
  map (map fst) outs = [[4; 7; 1; 0; 2; 6]; [10; 12; 8]] /\
  ~ Forall2 (fun out w => forall a, In a w -> exists b, In b out /\ cmpW ex_w_sorting a b = 0%Z)
            outs (sw_written witem [] ex_w_ops).
Proof.
  split; [vm_compute; reflexivity|].
  intros H. vm_compute in H.
  inversion H as [|? ? ? ? _ H2]; subst. inversion H2 as [|? ? ? ? H3 _]; subst.
  destruct (H3 (wi 9 9)) as [b [Hb Eb]]; [right; left; reflexivity|].
  destruct Hb as [<-|[<-|[<-|[]]]]; vm_compute in Eb; discriminate.
Qed.

Print Assumptions C10_sorting_writer_no_reset_refuted.
Print Assumptions C10_read_values_at_without_page_refuted.
