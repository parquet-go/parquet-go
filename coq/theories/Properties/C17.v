(** C17 — output bytes are a function of input and options only.
    The model is Reset/Model.v (an abstract, executable state
    machine of the file writer: which state flows into the emitted bytes, what
    Reset clears and what it keeps), the classification of the fields of the Go
    structs is Reset/Classification.v, proofs are in Reset/Proofs.v.

    The row encoding is a parameter ([encode]: encoding in force, dictionary
    contents, rows of the page): the theorems hold for every encoding.  That the
    real encoders are functions of exactly these inputs (no hidden state, both
    builds) is tied by differential execution (harness/c17: sha256 of files). *)
From Coq Require Import List NArith ZArith String Permutation Sorted.
From PQ Require Import Generated.StateFields Reset.Classification Reset.Model Reset.Proofs.
From PQ Require Import Reset.Geo Reset.GeoProofs Reset.Ints Reset.IntsProofs Reset.BloomLoc Reset.BloomLocProofs.
Import ListNotations.
Open Scope N_scope.

Section C17.
  Variable encode : enc -> list N -> list N -> list N.

  (** For EVERY history [h] of the previous life -- any operations: writes,
      flushes, Close, earlier Resets, a sink that failed in the middle of a row
      group ([FailWrite]), a life abandoned without Close ([Abandon]),
      dictionary fallback, WriteRowGroup, SetKeyValueMetadata -- and every
      operation list [ops] of the next life, the writer reused through Reset
      emits what a fresh writer emits.  Unbounded: induction over [ops] with the
      simulation relation "equal on all non-scratch fields". *)
  Theorem C17_reset_equiv_init : forall cfg md h ops,
    observe (run encode (reset encode (run encode (init cfg md) h)) ops)
    = observe (run encode (init cfg md) ops).
  Proof. exact (reset_equiv_init encode). Qed.

  (** ... for the bytes, whatever the serialisation of the emitted structures *)
  Theorem C17_reset_equiv_init_bytes : forall (B : Type) (ser : event -> list B) cfg md h ops,
    observe_bytes ser (run encode (reset encode (run encode (init cfg md) h)) ops)
    = observe_bytes ser (run encode (init cfg md) ops).
  Proof. intros. unfold observe_bytes. now rewrite (reset_equiv_init encode). Qed.

  (** with Reset as an operation inside one history: nothing before it matters *)
  Theorem C17_history_before_reset_irrelevant : forall cfg md h1 h2 ops,
    observe (run encode (init cfg md) (h1 ++ Reset :: ops))
    = observe (run encode (init cfg md) (h2 ++ Reset :: ops)).
  Proof.
    intros. unfold Model.run. rewrite !fold_left_app. cbn [fold_left].
    change (observe (run encode (reset encode (run encode (init cfg md) h1)) ops)
            = observe (run encode (reset encode (run encode (init cfg md) h2)) ops)).
    now rewrite !(reset_equiv_init encode).
  Qed.

  (** Two states that differ only in scratch (page buffers, header buffer,
      staging slices: arbitrary garbage) and in the retained capacity of the
      truncated footer slices (any number of cleared elements) produce the
      same bytes for every operation list. *)
  Theorem C17_scratch_irrelevant : forall s1 s2 ops,
    st_l s1 = st_l s2 -> caps_ok (st_caps s1) -> caps_ok (st_caps s2) ->
    observe (run encode s1 ops) = observe (run encode s2 ops).
  Proof. intros s1 s2 ops Hl H1 H2. apply sim_observe, (run_sim encode). repeat split; assumption. Qed.

  (** The key/value metadata of the configuration is a Go map: whatever order
      its iteration produces, the writer starts from the same list, sorted by
      key (then value); every footer of a file written without
      SetKeyValueMetadata carries exactly that sorted list (also after any
      number of Resets); and the emitted bytes do not depend on the order. *)
  Theorem C17_kv_sorted : forall cfg m1 m2 ops,
    Permutation m1 m2 ->
    sort_kv m1 = sort_kv m2
    /\ StronglySorted kv_le (sort_kv m1)
    /\ Permutation m1 (sort_kv m1)
    /\ (existsb is_setkv ops = false ->
        Forall (footer_kv (sort_kv m1)) (observe (run encode (init_of_map encode cfg m2) ops)))
    /\ observe (run encode (init_of_map encode cfg m1) ops) = observe (run encode (init_of_map encode cfg m2) ops).
  Proof.
    intros cfg m1 m2 ops P. repeat split.
    - exact (sort_kv_perm_eq m1 m2 P).
    - exact (sort_kv_sorted m1).
    - exact (sort_kv_perm m1).
    - intros H. unfold init_of_map. rewrite <- (sort_kv_perm_eq m1 m2 P).
      exact (footers_carry_metadata encode cfg (sort_kv m1) ops H).
    - unfold init_of_map. now rewrite (sort_kv_perm_eq m1 m2 P).
  Qed.
End C17.

Print Assumptions C17_reset_equiv_init.
Print Assumptions C17_reset_equiv_init_bytes.
Print Assumptions C17_history_before_reset_irrelevant.
Print Assumptions C17_scratch_irrelevant.
Print Assumptions C17_kv_sorted.

(** Every field of the stateful Go structs (lists regenerated from writer.go and
    the column buffers on every run) is classified, no table entry is stale, and
    every field classified "reset" of the three writer structs is named by a
    component of the model.  A field added to one of the structs turns the
    first conjunct into [false = true]. *)
Theorem C17_classification_total :
  classification_total = true /\ classification_no_stale = true /\ reset_fields_modelled = true
  /\ forallb (fun f => is_some (classify "writer" (fst f))) fields_writer = true
  /\ forallb (fun f => is_some (classify "ColumnWriter" (fst f))) fields_ColumnWriter = true
  /\ forallb (fun f => is_some (classify "ConcurrentRowGroupWriter" (fst f))) fields_ConcurrentRowGroupWriter = true.
Proof. vm_compute. repeat split; reflexivity. Qed.

Print Assumptions C17_classification_total.

(** ---------- non-vacuity: concrete instances ---------- *)
Definition ex_cfg : config :=
  mk_config [mk_colcfg [1; 2] true 2 true; mk_colcfg [3] false 0 false] 5 3 false 7.
Definition ex_cfg_enc : config :=
  mk_config [mk_colcfg [1; 2] true 2 true; mk_colcfg [3] false 0 false] 5 3 true 7.

(* a previous life with an automatic row group split, a dictionary fallback, a
   failed sink, more writes on the broken writer, a key set on the file *)
Definition ex_history : list op :=
  [Write (iota 0 12); Flush; SetKV 9 9; Write (iota 12 2); FailWrite (iota 20 4) 2; Write [30]; Close].
Definition ex_ops : list op := [Write (iota 0 7); Flush; Write (iota 7 2); Close].

Example C17_ex_history_is_not_trivial :
  structure (observe (run_ids ex_cfg [(2, 1); (1, 5)] [Write (iota 0 12); Flush; Write (iota 12 2); Close]))
  = [[5; 5; 2; 2]]
  /\ count_pages (observe (run_ids ex_cfg [(2, 1); (1, 5)] ex_ops)) = 6
  /\ l_broken (st_l (run_ids ex_cfg [(2, 1); (1, 5)] ex_history)) = true
  /\ List.length (st_caps (reset encode_ids (run_ids ex_cfg [] [Write (iota 0 12); Close]))) = 3%nat
  /\ st_scratch (run_ids ex_cfg [] ex_history) <> [].
Proof. vm_compute. repeat split; try reflexivity. discriminate. Qed.

Example C17_ex_reset_equiv :
  observe (run encode_ids (reset encode_ids (run_ids ex_cfg [(2, 1); (1, 5)] ex_history)) ex_ops)
  = observe (run_ids ex_cfg [(2, 1); (1, 5)] ex_ops)
  /\ structure (observe (run_ids ex_cfg [(2, 1); (1, 5)] ex_ops)) = [[5; 2; 2]]
  /\ match last_footer (observe (run_ids ex_cfg [(2, 1); (1, 5)] ex_ops)) None with
     | Some f => ft_kv f = [(1, 5); (2, 1)] /\ ft_rows f = 9
     | None => False
     end.
Proof. vm_compute. repeat split; reflexivity. Qed.

Example C17_ex_kv : sort_kv [(2, 1); (1, 5); (1, 4)] = [(1, 4); (1, 5); (2, 1)]
  /\ sort_kv [(1, 4); (2, 1); (1, 5)] = [(1, 4); (1, 5); (2, 1)].
Proof. vm_compute. split; reflexivity. Qed.

Example C17_ex_classification :
  classify "writer" "rowGroups" = Some ResetC /\ classify "ColumnWriter" "filter" = Some Scratch
  /\ classify "ColumnWriter" "columnPath" = Some Config /\ classify "writer" "buffer" = Some Carried
  /\ classify "writer" "noSuchField" = None /\ unclassified = [].
Proof. vm_compute. repeat split; reflexivity. Qed.

(** ---------- the pinned (pre-fix) resets violate the statement ---------- *)

(** before 120fe51: clearing the finished footer structs also cleared
    path_in_schema of the live column writers (shared backing array): after a
    life that finished a row group, the next file has empty path strings *)
Theorem C17_pinned_reset_aliasing_refuted :
  exists cfg md h ops,
    observe (run_gen encode_ids (lreset_pinned) (step_gen encode_ids lreset_pinned (run_gen encode_ids lreset_pinned (init cfg md) h) Reset) ops)
    <> observe (run encode_ids (init cfg md) ops).
Proof.
  exists ex_cfg, [(1, 5)], [Write [1]; Close], [Write [1]; Close].
  vm_compute. intros H. discriminate H.
Qed.

(** before 949139e: an encrypting writer kept the row group ordinal of the
    previous file, so the modules of the next file were sealed with the wrong
    additional authenticated data (the file could not be read back) *)
Theorem C17_pinned_encrypted_ordinal_refuted :
  exists cfg md h ops,
    observe (run_gen encode_ids lreset_pinned_ordinal (step_gen encode_ids lreset_pinned_ordinal (run_gen encode_ids lreset_pinned_ordinal (init cfg md) h) Reset) ops)
    <> observe (run encode_ids (init cfg md) ops).
Proof.
  exists ex_cfg_enc, [], [Write [1]; Close], [Write [1]; Close].
  vm_compute. intros H. discriminate H.
Qed.

(** before cd20a46: pairs set with SetKeyValueMetadata leaked into the next file *)
Theorem C17_pinned_kv_survives_reset_refuted :
  exists cfg md h ops,
    observe (run_gen encode_ids lreset_pinned_kv (step_gen encode_ids lreset_pinned_kv (run_gen encode_ids lreset_pinned_kv (init cfg md) h) Reset) ops)
    <> observe (run encode_ids (init cfg md) ops).
Proof.
  exists ex_cfg, [(1, 5)], [SetKV 9 9; Write [1]; Close], [Write [1]; Close].
  vm_compute. intros H. discriminate H.
Qed.

(* values per column chunk in the last footer *)
Definition footer_values (evs : list event) : list (list N) :=
  match last_footer evs None with
  | Some f => map (fun r => map cm_nvalues (rg_cols r)) (ft_rgs f)
  | None => []
  end.

(** before 2943698: rows buffered after a dictionary fallback, in a file that was
    abandoned, came back in the next file as soon as its column fell back again *)
Theorem C17_pinned_plain_buffer_refuted :
  exists cfg md h ops,
    observe (run_gen encode_ids lreset_pinned_plain (step_gen encode_ids lreset_pinned_plain (run_gen encode_ids lreset_pinned_plain (init cfg md) h) Reset) ops)
    <> observe (run encode_ids (init cfg md) ops)
    /\ footer_values (observe (run_gen encode_ids lreset_pinned_plain (init cfg md) (h ++ Reset :: ops))) = [[6; 5]]
    /\ footer_values (observe (run encode_ids (init cfg md) ops)) = [[5; 5]].
Proof.
  exists ex_cfg, [], [Write (iota 0 4); Write [7]; Abandon], [Write (iota 0 4); Write [8]; Close].
  vm_compute. repeat split; try reflexivity. intros H. discriminate H.
Qed.

(** ... while the current reset passes on the same witnesses *)
Example C17_current_reset_on_the_witnesses :
  observe (run encode_ids (reset encode_ids (run encode_ids (init ex_cfg [(1, 5)]) [SetKV 9 9; Write [1]; Close])) [Write [1]; Close])
  = observe (run encode_ids (init ex_cfg [(1, 5)]) [Write [1]; Close])
  /\ observe (run encode_ids (reset encode_ids (run encode_ids (init ex_cfg_enc []) [Write [1]; Close])) [Write [1]; Close])
  = observe (run encode_ids (init ex_cfg_enc []) [Write [1]; Close])
  /\ observe (run encode_ids (reset encode_ids (run encode_ids (init ex_cfg []) [Write (iota 0 4); Write [7]; Abandon])) [Write (iota 0 4); Write [8]; Close])
  = observe (run encode_ids (init ex_cfg []) [Write (iota 0 4); Write [8]; Close]).
Proof. vm_compute. repeat split; reflexivity. Qed.

Print Assumptions C17_pinned_reset_aliasing_refuted.
Print Assumptions C17_pinned_encrypted_ordinal_refuted.
Print Assumptions C17_pinned_kv_survives_reset_refuted.
Print Assumptions C17_pinned_plain_buffer_refuted.

(** ---------- column state below the abstract machine: the accumulator of the
    geospatial statistics, the integer conversions of the typed writer ---------- *)

(** Geospatial statistics (GEOMETRY / GEOGRAPHY columns; [a_stats] of the state
    machine above): whatever the accumulator of the column writer went through
    -- any row groups [h] of any earlier life, from any state [a] -- after the
    reset the footer of every row group carries the statistics of the values of
    that row group alone. *)
Theorem C17_geo_stats_history_irrelevant : forall a h rgs,
  fst (life_stats (gacc_reset (snd (life_stats a h))) rgs) = map row_group_stats rgs.
Proof. intros. apply life_stats_own_values. Qed.

(** ... and within one life nothing flows from a row group to the next ones *)
Theorem C17_geo_stats_row_groups_independent : forall a h rgs,
  fst (life_stats (gacc_reset a) (h ++ rgs)%list) = (map row_group_stats h ++ map row_group_stats rgs)%list.
Proof. intros. now rewrite life_stats_own_values, map_app. Qed.

(** [gacc_reset] has no statement to spare: a reset that left any one of the
    flags or the type set alone would show in the footer of a later row group *)
Definition geo_xy (x y : Z) : gvalue := GGeom (mk_geometry 1 false (Some (x, x)) (Some (y, y)) None None).
Definition geo_xyzm (x y z m : Z) : gvalue :=
  GGeom (mk_geometry 3001 false (Some (x, x)) (Some (y, y)) (Some (Some (z, z))) (Some (Some (m, m)))).
Definition geo_empty_line : gvalue := GGeom (mk_geometry 2 true None None None None).

Theorem C17_geo_every_reset_statement_needed :
  forall k : N, In k [1; 2; 3; 4; 5; 6]%N ->
  exists before after,
    gacc_stats (gacc_values (gacc_reset_keeping k (gacc_values gacc_new before)) after) <> row_group_stats after.
Proof.
  intros k H. simpl in H.
  destruct H as [<-|[<-|[<-|[<-|[<-|[<-|[]]]]]]].
  - exists [geo_xy 1 2], [geo_empty_line]. vm_compute. discriminate.
  - exists [geo_xy 1 2], []. vm_compute. discriminate.
  - exists [GBad], [geo_xy 1 2]. vm_compute. discriminate.
  - exists [geo_xyzm 1 2 3 4], [geo_xy 1 2]. vm_compute. discriminate.
  - exists [geo_xyzm 1 2 3 4], [geo_xy 1 2]. vm_compute. discriminate.
  - exists [geo_xyzm 1 2 3 4], [geo_xy 1 2]. vm_compute. discriminate.
Qed.

Example C17_ex_geo :
  row_group_stats [geo_xyzm 5 (-2) 7 100; geo_xy (-1) 6; geo_empty_line]
  = Some (mk_gstats [1; 2; 3001] (Some (mk_bbox (-1, 5)%Z (-2, 6)%Z (Some (7, 7)%Z) (Some (100, 100)%Z))))
  /\ row_group_stats [geo_xy 1 2; GBad; geo_xy 3 4] = None
  /\ row_group_stats [geo_empty_line] = Some (mk_gstats [2] None)
  /\ fst (life_stats gacc_new [[geo_xyzm 1 2 3 4]; [geo_xy 1 2]])
     = [Some (mk_gstats [3001] (Some (mk_bbox (1, 1)%Z (2, 2)%Z (Some (3, 3)%Z) (Some (4, 4)%Z))));
        Some (mk_gstats [1] (Some (mk_bbox (1, 1)%Z (2, 2)%Z None None)))].
Proof. vm_compute. repeat split; reflexivity. Qed.

(** Integer fields of typed rows, for every (Go kind, width tag) combination:
    the pattern stored in the INT32 / INT64 column is [widen] of the field, a
    function of the field alone (no scratch memory, no other field); when the
    column is at least as wide as the kind it is lossless, and it denotes the
    Go value at the signedness of the kind. *)
Theorem C17_int_store_lossless : forall signed bits phys raw,
  (0 < bits <= phys)%Z -> (0 <= raw < 2 ^ bits)%Z ->
  read_back bits (widen signed bits phys raw) = raw
  /\ go_value signed phys (widen signed bits phys raw) = go_value signed bits raw
  /\ (0 <= widen signed bits phys raw < 2 ^ phys)%Z.
Proof.
  intros signed bits phys raw Hb Hr. repeat split.
  - now apply widen_read_back.
  - now apply widen_value.
  - apply widen_range. apply Z.lt_le_incl, Z.lt_le_trans with bits; tauto.
  - apply widen_range. apply Z.lt_le_incl, Z.lt_le_trans with bits; tauto.
Qed.

Theorem C17_int_store_injective : forall signed bits phys r1 r2,
  (0 < bits <= phys)%Z -> (0 <= r1 < 2 ^ bits)%Z -> (0 <= r2 < 2 ^ bits)%Z ->
  widen signed bits phys r1 = widen signed bits phys r2 -> r1 = r2.
Proof. exact widen_injective. Qed.

Example C17_ex_ints :
  widen true 8 64 255 = 18446744073709551615%Z        (* int8(-1), int(64) / uint(64) *)
  /\ widen false 16 64 65535 = 65535%Z                (* uint16, uint(64) *)
  /\ widen true 16 32 32768 = 4294934528%Z            (* int16(-32768), INT32 *)
  /\ widen false 64 32 4294967301 = 5%Z               (* uint64(2^32+5), int(32): truncated *)
  /\ widen_column true 32 64 [1; 2147483648]%Z = [1; 18446744071562067968]%Z.
Proof. vm_compute. repeat split; reflexivity. Qed.

Print Assumptions C17_geo_stats_history_irrelevant.
Print Assumptions C17_geo_stats_row_groups_independent.
Print Assumptions C17_geo_every_reset_statement_needed.
Print Assumptions C17_int_store_lossless.
Print Assumptions C17_int_store_injective.

(** ---------- the bloom filter location of the live column chunk metadata
    (Reset/BloomLoc.v): row groups that went through the column writer, with a
    filter or (an optional dictionary column holding only nulls) without one,
    and row groups copied verbatim from a file by WriteRowGroup ---------- *)

(** whatever the column writer went through -- any row groups [h], built or
    copied, of any earlier life, from any state [a] -- after the reset every row
    group records the location of its own filter, or none *)
Theorem C17_bloom_location_history_irrelevant : forall bits a h rgs,
  fst (blife breset bits (breset (snd (blife breset bits a h))) rgs) = map (own_loc bits) rgs.
Proof. intros. apply blife_own. Qed.

(** a reset that forgets the location only together with a filter the column
    writer built itself is told apart (the location of a copied chunk survives
    into a chunk that has no filter) *)
Theorem C17_pinned_bloom_location_after_copy_refuted : exists bits h rgs,
  fst (blife breset_pinned bits (breset_pinned (snd (blife breset_pinned bits bnew h))) rgs)
  <> fst (blife breset_pinned bits (breset_pinned bnew) rgs).
Proof. exists 10%N, [(4%N, Copied 47)], [(4%N, Built 0)]. vm_compute. discriminate. Qed.

Example C17_ex_bloom_location :
  fst (blife breset 10 (breset (snd (blife breset 10 bnew [(4, Copied 47); (100, Built 3)]%N))) [(4, Built 0); (60, Built 30); (200, Copied 47)]%N)
  = [(0, 0); (60, 64); (200, 47)]%N.
Proof. vm_compute. reflexivity. Qed.

Print Assumptions C17_bloom_location_history_irrelevant.
Print Assumptions C17_pinned_bloom_location_after_copy_refuted.
