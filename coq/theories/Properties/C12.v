(** C12 — reading through a different but compatible schema only adds or
    drops columns.  Proofs are in Convert/Proofs.v, WidenProofs.v, SortingProofs.v and
    ChunksProofs.v.

    Schemas are trees of named fields (name, repetition, leaf type tag or
    children).  [compat src tgt]: same-named nodes agree on leaf/group kind, on
    repetition and on the leaf type; apart from that the target may drop,
    reorder and add fields at any depth (inside groups and lists).
    [project src tgt v] is the value-level specification: for every target
    field the source field of the same name (recursively), else null
    (optional), the empty list (repeated) or the zero value (required, down to
    the leaves).  [convert_columns] is the column-level algorithm of
    Convert/conversion.Convert on one row (one stream of (value, repetition
    level, definition level) per leaf column).

    One repetition change keeps every value and the whole nesting: a node that
    is required in the source may be optional in the target (a struct field
    read into a pointer field, a nullable or merged schema).  [widens tgtN tgt]:
    [tgt] is [tgtN] with some required nodes optional; the conversion to such a
    target is the conversion to [tgtN] (no repetition change: [compat src
    tgtN]) followed by the translation of the definition levels
    ([widen_columns_top], the level tables of Convert), and its result is the
    projection in which the widened nodes are present ([widen_val]).
    Proofs of that part are in Convert/WidenProofs.v. *)
From Coq Require Import List Arith Bool NArith Lia.
From PQ Require Import Dremel.Model Dremel.Proofs Convert.Model Convert.Proofs Convert.Widen Convert.WidenProofs.
From PQ Require Import Convert.Sorting Convert.SortingProofs.
From PQ Require Import Convert.Chunks Convert.ChunksProofs.
Import ListNotations.

(** Re-assembling the converted columns of a row with the target schema yields
    the projection of the row: common columns keep their values and nesting,
    added optional columns are null, added repeated columns empty, added
    required columns zero.  [tails] are the columns of the rows that follow
    (any, as long as they start rows: repetition level 0): they are left
    untouched.  [n] bounds the lengths of the lists of the value (any value
    has such a bound). *)
Theorem C12_convert_is_projection :
  forall (V : Type) (zero : N -> V) (src tgt : nschema) (v : value V) (n : nat) (tails : list (column V)),
    compat src tgt = true -> wf_nschema src -> wf_nschema tgt -> wfn V n (erase src) v ->
    length tails = nl tgt -> heads_le V 0 tails ->
    exists cols, convert_columns V zero src tgt (shred_row (erase src) v) = Some cols /\
      asm (erase tgt) 0 0 (S n) (zipapp cols tails) = Some (project V zero src tgt v, tails).
Proof. exact convert_is_projection. Qed.

(** For every well-formed value (no bound given: the assembler's fuel is the
    bound of the value). *)
Theorem C12_convert_is_projection_wf :
  forall (V : Type) (zero : N -> V) (src tgt : nschema) (v : value V) (tails : list (column V)),
    compat src tgt = true -> wf_nschema src -> wf_nschema tgt -> wf (erase src) v ->
    length tails = nl tgt -> heads_le V 0 tails ->
    exists fuel cols, convert_columns V zero src tgt (shred_row (erase src) v) = Some cols /\
      asm (erase tgt) 0 0 fuel (zipapp cols tails) = Some (project V zero src tgt v, tails).
Proof. exact convert_is_projection_wf. Qed.

(** The same at column level: the converted columns ARE the shredding of the
    projected value with the target schema (levels included). *)
Theorem C12_converted_columns_are_shredded_projection :
  forall (V : Type) (zero : N -> V) (src tgt : nschema) (v : value V) (n : nat),
    compat src tgt = true -> wf_nschema src -> wfn V n (erase src) v ->
    conv V (plan V zero src tgt 0 0) (shred_row (erase src) v)
    = shred_row (erase tgt) (project V zero src tgt v).
Proof. exact convert_is_shred_project. Qed.

(** Sequences of rows: as many rows come out as went in, in the same order,
    each the projection of the corresponding source row. *)
Theorem C12_rows_preserved :
  forall (V : Type) (zero : N -> V) (src tgt : nschema) (vs : list (value V)) (n : nat),
    compat src tgt = true -> wf_nschema src -> wf_nschema tgt -> Forall (wfn V n (erase src)) vs ->
    exists rows, convert_rows V zero src tgt (map (shred_row (erase src)) vs) = Some rows /\
      length rows = length vs /\
      asm_rows (length vs) (erase tgt) (S n) (concat_rows V (nl tgt) rows)
      = Some (map (project V zero src tgt) vs).
Proof. exact convert_rows_preserved. Qed.

(** Equal schemas: the identity shortcut (Convert returns identity{}, CopyRows
    inserts no conversion) returns the rows unchanged, and that is what the
    general path would compute and what the specification asks for. *)
Theorem C12_identity :
  forall (V : Type) (zero : N -> V) (s : nschema) (v : value V) (n : nat),
    wf_nschema s -> wfn V n (erase s) v ->
    convert_columns V zero s s (shred_row (erase s) v) = Some (shred_row (erase s) v) /\
    convert_columns_general V zero s s (shred_row (erase s) v) = shred_row (erase s) v /\
    project V zero s s v = v.
Proof. exact convert_identity. Qed.

(** Incompatible targets are rejected: whenever two same-named nodes clash
    (leaf against group, different leaf types, different repetitions, at any
    depth) the model returns the error, and it returns the error only then. *)
Theorem C12_incompatible_rejected :
  forall (V : Type) (zero : N -> V) (src tgt : nschema) (cols : list (column V)),
    wf_nschema src -> clash src tgt -> convert_columns V zero src tgt cols = None.
Proof. exact incompatible_rejected. Qed.

Theorem C12_rejected_only_if_clash :
  forall (V : Type) (zero : N -> V) (src tgt : nschema) (cols : list (column V)),
    convert_columns V zero src tgt cols = None -> clash src tgt.
Proof. exact rejected_only_if_clash. Qed.

Theorem C12_compat_iff_no_clash :
  forall src tgt, compat src tgt = true <-> ~ clash src tgt.
Proof.
  intros src tgt. split.
  - intros H Hc. rewrite (clash_not_compat _ _ Hc) in H. discriminate.
  - intros H. destruct (compat src tgt) eqn:E; [reflexivity|].
    exfalso. apply H. now apply (proj1 not_compat_clash).
Qed.

(** A target that also reads required nodes of the source as optional ones:
    re-assembling the converted columns with the target schema yields
    [project_widen]: the projection of the row onto the target in which those
    nodes are still required, read through the target ([widen_top]): every
    widened node is present (wrapped, nothing else changes), except that the
    outermost one is null when every column below it is a per-row placeholder
    of Convert (nothing below it is read from the source: the library's
    choice). *)
Theorem C12_widened_convert_is_projection :
  forall (V : Type) (zero : N -> V) (src tgtN tgt : nschema) (v : value V) (n : nat) (tails : list (column V)),
    compat src tgtN = true -> widens tgtN tgt = true ->
    wf_nschema src -> wf_nschema tgtN -> wf_nschema tgt -> wfn V n (erase src) v ->
    length tails = nl tgt -> heads_le V 0 tails ->
    exists cols, convert_widen_columns V zero src tgtN tgt (shred_row (erase src) v) = Some cols /\
      asm (erase tgt) 0 0 (S n) (zipapp cols tails)
      = Some (project_widen V zero src tgtN tgt v, tails).
Proof. exact convert_widen_is_projection. Qed.

(** At column level: the converted columns are the shredding, with the target
    schema, of that value (levels included). *)
Theorem C12_widened_columns_are_shredded_projection :
  forall (V : Type) (zero : N -> V) (src tgtN tgt : nschema) (v : value V) (n : nat),
    compat src tgtN = true -> widens tgtN tgt = true ->
    wf_nschema src -> wf_nschema tgtN -> wfn V n (erase src) v ->
    convert_widen_columns V zero src tgtN tgt (shred_row (erase src) v)
    = Some (shred_row (erase tgt) (project_widen V zero src tgtN tgt v)).
Proof. exact convert_widen_is_shred_project. Qed.

(** When no column takes the per-row placeholder, every widened node is
    present: the record the target sees is the projection with these nodes
    wrapped. *)
Theorem C12_widened_nodes_present :
  forall (V : Type) (zero : N -> V) (src tgtN tgt : nschema) (v : value V),
    compat src tgtN = true -> wf_nschema tgtN ->
    Forall (fun h => h = false) (hold_flags V zero src tgtN) ->
    project_widen V zero src tgtN tgt v = widen_val V tgtN tgt (project V zero src tgtN v).
Proof. exact project_widen_present. Qed.

(** The translation of the definition levels alone: for every schema, every
    widening of it and every record, lifting the levels of the shredded
    columns is shredding the record (widened nodes present) with the widened
    schema. *)
Theorem C12_level_translation_is_shredding :
  forall (V : Type) (s t : nschema) (v : value V),
    widens s t = true -> wf_nschema s -> wf (erase s) v ->
    shred_row (erase t) (widen_val V s t v) = widen_columns V s t (shred_row (erase s) v).
Proof. exact widen_shred_row. Qed.

(** No node widened: nothing is translated, the conversion is the one of the
    theorems above. *)
Theorem C12_not_widened :
  forall (V : Type) (zero : N -> V) (src s : nschema) (cols : list (column V)),
    length cols = nl s -> widens s s = true /\ widen_columns_top V zero src s s cols = cols.
Proof. intros V zero src s cols H. split; [apply (proj1 widens_refl)|now apply widen_columns_top_self]. Qed.

(** What a converted row group says about the order of its rows
    (ConvertRowGroup(...).SortingColumns(), which MergeRowGroups trusts): rows
    sorted by the columns [ks], column after column ([cmp k] is the order on
    column [k], direction and nulls included), are sorted by the longest prefix
    of [ks] whose columns the target keeps, and every declared column is a
    column of the target.  (The rows keep their order: C12_rows_preserved; a
    kept column keeps its values: the theorems above.) *)
Theorem C12_converted_sorting_columns_sound :
  forall (K R : Type) (cmp : K -> R -> R -> comparison) (kept : K -> bool) (ks : list K) (rows : list R),
    sorted_by K R cmp ks rows = true ->
    sorted_by K R cmp (kept_prefix K kept ks) rows = true /\ forallb kept (kept_prefix K kept ks) = true.
Proof. exact converted_sorting_sound. Qed.

(** Declaring the kept columns that FOLLOW a dropped one is refuted: rows
    sorted by (a, b) are not sorted by b. *)
Theorem C12_sorting_after_dropped_column_refuted :
  let rows := [(1, 9); (2, 1); (3, 5)] in
  let kept := fun k : nat => negb (Nat.eqb k 0) in
  sorted_by nat (nat * nat) sx_cmp [0; 1] rows = true /\
  filter kept [0; 1] = [1] /\
  sorted_by nat (nat * nat) sx_cmp (filter kept [0; 1]) rows = false /\
  kept_prefix nat kept [0; 1] = [].
Proof. exact skipping_dropped_columns_refuted. Qed.

(** The column-chunk view of a converted row group
    (ConvertRowGroup(rg, conv).ColumnChunks(), Convert/Chunks.v): for a target
    column [c] that the conversion copies from a source column, the entries of
    the rows i .. j-1 of its chunk (a page, Page.Slice(i, j) of a page, a
    row-range view) are column [c] of the rows i .. j-1 converted through the
    row path (for which the theorems above hold); a slice of a slice is the
    slice of the sum of the offsets.  Targets that only delete and permute
    columns have copied columns only.  The chunks of the columns that the
    source lacks are not modelled (known finding
    converted-column-chunks-levels), nor are the levels of widened nodes there. *)
Theorem C12_copied_column_chunk_is_row_path :
  forall (V : Type) (zero : N -> V) (src tgt : nschema) (c i j : nat) (rows : list (list (column V))) (col : column V),
    chunk_view V (plan V zero src tgt 0 0) c (row_slice i j rows) = Some col ->
    col = chunk_of V c (row_slice i j (map (conv V (plan V zero src tgt 0 0)) rows)).
Proof. intros V zero src tgt. exact (chunk_view_is_row_path V (plan V zero src tgt 0 0)). Qed.

Theorem C12_slice_of_slice :
  forall (A : Type) (i j x y : nat) (l : list A),
    i + y <= j -> row_slice x y (row_slice i j l) = row_slice (i + x) (i + y) l.
Proof. exact row_slice_slice. Qed.

Print Assumptions C12_converted_sorting_columns_sound.
Print Assumptions C12_copied_column_chunk_is_row_path.
Print Assumptions C12_slice_of_slice.
Print Assumptions C12_sorting_after_dropped_column_refuted.
Print Assumptions C12_convert_is_projection.
Print Assumptions C12_widened_convert_is_projection.
Print Assumptions C12_widened_columns_are_shredded_projection.
Print Assumptions C12_widened_nodes_present.
Print Assumptions C12_level_translation_is_shredding.
Print Assumptions C12_not_widened.
Print Assumptions C12_convert_is_projection_wf.
Print Assumptions C12_converted_columns_are_shredded_projection.
Print Assumptions C12_rows_preserved.
Print Assumptions C12_identity.
Print Assumptions C12_incompatible_rejected.
Print Assumptions C12_rejected_only_if_clash.
Print Assumptions C12_compat_iff_no_clash.

(** What the library accepts although the statement calls it incompatible
    (recorded, not proved about the code): Convert never returns an error.  A
    same-named node of the other kind is treated as "dropped and added" (the
    model's [plan] does the same, [convert_columns] puts the rejection in
    front); repetition changes (optional -> required: nulls become zero values;
    repeated -> required: all elements land in one required column) and leaf
    type changes (convertToType) are deliberate features of the library and
    are outside the statement. *)

(** * Non-vacuity: a source with a list of groups and an optional group; the
      target drops a field, swaps two, and adds an optional leaf inside the
      list element, a required leaf inside the optional group, a repeated leaf
      and a required group at top level. *)
Definition zn (ty : N) : nat := 0.

Definition ex_src : nschema :=
  NGroup (NCons 1 Req (NLeaf 7)
         (NCons 2 Rpt (NGroup (NCons 10 Opt (NLeaf 7) (NCons 11 Req (NLeaf 8) NNil)))
         (NCons 3 Opt (NGroup (NCons 20 Req (NGroup (NCons 30 Req (NLeaf 7) NNil)) NNil))
         (NCons 4 Req (NLeaf 9) NNil)))).

Definition ex_tgt : nschema :=
  NGroup (NCons 3 Opt (NGroup (NCons 21 Req (NLeaf 8)
                              (NCons 20 Req (NGroup (NCons 30 Req (NLeaf 7) NNil)) NNil)))
         (NCons 2 Rpt (NGroup (NCons 11 Req (NLeaf 8) (NCons 12 Opt (NLeaf 9) (NCons 10 Opt (NLeaf 7) NNil))))
         (NCons 5 Rpt (NLeaf 7)
         (NCons 6 Req (NGroup (NCons 40 Req (NLeaf 7) (NCons 41 Opt (NLeaf 7) NNil)))
         (NCons 1 Req (NLeaf 7) NNil))))).

Definition ex_v : value nat :=
  VGroup [VLeaf 100;
          VList [VGroup [VOpt (Some (VLeaf 1)); VLeaf 2]; VGroup [VOpt None; VLeaf 3]];
          VOpt (Some (VGroup [VGroup [VLeaf 5]]));
          VLeaf 9].

Definition ex_v2 : value nat :=
  VGroup [VLeaf 101; VList []; VOpt None; VLeaf 9].

Example C12_ex_compat : compat ex_src ex_tgt = true.
Proof. vm_compute. reflexivity. Qed.

Example C12_ex_wf : wf_nschema ex_src /\ wf_nschema ex_tgt /\ wfn nat 2 (erase ex_src) ex_v /\ wfn nat 2 (erase ex_src) ex_v2.
Proof. cbn. repeat split; auto; try lia; repeat constructor. Qed.

Example C12_ex_project :
  project nat zn ex_src ex_tgt ex_v =
  VGroup [VOpt (Some (VGroup [VLeaf 0; VGroup [VLeaf 5]]));
          VList [VGroup [VLeaf 2; VOpt None; VOpt (Some (VLeaf 1))]; VGroup [VLeaf 3; VOpt None; VOpt None]];
          VList [];
          VGroup [VLeaf 0; VOpt None];
          VLeaf 100]
  /\ project nat zn ex_src ex_tgt ex_v2 =
  VGroup [VOpt None; VList []; VList []; VGroup [VLeaf 0; VOpt None]; VLeaf 101].
Proof. vm_compute. split; reflexivity. Qed.

Example C12_ex_convert :
  convert_columns nat zn ex_src ex_tgt (shred_row (erase ex_src) ex_v) =
  Some [ [(Some 0, 0, 1)];                       (* 3.21 added required leaf in a present optional group *)
         [(Some 5, 0, 1)];                       (* 3.20.30 *)
         [(Some 2, 0, 1); (Some 3, 1, 1)];       (* 2.11 *)
         [(None, 0, 1); (None, 1, 1)];           (* 2.12 added optional leaf: one null per element *)
         [(Some 1, 0, 2); (None, 1, 1)];         (* 2.10 *)
         [(None, 0, 0)];                         (* 5 added repeated leaf: empty *)
         [(Some 0, 0, 0)];                       (* 6.40 added required group: zero *)
         [(None, 0, 0)];                         (* 6.41 *)
         [(Some 100, 0, 0)] ]                    (* 1 *)
  /\ convert_columns nat zn ex_src ex_tgt (shred_row (erase ex_src) ex_v2) =
  Some [ [(None, 0, 0)]; [(None, 0, 0)]; [(None, 0, 0)]; [(None, 0, 0)]; [(None, 0, 0)];
         [(None, 0, 0)]; [(Some 0, 0, 0)]; [(None, 0, 0)]; [(Some 101, 0, 0)] ].
Proof. vm_compute. split; reflexivity. Qed.

Example C12_ex_reassembled :
  match convert_columns nat zn ex_src ex_tgt (shred_row (erase ex_src) ex_v) with
  | Some cols => asm (erase ex_tgt) 0 0 3 (zipapp cols (repeat [] 9))
  | None => None
  end = Some (project nat zn ex_src ex_tgt ex_v, repeat [] 9).
Proof. vm_compute. reflexivity. Qed.

(* the column-chunk view of three rows, rows 1 .. 2: the copied columns hold
   what the row path yields for them, at the place the target gives them *)
Definition ex_rows : list (list (column nat)) :=
  [shred_row (erase ex_src) ex_v; shred_row (erase ex_src) ex_v2; shred_row (erase ex_src) ex_v].

Example C12_ex_chunk_views :
  chunk_views nat (plan nat zn ex_src ex_tgt 0 0) 1 3 ex_rows =
  [ None;                                                        (* 3.21 added *)
    Some [(None, 0, 0); (Some 5, 0, 1)];                         (* 3.20.30 = source column 3 *)
    Some [(None, 0, 0); (Some 2, 0, 1); (Some 3, 1, 1)];         (* 2.11 = source column 2 *)
    None;                                                        (* 2.12 added *)
    Some [(None, 0, 0); (Some 1, 0, 2); (None, 1, 1)];           (* 2.10 = source column 1 *)
    None; None; None;
    Some [(Some 101, 0, 0); (Some 100, 0, 0)] ]                  (* 1 = source column 0 *)
  /\ map (fun c => chunk_of nat c (row_slice 1 3 (map (conv nat (plan nat zn ex_src ex_tgt 0 0)) ex_rows))) [1; 2; 4; 8] =
  [ [(None, 0, 0); (Some 5, 0, 1)]; [(None, 0, 0); (Some 2, 0, 1); (Some 3, 1, 1)];
    [(None, 0, 0); (Some 1, 0, 2); (None, 1, 1)]; [(Some 101, 0, 0); (Some 100, 0, 0)] ].
Proof. vm_compute. split; reflexivity. Qed.

(* the per-row placeholder of Convert: the deepest shared group (here the root)
   sits at levels (0, 0) and has no direct leaf child; no source column is read *)
Example C12_ex_placeholder :
  let src := NGroup (NCons 1 Req (NGroup (NCons 2 Req (NLeaf 7) NNil)) NNil) in
  let tgt := NGroup (NCons 1 Req (NGroup (NCons 2 Req (NLeaf 7) NNil))
                    (NCons 5 Opt (NLeaf 7) (NCons 6 Req (NLeaf 8) NNil))) in
  plan nat zn src tgt 0 0 = [ACopy 0; AHold None; AHold (Some 0)] /\
  convert_columns nat zn src tgt [[(Some 4, 0, 0)]] = Some [[(Some 4, 0, 0)]; [(None, 0, 0)]; [(Some 0, 0, 0)]].
Proof. vm_compute. split; reflexivity. Qed.

(* a target that reads required nodes as optional ones: the required group 3.20
   and the required leaf 4 of [ex_src] are optional, a column is added in 3.20 *)
Definition ex_tgtN : nschema :=
  NGroup (NCons 4 Req (NLeaf 9)
         (NCons 3 Opt (NGroup (NCons 20 Req (NGroup (NCons 31 Opt (NLeaf 8) (NCons 30 Req (NLeaf 7) NNil))) NNil))
         (NCons 2 Rpt (NGroup (NCons 11 Req (NLeaf 8) NNil)) NNil))).

Definition ex_tgtW : nschema :=
  NGroup (NCons 4 Opt (NLeaf 9)
         (NCons 3 Opt (NGroup (NCons 20 Opt (NGroup (NCons 31 Opt (NLeaf 8) (NCons 30 Opt (NLeaf 7) NNil))) NNil))
         (NCons 2 Rpt (NGroup (NCons 11 Opt (NLeaf 8) NNil)) NNil))).

Example C12_ex_widens :
  compat ex_src ex_tgtN = true /\ widens ex_tgtN ex_tgtW = true /\ compat ex_src ex_tgtW = false /\
  wf_nschema ex_tgtN /\ wf_nschema ex_tgtW.
Proof. split; [|split; [|split]]; try (vm_compute; reflexivity). cbn. repeat split; auto; lia. Qed.

Example C12_ex_widened_value :
  project_widen nat zn ex_src ex_tgtN ex_tgtW ex_v =
  VGroup [VOpt (Some (VLeaf 9));
          VOpt (Some (VGroup [VOpt (Some (VGroup [VOpt None; VOpt (Some (VLeaf 5))]))]));
          VList [VGroup [VOpt (Some (VLeaf 2))]; VGroup [VOpt (Some (VLeaf 3))]]].
Proof. vm_compute. reflexivity. Qed.

Example C12_ex_widened_convert :
  convert_widen_columns nat zn ex_src ex_tgtN ex_tgtW (shred_row (erase ex_src) ex_v) =
  Some [ [(Some 9, 0, 1)];                       (* 4: required -> optional, present *)
         [(None, 0, 2)];                         (* 3.20.31 added: 3 and 3.20 present, 31 null *)
         [(Some 5, 0, 3)];                       (* 3.20.30: three optional nodes on the path now *)
         [(Some 2, 0, 2); (Some 3, 1, 2)] ]      (* 2.11 *)
  /\ convert_widen_columns nat zn ex_src ex_tgtN ex_tgtW (shred_row (erase ex_src) ex_v2) =
  Some [ [(Some 9, 0, 1)]; [(None, 0, 0)]; [(None, 0, 0)]; [(None, 0, 0)] ]   (* 3 null: nothing below it is lifted *)
  /\ match convert_widen_columns nat zn ex_src ex_tgtN ex_tgtW (shred_row (erase ex_src) ex_v) with
     | Some cols => asm (erase ex_tgtW) 0 0 3 (zipapp cols (repeat [] 4))
     | None => None
     end = Some (project_widen nat zn ex_src ex_tgtN ex_tgtW ex_v, repeat [] 4).
Proof. vm_compute. repeat split; reflexivity. Qed.

(* the per-row placeholder below a widened group: the shared group 1 sits at
   levels (0, 0) of the source and has no direct leaf child, so no source
   column is read; in the target it is optional and PRESENT, the added optional
   column is null at definition level 1 and the added required one is defined *)
Example C12_ex_widened_placeholder :
  let src := NGroup (NCons 1 Req (NGroup (NCons 2 Req (NGroup (NCons 3 Req (NLeaf 7) NNil)) NNil)) NNil) in
  let tgtN := NGroup (NCons 1 Req (NGroup (NCons 5 Opt (NLeaf 7) (NCons 2 Req (NGroup (NCons 3 Req (NLeaf 7) NNil))
                                  (NCons 6 Req (NLeaf 8) NNil)))) NNil) in
  let tgt := NGroup (NCons 1 Opt (NGroup (NCons 5 Opt (NLeaf 7) (NCons 2 Req (NGroup (NCons 3 Req (NLeaf 7) NNil))
                                 (NCons 6 Req (NLeaf 8) NNil)))) NNil) in
  plan nat zn src tgtN 0 0 = [AHold None; ACopy 0; AHold (Some 0)] /\
  convert_widen_columns nat zn src tgtN tgt [[(Some 4, 0, 0)]]
  = Some [[(None, 0, 1)]; [(Some 4, 0, 1)]; [(Some 0, 0, 1)]].
Proof. vm_compute. split; reflexivity. Qed.

(* the free choice: nothing below the widened group 1 is read from the source
   (both columns are per-row placeholders): the group reads as null, also the
   required added leaf is a null at level 0; as soon as one column below it is
   copied (example above) the group is present for every column *)
Example C12_ex_widened_null :
  let src := NGroup (NCons 1 Req (NGroup (NCons 2 Req (NGroup (NCons 3 Req (NLeaf 7) NNil)) NNil))
                    (NCons 9 Req (NLeaf 7) NNil)) in
  let tgtN := NGroup (NCons 1 Req (NGroup (NCons 5 Opt (NLeaf 7) (NCons 6 Req (NLeaf 8) NNil)))
                     (NCons 9 Req (NLeaf 7) NNil)) in
  let tgt := NGroup (NCons 1 Opt (NGroup (NCons 5 Opt (NLeaf 7) (NCons 6 Req (NLeaf 8) NNil)))
                    (NCons 9 Opt (NLeaf 7) NNil)) in
  hold_flags nat zn src tgtN = [true; true; false] /\
  project_widen nat zn src tgtN tgt (VGroup [VGroup [VGroup [VLeaf 4]]; VLeaf 8])
  = VGroup [VOpt None; VOpt (Some (VLeaf 8))] /\
  convert_widen_columns nat zn src tgtN tgt [[(Some 4, 0, 0)]; [(Some 8, 0, 0)]]
  = Some [[(None, 0, 0)]; [(None, 0, 0)]; [(Some 8, 0, 1)]] /\
  columns_of nat zn src tgtN tgt = [None; None; Some 1].
Proof. vm_compute. repeat split; reflexivity. Qed.

(* Conversion.Column of a placeholder column below a widened node that is
   present: the fill path reads the first column of the shared group *)
Example C12_ex_widened_columns :
  let src := NGroup (NCons 1 Req (NGroup (NCons 2 Req (NGroup (NCons 3 Req (NLeaf 7) NNil)) NNil)) NNil) in
  let tgtN := NGroup (NCons 1 Req (NGroup (NCons 5 Opt (NLeaf 7) (NCons 2 Req (NGroup (NCons 3 Req (NLeaf 7) NNil))
                                  (NCons 6 Req (NLeaf 8) NNil)))) NNil) in
  let tgt := NGroup (NCons 1 Opt (NGroup (NCons 5 Opt (NLeaf 7) (NCons 2 Req (NGroup (NCons 3 Req (NLeaf 7) NNil))
                                 (NCons 6 Req (NLeaf 8) NNil)))) NNil) in
  columns_of nat zn src tgtN tgtN = [None; Some 0; None] /\
  columns_of nat zn src tgtN tgt = [Some 0; Some 0; Some 0].
Proof. vm_compute. split; reflexivity. Qed.

(* incompatible: field 2 is a leaf in the target, field 3 changes repetition *)
Example C12_ex_rejected :
  convert_columns nat zn ex_src (NGroup (NCons 2 Rpt (NLeaf 7) NNil)) [] = None /\
  convert_columns nat zn ex_src (NGroup (NCons 1 Opt (NLeaf 7) NNil)) [] = None /\
  convert_columns nat zn ex_src (NGroup (NCons 1 Req (NLeaf 8) NNil)) [] = None /\
  clash ex_src (NGroup (NCons 2 Rpt (NLeaf 7) NNil)).
Proof.
  repeat split; try (vm_compute; reflexivity).
  constructor. eapply clash_here_node; [vm_compute; reflexivity|]. constructor.
Qed.

(** * The algorithm of the pinned tree (closest-sibling heuristic) refutes the
      statement: the statement holds of [convert_columns] only. *)

(* an optional leaf added next to a repeated leaf: the repeated sibling's
   entries are mirrored into the new, non-repeated column *)
Definition px_src : nschema := NGroup (NCons 1 Rpt (NLeaf 7) NNil).
Definition px_tgt : nschema := NGroup (NCons 1 Rpt (NLeaf 7) (NCons 2 Opt (NLeaf 7) NNil)).
Definition px_v : value nat := VGroup [VList [VLeaf 1; VLeaf 2; VLeaf 3]].

Theorem C12_pinned_repeated_sibling_refuted :
  compat px_src px_tgt = true /\ wf_nschema px_src /\ wf_nschema px_tgt /\ wfn nat 3 (erase px_src) px_v /\
  convert_columns_pinned nat zn px_src px_tgt (shred_row (erase px_src) px_v)
  = [ [(Some 1, 0, 1); (Some 2, 1, 1); (Some 3, 1, 1)]; [(None, 0, 0); (None, 1, 0); (None, 1, 0)] ] /\
  asm (erase px_tgt) 0 0 4
      (zipapp (convert_columns_pinned nat zn px_src px_tgt (shred_row (erase px_src) px_v)) [[]; []])
  <> Some (project nat zn px_src px_tgt px_v, [[]; []]).
Proof.
  split; [vm_compute; reflexivity|]. split; [cbn; repeat split; auto; lia|].
  split; [cbn; repeat split; auto; lia|]. split; [cbn; repeat split; auto; repeat constructor|].
  split; [vm_compute; reflexivity|]. vm_compute. intros H. discriminate H.
Qed.

(* an optional leaf added to an optional group that has no direct leaf child:
   the placeholder says "group null" while the group is present *)
Definition py_src : nschema :=
  NGroup (NCons 1 Opt (NGroup (NCons 2 Req (NGroup (NCons 3 Req (NLeaf 7) NNil)) NNil)) NNil).
Definition py_tgt : nschema :=
  NGroup (NCons 1 Opt (NGroup (NCons 2 Req (NGroup (NCons 3 Req (NLeaf 7) NNil))
                              (NCons 4 Opt (NLeaf 7) NNil))) NNil).
Definition py_v : value nat := VGroup [VOpt (Some (VGroup [VGroup [VLeaf 5]]))].

Theorem C12_pinned_no_leaf_sibling_refuted :
  compat py_src py_tgt = true /\ wfn nat 0 (erase py_src) py_v /\
  convert_columns_pinned nat zn py_src py_tgt (shred_row (erase py_src) py_v)
  = [ [(Some 5, 0, 1)]; [(None, 0, 0)] ] /\
  shred_row (erase py_tgt) (project nat zn py_src py_tgt py_v) = [ [(Some 5, 0, 1)]; [(None, 0, 1)] ].
Proof. repeat split; vm_compute; auto. Qed.

(* a column added below a group that only the target makes optional, next to a
   column both sides have (repaired in 989a01a, f1d59c6): the placeholder says
   "group null", the copied column says "group present"; assembling takes the
   first column's word and the value 7 is lost *)
Definition pw_src : nschema :=
  NGroup (NCons 1 Req (NGroup (NCons 2 Req (NGroup (NCons 3 Req (NLeaf 7) NNil)) NNil)) NNil).
Definition pw_tgtN : nschema :=
  NGroup (NCons 1 Req (NGroup (NCons 4 Opt (NLeaf 7) (NCons 2 Req (NGroup (NCons 3 Req (NLeaf 7) NNil)) NNil))) NNil).
Definition pw_tgt : nschema :=
  NGroup (NCons 1 Opt (NGroup (NCons 4 Opt (NLeaf 7) (NCons 2 Req (NGroup (NCons 3 Req (NLeaf 7) NNil)) NNil))) NNil).
Definition pw_v : value nat := VGroup [VGroup [VGroup [VLeaf 7]]].

Theorem C12_pinned_placeholder_below_widened_group_refuted :
  compat pw_src pw_tgtN = true /\ widens pw_tgtN pw_tgt = true /\ wfn nat 0 (erase pw_src) pw_v /\
  convert_widen_columns_pinned nat zn pw_src pw_tgtN pw_tgt (shred_row (erase pw_src) pw_v)
  = [ [(None, 0, 0)]; [(Some 7, 0, 1)] ] /\
  convert_widen_columns nat zn pw_src pw_tgtN pw_tgt (shred_row (erase pw_src) pw_v)
  = Some [ [(None, 0, 1)]; [(Some 7, 0, 1)] ] /\
  project_widen nat zn pw_src pw_tgtN pw_tgt pw_v = VGroup [VOpt (Some (VGroup [VOpt None; VGroup [VLeaf 7]]))] /\
  asm (erase pw_tgt) 0 0 1
      (zipapp (convert_widen_columns_pinned nat zn pw_src pw_tgtN pw_tgt (shred_row (erase pw_src) pw_v)) [[]; []])
  <> Some (project_widen nat zn pw_src pw_tgtN pw_tgt pw_v, [[]; []]).
Proof.
  split; [vm_compute; reflexivity|]. split; [vm_compute; reflexivity|].
  split; [cbn; repeat split; auto|]. split; [vm_compute; reflexivity|].
  split; [vm_compute; reflexivity|]. split; [vm_compute; reflexivity|].
  vm_compute. intros H. discriminate H.
Qed.

Print Assumptions C12_pinned_repeated_sibling_refuted.
Print Assumptions C12_pinned_placeholder_below_widened_group_refuted.
Print Assumptions C12_pinned_no_leaf_sibling_refuted.
