(** C01 — write then read returns exactly the rows that were written.

    The pipeline is layout-parametric: the page cuts of every column are an
    arbitrary input, so every choice a writer can make (page size limits, row
    group limits, Flush calls between Write calls, dictionary fallback — which
    only changes the value encoding of later pages) is covered by one theorem.
    Leaf values are bit patterns / byte strings and are never interpreted, so
    NaN payloads, -0 and extreme integers are ordinary values. *)
From Coq Require Import List NArith ZArith Lia.
From PQ Require Import Base.Bytes Enc.DeltaBP Enc.DeltaBPProofs Enc.Plain Enc.PlainProofs.
From PQ Require Import Dremel.Model Dremel.Proofs File.Pipeline File.PipelineProofs File.PipelineFull.
Import ListNotations.
Open Scope N_scope.

Section C01.
  Variable V : Type.
  (* any value encoding that round-trips on the values it accepts (C04 provides
     them: PLAIN, DELTA_*, BYTE_STREAM_SPLIT, RLE_DICTIONARY indexes) *)
  Variable venc : list V -> bytes.
  Variable vdec : nat -> bytes -> option (list V).
  Variable vok : V -> Prop.
  Hypothesis v_roundtrip : forall vs, Forall vok vs -> N.of_nat (length vs) < 2 ^ 61 ->
                                      vdec (length vs) (venc vs) = Some vs.

  (** Re-assembly inverts shredding, for every schema and value (nulls, empty
      lists and nesting preserved), whatever columns of later rows follow. *)
  Theorem C01_assemble_shred : forall s, wf_schema s -> forall v r d k n tails,
    wfn V n s v -> length tails = nleaves s -> heads_le V k tails ->
    asm s d k (S n) (zipapp (shred s v r d k) tails) = Some (v, tails).
  Proof. exact (asm_shred V). Qed.

  (** A page (levels + values) decodes to the entries it was built from. *)
  Theorem C01_page_roundtrip : forall maxr maxd es,
    Forall (entry_ok V vok maxr maxd) es -> N.of_nat (length es) < 2 ^ 61 ->
    decode_page V vdec maxr maxd (encode_page V venc maxr maxd es) = Some es.
  Proof. exact (page_roundtrip V venc vdec vok v_roundtrip). Qed.

  (** Any cut of a column into pages reads back as the column. *)
  Theorem C01_column_roundtrip_all_layouts : forall maxr maxd layout col,
    Forall (entry_ok V vok maxr maxd) col -> N.of_nat (length col) < 2 ^ 61 ->
    read_column V vdec maxr maxd (write_column V venc maxr maxd layout col) = Some col.
  Proof. exact (column_roundtrip V venc vdec vok v_roundtrip). Qed.

  (** The whole pipeline: for every schema, every sequence of well-formed
      records whose leaf values the value encoding accepts ([leaves_ok]) and
      every page layout of every column, reading the written file returns the
      records in order.  The only size condition is the format's: a column
      holds fewer than 2^61 entries. *)
  Theorem C01_roundtrip_all_layouts : forall s, wf_schema s -> forall n rows layouts,
    Forall (wfn V n s) rows -> Forall (leaves_ok V vok) rows ->
    Forall (fun c : column V => N.of_nat (length c) < 2 ^ 61) (shred_rows s rows) ->
    read_file V vdec s (length rows) (S n) (write_file V venc s layouts rows) = Some rows.
  Proof. exact (read_write_file_full V vok venc vdec v_roundtrip). Qed.

  (** The same with the column conditions explicit (level bounds and value
      placement of the shredded entries), for columns that do not come from
      [shred_rows]. *)
  Theorem C01_roundtrip_columns : forall s, wf_schema s -> forall n rows layouts,
    Forall (wfn V n s) rows ->
    cols_ok V vok (max_levels s 0 0) (shred_rows s rows) ->
    read_file V vdec s (length rows) (S n) (write_file V venc s layouts rows) = Some rows.
  Proof. exact (read_write_file V venc vdec vok v_roundtrip). Qed.
End C01.

Print Assumptions C01_assemble_shred.
Print Assumptions C01_page_roundtrip.
Print Assumptions C01_column_roundtrip_all_layouts.
Print Assumptions C01_roundtrip_all_layouts.
Print Assumptions C01_roundtrip_columns.

(** The value-encoding hypothesis is satisfiable: DELTA_BINARY_PACKED on int64
    and PLAIN on fixed-width patterns are instances. *)
Definition delta64_dec (n : nat) (b : bytes) : option (list Z) :=
  match DeltaBP.dec 64 b with
  | Some (xs, _) => if Nat.eqb (length xs) n then Some xs else None
  | None => None
  end.

Theorem C01_delta64_is_a_value_encoding : forall vs,
  Forall (in_sint 64) vs -> N.of_nat (length vs) < 2 ^ 61 ->
  delta64_dec (length vs) (DeltaBP.enc 64 vs) = Some vs.
Proof.
  intros vs Hv Hl. unfold delta64_dec.
  pose proof (dec_enc 64 (or_intror eq_refl) vs [] Hv) as H. rewrite app_nil_r in H.
  rewrite H by (eapply N.lt_trans; [exact Hl|reflexivity]). now rewrite Nat.eqb_refl.
Qed.

Theorem C01_plain_fixed_is_a_value_encoding : forall k vs, (0 < k)%nat ->
  Forall (fun v => v < 256 ^ N.of_nat k) vs ->
  dec_plain_fixed k (plain_fixed k vs) = Some vs.
Proof. intros k vs Hk Hv. now apply plain_fixed_roundtrip. Qed.

Print Assumptions C01_delta64_is_a_value_encoding.

(** Non-vacuity: a record with an optional field, a repeated field holding an
    empty list and a nested repeated group, written with a layout that cuts
    columns in the middle of the record sequence. *)
Definition ex_schema : schema :=
  Group (FCons Req Leaf (FCons Opt Leaf (FCons Rpt Leaf
        (FCons Rpt (Group (FCons Req Leaf (FCons Rpt Leaf FNil))) FNil)))).

Definition ex_rows : list (value Z) :=
  [ VGroup [VLeaf 1%Z; VOpt None; VList []; VList []];
    VGroup [VLeaf (-2)%Z; VOpt (Some (VLeaf 7%Z)); VList [VLeaf 3%Z; VLeaf 4%Z];
            VList [VGroup [VLeaf 5%Z; VList []]; VGroup [VLeaf 6%Z; VList [VLeaf 8%Z; VLeaf 9%Z]]]];
    VGroup [VLeaf 9223372036854775807%Z; VOpt (Some (VLeaf (-9223372036854775808)%Z)); VList [VLeaf 0%Z]; VList []] ].

Example C01_ex_wf : wf_schema ex_schema /\ Forall (wfn Z 4 ex_schema) ex_rows /\
                    Forall (leaves_ok Z (in_sint 64)) ex_rows.
Proof.
  split; [cbn; repeat split; lia|]. split; [|repeat constructor; cbn; unfold in_sint; repeat split; lia].
  repeat constructor; cbn; repeat split; try lia; repeat constructor; cbn; repeat split; try lia;
    repeat constructor; cbn; auto.
Qed.

Example C01_ex_roundtrip :
  read_file Z delta64_dec ex_schema 3 5
    (write_file Z (DeltaBP.enc 64) ex_schema [[1;2]; [2]; [1;1;2]; [3]; [2;2]]%nat ex_rows) = Some ex_rows.
Proof.
  destruct C01_ex_wf as (Hs & Hw & Hl).
  apply (C01_roundtrip_all_layouts Z (DeltaBP.enc 64) delta64_dec (in_sint 64) C01_delta64_is_a_value_encoding
           ex_schema Hs 4 ex_rows _ Hw Hl).
  apply (short_columns Z 16); reflexivity.
Qed.
