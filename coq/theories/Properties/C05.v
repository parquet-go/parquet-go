(** C05 — statistics and page indexes bound the data they describe.
    The theorems of Stats/*.v, stated for the column kinds of parquet-go.

    Values are bit patterns ([N]) for the numeric kinds and byte lists for the
    byte kinds; [cmp_num k] / [cmp_bytes] / [cmp_be128] are the orders of
    compare.go on those patterns (Stats/Order.v), [nan_num k] is math.IsNaN on
    the bits (constantly false for the non-float kinds).  "non-NaN" below is
    [nan_num k v = false]. *)
From Coq Require Import List NArith ZArith Bool Lia.
From PQ Require Import Base.Bytes Search.Model Search.Proofs
     Stats.Order Stats.OrderProofs Stats.Model Stats.Proofs Stats.Instances Stats.Kinds Stats.Decimal
     Stats.Multi Stats.MultiProofs Stats.Deprecated Stats.DeprecatedProofs.
Import ListNotations.
Open Scope Z_scope.

(** * Page bounds: page_*.go Bounds, dictionary_*.go Bounds *)

(** Every non-null non-NaN value of a page lies within [min, max] in the
    column order; min and max are values of the page; they are NaN only when
    the page holds nothing else.  All numeric kinds. *)
Theorem C05_page_bounds_sound : forall (k : numkind) (l : list N) (mn mx : N),
  bounds_num k l = Some (mn, mx) ->
  (forall v, In v l -> nan_num k v = false -> cmp_num k mn v <= 0 /\ cmp_num k v mx <= 0) /\
  In mn l /\ In mx l /\
  ((exists v, In v l /\ nan_num k v = false) -> nan_num k mn = false /\ nan_num k mx = false).
Proof.
  intros k l mn mx.
  exact (page_bounds_sound N (cmp_num k) (nan_num k) (cmp_num_opp k) (cmp_num_trans k) (cmp_num_nan k)
                           false l mn mx).
Qed.

(** the same for dictionary-encoded pages (floatDictionary.Bounds ... after 14734b5) *)
Theorem C05_dict_page_bounds_sound : forall (k : numkind) (l : list N) (mn mx : N),
  dict_bounds_num k l = Some (mn, mx) ->
  (forall v, In v l -> nan_num k v = false -> cmp_num k mn v <= 0 /\ cmp_num k v mx <= 0) /\
  In mn l /\ In mx l /\
  ((exists v, In v l /\ nan_num k v = false) -> nan_num k mn = false /\ nan_num k mx = false).
Proof.
  intros k l mn mx.
  exact (page_bounds_sound N (cmp_num k) (nan_num k) (cmp_num_opp k) (cmp_num_trans k) (cmp_num_nan k)
                           (existsb (nan_num k) l) l mn mx).
Qed.

(** BYTE_ARRAY ([sw = true], the switch of byteArrayPage.bounds) and
    FIXED_LEN_BYTE_ARRAY ([sw = false], boundsFixedLenByteArray): lexicographic *)
Theorem C05_page_bounds_sound_bytes : forall (sw : bool) (l : list bytes) (mn mx : bytes),
  page_bounds cmp_bytes (fun _ => false) sw l = Some (mn, mx) ->
  (forall v, In v l -> cmp_bytes mn v <= 0 /\ cmp_bytes v mx <= 0) /\ In mn l /\ In mx l.
Proof.
  intros sw l mn mx H. destruct (bytes_page_bounds_sound sw l mn mx H) as (W & I1 & I2).
  split; [|auto]. intros v Hv. exact (W v Hv eq_refl).
Qed.

(** 128-bit big-endian (UUID): boundsBE128 compares two uint64 halves *)
Theorem C05_page_bounds_sound_be128 : forall (l : list bytes) (mn mx : bytes),
  bounds_byte BBe128 l = Some (mn, mx) ->
  (forall v, In v l -> cmp_be128 mn v <= 0 /\ cmp_be128 v mx <= 0) /\ In mn l /\ In mx l.
Proof.
  intros l mn mx H. destruct (be128_page_bounds_sound l mn mx H) as (W & I1 & I2).
  split; [|auto]. intros v Hv. exact (W v Hv eq_refl).
Qed.

Theorem C05_page_bounds_none_iff_empty : forall (k : numkind) (l : list N),
  bounds_num k l = None <-> l = [].
Proof.
  intros k l.
  apply page_bounds_none.
Qed.

Print Assumptions C05_page_bounds_sound.
Print Assumptions C05_dict_page_bounds_sound.
Print Assumptions C05_page_bounds_sound_bytes.
Print Assumptions C05_page_bounds_sound_be128.
Print Assumptions C05_page_bounds_none_iff_empty.

(** * Column chunk statistics: writer.go recordPageStats *)

(** For any list of pages whose recorded bounds are sound for their values
    (what the theorems above give), the folded chunk bounds are bounds of every
    non-NaN value of the chunk, are values of the chunk, are NaN only when the
    chunk holds nothing else; the value and null counts are the sums. *)
Theorem C05_chunk_stats_sound : forall (k : numkind) (pages : list (list (option N))),
  let vals := concat (map (@non_nulls N) pages) in
  let st := chunk_num k (map (page_of_values (cmp_num k) (nan_num k) false) pages) in
  match cs_bounds st with
  | None => vals = []
  | Some (mn, mx) =>
      (forall v, In v vals -> nan_num k v = false -> cmp_num k mn v <= 0 /\ cmp_num k v mx <= 0) /\
      In mn vals /\ In mx vals /\
      ((exists v, In v vals /\ nan_num k v = false) -> nan_num k mn = false /\ nan_num k mx = false)
  end.
Proof.
  intros k pages.
  apply num_chunk_stats_sound.
  apply (pages_of_values_sound N (cmp_num k) (nan_num k) (cmp_num_opp k) (cmp_num_trans k) (cmp_num_nan k)).
Qed.

Theorem C05_chunk_stats_sound_any_pages : forall (k : numkind) ps valss,
  Forall2 (page_sound N (cmp_num k) (nan_num k)) ps valss ->
  match cs_bounds (chunk_num k ps) with
  | None => concat valss = []
  | Some (mn, mx) =>
      within N (cmp_num k) (nan_num k) mn mx (concat valss) /\
      In mn (concat valss) /\ In mx (concat valss) /\
      (has_value N (nan_num k) (concat valss) -> nan_num k mn = false /\ nan_num k mx = false)
  end.
Proof. exact num_chunk_stats_sound. Qed.

Theorem C05_chunk_stats_sound_bytes : forall ps valss,
  Forall2 (page_sound bytes cmp_bytes (fun _ => false)) ps valss ->
  match cs_bounds (chunk_byte BBytes ps) with
  | None => concat valss = []
  | Some (mn, mx) =>
      within bytes cmp_bytes (fun _ => false) mn mx (concat valss) /\
      In mn (concat valss) /\ In mx (concat valss)
  end.
Proof. exact bytes_chunk_stats_sound. Qed.

Theorem C05_chunk_counts_exact : forall (k : numkind) ps,
  cs_num_values (chunk_num k ps) = sumZ (map (@pi_num_values N) ps) /\
  cs_null_count (chunk_num k ps) = sumZ (map (@pi_num_nulls N) ps).
Proof.
  intros k ps.
  apply chunk_counts_exact.
Qed.

Print Assumptions C05_chunk_stats_sound.
Print Assumptions C05_chunk_stats_sound_any_pages.
Print Assumptions C05_chunk_stats_sound_bytes.
Print Assumptions C05_chunk_counts_exact.

(** * Deprecated min / max of the column chunk statistics: writer.go recordPageStats,
      option DeprecatedDataPageStatistics *)

(** [chunk_dep_num k dep ps] / [chunk_dep_byte k dep ps] model the fields
    Statistics.Min / Statistics.Max of a column chunk (Stats/Deprecated.v: they
    are assigned inside the branches of recordPageStats that assign
    MinValue / MaxValue).  For every list of pages - any number of pages, bounds
    moving on any page, byte strings of any length - they are the chunk's
    min_value / max_value when the option is set and absent otherwise; hence,
    for pages whose recorded bounds are sound, they are bounds of every non-NaN
    value of the chunk in the column order and values of the chunk. *)
Theorem C05_chunk_deprecated_is_min_max_value : forall (k : numkind) (dep : bool) ps,
  chunk_dep_num k dep ps = dep_of_bounds dep (cs_bounds (chunk_num k ps)).
Proof. exact chunk_dep_num_spec. Qed.

Theorem C05_chunk_deprecated_is_min_max_value_bytes : forall (k : bytekind) (dep : bool) ps,
  chunk_dep_byte k dep ps = dep_of_bounds dep (cs_bounds (chunk_byte k ps)).
Proof. exact chunk_dep_byte_spec. Qed.

Theorem C05_chunk_deprecated_stats_sound : forall (k : numkind) ps valss,
  Forall2 (page_sound N (cmp_num k) (nan_num k)) ps valss ->
  match chunk_dep_num k true ps with
  | (Some mn, Some mx) =>
      within N (cmp_num k) (nan_num k) mn mx (concat valss) /\
      In mn (concat valss) /\ In mx (concat valss) /\
      (has_value N (nan_num k) (concat valss) -> nan_num k mn = false /\ nan_num k mx = false)
  | (None, None) => concat valss = []
  | _ => False
  end.
Proof.
  intros k ps valss F. rewrite chunk_dep_num_spec. pose proof (num_chunk_stats_sound k ps valss F) as H.
  unfold dep_of_bounds. destruct (cs_bounds (chunk_num k ps)) as [[mn mx]|]; exact H.
Qed.

Theorem C05_chunk_deprecated_stats_sound_bytes : forall ps valss,
  Forall2 (page_sound bytes cmp_bytes (fun _ => false)) ps valss ->
  match chunk_dep_byte BBytes true ps with
  | (Some mn, Some mx) =>
      within bytes cmp_bytes (fun _ => false) mn mx (concat valss) /\ In mn (concat valss) /\ In mx (concat valss)
  | (None, None) => concat valss = []
  | _ => False
  end.
Proof.
  intros ps valss F. rewrite chunk_dep_byte_spec. pose proof (bytes_chunk_stats_sound ps valss F) as H.
  change (chunk_fold cmp_bytes no_nan ps) with (chunk_byte BBytes ps) in H.
  exact (dep_true_match bytes (fun mn mx => within bytes cmp_bytes (fun _ => false) mn mx (concat valss) /\ In mn (concat valss) /\ In mx (concat valss))
           (concat valss = []) _ H).
Qed.

Print Assumptions C05_chunk_deprecated_is_min_max_value.
Print Assumptions C05_chunk_deprecated_is_min_max_value_bytes.
Print Assumptions C05_chunk_deprecated_stats_sound.
Print Assumptions C05_chunk_deprecated_stats_sound_bytes.

(** non-vacuity: pages "m","m" | "zz","n" (the maximum grows in length on the
    second page), and a minimum that becomes shorter on the third page *)
Example C05_ex_deprecated_longer_max :
  chunk_dep_byte BBytes true
    [ {| pi_num_values := 2; pi_num_nulls := 0; pi_bounds := Some ([109], [109]) |};
      {| pi_num_values := 2; pi_num_nulls := 0; pi_bounds := Some ([110], [122; 122]) |} ]%N
  = (Some [109]%N, Some [122; 122]%N).
Proof. vm_compute. reflexivity. Qed.
Example C05_ex_deprecated_shorter_min :
  chunk_dep_byte BBytes true
    [ {| pi_num_values := 2; pi_num_nulls := 0; pi_bounds := Some ([109; 109], [109; 109; 109]) |};
      {| pi_num_values := 2; pi_num_nulls := 0; pi_bounds := Some ([110; 110], [110; 110]) |};
      {| pi_num_values := 2; pi_num_nulls := 0; pi_bounds := Some ([97], [110]) |} ]%N
  = (Some [97]%N, Some [110; 110]%N).
Proof. vm_compute. reflexivity. Qed.

(** * Truncation of byte-array bounds: column_index.go truncateLarge* *)

(** for every byte string and every size limit *)
Theorem C05_trunc_min_lower : forall (limit : nat) (v : bytes),
  cmp_bytes (truncate_min limit v) v <= 0.
Proof. exact truncate_min_lower. Qed.

(** ... all-0xFF prefixes included ([wf_bytes]: every byte is below 256) *)
Theorem C05_trunc_max_upper : forall (limit : nat) (v : bytes),
  wf_bytes v -> cmp_bytes v (truncate_max limit v) <= 0.
Proof. exact truncate_max_upper. Qed.

Print Assumptions C05_trunc_min_lower.
Print Assumptions C05_trunc_max_upper.

(** * The column index: column_index.go *)

(** one entry per page in each of the four lists, for every indexer and every
    page list (FIXED_LEN_BYTE_ARRAY: bounds have the size of the column) *)
Theorem C05_index_aligned : forall (k : numkind) ps,
  let ci := index_num k ps in
  length (ci_null_pages ci) = length ps /\ length (ci_null_counts ci) = length ps /\
  length (ci_min_values ci) = length ps /\ length (ci_max_values ci) = length ps.
Proof.
  intros k ps.
  exact (index_aligned N 0%N (fun v => v) (fun v => v) (order_num k) ps).
Qed.

Theorem C05_index_aligned_bytes : forall (k : bytekind) (limit : Z) ps,
  byte_pages_ok k ps ->
  let ci := index_byte k limit ps in
  length (ci_null_pages ci) = length ps /\ length (ci_null_counts ci) = length ps /\
  length (ci_min_values ci) = length ps /\ length (ci_max_values ci) = length ps.
Proof.
  intros k limit ps H. rewrite (index_byte_generic k limit ps H). apply index_aligned.
Qed.

(** null counts and null-page flags are the real ones *)
Theorem C05_counts_exact : forall (k : numkind) (pages : list (list (option N))) i vals,
  nth_error pages i = Some vals ->
  let ci := index_num k (map (page_of_values (cmp_num k) (nan_num k) false) pages) in
  nth_error (ci_null_counts ci) i = Some (Z.of_nat (count_nulls vals)) /\
  exists flag, nth_error (ci_null_pages ci) i = Some flag /\
               (flag = true <-> Forall (fun o => o = None) vals).
Proof. exact num_counts_exact. Qed.

Theorem C05_counts_exact_any_pages : forall (k : bytekind) (limit : Z) ps i p,
  byte_pages_ok k ps -> nth_error ps i = Some p ->
  let ci := index_byte k limit ps in
  nth_error (ci_null_counts ci) i = Some (pi_num_nulls p) /\
  nth_error (ci_null_pages ci) i = Some (pi_num_values p =? pi_num_nulls p).
Proof.
  intros k limit ps i p Hok H. cbv zeta. rewrite (index_byte_generic k limit ps Hok).
  destruct (index_counts_exact bytes (byte_zero k) (byte_tmin k limit) (byte_tmax k limit) (byte_ord k) ps i p H)
    as (H1 & H2 & _). auto.
Qed.

Theorem C05_level_histograms_exact : forall max_level column levels,
  length column = S max_level -> Forall (fun l => (l <= max_level)%nat) levels ->
  let (col, pg) := level_histograms max_level column levels in
  forall k, nth k col 0 = nth k column 0 + Z.of_nat (count_occ Nat.eq_dec levels k) /\
            nth k pg 0 = Z.of_nat (count_occ Nat.eq_dec levels k).
Proof. exact level_histograms_exact. Qed.

Print Assumptions C05_index_aligned.
Print Assumptions C05_index_aligned_bytes.
Print Assumptions C05_counts_exact.
Print Assumptions C05_counts_exact_any_pages.
Print Assumptions C05_level_histograms_exact.

(** * Boundary order *)

(** If the index claims Ascending (1) then mins and maxes are non-decreasing
    over all the stored entries (the zero entries of null pages included, which
    take part in the computation) and hence over the non-null pages;
    Descending (2) symmetrically.  Every numeric kind, for every page list
    (bounds need not come from values; NaN bounds allowed). *)
Theorem C05_boundary_order_true : forall (k : numkind) ps,
  let ci := index_num k ps in
  (ci_order ci = 1 -> ascending_nonnull N (cmp_num k) (to_search_index ci)) /\
  (ci_order ci = 2 -> ascending_nonnull N (fun a b => cmp_num k b a) (to_search_index ci)).
Proof.
  intros k ps. apply (claim_gives_nonnull N (cmp_num k)), num_boundary_order_true.
Qed.

(** BYTE_ARRAY, FIXED_LEN_BYTE_ARRAY and be128 indexers, with truncation *)
Theorem C05_boundary_order_true_bytes : forall (k : bytekind) (limit : Z) ps,
  k <> BDecimal -> byte_pages_ok k ps ->
  let ci := index_byte k limit ps in
  (ci_order ci = 1 -> ascending_nonnull bytes cmp_bytes (to_search_index ci)) /\
  (ci_order ci = 2 -> ascending_nonnull bytes (fun a b => cmp_bytes b a) (to_search_index ci)).
Proof.
  intros k limit ps Hk Hok. apply (claim_gives_nonnull bytes cmp_bytes), byte_boundary_order_true; assumption.
Qed.

(** The hypothesis [well_formed] that C06 assumes of an index claiming
    Ascending is discharged for the indexes the writer builds. *)
Theorem C05_discharges_C06_hypothesis : forall (k : numkind) ps,
  let ci := index_num k ps in
  well_formed N (cmp_num k) (ci_order ci =? 1) (to_search_index ci).
Proof.
  intros k ps.
  cbv zeta. apply claim_discharges_search_hypothesis. apply num_boundary_order_true.
Qed.

Theorem C05_discharges_C06_hypothesis_bytes : forall (k : bytekind) (limit : Z) ps,
  k <> BDecimal -> byte_pages_ok k ps ->
  let ci := index_byte k limit ps in
  well_formed bytes cmp_bytes (ci_order ci =? 1) (to_search_index ci).
Proof.
  intros k limit ps Hk Hok. cbv zeta. apply claim_discharges_search_hypothesis.
  apply byte_boundary_order_true; assumption.
Qed.

Print Assumptions C05_boundary_order_true.
Print Assumptions C05_boundary_order_true_bytes.
Print Assumptions C05_discharges_C06_hypothesis.
Print Assumptions C05_discharges_C06_hypothesis_bytes.

(** * Pruning *)

(** A reader that skips page p for value v when p is a null page or v < min_p
    or v > max_p, with the stored (possibly truncated) bounds, never skips a
    page that holds v. *)
Theorem C05_skip_safe : forall (k : numkind) (pages : list (list (option N))) p vals v,
  nth_error pages p = Some vals -> In (Some v) vals -> nan_num k v = false ->
  may_skip (cmp_num k) (index_num k (map (page_of_values (cmp_num k) (nan_num k) false) pages)) p v = false.
Proof.
  intros k pages p vals v Hp Hv Nv.
  exact (skip_safe N (cmp_num k) (nan_num k) (cmp_num_opp k) (cmp_num_trans k) (cmp_num_nan k)
           0%N (fun v => v) (fun v => v) (order_num k) (order_num_range k) (order_num_nan_free k)
           (fun _ => True) (fun v _ => cmp_num_refl k v) (fun v _ => cmp_num_refl k v)
           false pages p vals v Hp (fun _ _ => I) Hv Nv).
Qed.

Theorem C05_skip_safe_bytes : forall (k : bytekind) (limit : Z) (pages : list (list (option bytes))) p vals v,
  k = BBytes \/ (exists size, k = BFlba size) ->
  (forall vals x, In vals pages -> In (Some x) vals -> byte_value_ok k x) ->
  nth_error pages p = Some vals -> In (Some v) vals ->
  may_skip cmp_bytes
    (index_byte k limit (map (page_of_values cmp_bytes (fun _ => false) (match k with BBytes => true | _ => false end)) pages))
    p v = false.
Proof. exact byte_skip_safe. Qed.

Theorem C05_skip_safe_be128 : forall (pages : list (list (option bytes))) p vals v,
  nth_error pages p = Some vals -> In (Some v) vals ->
  may_skip cmp_be128 (index_byte BBe128 0 (map (page_of_values cmp_be128 (fun _ => false) false) pages)) p v = false.
Proof. exact be128_skip_safe. Qed.

Print Assumptions C05_skip_safe.
Print Assumptions C05_skip_safe_bytes.
Print Assumptions C05_skip_safe_be128.

(** * The orders of the library, read arithmetically *)

(** INT96: sign test + three words from the most significant = signed 96-bit *)
Theorem C05_int96_order_is_signed : forall a b,
  (a < 2 ^ 96)%N -> (b < 2 ^ 96)%N -> cmp_i96 a b = cmpZ (sintZ 96 a) (sintZ 96 b).
Proof.
  intros a b Ha Hb. rewrite cmp_i96_key, (i96_key_small a Ha), (i96_key_small b Hb). reflexivity.
Qed.

(** be128: two big-endian uint64 halves = lexicographic on the 16 bytes *)
Theorem C05_be128_order_is_lexicographic : forall a b,
  length a = 16%nat -> length b = 16%nat -> wf_bytes a -> wf_bytes b -> cmp_be128 a b = cmp_bytes a b.
Proof. exact cmp_be128_lexicographic. Qed.

(** FLOAT / DOUBLE on non-NaN bit patterns: order of the sign-magnitude keys
    (-0 and +0 compare equal, -inf below and +inf above every finite value) *)
Theorem C05_float_order_is_sign_magnitude : forall (eb mb a b : N),
  f_is_nan eb mb a = false -> f_is_nan eb mb b = false ->
  (cmp_float eb mb a b <= 0 <-> f_key eb mb a <= f_key eb mb b).
Proof. exact cmp_float_key. Qed.

Print Assumptions C05_int96_order_is_signed.
Print Assumptions C05_be128_order_is_lexicographic.
Print Assumptions C05_float_order_is_sign_magnitude.

(** * Binary DECIMAL columns (type_decimal.go) *)

(** compareDecimalByteArrays on big-endian two's-complement strings of any
    lengths (empty = 0) is the order of the integers they denote *)
Theorem C05_decimal_order_is_signed : forall a b, wf_bytes a -> wf_bytes b ->
  cmp_decimal a b = cmpZ (dec_val a) (dec_val b).
Proof. exact cmp_decimal_val. Qed.

(** decimalPage.Bounds ([sw = false]) and decimalDictionary.Bounds ([sw = true]) *)
Theorem C05_page_bounds_sound_decimal : forall (sw : bool) (l : list bytes) (mn mx : bytes),
  Forall wf_bytes l -> page_bounds cmp_decimal (fun _ => false) sw l = Some (mn, mx) ->
  (forall v, In v l -> cmp_decimal mn v <= 0 /\ cmp_decimal v mx <= 0) /\ In mn l /\ In mx l.
Proof. exact decimal_page_bounds_sound. Qed.

(** decimalColumnIndexer: never truncated, order by orderOfDecimalBytes *)
Theorem C05_boundary_order_true_decimal : forall (limit : Z) ps, Forall dec_page_ok ps ->
  let ci := index_byte BDecimal limit ps in
  (ci_order ci = 1 -> ascending_nonnull bytes cmp_decimal (to_search_index ci)) /\
  (ci_order ci = 2 -> ascending_nonnull bytes (fun a b => cmp_decimal b a) (to_search_index ci)).
Proof. exact decimal_boundary_order_nonnull. Qed.

Theorem C05_skip_safe_decimal : forall (sw : bool) (limit : Z) (pages : list (list (option bytes))) p vals v,
  (forall vs x, In vs pages -> In (Some x) vs -> wf_bytes x) ->
  nth_error pages p = Some vals -> In (Some v) vals ->
  may_skip cmp_decimal
    (index_byte BDecimal limit (map (page_of_values cmp_decimal (fun _ => false) sw) pages)) p v = false.
Proof. exact decimal_skip_safe. Qed.

Print Assumptions C05_decimal_order_is_signed.
Print Assumptions C05_page_bounds_sound_decimal.
Print Assumptions C05_boundary_order_true_decimal.
Print Assumptions C05_skip_safe_decimal.

(** * The column index of a MultiRowGroup column chunk: multi_row_group.go *)

(** The pages of the index are the pages of the chunks' indexes, one chunk
    after the other ([multi_pages]); IsAscending / IsDescending are computed by
    isOrdered ([multi_is_ordered]) from the claims of the chunks' indexes and
    from the bounds on both sides of every chunk boundary.  If the claims of the
    chunks are true (C05_boundary_order_true for the indexes the writer builds)
    and the bounds of the non-null pages are not NaN with min <= max
    ([page_ok]; true of the stored bounds by C05_page_bounds_sound, truncation
    only widens them, and an index that claims an order has no NaN bound), then
    a claim of the concatenated index is true over every pair of its non-null
    pages: across any number of chunks, and of chunks holding only null pages. *)
Theorem C05_multi_order_true : forall (k : numkind) (claims : list bool) (chunks : list (index N)),
  Forall (Forall (page_ok N (cmp_num k) (nan_num k))) chunks ->
  (Forall2 (fun (claim : bool) idx => claim = true -> ascending_nonnull N (cmp_num k) idx) claims chunks ->
   multi_is_ordered (cmp_num k) true claims chunks = true ->
   ascending_nonnull N (cmp_num k) (multi_pages chunks)) /\
  (Forall2 (fun (claim : bool) idx => claim = true -> ascending_nonnull N (fun a b => cmp_num k b a) idx) claims chunks ->
   multi_is_ordered (cmp_num k) false claims chunks = true ->
   ascending_nonnull N (fun a b => cmp_num k b a) (multi_pages chunks)).
Proof.
  intros k claims chunks Hok. split.
  - exact (multi_ascending_true N (cmp_num k) (nan_num k) (cmp_num_opp k) (cmp_num_trans k) claims chunks Hok).
  - exact (multi_descending_true N (cmp_num k) (nan_num k) (cmp_num_opp k) (cmp_num_trans k) claims chunks Hok).
Qed.

(** byte arrays, fixed length byte arrays (lexicographic order, no NaN) *)
Theorem C05_multi_order_true_bytes : forall (claims : list bool) (chunks : list (index bytes)),
  Forall (Forall (page_ok bytes cmp_bytes (fun _ => false))) chunks ->
  (Forall2 (fun (claim : bool) idx => claim = true -> ascending_nonnull bytes cmp_bytes idx) claims chunks ->
   multi_is_ordered cmp_bytes true claims chunks = true ->
   ascending_nonnull bytes cmp_bytes (multi_pages chunks)) /\
  (Forall2 (fun (claim : bool) idx => claim = true -> ascending_nonnull bytes (fun a b => cmp_bytes b a) idx) claims chunks ->
   multi_is_ordered cmp_bytes false claims chunks = true ->
   ascending_nonnull bytes (fun a b => cmp_bytes b a) (multi_pages chunks)).
Proof.
  intros claims chunks Hok. split.
  - exact (multi_ascending_true bytes cmp_bytes (fun _ => false) lex_opp lex_trans claims chunks Hok).
  - exact (multi_descending_true bytes cmp_bytes (fun _ => false) lex_opp lex_trans claims chunks Hok).
Qed.

(** The hypothesis [well_formed] that C06 assumes of an index claiming
    Ascending, for the index of a MultiRowGroup column chunk. *)
Theorem C05_multi_discharges_C06_hypothesis : forall (k : numkind) (claims : list bool) (chunks : list (index N)),
  Forall (Forall (page_ok N (cmp_num k) (nan_num k))) chunks ->
  Forall2 (fun (claim : bool) idx => claim = true -> ascending_nonnull N (cmp_num k) idx) claims chunks ->
  well_formed N (cmp_num k) (multi_is_ordered (cmp_num k) true claims chunks) (multi_pages chunks).
Proof.
  intros k claims chunks Hok Hcl Hm.
  exact (proj1 (C05_multi_order_true k claims chunks Hok) Hcl Hm).
Qed.

Print Assumptions C05_multi_order_true.
Print Assumptions C05_multi_order_true_bytes.
Print Assumptions C05_multi_discharges_C06_hypothesis.

(** * Non-vacuity *)
Definition f32 (s : bool) (e m : N) : N := ((if s then 2 ^ 31 else 0) + e * 2 ^ 23 + m)%N.
Definition nan32a : N := 0x7fc00000%N.
Definition nan32b : N := 0xffc00001%N.     (* negative, with a payload *)
Definition f_5 : N := 0x40a00000%N.
Definition f_3 : N := 0x40400000%N.
Definition f_4 : N := 0x40800000%N.
Definition f_1 : N := 0x3f800000%N.
Definition f_m0 : N := 0x80000000%N.
Definition f_minf : N := 0xff800000%N.

(* NaN first, -0, -inf: bounds -inf .. 5, NaN excluded *)
Example C05_ex_float_bounds :
  bounds_num NFloat [nan32a; f_5; nan32b; f_m0; f_minf; f_3] = Some (f_minf, f_5).
Proof. vm_compute. reflexivity. Qed.

Example C05_ex_all_nan_bounds : bounds_num NFloat [nan32b; nan32a] = Some (nan32b, nan32b).
Proof. vm_compute. reflexivity. Qed.

(* an optional int32 column: pages [-5..-1], [null, null], [6..10]; the null
   page contributes 0 to both lists and the index still claims Ascending *)
Definition ex_pages : list (list (option N)) :=
  [[Some (wrapZ 32 (-5)); Some (wrapZ 32 (-1)); None];
   [None; None];
   [Some 6%N; Some 10%N]].

Definition ex_index := index_num NInt32 (map (page_of_values (cmp_num NInt32) (nan_num NInt32) false) ex_pages).

Example C05_ex_index :
  ex_index = {| ci_null_pages := [false; true; false];
                ci_null_counts := [1; 2; 0];
                ci_min_values := [wrapZ 32 (-5); 0%N; 6%N];
                ci_max_values := [wrapZ 32 (-1); 0%N; 10%N];
                ci_order := 1 |}.
Proof. vm_compute. reflexivity. Qed.

Example C05_ex_search_index :
  to_search_index ex_index = [Some (wrapZ 32 (-5), wrapZ 32 (-1)); None; Some (6%N, 10%N)].
Proof. vm_compute. reflexivity. Qed.

Example C05_ex_claim : ascending_nonnull N (cmp_num NInt32) (to_search_index ex_index).
Proof.
  destruct (C05_boundary_order_true NInt32 (map (page_of_values (cmp_num NInt32) (nan_num NInt32) false) ex_pages))
    as [H _]. apply H. vm_compute. reflexivity.
Qed.

(* MultiRowGroup over three int32 chunks: pages [0,14] [16,30] / only null
   pages / null, [30,57] [58,65]: the chunk of null pages does not separate
   its neighbours, 30 <= 30 at the boundary: Ascending is claimed, and true *)
Definition ex_multi : list (index N) :=
  [[Some (0, 14); Some (16, 30)]; [None; None]; [None; Some (30, 57); Some (58, 65)]]%N.

Example C05_ex_multi_claims :
  multi_is_ordered (cmp_num NInt32) true [true; true; true] ex_multi = true /\
  multi_is_ordered (cmp_num NInt32) false [false; true; false] ex_multi = false.
Proof. vm_compute. split; reflexivity. Qed.

Example C05_ex_multi_true : ascending_nonnull N (cmp_num NInt32) (multi_pages ex_multi).
Proof.
  assert (Hok : Forall (Forall (page_ok N (cmp_num NInt32) (nan_num NInt32))) ex_multi).
  { repeat constructor; try (vm_compute; intros H; discriminate H). }
  apply (proj1 (C05_multi_order_true NInt32 [true; true; true] ex_multi Hok)); [|vm_compute; reflexivity].
  assert (Hc : forall idx, In idx ex_multi -> ascending_nonnull N (cmp_num NInt32) idx).
  { intros idx Hin i j mi xi mj xj Hij Hi Hj. cbn in Hin.
    destruct Hin as [<-|[<-|[<-|[]]]];
      repeat (destruct i as [|i]; cbn in Hi; try discriminate);
      repeat (destruct j as [|j]; cbn in Hj; try discriminate); try lia;
      injection Hi as <- <-; injection Hj as <- <-; vm_compute; split; discriminate. }
  repeat (apply Forall2_cons; [intros _; apply Hc; cbn; tauto|]). apply Forall2_nil.
Qed.

(* partially overlapping row groups [0,14] [16,30] [32,46] / [15,57] [58,65]:
   46 > 15 at the boundary, no order is claimed although 46 <= 57 *)
Example C05_ex_multi_overlap :
  multi_is_ordered (cmp_num NInt32) true [true; true]
    [[Some (0, 14); Some (16, 30); Some (32, 46)]; [Some (15, 57); Some (58, 65)]]%N = false.
Proof. vm_compute. reflexivity. Qed.

(* descending, across a chunk of null pages: [9,9] [5,7] / null / [2,5] [1,1];
   not when the page after the boundary reaches 6 > 5 *)
Example C05_ex_multi_descending :
  multi_is_ordered (cmp_num NInt32) false [true; true; true]
    [[Some (9, 9); Some (5, 7)]; [None]; [Some (2, 5); Some (1, 1)]]%N = true /\
  multi_is_ordered (cmp_num NInt32) false [true; true; true]
    [[Some (9, 9); Some (5, 7)]; [None]; [Some (2, 6); Some (1, 1)]]%N = false.
Proof. vm_compute. repeat split; reflexivity. Qed.

(* truncation at 2 bytes: ff ff 01 keeps its three bytes, 01 ff 07 becomes 02 00 *)
Example C05_ex_truncate_max_ff : truncate_max 2 [255; 255; 1]%N = [255; 255; 1]%N.
Proof. vm_compute. reflexivity. Qed.
Example C05_ex_truncate_max_carry : truncate_max 2 [1; 255; 7]%N = [2; 0]%N.
Proof. vm_compute. reflexivity. Qed.

(* a FIXED_LEN_BYTE_ARRAY(2) column with a null page in the middle, limit 1 *)
Definition ex_flba_pages : list (page_info bytes) :=
  [ {| pi_num_values := 3; pi_num_nulls := 0; pi_bounds := Some ([1; 2], [255; 3])%N |};
    {| pi_num_values := 3; pi_num_nulls := 3; pi_bounds := None |};
    {| pi_num_values := 3; pi_num_nulls := 1; pi_bounds := Some ([2; 2], [255; 255])%N |} ].

Example C05_ex_flba_ok : byte_pages_ok (BFlba 2) ex_flba_pages.
Proof. cbn. split; [lia|]. repeat constructor. Qed.

Example C05_ex_flba_index :
  index_byte (BFlba 2) 1 ex_flba_pages =
  {| ci_null_pages := [false; true; false];
     ci_null_counts := [0; 3; 1];
     ci_min_values := [[1]; [0]; [2]]%N;
     ci_max_values := [[255; 3]; [1]; [255; 255]]%N;
     ci_order := 0 |}.
Proof. vm_compute. reflexivity. Qed.

(* binary decimals: -1 (ff) < 0 (empty) < 1 (00 01) < 256 (01 00); a null page in between *)
Example C05_ex_decimal_index :
  index_byte BDecimal 4
    [ {| pi_num_values := 2; pi_num_nulls := 0; pi_bounds := Some ([255], [])%N |};
      {| pi_num_values := 1; pi_num_nulls := 1; pi_bounds := None |};
      {| pi_num_values := 2; pi_num_nulls := 0; pi_bounds := Some ([0; 1], [1; 0])%N |} ] =
  {| ci_null_pages := [false; true; false];
     ci_null_counts := [0; 1; 0];
     ci_min_values := [[255]; []; [0; 1]]%N;
     ci_max_values := [[]; []; [1; 0]]%N;
     ci_order := 1 |}.
Proof. vm_compute. reflexivity. Qed.

(** 5573cfe: max ff ff 01 with size limit 2 was stored as ff ff, below the value *)
Theorem C05_pinned_truncate_max_refuted :
  exists limit v, wf_bytes v /\ ~ cmp_bytes v (truncate_max_pinned limit v) <= 0.
Proof.
  exists 2%nat, [255; 255; 1]%N. split.
  - repeat constructor.
  - vm_compute. intros H. apply H. reflexivity.
Qed.

(** 218b949: the FIXED_LEN_BYTE_ARRAY and be128 indexers appended nothing for a
    null page: fewer min/max entries than pages *)
Theorem C05_pinned_flba_index_refuted :
  exists size limit ps, byte_pages_ok (BFlba size) ps /\
    length (ci_min_values (flba_index_pages true size limit ps)) <> length ps.
Proof.
  exists 2%nat, 0%nat, ex_flba_pages. split; [exact C05_ex_flba_ok|]. vm_compute. lia.
Qed.

Theorem C05_pinned_be128_index_refuted :
  exists ps, length (ci_min_values (be128_index_pages_pinned ps)) <> length ps /\
             length (ci_null_pages (be128_index_pages_pinned ps)) = length ps.
Proof.
  exists [ {| pi_num_values := 2; pi_num_nulls := 2; pi_bounds := None |};
           {| pi_num_values := 2; pi_num_nulls := 0; pi_bounds := Some (zeros 16, zeros 16) |} ].
  vm_compute. split; [lia|reflexivity].
Qed.

(** 6707249: bounds 5, NaN, 3, 4 were claimed Ascending *)
Theorem C05_pinned_float_order_refuted :
  exists ps, ci_order (index_num_pinned NFloat ps) = 1 /\
             ~ ascending_nonnull N (cmp_num NFloat) (to_search_index (index_num_pinned NFloat ps)).
Proof.
  exists (map (page_of_values (cmp_num NFloat) (nan_num NFloat) false)
              [[Some f_5]; [Some nan32a]; [Some f_3]; [Some f_4]]).
  split; [vm_compute; reflexivity|].
  intros H. specialize (H 0%nat 2%nat f_5 f_5 f_3 f_3 ltac:(lia) eq_refl eq_refl).
  vm_compute in H. destruct H as [H _]. apply H. reflexivity.
Qed.

Example C05_ex_float_order_now_unordered :
  ci_order (index_num NFloat (map (page_of_values (cmp_num NFloat) (nan_num NFloat) false)
              [[Some f_5]; [Some nan32a]; [Some f_3]; [Some f_4]])) = 0.
Proof. vm_compute. reflexivity. Qed.

(** 73b7e16: pages {NaN}, {1, 5} left NaN chunk bounds *)
Theorem C05_pinned_chunk_nan_refuted :
  exists pages mn mx,
    cs_bounds (chunk_num_pinned NFloat (map (page_of_values (cmp_num NFloat) (nan_num NFloat) false) pages))
      = Some (mn, mx) /\
    (exists v, In v (concat (map (@non_nulls N) pages)) /\ nan_num NFloat v = false) /\
    nan_num NFloat mn = true.
Proof.
  exists [[Some nan32a]; [Some f_1; Some f_5]], nan32a, nan32a.
  split; [vm_compute; reflexivity|]. split; [|vm_compute; reflexivity].
  exists f_1. split; [cbn; auto|vm_compute; reflexivity].
Qed.

Example C05_ex_chunk_nan_now_replaced :
  cs_bounds (chunk_num NFloat (map (page_of_values (cmp_num NFloat) (nan_num NFloat) false)
                                   [[Some nan32a]; [Some f_1; Some f_5]])) = Some (f_1, f_5).
Proof. vm_compute. reflexivity. Qed.

(** 14734b5: a dictionary page NaN, 1, 5 had NaN bounds (portable kernel) *)
Theorem C05_pinned_dict_bounds_refuted :
  exists l mn mx, dict_bounds_num_pinned NFloat l = Some (mn, mx) /\
    (exists v, In v l /\ nan_num NFloat v = false) /\ nan_num NFloat mn = true.
Proof.
  exists [nan32a; f_1; f_5], nan32a, nan32a.
  split; [vm_compute; reflexivity|]. split; [|vm_compute; reflexivity].
  exists f_1. split; [cbn; auto|vm_compute; reflexivity].
Qed.

Example C05_ex_dict_bounds_now : dict_bounds_num NFloat [nan32a; f_1; f_5] = Some (f_1, f_5).
Proof. vm_compute. reflexivity. Qed.

Print Assumptions C05_pinned_truncate_max_refuted.
Print Assumptions C05_pinned_flba_index_refuted.
Print Assumptions C05_pinned_be128_index_refuted.
Print Assumptions C05_pinned_float_order_refuted.
Print Assumptions C05_pinned_chunk_nan_refuted.
Print Assumptions C05_pinned_dict_bounds_refuted.
