(** C19 — variant values survive encoding, and shredding never changes them.
    The proofs are in Variant/EncProofs.v, ShredProofs.v, NavigateProofs.v and
    HeaderProofs.v.

    Objects are unordered sets of named fields (variant.Value.Equal compares
    them so; the encoder sorts fields by name), so "the same value" is
    [canon a = canon b]: equal after listing every object's fields in name
    order.  [C19_canon_reorders_fields] shows [canon] only reorders fields. *)
From Coq Require Import List NArith ZArith Lia.
From PQ Require Import Base.Bytes Variant.Model Variant.Shred
  Variant.EncProofs Variant.ShredProofs Variant.Header Variant.HeaderProofs
  Variant.Navigate Variant.NavigateProofs.
Import ListNotations.
Open Scope N_scope.

(** Encoding round trip.  For every well-formed value tree (integers in range
    of their kind, float bit patterns of their width, decimal scale a byte,
    uuid of 16 bytes, bytes below 256, distinct field names in every object;
    any nesting depth, any string / container sizes) whose encoding fits the
    format (value bytes, dictionary entries and dictionary bytes below 2^32),
    the specification decoder applied to the metadata and value bytes of the
    Go-mirroring encoder returns the value.  Offset sizes 1..4, is_large,
    field-id sizes, short and long strings are covered by the one proof. *)
Theorem C19_decode_encode : forall v meta val,
  wf v -> encodable v -> encode v = (meta, val) -> decode meta val = Some (canon v).
Proof. exact decode_encode. Qed.

(** ... literally [Some v] when the objects of [v] already list their fields in name order *)
Theorem C19_decode_encode_sorted : forall v meta val,
  wf v -> key_sorted v -> encodable v -> encode v = (meta, val) -> decode meta val = Some v.
Proof. intros v meta val Hw Hk He E. rewrite <- (canon_key_sorted v Hk). now apply decode_encode. Qed.

(** the encoder's state-passing form: a value encoded against any
    duplicate-free dictionary decodes under every extension of the resulting
    dictionary, whatever bytes follow it *)
Theorem C19_decode_encode_in_context : forall v d d' b d'' rest,
  wf v -> NoDup d -> enc_st d v = (d', b) -> lenN b < 2 ^ 32 -> lenN d' < 2 ^ 32 ->
  (exists e, d'' = d' ++ e) ->
  dec (S (length b)) d'' (b ++ rest) = Some (canon v).
Proof.
  intros v d d' b d'' rest Hw ND E Hb Hd He.
  apply (enc_st_good v Hw d d' b E Hb Hd); [exact He|lia].
Qed.

Theorem C19_metadata_roundtrip : forall d,
  lenN d < 2 ^ 32 -> lenN (concat d) < 2 ^ 32 ->
  decode_metadata (encode_metadata d) = Some (d, sortedb d).
Proof. exact decode_encode_metadata. Qed.

Theorem C19_canon_reorders_fields : forall v, veq v (canon v).
Proof. exact veq_canon. Qed.

Theorem C19_canon_idempotent : forall v, canon (canon v) = canon v.
Proof. exact canon_idem. Qed.

(** Shredding.  For EVERY shredding schema (primitive typed_value of every
    supported leaf type, lists, objects, nested arbitrarily; field names of a
    group distinct) and every well-formed value, the reader's reconstruction
    of what the writer shredded is present and is the value: fully shredded,
    partially shredded (residual object), not shredded, mismatching. *)
Theorem C19_reconstruct_shred : forall s v, wf_schema s -> wf v ->
  exists v', reconstruct s (shred s v) = Some (Some v') /\ canon v' = canon v.
Proof. exact reconstruct_shred. Qed.

(** The same with the value columns holding variant binary: the writer encodes
    every residual value against the row dictionary (all field names of the
    value, registered as Encode registers them), the reader decodes the
    metadata column and every value column. *)
Theorem C19_reconstruct_shred_bytes : forall s v, wf_schema s -> wf v ->
  lenN (names_st [] v) < 2 ^ 32 -> lenN (concat (names_st [] v)) < 2 ^ 32 ->
  all_resid (fun x => lenN (snd (enc_st (names_st [] v) x)) < 2 ^ 32) (shred s v) ->
  exists v', reconstruct_bytes s (fst (shred_bytes s v)) (snd (shred_bytes s v)) = Some (Some v') /\
             canon v' = canon v.
Proof. exact reconstruct_shred_bytes. Qed.

(** the row dictionary of a shredded write is the dictionary of the unshredded encoding *)
Theorem C19_row_dictionary : forall v, names_st [] v = dict_of v.
Proof. intros v. unfold dict_of. now rewrite names_st_keys, enc_st_keys. Qed.

(** typed leaves: a value accepted by a typed column reads back as itself *)
Theorem C19_typed_leaf_roundtrip : forall t v p,
  wf_ptype t -> wf v -> to_parquet t v = Some p -> of_parquet t p = Some v.
Proof. intros t v p _. apply of_to_parquet. Qed.

(** Typed navigation (the cursors of variant_column_reader.go: Path / Field /
    Elements).  [navigate] is the specification the cursors are compared with:
    it navigates the LOGICAL value of every row (Variant/Navigate.v).  For
    every shredding schema, every well-formed value and every path -- inside
    the shredding schema, outside it, partly inside, through lists -- the
    entries reached in the value the reader reconstructs from what the writer
    shredded are, one by one, the entries reached in the value that was written
    (object fields in name order): navigation cannot tell a shredded column from
    an unshredded one.  [C19_navigate_canon]: navigation does not see the order
    of object fields (first field with the name, names distinct);
    [C19_offsets_canon]: nor do the list offsets. *)
Theorem C19_navigate_shredded : forall s v p r, wf_schema s -> wf v ->
  exists v', reconstruct s (shred s v) = Some (Some v') /\
             navigate p [(r, Some (canon v'))] = map canon_entry (navigate p [(r, Some v)]).
Proof. intros s v p r. exact (navigate_shredded s v p r). Qed.

Theorem C19_navigate_canon : forall p es, Forall wf_entry es ->
  navigate p (map canon_entry es) = map canon_entry (navigate p es).
Proof. exact navigate_canon. Qed.

Theorem C19_offsets_canon : forall es, offsets (map canon_entry es) = offsets es.
Proof. exact offsets_canon. Qed.

(** typed decimal leaves as other writers store them (the library's own writer
    uses 16 bytes only): a DECIMAL column of n <= 16 big-endian two's
    complement bytes -- FIXED_LEN_BYTE_ARRAY(n), or a BYTE_ARRAY value of any
    length that holds the number -- reads back as the decimal16 of that number,
    negative or not (bigEndianToLittleEndian16 sign-extends to 16 bytes) *)
Theorem C19_narrow_decimal_leaf : forall n precision scale z,
  (1 <= n <= 16)%nat -> in_sint (8 * N.of_nat n) z ->
  of_parquet (PTDec D16 precision scale) (PBytes (rev (to_le n (wrapZ (8 * N.of_nat n) z)))) =
  Some (VDec D16 (Z.to_N scale mod 256) z).
Proof.
  intros n precision scale z Hn Hz. unfold of_parquet. rewrite rev_length, to_le_length.
  destruct (Nat.ltb_spec 16 n) as [H|_]; [lia|]. now rewrite dec_narrow_back.
Qed.

(** Headers as functions of sizes.  Containers of 16 MiB and dictionaries of
    65 536 names are too large for the line protocol of the oracle; for those
    the harness compares Go's header bytes with [array_header] /
    [object_header] / [metadata_header] evaluated on the sizes of the
    children, and Go's payload with the concatenation of the children.  These
    are the prefixes the model encoder (the one of [C19_decode_encode]) emits. *)
Theorem C19_array_header : forall encs,
  build_array encs = array_header (map lenN encs) ++ concat encs.
Proof. exact build_array_header. Qed.

Theorem C19_object_header : forall es : list entry,
  build_object es =
  object_header (map (fun e : entry => N.of_nat (fst (snd e))) es)
                (map (fun e : entry => lenN (snd (snd e))) es)
  ++ concat (map (fun e : entry => snd (snd e)) es).
Proof. exact build_object_header. Qed.

Theorem C19_metadata_header : forall d,
  encode_metadata d = metadata_header (sortedb d) (map lenN d) ++ concat d.
Proof. exact encode_metadata_header. Qed.

Print Assumptions C19_decode_encode.
Print Assumptions C19_decode_encode_sorted.
Print Assumptions C19_decode_encode_in_context.
Print Assumptions C19_metadata_roundtrip.
Print Assumptions C19_canon_reorders_fields.
Print Assumptions C19_canon_idempotent.
Print Assumptions C19_reconstruct_shred.
Print Assumptions C19_reconstruct_shred_bytes.
Print Assumptions C19_row_dictionary.
Print Assumptions C19_typed_leaf_roundtrip.
Print Assumptions C19_navigate_shredded.
Print Assumptions C19_navigate_canon.
Print Assumptions C19_offsets_canon.
Print Assumptions C19_narrow_decimal_leaf.
Print Assumptions C19_array_header.
Print Assumptions C19_object_header.
Print Assumptions C19_metadata_header.

(** * Non-vacuity *)

(* {"b": [-1 (int8), "hi", null, {"z": 1.5 (double)}], "a": {"b": true}, "c": decimal4(123.45)} *)
Definition ex_v : value :=
  VObject [([98], VArray [VInt I8 (-1); VString [104; 105]; VNull;
                          VObject [([122], VFlt F64 4609434218613702656)]]);
           ([97], VObject [([98], VBool true)]);
           ([99], VDec D4 2 12345)].

Ltac nodup := repeat (constructor; [cbn; intuition discriminate|]); constructor.

Example C19_ex_wf : wf ex_v.
Proof.
  cbn. unfold in_sint, wf_bytes. cbn.
  repeat split; try lia; try nodup; repeat constructor; lia.
Qed.

Example C19_ex_encodable : encodable ex_v.
Proof. vm_compute. repeat split; reflexivity. Qed.

(* the bytes variant.Encode produces for this value (checked against /repo) *)
Example C19_ex_bytes : encode ex_v =
  ([1; 4; 0; 1; 2; 3; 4; 98; 122; 97; 99],
   [2; 3; 2; 0; 3; 0; 6; 33; 39; 2; 1; 0; 0; 1; 4;
    3; 4; 0; 2; 5; 6; 20; 12; 255; 9; 104; 105; 0; 2; 1; 1; 0; 9; 28; 0; 0; 0; 0; 0; 0; 248; 63;
    32; 2; 57; 48; 0; 0]).
Proof. vm_compute. reflexivity. Qed.

Example C19_ex_roundtrip : (let '(m, b) := encode ex_v in decode m b) = Some (canon ex_v).
Proof. vm_compute. reflexivity. Qed.

(* boundary sizes: a payload of exactly 255 / 256 bytes switches to 2-byte
   offsets, 256 elements switch to is_large; both decode back *)
Definition ex_payload (n : nat) : value := VArray [VBinary (repeat 7 (n - 5))].
(* decimal(20,2) -123.45 in FIXED_LEN_BYTE_ARRAY(9), as Spark / parquet-java store it; -1 in one byte *)
Example C19_ex_narrow_decimal :
  of_parquet (PTDec D16 20 2) (PBytes [255; 255; 255; 255; 255; 255; 255; 207; 199]) = Some (VDec D16 2 (-12345)%Z)
  /\ of_parquet (PTDec D16 38 0) (PBytes [255]) = Some (VDec D16 0 (-1)%Z)
  /\ rev (to_le 9 (wrapZ 72 (-12345))) = [255; 255; 255; 255; 255; 255; 255; 207; 199].
Proof. repeat split; vm_compute; reflexivity. Qed.

Example C19_ex_offset_threshold :
  hd 0 (snd (encode (ex_payload 255))) = 3 /\ hd 0 (snd (encode (ex_payload 256))) = 3 + 4 * 1 /\
  (let '(m, b) := encode (ex_payload 256) in decode m b) = Some (ex_payload 256).
Proof. vm_compute. repeat split; reflexivity. Qed.

Definition ex_many (n : nat) : value := VArray (repeat VNull n).
Example C19_ex_is_large :
  hd 0 (snd (encode (ex_many 255))) = 3 /\ hd 0 (snd (encode (ex_many 256))) = 3 + 4 * 1 + 16 /\
  (let '(m, b) := encode (ex_many 256) in decode m b) = Some (ex_many 256).
Proof. vm_compute. repeat split; reflexivity. Qed.

(* the offset width thresholds of offsetSizeCode, below / at / above each, and
   the header of an array whose children total 2^24 bytes (two 8 MiB strings
   and a small tail): 4-byte offsets, the last one 0x01000000 *)
Example C19_ex_offset_size_code :
  map offset_size_code [0; 254; 255; 256; 65534; 65535; 65536; 16777214; 16777215; 16777216; 268435455; 268435456; 4294967295]
  = [0; 0; 0; 1; 1; 1; 2; 2; 2; 3; 3; 3; 3].
Proof. vm_compute. reflexivity. Qed.

Example C19_ex_array_header_2p24 :
  array_header [8388613; 8388598; 5] =
  [3 + 4 * 3; 3; 0; 0; 0; 0; 5; 0; 128; 0; 251; 255; 255; 0; 0; 0; 0; 1] /\
  array_header [8388613; 8388597; 5] =
  [3 + 4 * 2; 3; 0; 0; 0; 5; 0; 128; 250; 255; 255; 255; 255; 255].
Proof. vm_compute. split; reflexivity. Qed.

(* a partially shredded object: "a" is typed as an object with an int8 field
   "b" that mismatches (the value's a.b is a bool: it goes to the value column), "b" as a list of
   strings (elements -1 and null go to the element value column), "c" is not
   in the schema and stays in the residual object *)
Definition ex_s : schema :=
  SObj [([97], SObj [([98], SPrim (PTInt I8))]); ([98], SList (SPrim PTString))].

Example C19_ex_wf_schema : wf_schema ex_s.
Proof. cbn. repeat split; nodup. Qed.

Example C19_ex_shred :
  shred ex_s ex_v =
  FObj (Some (VObject [([99], VDec D4 2 12345)]))
       [FObj None [FNone (Some (VBool true))];
        FList None [FNone (Some (VInt I8 (-1))); FPrim None (PBytes [104; 105]); FNone (Some VNull);
                    FNone (Some (VObject [([122], VFlt F64 4609434218613702656)]))]].
Proof. vm_compute. reflexivity. Qed.

Example C19_ex_reconstruct :
  option_map (option_map canon) (reconstruct ex_s (shred ex_s ex_v)) = Some (Some (canon ex_v)) /\
  (let '(m, f) := shred_bytes ex_s ex_v in
   option_map (option_map canon) (reconstruct_bytes ex_s m f)) = Some (Some (canon ex_v)).
Proof. vm_compute. split; reflexivity. Qed.

(* navigation of ex_v (a partially shredded object under ex_s): $.c is outside
   the shredding schema, $.a.b inside it, $.b[*].z partly inside (the fourth
   element of the list is an object where a string was shredded), $.b[*] gives
   the four elements, $.x nothing *)
Example C19_ex_navigate :
  navigate [StField [99]] [(0, Some ex_v)] = [(0, Some (VDec D4 2 12345))] /\
  navigate [StField [97]; StField [98]] [(0, Some ex_v)] = [(0, Some (VBool true))] /\
  navigate [StField [98]; StElems; StField [122]] [(0, Some ex_v); (1, None)] =
    [(0, None); (0, None); (0, None); (0, Some (VFlt F64 4609434218613702656))] /\
  offsets (navigate [StField [98]] [(0, Some ex_v); (1, None)]) = [0; 4; 4] /\
  navigate [StField [120]] [(0, Some ex_v)] = [(0, None)] /\
  (exists v', reconstruct ex_s (shred ex_s ex_v) = Some (Some v') /\
     navigate [StField [99]] [(0, Some (canon v'))] = [(0, Some (VDec D4 2 12345))]).
Proof.
  repeat split; try (vm_compute; reflexivity).
  eexists. split; vm_compute; reflexivity.
Qed.
