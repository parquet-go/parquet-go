(** C04 — page encodings are lossless and match the format specification for
    every input.  The proofs are in the Proofs files of Enc/ and Enc/DeltaBPBlocks.v.

    For each encoding, [enc] mirrors the Go encoder (same bytes — that is the
    correspondence checked on every run) and [dec] is a decoder written from
    Encodings.md.  The encoders take no destination buffer: the result cannot
    depend on what a reused buffer held (that the Go code behaves the same with
    a dirty [dst] is part of the correspondence run).

    Go's own decoders are modelled too (Enc/GoDec*.v: the portable code of
    rle.go, delta/binary_packed.go, delta/*byte_array*.go, statement by
    statement, malformed input included) and proved to return what the
    specification decoders return -- on the encoders' output and, for the
    RLE hybrid and DELTA_BINARY_PACKED, on every byte string the specification
    decoder accepts within the limits of a 64-bit reader (theorems
    [C04_go_decoder_*] below).  The models are tied to the code by differential
    execution on Go's bytes, on malformed streams and on conforming streams
    that Go's encoders do not write; the CPU-specific kernels are compared with
    the same models by execution, not modelled (see DESIGN.md, C04). *)
From Coq Require Import List NArith ZArith Lia.
From PQ Require Import Base.Bytes Base.Varint Base.BitPack.
From PQ Require Import Enc.DeltaBP Enc.DeltaBPProofs Enc.Rle Enc.RleProofs.
From PQ Require Import Enc.Plain Enc.PlainProofs Enc.ByteArrayDelta Enc.ByteArrayDeltaProofs.
From PQ Require Import Enc.GoDecBase Enc.GoDecRle Enc.GoDecRleProofs Enc.GoDecBitsProofs.
From PQ Require Import Enc.GoDecPage Enc.GoDecPageProofs.
From PQ Require Import Enc.GoDecDelta Enc.GoDecDeltaProofs Enc.DeltaBPFast Enc.DeltaBPFastProofs Enc.PlainFast Enc.PlainFastProofs.
Import ListNotations.
Open Scope N_scope.

(** DELTA_BINARY_PACKED, INT32 and INT64: every sequence of in-range values
    (any length, deltas that wrap around included) decodes to itself, with any
    bytes following the section left untouched. *)
Theorem C04_delta_binary_packed_int32 : forall xs tail,
  Forall (in_sint 32) xs -> N.of_nat (length xs) < 2 ^ 64 ->
  DeltaBP.dec 32 (DeltaBP.enc 32 xs ++ tail) = Some (xs, tail).
Proof. exact (fun xs tail => dec_enc 32 (or_introl eq_refl) xs tail). Qed.

Theorem C04_delta_binary_packed_int64 : forall xs tail,
  Forall (in_sint 64) xs -> N.of_nat (length xs) < 2 ^ 64 ->
  DeltaBP.dec 64 (DeltaBP.enc 64 xs ++ tail) = Some (xs, tail).
Proof. exact (fun xs tail => dec_enc 64 (or_intror eq_refl) xs tail). Qed.

(** The geometry of a DELTA_BINARY_PACKED page -- values per block, mini-blocks
    per block -- is the writer's choice, written in the header (the format: a
    block size that is a multiple of 128, mini-blocks of a multiple of 32
    values; Go writes 128 / 4, parquet-rs 256 / 4 for INT64).  [DeltaBP.enc_g
    bs nmb] is the encoder at the geometry [bs] / [nmb]; Go's encoder is its
    instance at Go's constants.  The specification decoder inverts it at every
    geometry the format allows (and at every geometry with mini-blocks of a
    multiple of 8 values: [legal_geometry]). *)
Theorem C04_delta_geometry_facts :
  (forall k xs, DeltaBP.enc k xs = DeltaBP.enc_g block_size num_mini_blocks k xs)
  /\ N.of_nat block_size = 128 /\ N.of_nat num_mini_blocks = 4
  /\ (forall bs nmb, format_geometry bs nmb -> legal_geometry bs nmb)
  /\ (forall bs nmb, go_geometry bs nmb -> format_geometry bs nmb).
Proof.
  exact (conj (fun k xs => eq_refl) (conj block_size_128 (conj num_mini_blocks_4
           (conj format_geometry_legal go_geometry_format_g)))).
Qed.

Theorem C04_delta_binary_packed_any_geometry : forall bs nmb k xs tail,
  legal_geometry bs nmb -> k = 32 \/ k = 64 ->
  Forall (in_sint k) xs -> N.of_nat (length xs) < 2 ^ 64 ->
  DeltaBP.dec k (DeltaBP.enc_g bs nmb k xs ++ tail) = Some (xs, tail).
Proof. exact (fun bs nmb k xs tail Hl Hk => dec_enc_g bs nmb Hl k Hk xs tail). Qed.

(** the functions the oracle runs in place of the quadratic-time ones of the
    theorems (mini-blocks packed eight values at a time, Enc/DeltaBPFast.v;
    BYTE_STREAM_SPLIT streams consumed in step, Enc/PlainFast.v) compute the
    same results *)
Theorem C04_oracle_fast_functions : forall cap bs1 nmb1 bs2 nmb2 k xs vs,
  legal_geometry bs1 nmb1 -> legal_geometry bs2 nmb2 ->
  enc_f bs1 nmb1 k xs = DeltaBP.enc_g bs1 nmb1 k xs /\ enc_fast k xs = DeltaBP.enc k xs /\
  dlba_enc_f bs1 nmb1 vs = dlba_enc_g bs1 nmb1 vs /\ dlba_enc_fast vs = dlba_enc vs /\
  dba_enc_f cap bs1 nmb1 bs2 nmb2 vs = dba_enc_g cap bs1 nmb1 bs2 nmb2 vs /\ dba_enc_fast vs = dba_enc vs /\
  (forall size b, bss_dec_fast size b = bss_dec size b).
Proof.
  exact (fun cap bs1 nmb1 bs2 nmb2 k xs vs H1 H2 =>
           conj (enc_f_eq bs1 nmb1 H1 k xs) (conj (enc_fast_eq k xs) (conj (dlba_enc_f_eq bs1 nmb1 H1 vs) (conj (dlba_enc_fast_eq vs)
             (conj (dba_enc_f_eq cap bs1 nmb1 bs2 nmb2 vs H1 H2) (conj (dba_enc_fast_eq vs) bss_dec_fast_eq)))))).
Qed.

(** RLE / bit-packed hybrid at every bit width: levels ([int32 = false]) and
    dictionary indexes ([int32 = true]); values must fit the width. *)
Theorem C04_rle_hybrid : forall int32 w src,
  fits w src -> N.of_nat (length src) < 2 ^ 61 ->
  exists b, enc_hybrid int32 w src = Some b /\ dec_hybrid w b = Some src.
Proof. exact hybrid_roundtrip. Qed.

(** any partition into runs decodes: the decoder does not rely on how the
    encoder chooses its runs *)
Theorem C04_rle_any_runs : forall w rs, Forall (wf_run w) rs ->
  dec_hybrid w (serialize w rs) = Some (concat (map expand rs)).
Proof. intros w rs H. unfold dec_hybrid. apply dec_runs_serialize; [exact H|lia]. Qed.

Theorem C04_rle_dictionary_indexes : forall src,
  N.of_nat (length src) < 2 ^ 61 ->
  exists b, enc_dict_indexes src = Some b /\ dec_dict_indexes b = Some src.
Proof. exact dict_indexes_roundtrip. Qed.

(** RLE booleans: [src] are the packed bytes of the page, [n] its number of values *)
Theorem C04_rle_boolean : forall src n,
  wf_bytes src -> N.of_nat (length src) < 2 ^ 26 -> (n <= 8 * length src)%nat ->
  dec_boolean_n n (enc_boolean src) = Some (firstn n (bits_of src)).
Proof. exact boolean_roundtrip. Qed.

(** PLAIN *)
Theorem C04_plain_fixed : forall k vs,
  (0 < k)%nat -> Forall (fun v => v < 256 ^ N.of_nat k) vs ->
  dec_plain_fixed k (plain_fixed k vs) = Some vs.
Proof. exact plain_fixed_roundtrip. Qed.

Theorem C04_plain_byte_array : forall vs,
  Forall (fun v => N.of_nat (length v) < 2 ^ 32) vs ->
  dec_plain_byte_array (length vs) (plain_byte_array vs) = Some vs.
Proof. intros vs H. apply plain_byte_array_roundtrip; [exact H|lia]. Qed.

Theorem C04_plain_fixed_len_byte_array : forall size vs,
  (0 < size)%nat -> Forall (fun v => length v = size) vs ->
  dec_plain_flba size (plain_flba vs) = Some vs.
Proof. exact plain_flba_roundtrip. Qed.

Theorem C04_plain_boolean : forall bits,
  Forall is_bit bits -> dec_plain_boolean (length bits) (plain_boolean bits) = Some bits.
Proof. exact plain_boolean_roundtrip. Qed.

(** BYTE_STREAM_SPLIT *)
Theorem C04_byte_stream_split : forall k vs,
  (0 < k)%nat -> Forall (fun v => length v = k) vs -> bss_dec k (bss_enc k vs) = Some vs.
Proof. exact bss_roundtrip. Qed.

Theorem C04_byte_stream_split_fixed : forall k vs,
  (0 < k)%nat -> Forall (fun v => v < 256 ^ N.of_nat k) vs ->
  bss_dec_fixed k (bss_enc_fixed k vs) = Some vs.
Proof. exact bss_fixed_roundtrip. Qed.

(** DELTA_LENGTH_BYTE_ARRAY and DELTA_BYTE_ARRAY *)
Theorem C04_delta_length_byte_array : forall vs,
  Forall short vs -> N.of_nat (length vs) < 2 ^ 64 -> dlba_dec (dlba_enc vs) = Some vs.
Proof. exact (fun vs => dlba_roundtrip_g block_size num_mini_blocks vs go_geometry_legal). Qed.

Theorem C04_delta_byte_array : forall vs,
  Forall short vs -> N.of_nat (length vs) < 2 ^ 64 -> dba_dec (dba_enc vs) = Some vs.
Proof. intros vs. rewrite dba_enc_uncapped. apply dba_roundtrip_g; apply go_geometry_legal. Qed.

(** ... with the length sections written at any geometry, and (DELTA_BYTE_ARRAY)
    any cap on the length of the shared prefix: a conforming writer need not
    share the longest common prefix *)
Theorem C04_delta_byte_arrays_any_geometry : forall cap bs1 nmb1 bs2 nmb2 vs,
  legal_geometry bs1 nmb1 -> legal_geometry bs2 nmb2 ->
  Forall short vs -> N.of_nat (length vs) < 2 ^ 64 ->
  dlba_dec (dlba_enc_g bs1 nmb1 vs) = Some vs
  /\ dba_dec (dba_enc_g cap bs1 nmb1 bs2 nmb2 vs) = Some vs.
Proof.
  exact (fun cap bs1 nmb1 bs2 nmb2 vs H1 H2 Hs Hn =>
           conj (dlba_roundtrip_g bs1 nmb1 vs H1 Hs Hn) (dba_roundtrip_g cap bs1 nmb1 bs2 nmb2 vs H1 H2 Hs Hn)).
Qed.

Print Assumptions C04_delta_geometry_facts.
Print Assumptions C04_delta_binary_packed_any_geometry.
Print Assumptions C04_oracle_fast_functions.
Print Assumptions C04_delta_byte_arrays_any_geometry.
Print Assumptions C04_delta_binary_packed_int32.
Print Assumptions C04_delta_binary_packed_int64.
Print Assumptions C04_rle_hybrid.
Print Assumptions C04_rle_any_runs.
Print Assumptions C04_rle_dictionary_indexes.
Print Assumptions C04_rle_boolean.
Print Assumptions C04_plain_fixed.
Print Assumptions C04_plain_byte_array.
Print Assumptions C04_plain_fixed_len_byte_array.
Print Assumptions C04_plain_boolean.
Print Assumptions C04_byte_stream_split.
Print Assumptions C04_byte_stream_split_fixed.
Print Assumptions C04_delta_length_byte_array.
Print Assumptions C04_delta_byte_array.

(** Non-vacuity: concrete inputs meeting the hypotheses, with extremes. *)
Example C04_ex_delta_extremes :
  DeltaBP.dec 32 (DeltaBP.enc 32 [-2147483648; 2147483647; 0; -1; 7]%Z)
  = Some ([-2147483648; 2147483647; 0; -1; 7]%Z, []).
Proof. vm_compute. reflexivity. Qed.

(** the geometry parquet-rs uses for INT64 is a format geometry; a page of 70
    values written with it (two mini-blocks of 64 values in use) *)
Example C04_ex_delta_geometry_hyp : format_geometry 256 4 /\ legal_geometry 256 4 /\ go_geometry 256 4.
Proof.
  assert (H : go_geometry 256 4) by (unfold go_geometry; repeat split; vm_compute; try reflexivity; try lia; intros E; discriminate E).
  split; [apply go_geometry_format_g, H|]. split; [apply format_geometry_legal, go_geometry_format_g, H|exact H].
Qed.

Example C04_ex_delta_geometry :
  let xs := map (fun i => (Z.of_nat i * Z.of_nat i * 1000003 - 9223372036854775807)%Z) (seq 0 70) in
  DeltaBP.dec 64 (DeltaBP.enc_g 256 4 64 xs ++ [7]) = Some (xs, [7])
  /\ go_dbp_dec 64 (DeltaBP.enc_g 256 4 64 xs ++ [7]) = GOk (xs, [7])
  /\ enc_f 256 4 64 xs = DeltaBP.enc_g 256 4 64 xs.
Proof.
  intros xs. destruct C04_ex_delta_geometry_hyp as (_ & Hl & Hg).
  assert (Hx : Forall (in_sint 64) xs).
  { apply Forall_forall. intros x Hx. apply in_map_iff in Hx. destruct Hx as (i & <- & Hi).
    apply in_seq in Hi. unfold in_sint. change (2 ^ (Z.of_N 64 - 1))%Z with 9223372036854775808%Z. nia. }
  assert (Hn : length xs = 70%nat) by (subst xs; now rewrite map_length, seq_length).
  split; [|split].
  - apply dec_enc_g; [exact Hl|now right|exact Hx|now rewrite Hn].
  - apply go_dbp_roundtrip_g; [exact Hg|now right|exact Hx| |repeat constructor].
    rewrite Hn. unfold max_int32. lia.
  - apply enc_f_eq. exact Hl.
Qed.

Example C04_ex_delta_hyp : Forall (in_sint 32) [-2147483648; 2147483647; 0; -1; 7]%Z.
Proof. repeat constructor; unfold in_sint; cbn; lia. Qed.

Example C04_ex_rle : exists b, enc_hybrid false 3 [1;1;1;1;1;1;1;1;2;3;4;5;6;7;0;1;5] = Some b
                              /\ dec_hybrid 3 b = Some [1;1;1;1;1;1;1;1;2;3;4;5;6;7;0;1;5].
Proof. apply C04_rle_hybrid; [repeat constructor|reflexivity]. Qed.

Example C04_ex_rle_boolean :
  dec_boolean_n 20 (enc_boolean [255; 255; 7]) = Some (firstn 20 (bits_of [255; 255; 7])).
Proof. vm_compute. reflexivity. Qed.

(** The RLE boolean encoder of the pinned tree stored the packed byte 0xFF as
    the repeated value of a run of true values: a decoder written from the
    specification reads the value 255, not 1. *)
Definition enc_boolean_pinned_all_true (nbytes : nat) : bytes :=
  let body := uvarint64 (2 * (8 * N.of_nat nbytes)) ++ [255] in
  to_le 4 (N.of_nat (length body)) ++ body.

Theorem C04_pinned_rle_boolean_refuted :
  exists nbytes n, dec_boolean_n n (enc_boolean_pinned_all_true nbytes)
                   <> Some (firstn n (bits_of (repeat 255 nbytes))).
Proof. exists 2%nat, 16%nat. vm_compute. discriminate. Qed.

(** * Go's own decoders (models of the portable Go code, Enc/GoDec*.v)

    [GOk x]: Go returns [x] and a nil error; [GErr]: an error; [GPanic]: a panic. *)

(** RLE / bit-packed hybrid, levels (decodeBytes, widths 0..8) and int32
    (decodeInt32, widths 0..32): on EVERY byte string accepted by
    [dec_hybrid64] -- the specification decoder restricted to run headers of at
    most 10 bytes / 64 bits announcing 1 .. MaxInt32 values -- Go returns the
    values the specification decoder returns.  Partial with respect to "Go
    accepts everything the specification decoder accepts": see
    [C04_go_decoder_rle_accepts_spec_full_refuted]. *)
Theorem C04_go_decoder_rle_levels_accepts_spec_partial : forall w b xs,
  w <= 8 -> dec_hybrid64 w b = Some xs ->
  go_decode_levels w b = GOk xs /\ dec_hybrid w b = Some xs.
Proof. exact go_levels_refines_top. Qed.

Theorem C04_go_decoder_rle_int32_accepts_spec_partial : forall w b xs,
  w <= 32 -> dec_hybrid64 w b = Some xs ->
  go_decode_int32_top w b = GOk xs /\ dec_hybrid w b = Some xs.
Proof. exact go_int32_refines_top. Qed.

(** what the restriction leaves out is really different in Go: a run header
    announcing 0 values is skipped without reading a value *)
Definition C04_go_decoder_rle_accepts_spec_full_statement : Prop :=
  forall w b xs, w <= 8 -> dec_hybrid w b = Some xs -> go_decode_levels w b = GOk xs.

Theorem C04_go_decoder_rle_accepts_spec_full_refuted :
  ~ C04_go_decoder_rle_accepts_spec_full_statement.
Proof.
  intros H. specialize (H 1 [0; 2; 1] [] ltac:(lia) eq_refl). vm_compute in H. discriminate.
Qed.

(** any partition into non-empty runs of at most MaxInt32 values -- run-length
    runs of any length, as other writers produce them -- is decoded by Go *)
Theorem C04_go_decoder_rle_levels_any_runs : forall w rs,
  w <= 8 -> Forall (wf_run w) rs -> Forall go_run_ok rs ->
  go_decode_levels w (serialize w rs) = GOk (concat (map expand rs)).
Proof. exact go_levels_any_runs. Qed.

Theorem C04_go_decoder_rle_int32_any_runs : forall w rs,
  w <= 32 -> Forall (wf_run w) rs -> Forall go_run_ok rs ->
  go_decode_int32_top w (serialize w rs) = GOk (concat (map expand rs)).
Proof. exact go_int32_any_runs. Qed.

(** Go decode (Go encode x) = x = specification decode (Go encode x) *)
Theorem C04_go_decoder_rle_levels : forall w src,
  w <= 8 -> fits w src -> N.of_nat (length src) <= max_count ->
  exists b, enc_levels w src = Some b /\ go_decode_levels w b = GOk src /\ dec_hybrid w b = Some src.
Proof. exact go_levels_roundtrip. Qed.

Theorem C04_go_decoder_rle_int32 : forall w src,
  w <= 32 -> fits w src -> N.of_nat (length src) <= max_count ->
  exists b, enc_int32 w src = Some b /\ go_decode_int32_top w b = GOk src /\ dec_hybrid w b = Some src.
Proof. exact go_int32_roundtrip. Qed.

Theorem C04_go_decoder_rle_dictionary_indexes : forall src,
  Forall (fun v => v < 2 ^ 32) src -> N.of_nat (length src) <= max_count ->
  exists b, enc_dict_indexes src = Some b /\ go_decode_dict b = GOk src /\ dec_dict_indexes b = Some src.
Proof. exact go_dict_roundtrip. Qed.

(** booleans (decodeBits, with its bit position across runs): the packed
    bytes come back; their bits are what the specification decoder returns *)
Theorem C04_go_decoder_rle_boolean : forall src,
  wf_bytes src -> N.of_nat (length src) < 2 ^ 26 ->
  go_decode_boolean (enc_boolean src) = GOk src.
Proof. exact go_boolean_roundtrip. Qed.

Theorem C04_go_decoder_rle_boolean_agrees_spec : forall src n,
  wf_bytes src -> N.of_nat (length src) < 2 ^ 26 -> (n <= 8 * length src)%nat ->
  exists packed, go_decode_boolean (enc_boolean src) = GOk packed /\
                 dec_boolean_n n (enc_boolean src) = Some (firstn n (bits_of packed)).
Proof.
  intros src n Hwf Hlen Hn. exists src.
  split; [now apply go_boolean_roundtrip|now apply boolean_roundtrip].
Qed.

(** ... and every conforming RLE boolean page -- any partition of the values
    into non-empty run-length runs of ANY length (not only the multiples of 8
    that Go writes) and bit-packed runs -- is decoded by Go to packed bytes
    whose first bits are the values, which is also what the specification
    decoder returns (the property the code before 75827ad violated:
    [C04_pinned_rle_boolean_unaligned_refuted]) *)
Theorem C04_go_decoder_rle_boolean_any_runs : forall rs,
  Forall (wf_run 1) rs -> Forall go_run_ok rs -> Forall run_bit rs ->
  rs <> [] -> N.of_nat (length (serialize 1 rs)) < 2 ^ 32 ->
  let vals := concat (map expand rs) in
  let page := to_le 4 (N.of_nat (length (serialize 1 rs))) ++ serialize 1 rs in
  exists packed,
    go_decode_boolean page = GOk packed /\
    firstn (length vals) (bits_of packed) = vals /\
    dec_boolean_n (length vals) page = Some vals.
Proof. exact go_boolean_any_runs. Qed.

(** DELTA_BINARY_PACKED: on EVERY well-formed byte string accepted by [dec64]
    (the specification decoder with varints of at most 10 bytes / 64 bits and
    mini-block bit widths of at most the width of the type) whose header
    passes Go's checks, decodeInt32 / decodeInt64 return the same values and
    the same remaining input: any block size (multiple of 128, at most 65536)
    and mini-block count, any min delta, any bit widths up to 32 / 64.  Partial
    with respect to "Go accepts everything the specification decoder accepts":
    [C04_go_decoder_delta_accepts_spec_full_refuted]. *)
Theorem C04_go_decoder_delta_accepts_spec_partial : forall k b xs rest h,
  wf_bytes b -> dec64 k b = Some (xs, rest) ->
  go_dbp_header b = GOk h -> first_ok k (snd (fst h)) ->
  go_dbp_dec k b = GOk (xs, rest) /\ DeltaBP.dec k b = Some (xs, rest).
Proof.
  exact (fun k b xs rest h Hw Hd Hh Hf =>
           conj (go_dbp_refines k b xs rest h Hw Hd Hh Hf) (dec64_sound k b _ Hd)).
Qed.

Definition C04_go_decoder_delta_accepts_spec_full_statement : Prop :=
  forall k b r, (k = 32 \/ k = 64) -> wf_bytes b -> DeltaBP.dec k b = Some r -> go_dbp_dec k b = GOk r.

Theorem C04_go_decoder_delta_accepts_spec_full_refuted :
  ~ C04_go_decoder_delta_accepts_spec_full_statement.
Proof.
  intros H.
  assert (Hw : wf_bytes [64; 2; 1; 2]) by (repeat constructor; lia).
  specialize (H 32 [64; 2; 1; 2] _ (or_introl eq_refl) Hw eq_refl). vm_compute in H. discriminate.
Qed.

(** Go decode (Go encode xs ++ tail) = (xs, tail), int32 and int64 *)
Theorem C04_go_decoder_delta_int32 : forall xs tail,
  Forall (in_sint 32) xs -> N.of_nat (length xs) <= max_int32 -> wf_bytes tail ->
  go_dbp_dec 32 (DeltaBP.enc 32 xs ++ tail) = GOk (xs, tail).
Proof. exact (go_dbp_roundtrip_g block_size num_mini_blocks go_geometry_go 32 (or_introl eq_refl)). Qed.

Theorem C04_go_decoder_delta_int64 : forall xs tail,
  Forall (in_sint 64) xs -> N.of_nat (length xs) <= max_int32 -> wf_bytes tail ->
  go_dbp_dec 64 (DeltaBP.enc 64 xs ++ tail) = GOk (xs, tail).
Proof. exact (go_dbp_roundtrip_g block_size num_mini_blocks go_geometry_go 64 (or_intror eq_refl)). Qed.

(** ... and Go decode (encode xs ++ tail) = (xs, tail) for the encoder at EVERY
    geometry that Go's header checks admit (block size a multiple of 128 and at
    most 65536, mini-blocks of a multiple of 32 values): the pages of writers
    that do not choose 128 / 4 *)
Theorem C04_go_decoder_delta_any_geometry : forall bs nmb k xs tail,
  go_geometry bs nmb -> k = 32 \/ k = 64 ->
  Forall (in_sint k) xs -> N.of_nat (length xs) <= max_int32 -> wf_bytes tail ->
  go_dbp_dec k (DeltaBP.enc_g bs nmb k xs ++ tail) = GOk (xs, tail).
Proof. exact (fun bs nmb k xs tail Hg Hk => go_dbp_roundtrip_g bs nmb Hg k Hk xs tail). Qed.

Theorem C04_go_decoder_delta_byte_arrays_any_geometry : forall cap bs1 nmb1 bs2 nmb2 vs,
  go_geometry bs1 nmb1 -> go_geometry bs2 nmb2 ->
  Forall short vs -> Forall wf_bytes vs ->
  N.of_nat (length vs) <= max_int32 -> N.of_nat (length (concat vs)) < 2 ^ 32 ->
  go_dlba_dec (dlba_enc_g bs1 nmb1 vs) = GOk (concat vs, offsets_from 0 vs)
  /\ go_dba_dec (dba_enc_g cap bs1 nmb1 bs2 nmb2 vs) = GOk vs.
Proof.
  exact (fun cap bs1 nmb1 bs2 nmb2 vs H1 H2 Hs Hw Hn Hl =>
           conj (go_dlba_roundtrip_g bs1 nmb1 vs H1 Hs Hw Hn Hl)
                (go_dba_roundtrip_g cap bs1 nmb1 bs2 nmb2 vs H1 H2 Hs Hw Hn)).
Qed.

(** DELTA_LENGTH_BYTE_ARRAY: Go returns the value bytes and the offsets that
    cut them into the values; DELTA_BYTE_ARRAY: the values *)
Theorem C04_go_decoder_delta_length_byte_array : forall vs,
  Forall short vs -> Forall wf_bytes vs ->
  N.of_nat (length vs) <= max_int32 -> N.of_nat (length (concat vs)) < 2 ^ 32 ->
  go_dlba_dec (dlba_enc vs) = GOk (concat vs, offsets_from 0 vs)
  /\ unflatten (concat vs) (offsets_from 0 vs) = vs.
Proof. exact go_dlba_roundtrip. Qed.

Theorem C04_go_decoder_delta_byte_array : forall vs,
  Forall short vs -> Forall wf_bytes vs -> N.of_nat (length vs) <= max_int32 ->
  go_dba_dec (dba_enc vs) = GOk vs.
Proof. intros vs. rewrite dba_enc_uncapped. apply go_dba_roundtrip_g; apply go_geometry_go. Qed.

Print Assumptions C04_go_decoder_rle_levels_accepts_spec_partial.
Print Assumptions C04_go_decoder_rle_int32_accepts_spec_partial.
Print Assumptions C04_go_decoder_rle_accepts_spec_full_refuted.
Print Assumptions C04_go_decoder_rle_levels_any_runs.
Print Assumptions C04_go_decoder_rle_int32_any_runs.
Print Assumptions C04_go_decoder_rle_levels.
Print Assumptions C04_go_decoder_rle_int32.
Print Assumptions C04_go_decoder_rle_dictionary_indexes.
Print Assumptions C04_go_decoder_rle_boolean.
Print Assumptions C04_go_decoder_rle_boolean_agrees_spec.
Print Assumptions C04_go_decoder_rle_boolean_any_runs.
Print Assumptions C04_go_decoder_delta_accepts_spec_partial.
Print Assumptions C04_go_decoder_delta_accepts_spec_full_refuted.
Print Assumptions C04_go_decoder_delta_int32.
Print Assumptions C04_go_decoder_delta_int64.
Print Assumptions C04_go_decoder_delta_any_geometry.
Print Assumptions C04_go_decoder_delta_byte_arrays_any_geometry.
Print Assumptions C04_go_decoder_delta_length_byte_array.
Print Assumptions C04_go_decoder_delta_byte_array.

(** Non-vacuity of the hypotheses of the [_accepts_spec_partial] theorems:
    streams that Go's encoders do not write. *)

(** levels, width 3: a run-length run of 3 values, a bit-packed group, a
    run-length run of 13 values *)
Example C04_ex_go_rle_foreign :
  dec_hybrid64 3 [6; 5; 3; 136; 198; 250; 26; 7]
  = Some [5; 5; 5; 0; 1; 2; 3; 4; 5; 6; 7; 7; 7; 7; 7; 7; 7; 7; 7; 7; 7; 7; 7; 7]
  /\ go_decode_levels 3 [6; 5; 3; 136; 198; 250; 26; 7]
     = GOk [5; 5; 5; 0; 1; 2; 3; 4; 5; 6; 7; 7; 7; 7; 7; 7; 7; 7; 7; 7; 7; 7; 7; 7].
Proof. split; vm_compute; reflexivity. Qed.

Example C04_ex_go_rle_runs_hyp :
  Forall (wf_run 3) [RunRLE 3 5; RunBP [[0; 1; 2; 3; 4; 5; 6; 7]]; RunRLE 13 7]
  /\ Forall go_run_ok [RunRLE 3 5; RunBP [[0; 1; 2; 3; 4; 5; 6; 7]]; RunRLE 13 7].
Proof.
  split; repeat constructor; vm_compute; try reflexivity; try discriminate.
Qed.

(** booleans: 10 x true as one run-length run, a bit-packed group, 3 x false *)
Example C04_ex_go_boolean_runs_hyp :
  Forall (wf_run 1) [RunRLE 10 1; RunBP [[0; 1; 1; 0; 0; 0; 0; 1]]; RunRLE 3 0]
  /\ Forall go_run_ok [RunRLE 10 1; RunBP [[0; 1; 1; 0; 0; 0; 0; 1]]; RunRLE 3 0]
  /\ Forall run_bit [RunRLE 10 1; RunBP [[0; 1; 1; 0; 0; 0; 0; 1]]; RunRLE 3 0].
Proof.
  repeat split; repeat constructor; vm_compute; try reflexivity; try discriminate.
Qed.

(** DELTA_BINARY_PACKED with block size 256, 2 mini-blocks of 128 values, a
    min delta that is not the minimum and a bit width larger than needed:
    nothing Go's encoder writes *)
Definition C04_ex_delta_foreign_stream : bytes :=
  [128; 2; 2; 3; 14] ++ [5] ++ [4; 0] ++ (1 :: repeat 0 63).

Example C04_ex_go_delta_foreign :
  dec64 32 C04_ex_delta_foreign_stream = Some ([7; 5; 2]%Z, [])
  /\ go_dbp_dec 32 C04_ex_delta_foreign_stream = GOk ([7; 5; 2]%Z, [])
  /\ exists h, go_dbp_header C04_ex_delta_foreign_stream = GOk h /\ first_ok 32 (snd (fst h)).
Proof.
  split; [vm_compute; reflexivity|]. split; [vm_compute; reflexivity|].
  eexists. split; [vm_compute; reflexivity|]. intros _. unfold in_sint. cbn. lia.
Qed.

Example C04_ex_go_delta_extremes :
  go_dbp_dec 32 (DeltaBP.enc 32 [-2147483648; 2147483647; 0; -1; 7]%Z ++ [9])
  = GOk ([-2147483648; 2147483647; 0; -1; 7]%Z, [9]).
Proof. vm_compute. reflexivity. Qed.

Example C04_ex_go_dba :
  go_dba_dec (dba_enc [[104; 101; 108; 108; 111]; [104; 101; 108; 112]; []; [104]])
  = GOk [[104; 101; 108; 108; 111]; [104; 101; 108; 112]; []; [104]].
Proof. vm_compute. reflexivity. Qed.

(** the repaired decodeBits on a conforming stream with a run-length run of 10
    values followed by a bit-packed group *)
Example C04_ex_go_boolean_unaligned :
  exists packed, go_decode_boolean [4; 0; 0; 0; 20; 1; 3; 0] = GOk packed /\
                 Some (firstn 16 (bits_of packed)) = dec_boolean_n 16 [4; 0; 0; 0; 20; 1; 3; 0].
Proof. exact go_boolean_unaligned_example. Qed.

(** Pinned (pre-repair) behaviour of Go's decoders, from the faithful models of
    the code before 70434b6 and 75827ad. *)

(** rle.decodeInt32 sliced a bit-packed run longer than the input unchecked: a
    panic (or, with spare capacity behind the slice, a decode of the bytes
    found there) where the specification decoder and the repaired code reject *)
Theorem C04_pinned_rle_int32_truncated_refuted :
  exists w b, dec_hybrid w b = None /\ go_decode_int32_pinned w b = GPanic
              /\ go_decode_int32_top w b = GErr.
Proof. exact go_int32_pinned_truncated_refuted. Qed.

(** rle.decodeBits placed every run-length run on a byte boundary: a
    conforming stream (10 x true, then a bit-packed group) decoded to other
    values than the specification decoder's, without error *)
Theorem C04_pinned_rle_boolean_unaligned_refuted :
  exists b n packed,
    go_decode_boolean_pinned b = GOk packed /\
    exists bits, dec_boolean_n n b = Some bits /\ firstn n (bits_of packed) <> bits.
Proof. exact go_boolean_pinned_unaligned_refuted. Qed.

Print Assumptions C04_pinned_rle_int32_truncated_refuted.
Print Assumptions C04_pinned_rle_boolean_unaligned_refuted.

(** RLE_DICTIONARY data pages as the page reader builds them from the decoded
    indexes and the num_values of the page header (dictionary.go,
    newIndexedPage; Enc/GoDecPage.v).  The model is a function of the page data
    and of num_values: nothing of a reused buffer can show through; the Go code
    is compared with it on pages decoded into new and into dirty reused buffers
    (harness/c04/page.go).

    A page written by the library (all the indexes present): exactly the indexes. *)
Theorem C04_go_indexed_page_roundtrip : forall src,
  Forall (fun v => v < 2 ^ 32) src -> N.of_nat (length src) <= max_count ->
  exists b, enc_dict_indexes src = Some b /\ go_indexed_page (length src) b = GOk src.
Proof. exact go_indexed_page_roundtrip. Qed.

(** any page data Go's index decoder accepts that holds at least num_values
    indexes (more: the padding of a last bit-packed group): the first
    num_values of them *)
Theorem C04_go_indexed_page_conforming : forall n data ix,
  go_decode_dict data = GOk ix -> (n <= length ix)%nat -> go_indexed_page n data = GOk (firstn n ix).
Proof. exact go_indexed_page_conforming. Qed.

(** page data holding FEWER indexes than num_values -- not a conforming page:
    Encodings.md has the data hold all the values of the page; accepted by the
    library, which reads the missing indexes as 0 *)
Theorem C04_go_indexed_page_short_streams : forall n data ix,
  go_decode_dict data = GOk ix -> (length ix <= n)%nat ->
  go_indexed_page n data = GOk (ix ++ repeat 0 (n - length ix)).
Proof. exact go_indexed_page_short. Qed.

Theorem C04_go_indexed_page_length : forall n ix, length (indexed_page_indexes n ix) = n.
Proof. exact indexed_page_length. Qed.

(** bit width 2, one run-length run of three times the index 1, num_values 10 *)
Example C04_ex_go_indexed_page_short :
  go_decode_dict [2; 6; 1] = GOk [1; 1; 1]
  /\ go_indexed_page 10 [2; 6; 1] = GOk [1; 1; 1; 0; 0; 0; 0; 0; 0; 0].
Proof. split; vm_compute; reflexivity. Qed.

Print Assumptions C04_go_indexed_page_roundtrip.
Print Assumptions C04_go_indexed_page_conforming.
Print Assumptions C04_go_indexed_page_short_streams.
Print Assumptions C04_go_indexed_page_length.
