(** C02 — every written file is well-formed Parquet that an independent
    decoder agrees on.

    The independent decoder is File/SpecDecoder.v ([verify]): written from the
    format specification, it is extracted and run on the raw bytes of every
    file the harness makes the library write.  What is proved here is that this
    decoder (its level/value/page layer) inverts a writer that follows the
    specification, for every input; that the real writer produces such files
    is what the run checks (decoded streams = written streams, no discrepancy
    code). *)
From Coq Require Import List NArith ZArith Lia.
From Coq Require String.
From PQ Require Import Base.Bytes Enc.Rle Enc.RleProofs.
From PQ Require Import File.Pipeline File.PipelineProofs File.SpecDecoder File.SpecAgreement.
From PQ Require Import Thrift.Compact Thrift.CompactProofs.
From PQ Require Import File.Layout File.LayoutProofs File.SpecDecoderProofs.
Import ListNotations.
Open Scope N_scope.

(** Levels of a page, as the specification decoder reads them (RLE/bit-packed
    hybrid at the width of the maximum level, [n] values kept), invert the
    level encoder for every level sequence. *)
Theorem C02_levels_decode : forall maxl (ls : list nat),
  Forall (fun l => (l <= maxl)%nat) ls -> N.of_nat (length ls) < 2 ^ 61 ->
  exists b, enc_levels (level_width maxl) (map N.of_nat ls) = Some b /\
            dec_hybrid (level_width maxl) b = Some (map N.of_nat ls).
Proof.
  intros maxl ls H Hl.
  apply (hybrid_roundtrip false); [exact (levels_fit maxl ls H)|now rewrite map_length].
Qed.

(** The page layer: entries -> (levels, values) -> entries, any value encoding. *)
Theorem C02_page_layer : forall (V : Type) venc vdec (vok : V -> Prop),
  (forall vs, Forall vok vs -> N.of_nat (length vs) < 2 ^ 61 -> vdec (length vs) (venc vs) = Some vs) ->
  forall maxr maxd es,
  Forall (entry_ok V vok maxr maxd) es -> N.of_nat (length es) < 2 ^ 61 ->
  Pipeline.decode_page V vdec maxr maxd (Pipeline.encode_page V venc maxr maxd es) = Some es.
Proof. exact page_roundtrip. Qed.

(** The consistency verdict means what it says: an empty list of discrepancy
    codes for a chunk implies the recomputed sums equal the footer's claims. *)
Theorem C02_check_chunk_sound : forall c, check_chunk c = [] ->
  sum (map p_nvalues (data_pages c)) = nat_of_field 5 (c_meta c) /\
  sumN (map (fun p => p_hlen p + p_comp p)%nat (c_pages c)) = n_of_field 7 (c_meta c) /\
  sumN (map (fun p => p_hlen p + p_uncomp p)%nat (c_pages c)) = n_of_field 6 (c_meta c) /\
  forallb (fun p => (p_ulen p =? p_uncomp p)%nat) (c_pages c) = true /\
  forallb p_crc_ok (c_pages c) = true.
Proof.
  intros c H. unfold check_chunk in H.
  repeat match type of H with
         | (_ ++ _) = [] => apply app_eq_nil in H; destruct H as [? H]
         end.
  repeat match goal with
         | Hc : check ?b _ = [] |- _ =>
             let E := fresh "E" in destruct b eqn:E; [clear Hc|discriminate Hc]
         end.
  repeat split; try (apply Nat.eqb_eq; assumption); try (apply N.eqb_eq; assumption); assumption.
Qed.

(** The two content checks on what a foreign reader relies on beyond the sums:
    encoding_stats must count the page headers present per (page type,
    encoding), and every data page located by an offset index must start a row.
    Both reject a chunk of one RLE_DICTIONARY and one PLAIN data page declared
    as two RLE_DICTIONARY pages / whose second page continues a row, and accept
    the correct declaration. *)
Definition ex_cpage (enc : Z) (rep : list N) : page :=
  {| p_offset := 0; p_hlen := 0; p_type := 0; p_comp := 0; p_uncomp := 0; p_ulen := 0; p_crc_present := false;
     p_crc_ok := true; p_nvalues := length rep; p_nrows := None; p_nnulls := None; p_encoding := enc;
     p_rep := rep; p_def := []; p_values := [] |}.
Definition ex_stat (ty enc n : Z) : tval := TStruct [(1%Z, TInt T_I32 ty); (2%Z, TInt T_I32 enc); (3%Z, TInt T_I32 n)].
Definition ex_cchunk (stats : list tval) (second_rep : list N) : chunk :=
  {| c_leaf := {| l_path := []; l_type := 1; l_tlen := 0; l_maxr := 1; l_maxd := 1 |};
     c_meta := TStruct [(13%Z, TList T_STRUCT stats)]; c_chunk := TStruct []; c_start := 0;
     c_pages := [ex_cpage 8 [0; 1]%N; ex_cpage 0 second_rep] |}.
Definition ex_oindex : tval :=
  TStruct [(1%Z, TList T_STRUCT [TStruct [(1%Z, TInt T_I64 0); (2%Z, TInt T_I32 0); (3%Z, TInt T_I64 0)];
                                 TStruct [(1%Z, TInt T_I64 0); (2%Z, TInt T_I32 0); (3%Z, TInt T_I64 1)]])].

Example C02_ex_encoding_stats_checked :
  encoding_stats_ok (ex_cchunk [ex_stat 0 8 2] [0]%N) = false /\
  encoding_stats_ok (ex_cchunk [ex_stat 0 8 1; ex_stat 0 0 1; ex_stat 2 0 1] [0]%N) = false /\
  encoding_stats_ok (ex_cchunk [ex_stat 0 0 1; ex_stat 0 8 1] [0]%N) = true.
Proof. vm_compute. repeat split. Qed.

Module ExCodes.
  Import Coq.Strings.String.
  Definition mid_row : String.string := "indexed_page_starts_mid_row"%string.
End ExCodes.

Example C02_ex_indexed_pages_start_rows :
  check_offset_index (ex_cchunk [] [1; 0]%N) ex_oindex = [ExCodes.mid_row] /\
  check_offset_index (ex_cchunk [] [0; 1]%N) ex_oindex = [].
Proof. vm_compute. repeat split. Qed.

(** The thrift compact layer (footer, page headers, page index): the
    specification decoder inverts the encoder on every well-formed value tree:
    any nesting, any field ids (short delta form and long form), short and
    long list headers, booleans in field headers and as list elements. *)
Theorem C02_thrift_roundtrip : forall v, CompactProofs.wf v ->
  forall fuel ty rest, (sz v <= fuel)%nat -> code_ok ty v ->
  dec_val fuel ty (encode v ++ rest) = Some (v, rest).
Proof. exact dec_val_encode. Qed.

(** The field ids the decoder takes from parquet.thrift are the
    ones the Go code uses (regenerated from format/parquet.go on every run). *)
Theorem C02_field_ids_agree_with_go : agreement = true.
Proof. exact thrift_ids_agree_with_go. Qed.

Print Assumptions C02_thrift_roundtrip.
Print Assumptions C02_field_ids_agree_with_go.
Print Assumptions C02_levels_decode.
Print Assumptions C02_page_layer.
Print Assumptions C02_check_chunk_sound.

(** Non-vacuity: a thrift struct round-trips through the compact protocol. *)
Definition ex_header : tval :=
  TStruct [(1%Z, TInt T_I32 0%Z); (2%Z, TInt T_I32 42%Z); (3%Z, TInt T_I32 42%Z); (4%Z, TInt T_I32 (-559038737)%Z);
           (5%Z, TStruct [(1%Z, TInt T_I32 10%Z); (2%Z, TInt T_I32 0%Z); (3%Z, TInt T_I32 3%Z); (4%Z, TInt T_I32 3%Z)]);
           (20%Z, TList T_BINARY [TBin [1; 2; 3]; TBin []]); (21%Z, TBool true); (40%Z, TBool false)].

Example C02_ex_thrift_wf : CompactProofs.wf ex_header.
Proof. cbn. unfold in_sint, T_I16, T_I32, T_I64, T_BINARY, T_MAP. cbn. repeat split; try lia; auto. Qed.

Example C02_ex_thrift_roundtrip : decode_struct (encode ex_header) = Some (ex_header, []).
Proof. vm_compute. reflexivity. Qed.

(** * Layout soundness

    [Layout.layout_bytes fi] is the file an abstract writer lays out for the
    page structure [fi] (row groups of column chunks of an optional dictionary
    page and data pages, each page given by its header fields and its opaque
    encoded body; bloom filter and column index sections as opaque bytes) with
    the offset accounting of /repo/writer.go (writeFileHeader, writeDataPage,
    writeDictionaryPage, recordPageStats, writeRowGroup, writeFileFooter), and
    [Layout.footer_tree fi] the FileMetaData it records.  On every run the
    harness checks that this model reproduces, byte for byte, the files the
    library writes from the page structure observed in them.

    [file_ok fi = true] is a decidable side condition (evaluated on each of
    those files): page types are dictionary / data, the opaque metadata fields
    do not use the ids of the accounted ones, every thrift tree produced
    (headers, offset indexes, footer) is encodable (integers within 64 bits,
    ...) and within the nesting depth / field count the decoder's thrift reader
    accepts, page headers are at most 4096 bytes, the footer length fits 32
    bits.  Under it the structural checks of the specification decoder pass
    for every [fi]. *)

(** The field ids the model writer puts in its trees are the Go struct tags. *)
Theorem C02_layout_ids_agree_with_go : forallb struct_agrees layout_ids = true.
Proof. exact layout_ids_agree_with_go. Qed.

(** (a) magic bytes, footer length, thrift metadata: the decoder finds the
    footer and decodes exactly the tree the accounting built. *)
Theorem C02_layout_sound_footer : forall fi, file_ok fi = true ->
  SpecDecoder.footer_of (mk_fbytes (layout_bytes fi)) = Some (footer_tree fi, footer_start fi).
Proof. exact layout_footer_found. Qed.

(** every column chunk of the input has its entry in the footer *)
Theorem C02_layout_sound_chunk_entry : forall fi i j g c,
  nth_error (fi_groups fi) i = Some g -> nth_error (gi_chunks g) j = Some c ->
  exists gt cc md, footer_chunk (footer_tree fi) i j gt cc md.
Proof. intros fi i j g c Hg Hc. eexists _, _, _. exact (footer_chunk_layout fi i j g c Hg Hc). Qed.

(** (b) for every chunk: the recorded dictionary / data page offset and
    total_compressed_size slice exactly the bytes of its pages, and walking page
    headers from there (header, compressed_page_size bytes, next header) reads
    back exactly the headers written, using up exactly total_compressed_size
    bytes ([walk_pages] only succeeds when the bytes are used up). *)
Theorem C02_layout_sound_chunk_pages : forall fi i j g c gt cc md,
  file_ok fi = true ->
  nth_error (fi_groups fi) i = Some g -> nth_error (gi_chunks g) j = Some c ->
  footer_chunk (footer_tree fi) i j gt cc md ->
  let start := chunk_start md in
  let total := nat_of_field 7 md in
  start = chunk_off fi i g j /\
  fsub (mk_fbytes (layout_bytes fi)) start total = Some (chunk_bytes c) /\
  walk_pages (S total) (chunk_bytes c) start = Some (written_pages start (all_pages c)).
Proof. exact layout_chunk_pages. Qed.

(** ... and the sums the decoder recomputes over the pages found (check_chunk:
    total_compressed_size, total_uncompressed_size, num_values over the data
    pages, data_page_offset = first data page, dictionary_page_offset = the
    dictionary page or absent) equal the chunk's metadata. *)
Theorem C02_layout_sound_chunk_sums : forall fi i j g c gt cc md,
  file_ok fi = true ->
  nth_error (fi_groups fi) i = Some g -> nth_error (gi_chunks g) j = Some c ->
  footer_chunk (footer_tree fi) i j gt cc md ->
  let ps := written_pages (chunk_start md) (all_pages c) in
  let dps := filter is_data_page ps in
  sumN (map (fun hp => (h_hlen hp + h_comp hp)%nat) ps) = n_of_field 7 md /\
  sumN (map (fun hp => (h_hlen hp + nat_of_field 2 (h_header hp))%nat) ps) = n_of_field 6 md /\
  fold_left N.add (map (fun hp => header_nvalues (h_header hp)) dps) 0 = n_of_field 5 md /\
  match dps with hp :: _ => h_offset hp = n_of_field 9 md | [] => True end /\
  match ps with
  | hp :: _ => if is_data_page hp then n_of_field 11 md = 0 else h_offset hp = n_of_field 11 md
  | [] => True
  end.
Proof. exact layout_chunk_sums. Qed.

(** (c) the offset index is where the ColumnChunk says, decodes, has one
    PageLocation per data page; each points at the header of the page it
    describes with compressed_page_size = header + body, and first_row_index =
    the rows of the pages before it. *)
Theorem C02_layout_sound_offset_index : forall fi i j g c gt cc md,
  file_ok fi = true ->
  nth_error (fi_groups fi) i = Some g -> nth_error (gi_chunks g) j = Some c ->
  footer_chunk (footer_tree fi) i j gt cc md ->
  exists raw oi locs,
    fsub (mk_fbytes (layout_bytes fi)) (n_of_field 4 cc) (nat_of_field 5 cc) = Some raw /\
    decode_thrift raw = Some (oi, []) /\
    get_list 1 oi = Some locs /\
    Forall2 loc_points_at locs (filter is_data_page (written_pages (chunk_start md) (all_pages c))) /\
    map (n_of_field 3) locs = row_starts 0 (ck_pages c).
Proof. exact layout_offset_index. Qed.

(** the column index and bloom filter sections are where the metadata says *)
Theorem C02_layout_sound_column_index : forall fi i j g c gt cc md,
  file_ok fi = true ->
  nth_error (fi_groups fi) i = Some g -> nth_error (gi_chunks g) j = Some c ->
  footer_chunk (footer_tree fi) i j gt cc md ->
  ck_cindex c <> [] ->
  fsub (mk_fbytes (layout_bytes fi)) (n_of_field 6 cc) (nat_of_field 7 cc) = Some (ck_cindex c).
Proof. exact layout_column_index. Qed.

Theorem C02_layout_sound_bloom_filter : forall fi i j g c gt cc md,
  file_ok fi = true ->
  nth_error (fi_groups fi) i = Some g -> nth_error (gi_chunks g) j = Some c ->
  footer_chunk (footer_tree fi) i j gt cc md ->
  ck_bloom c <> [] ->
  fsub (mk_fbytes (layout_bytes fi)) (n_of_field 14 md) (nat_of_field 15 md) = Some (ck_bloom c).
Proof. exact layout_bloom_filter. Qed.

(** (d) row groups: file_offset is where the bytes of the row group start (=
    the start of its first chunk), total_compressed_size / total_byte_size are
    the sums over its chunks (check_group); the file's num_rows is the sum over
    the row groups (check_file). *)
Theorem C02_layout_sound_row_group : forall fi i g gt,
  file_ok fi = true -> nth_error (fi_groups fi) i = Some g ->
  (exists gts, get_list 4 (footer_tree fi) = Some gts /\ nth_error gts i = Some gt) ->
  exists ccs, get_list 1 gt = Some ccs /\ length ccs = length (gi_chunks g) /\
    n_of_field 5 gt = group_off fi i /\
    at_offset (layout_bytes fi) (n_of_field 5 gt) (group_bytes g) /\
    (forall cc, nth_error ccs 0 = Some cc -> chunk_start (md_of cc) = n_of_field 5 gt) /\
    fold_left N.add (map (fun cc => n_of_field 7 (md_of cc)) ccs) 0 = n_of_field 6 gt /\
    fold_left N.add (map (fun cc => n_of_field 6 (md_of cc)) ccs) 0 = n_of_field 2 gt.
Proof. exact layout_row_group. Qed.

Theorem C02_layout_sound_file_rows : forall fi,
  exists gts, get_list 4 (footer_tree fi) = Some gts /\ length gts = length (fi_groups fi) /\
    fold_left N.add (map (fun gt => n_of_field 3 gt) gts) 0 = n_of_field 3 (footer_tree fi).
Proof. exact layout_file_rows. Qed.

(** The specification decoder's own page loop ([decode_pages], which also
    decodes the bodies) finds, whenever it succeeds, the pages the header walk
    finds: same offsets, header lengths, sizes, types and value counts. *)
Theorem C02_layout_sound_decoder_pages : forall ext fuel rest lf codec dict off ps,
  decode_pages ext fuel rest lf codec dict off = Some ps ->
  exists hs, walk_pages fuel rest off = Some hs /\ Forall2 page_matches ps hs.
Proof. exact decode_pages_walk. Qed.

(** [verify] itself on a laid out file: whatever it answers, every complaint
    is about page contents ([body_codes]: decompressed length, CRC, encodings
    list, v2 row / null counts and row boundaries, level ranges, column type,
    rows per column, first_row_index against the decoded levels, sorting
    declarations against the decoded levels), never about
    the layout: num_values, total_compressed_size, total_uncompressed_size,
    data_page_offset, dictionary_page_offset, row_group_total_compressed_size,
    row_group_total_byte_size, file_num_rows, offset_index_missing_locations,
    offset_index_length, page_location_offset, page_location_size,
    offset_index_unreadable cannot be raised. *)
Theorem C02_layout_sound_verify_complaints : forall ext fi f codes,
  file_ok fi = true -> verify ext (layout_bytes fi) = Some (f, codes) ->
  forall code, In code codes -> In code body_codes.
Proof. exact layout_verify_only_body_codes. Qed.

(** Hence [verify = []] as soon as the decoder accepts the page contents.
    Partial with respect to [C02_layout_full_statement]: the hypothesis
    [bodies_accepted] (the decoder decodes every page body and raises no
    content complaint) is established per file by running the extracted decoder
    on the library's files, and for a specification-following page writer by
    C02_page_layer / C02_levels_decode / the C04 encodings; the composition
    "bodies written by the page layer are accepted" is not proved here. *)
Theorem C02_layout_sound_verify_partial : forall ext fi,
  file_ok fi = true -> bodies_accepted ext fi -> exists f, verify ext (layout_bytes fi) = Some (f, []).
Proof. exact layout_verify_modulo_bodies. Qed.

(** The full statement: contents described page by page, each chunk decoded in
    isolation (not through the file), imply an empty verdict on the file. *)
Definition page_rows (lf : leaf) (p : page) : nat :=
  if (l_maxr lf =? 0)%nat then p_nvalues p else count_eq 0 (p_rep p).

Definition chunk_contents_ok (ext : ext_fn) (lf : leaf) (md : tval) (nrows : N) (c : chunk_in) : Prop :=
  exists ps,
    decode_pages ext (S (length (chunk_bytes c))) (chunk_bytes c) lf (zdef (get_int 4 md) 0) [] 0 = Some ps /\
    let ch := {| c_leaf := lf; c_meta := md; c_chunk := TStruct []; c_start := 0; c_pages := ps |} in
    (forall code, In code (check_chunk ch) -> ~ In code body_codes) /\
    map (page_rows lf) (data_pages ch) = map (fun p => N.to_nat (pg_nrows p)) (ck_pages c) /\
    chunk_rows ch = N.to_nat nrows.

Definition contents_ok (ext : ext_fn) (fi : file_in) : Prop :=
  exists schema ls, fi_schema fi = TList T_STRUCT schema /\ leaves_of schema = Some ls /\
    forall i g, nth_error (fi_groups fi) i = Some g ->
      length (gi_chunks g) = length ls /\
      forall j c lf, nth_error (gi_chunks g) j = Some c -> nth_error ls j = Some lf ->
        chunk_contents_ok ext lf (the_meta_tree fi i g j c) (group_num_rows g) c.

Definition C02_layout_full_statement : Prop :=
  forall ext fi, file_ok fi = true -> contents_ok ext fi -> exists f, verify ext (layout_bytes fi) = Some (f, []).

Print Assumptions C02_layout_ids_agree_with_go.
Print Assumptions C02_layout_sound_footer.
Print Assumptions C02_layout_sound_chunk_entry.
Print Assumptions C02_layout_sound_chunk_pages.
Print Assumptions C02_layout_sound_chunk_sums.
Print Assumptions C02_layout_sound_offset_index.
Print Assumptions C02_layout_sound_column_index.
Print Assumptions C02_layout_sound_bloom_filter.
Print Assumptions C02_layout_sound_row_group.
Print Assumptions C02_layout_sound_file_rows.
Print Assumptions C02_layout_sound_decoder_pages.
Print Assumptions C02_layout_sound_verify_complaints.
Print Assumptions C02_layout_sound_verify_partial.

(** Non-vacuity: two row groups of two columns (INT32 required): column a has a
    v1 PLAIN page and a v2 PLAIN page and a bloom filter section, column b a
    dictionary page, an RLE_DICTIONARY data page, statistics and a column index
    section.  The side condition holds and the specification decoder accepts the
    laid out file without any complaint (bodies included). *)
Definition ex_page (ty : Z) (n : N) (enc : Z) (tail : list (Z * tval)) (body : bytes) : page_in :=
  {| pg_type := ty; pg_uncomp := sizeN body; pg_crc := 0; pg_nvalues := n; pg_nnulls := 0; pg_nrows := n;
     pg_encoding := enc; pg_tail := tail; pg_body := body |}.
Definition ex_v1tail : list (Z * tval) := [(3%Z, TInt T_I32 3); (4%Z, TInt T_I32 3)].
Definition ex_v2tail : list (Z * tval) := [(5%Z, TInt T_I32 0); (6%Z, TInt T_I32 0); (7%Z, TBool false)].
Definition ex_head (name : N) (encs : list Z) : list (Z * tval) :=
  [(1%Z, TInt T_I32 1); (2%Z, TList T_I32 (map (TInt T_I32) encs)); (3%Z, TList T_BINARY [TBin [name]]);
   (4%Z, TInt T_I32 0)].
Definition ex_col_a (vals : list N) : chunk_in :=
  {| ck_dict := None;
     ck_pages := [ex_page 0 2 0 ex_v1tail (concat (map (to_le 4) (firstn 2 vals)));
                  ex_page 3 1 0 ex_v2tail (concat (map (to_le 4) (skipn 2 vals)))];
     ck_head := ex_head 97 [0; 3]%Z; ck_kv := []; ck_stats := []; ck_tail := [];
     ck_bloom := [1; 2; 3; 4; 5]; ck_cindex := [] |}.
Definition ex_col_b : chunk_in :=
  {| ck_dict := Some (ex_page 2 2 0 [] (to_le 4 10 ++ to_le 4 20));
     ck_pages := [ex_page 0 3 8 ex_v1tail [1; 3; 6]];
     ck_head := ex_head 98 [0; 3; 8]%Z; ck_kv := [];
     ck_stats := [(12%Z, TStruct [(3%Z, TInt T_I64 0)])]; ck_tail := [];
     ck_bloom := []; ck_cindex := [25; 0; 0] |}.
Definition ex_layout : file_in :=
  {| fi_groups := [ {| gi_chunks := [ex_col_a [1; 2; 3]; ex_col_b]; gi_sorting := [] |};
                    {| gi_chunks := [ex_col_a [7; 8; 9]; ex_col_b]; gi_sorting := [] |} ];
     fi_schema := TList T_STRUCT [TStruct [(4%Z, TBin [114]); (5%Z, TInt T_I32 2)];
                                  TStruct [(1%Z, TInt T_I32 1); (3%Z, TInt T_I32 0); (4%Z, TBin [97])];
                                  TStruct [(1%Z, TInt T_I32 1); (3%Z, TInt T_I32 0); (4%Z, TBin [98])]];
     fi_tail := [(6%Z, TBin [118])] |}.

Example C02_ex_layout_ok : file_ok ex_layout = true.
Proof. vm_compute. reflexivity. Qed.

Example C02_ex_layout_verify :
  (match verify no_ext (layout_bytes ex_layout) with Some (f, codes) => Some (length (f_groups f), codes) | None => None end)
  = Some (2%nat, []).
Proof. vm_compute. reflexivity. Qed.

(* so the hypothesis of C02_layout_sound_verify_partial is satisfiable *)
Example C02_ex_layout_bodies_accepted : bodies_accepted no_ext ex_layout.
Proof.
  destruct (verify no_ext (layout_bytes ex_layout)) as [[f codes]|] eqn:E.
  - assert (Hc : codes = []).
    { pose proof C02_ex_layout_verify as H. rewrite E in H. now inversion H. }
    exists f, codes. split; [exact E|]. subst codes. intros c [].
  - pose proof C02_ex_layout_verify as H. rewrite E in H. discriminate.
Qed.

Example C02_ex_layout_size : length (layout_bytes ex_layout) = 493%nat.
Proof. vm_compute. reflexivity. Qed.

(** * Codecs and sorting declarations

    The decoder [verify ext] is parametrised by a decompressor [ext] for the codecs it does
    not implement itself (GZIP, BROTLI, ZSTD, LZ4_RAW; the run instantiates it with the
    reference implementations of those codecs, which accept complete well-formed streams only
    - a section of zero bytes is a stream of none of them).  Every theorem above that mentions
    [ext] holds for every [ext]; and [ext] is never consulted for UNCOMPRESSED and SNAPPY
    sections: *)
Theorem C02_ext_only_for_foreign_codecs : forall (e1 e2 : ext_fn) codec b,
  (codec = 0 \/ codec = 1)%Z -> decompress e1 codec b = decompress e2 codec b.
Proof. intros e1 e2 codec b [->| ->]; reflexivity. Qed.

(** The complaint sorting_nulls_placement is raised exactly when the definition levels of
    the first sorting column do not split into nulls followed by non-nulls (nulls_first) /
    non-nulls followed by nulls (otherwise). *)
Theorem C02_sorting_nulls_placement : forall nf maxd defs,
  nulls_placed nf maxd defs = true <->
  exists a b, defs = a ++ b /\
    forallb (fun d => if nf then d <? maxd else negb (d <? maxd)) a = true /\
    forallb (fun d => if nf then negb (d <? maxd) else d <? maxd) b = true.
Proof. exact nulls_placed_spec. Qed.

Print Assumptions C02_ext_only_for_foreign_codecs.
Print Assumptions C02_sorting_nulls_placement.

(* non-vacuity: both answers occur; a decompressor for codec 6 is used for codec 6 only *)
Example C02_ex_nulls_placed :
  (nulls_placed true 1 [0; 0; 1; 1], nulls_placed false 1 [0; 0; 1; 1],
   nulls_placed false 2 [2; 2; 1; 0], nulls_placed true 1 [0; 1; 0]) = (true, false, true, false).
Proof. vm_compute. reflexivity. Qed.

Example C02_ex_ext :
  let e : ext_fn := fun codec b => if (codec =? 6)%Z then Some (rev b) else None in
  (decompress e 6 [1; 2], decompress e 2 [1; 2], decompress e 0 [1; 2], decompress no_ext 6 [1; 2])
  = (Some [2; 1], None, Some [1; 2], None).
Proof. vm_compute. reflexivity. Qed.

(** ** Dictionary lookup of the specification decoder

    The decoder looks dictionary indexes up in blocks of 256 values (linear time on dictionaries of 2^16 and more
    values, index bit widths 17 and 18); that is the lookup by position, for every dictionary and index. *)
Theorem C02_dictionary_lookup : forall (dict : list bytes) (i : N),
  dict_lookup (dict_blocks dict) i = nth_error dict (N.to_nat i).
Proof. exact (@dict_lookup_eq bytes). Qed.

Print Assumptions C02_dictionary_lookup.

(* non-vacuity: positions inside, at the end of and beyond a dictionary of 600 values (three blocks) *)
Example C02_ex_dictionary_lookup :
  let dict := map (fun k => [N.of_nat k mod 256; N.of_nat k / 256]) (seq 0 600) in
  (dict_lookup (dict_blocks dict) 0, dict_lookup (dict_blocks dict) 255, dict_lookup (dict_blocks dict) 256,
   dict_lookup (dict_blocks dict) 599, dict_lookup (dict_blocks dict) 600)
  = (Some [0; 0], Some [255; 0], Some [0; 1], Some [87; 2], None).
Proof. vm_compute. reflexivity. Qed.
