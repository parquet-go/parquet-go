(** C15 — documented concurrent use behaves like some serial execution.
    The models are Conc/{Sem,Refcount,LazyPublish,Async,RowGroups,
    GiveBack,FillPublish}.v, the invariants Conc/*Proofs.v.

    What is proved: the LOGIC of the synchronisation protocols of the
    library, for ALL interleavings (every run = every list of scheduler
    choices) of atomic steps executed in a sequentially consistent order:
    atomics and channel operations are single steps, plain memory is touched
    only by the thread that owns it.  What is NOT a theorem (only explored by
    the stress harness, the race detector and the poison hook): that the Go
    code performs exactly these atomic steps, data races on plain memory, the
    Go runtime and scheduler. *)
From Coq Require Import List Arith NArith Lia.
From PQ Require Import Conc.Sem Conc.SemProofs.
From PQ Require Import Conc.Refcount Conc.RefcountProofs.
From PQ Require Import Conc.LazyPublish Conc.LazyPublishProofs.
From PQ Require Import Conc.Async Conc.AsyncProofs.
From PQ Require Import Conc.RowGroups Conc.RowGroupsProofs.
From PQ Require Import Conc.GiveBack Conc.GiveBackProofs.
From PQ Require Import Conc.FillPublish Conc.FillPublishProofs.
Import ListNotations.

(** * P1 — reference counted pooled buffers (buffer.go) *)

(** For any number of threads running well-bracketed programs (a thread refs,
    unrefs, uses or hands over a buffer only while it holds a reference to it)
    and for every interleaving, every reachable configuration is [safe]:
    - a buffer is in the pool at most once;
    - a buffer in the pool has count 0 and no thread holds, or carries through
      a channel, a reference to it;
    - a thread about to use / ref / unref / send a buffer holds a reference to
      it, the count is >= 1 and the buffer is not in the pool (no use after put);
    - the thread about to put a buffer is the one whose unref saw 0, the count
      is 0 and nobody holds a reference;
    - the emitted get/ref/unref/put events of every buffer form a run of the
      per-buffer automaton (put exactly once per get, only after the count
      reached 0, nothing between put and the next get). *)
Theorem C15_refcount_safe : forall progs sched c,
  Forall (wb (fun _ => 0)) progs ->
  run rstep (init progs) sched = Some c -> safe c.
Proof. exact refcount_safe. Qed.

(** the trace of every such run is accepted by the extracted trace checker *)
Theorem C15_refcount_trace_accepted : forall progs sched c,
  Forall (wb (fun _ => 0)) progs ->
  run rstep (init progs) sched = Some c ->
  exists m, check_trace Nat.eqb (trace (fst c)) = inl m.
Proof.
  intros progs sched c Hwb Hrun. apply (check_trace_complete nat Nat.eqb Nat.eqb_eq).
  apply (refcount_safe progs sched c Hwb Hrun).
Qed.

(** the trace checker run on the traces recorded from the Go code decides
    exactly "every buffer's own event sequence is a run of the automaton" *)
Theorem C15_trace_checker_sound : forall tr m,
  check_trace_N tr = inl m -> trace_ok N.eqb tr.
Proof. exact (check_trace_sound N N.eqb N.eqb_eq). Qed.

Theorem C15_trace_checker_complete : forall tr,
  trace_ok N.eqb tr -> exists m, check_trace_N tr = inl m.
Proof. exact (check_trace_complete N N.eqb N.eqb_eq). Qed.

Theorem C15_put_only_at_zero : forall s s',
  buf_step s EPut = Some s' -> s = BZero /\ s' = BPooled.
Proof. exact put_only_at_zero. Qed.

Theorem C15_zero_only_by_last_unref : forall s e,
  buf_step s e = Some BZero -> s = BLive true 1 /\ e = EUnref.
Proof. exact zero_only_by_last_unref. Qed.

Print Assumptions C15_refcount_safe.
Print Assumptions C15_refcount_trace_accepted.
Print Assumptions C15_trace_checker_sound.
Print Assumptions C15_trace_checker_complete.
Print Assumptions C15_put_only_at_zero.
Print Assumptions C15_zero_only_by_last_unref.

(** * P2 — lazy publication of per-chunk state (file.go, schema.go) *)
Section C15_lazy.
  Variable V : Type.       (* decoded index / bloom filter *)
  Variable pure : V.       (* what decoding the file's bytes yields *)

  (** Compare-and-swap publication (column index, offset index, bloom
      filter): for any number [n] of callers and every interleaving,
      - whatever is published is an object holding the pure value, allocated
        by one of the callers ([good]);
      - every call that has returned returned exactly the published object:
        all callers get the SAME pointer, never nil.
      When two callers race, both may read and decode (the work is duplicated,
      at most once per caller), exactly one compare-and-swap succeeds, and the
      loser discards its object and returns the winner's. *)
  Theorem C15_lazy_publish_agree : forall n sched c,
    run (lstep pure) (linit cas_prog n) sched = Some c ->
    (ptr (fst c) = None \/ good V pure (ptr (fst c))) /\
    (forall t r, In (t, r) (uses (fst c)) -> r = ptr (fst c) /\ good V pure r).
  Proof. exact (lazy_publish_agree V pure). Qed.

  (** once set, the published pointer never changes *)
  Theorem C15_lazy_publish_stable : forall c t c' o,
    LInv V pure c -> lstep pure c t = Some c' -> ptr (fst c) = Some o -> ptr (fst c') = Some o.
  Proof.
    intros c t c' o [Hp Ht Hu] Hstep Ho.
    destruct (tstep_some _ _ _ _ _ _ _ Hstep) as (l & a & rest & s' & l' & Hn & He & ->).
    destruct (lexec_stage V pure _ _ _ _ _ _ (conj Hp Hu) (Ht _ _ Hn) He) as (_ & _ & Hst).
    simpl. rewrite <- Ho. apply Hst. rewrite Ho. discriminate.
  Qed.

  (** Plain Store of an equal value (schema.go cacheMap.load): the callers
      agree on the CONTENTS (the pure value), not on the pointer. *)
  Theorem C15_lazy_store_agree : forall n sched c,
    run (lstep pure) (linit store_prog n) sched = Some c ->
    (ptr (fst c) = None \/ good V pure (ptr (fst c))) /\
    (forall t r, In (t, r) (uses (fst c)) -> good V pure r).
  Proof.
    intros n sched c Hrun.
    exact (proj1 (invariant_always _ _ _ (SInv V pure) _ (sinit_inv V pure n) (sstep_inv V pure) _ _ Hrun)).
  Qed.
End C15_lazy.

Print Assumptions C15_lazy_publish_agree.
Print Assumptions C15_lazy_publish_stable.
Print Assumptions C15_lazy_store_agree.

(** * P3 — asyncPages (page.go) *)

(** For every list of consumer calls (ReadPage / SeekToRow k / Close) and every
    interleaving of the consumer with the producer goroutine:
    - what the consumer observes satisfies [hist_ok]: after SeekToRow(k) the
      delivered pages are (k,0), (k,1), ... — page i of the sequence that
      starts at row k, in order, no gap, no stale page from before the seek
      (before any seek: the sequence starting at row 0);
    - no reachable configuration in which the consumer still has a call to
      make or to finish is a deadlock: some step is enabled. *)
Theorem C15_async_versioned : forall calls sched st,
  run astep (ainit calls) sched = Some st ->
  hist_ok 0 0 (hist (gh st)) /\
  (wants st -> exists l st', astep st l = Some st').
Proof.
  intros calls sched st H. split.
  - exact (async_versioned calls sched st H).
  - exact (async_no_deadlock calls sched st H).
Qed.

(** the send of SeekToRow on the capacity-1 channel never blocks; Close
    returns only after the producer goroutine has exited *)
Theorem C15_async_seek_send_never_blocks : forall calls sched st k,
  run astep (ainit calls) sched = Some st -> cp (co st) = CS1 k -> seekch (ch st) = None.
Proof. intros calls sched st k Hrun Hcp. exact (proj1 (a_v3 st (reach_inv _ _ _ Hrun) k Hcp)). Qed.

Theorem C15_async_close_joins_producer : forall calls sched st,
  run astep (ainit calls) sched = Some st -> read_closed (ch st) = true -> pp (pr st) = PDone.
Proof. intros calls sched st Hrun. exact (a_v7 st (reach_inv _ _ _ Hrun)). Qed.

Print Assumptions C15_async_versioned.
Print Assumptions C15_async_seek_send_never_blocks.
Print Assumptions C15_async_close_joins_producer.

(** * P4 — row groups filled concurrently, committed serially (writer.go) *)
Section C15_rowgroups.
  Variables Row B : Type.
  Variable enc : nat -> list Row -> list B.   (* bytes of a row group holding these rows, committed at this offset *)

  (** steps of distinct writers commute *)
  Theorem C15_writers_commute : forall (c c1 c12 : rgstate Row B) t1 t2,
    t1 <> t2 ->
    gstep enc c (LW t1) = Some c1 -> gstep enc c1 (LW t2) = Some c12 ->
    exists c2, gstep enc c (LW t2) = Some c2 /\ gstep enc c2 (LW t1) = Some c12.
  Proof. exact (writers_commute Row B enc). Qed.

  (** For every interleaving of the writers (each writing its own batches
      into its own row group) followed by the serial commits: the file is
      the one obtained by committing, in [order], row groups filled serially —
      it depends on the batches and the commit order only. *)
  Theorem C15_rowgroups_commute : forall batches order sched c,
    NoDup order -> (forall g, In g order -> g < length batches) ->
    run (gstep enc) (ginit batches order) sched = Some c -> todo c = [] ->
    file c = commit_all enc batches order [].
  Proof. intros batches order sched c H1 H2. exact (rowgroups_commute Row B enc batches order H1 H2 sched c). Qed.

  Theorem C15_rowgroups_state_per_writer : forall batches order sched c t,
    NoDup order -> (forall g, In g order -> g < length batches) ->
    run (gstep enc) (ginit batches order) sched = Some c -> todo c = order -> t < length batches ->
    nth t (rgs c) [] ++ concat (nth t (wprogs c) []) = concat (nth t batches []).
  Proof. intros batches order sched c t H1 H2. exact (rowgroups_state_per_writer Row B enc batches order H1 H2 sched c t). Qed.
End C15_rowgroups.

Print Assumptions C15_writers_commute.
Print Assumptions C15_rowgroups_commute.
Print Assumptions C15_rowgroups_state_per_writer.

(** * P5 — what Close gives back to a process-wide pool, it gives back once (file.go) *)

(** One thread of the model is one page reader with the history of calls made
    on it: [KOpen] (pool.Get of ANY element of the pool, or a new one), reads,
    and ANY NUMBER of [KClose] calls (`defer pages.Close()` plus an explicit
    Close).  FilePages.Close puts f.rbuf back and forgets it.  For any
    histories and every interleaving:
    - nothing is in the pool twice;
    - what a reader holds is not in the pool;
    - no two readers that are open at the same time hold the same thing (two
      columns of one Rows, readers of unrelated files in other goroutines). *)
Theorem C15_close_gives_back_once : forall progs sched c,
  run (kstep true) (kinit progs) sched = Some c ->
  NoDup (kpool (fst c)) /\
  (forall t l p i, nth_error (snd c) t = Some (l, p) -> krbuf l = Some i -> ~ In i (kpool (fst c))) /\
  (forall t1 t2 i, ~ shared_by c t1 t2 i).
Proof.
  intros progs sched c Hr. apply kinv_safe.
  exact (invariant_always _ _ (kstep true) KInv _ (kinit_inv progs) kstep_inv _ _ Hr).
Qed.

Print Assumptions C15_close_gives_back_once.

(** * P6 — an entry of a copy-on-write cache is filled before it is published
    (column_buffer_reflect.go structFieldsCache) *)

(** [w] callers write a value of a struct type with [n] fields that no cache
    has met.  Each loads the cache, on a miss allocates an entry, fills it
    field by field (plain writes to its own entry), publishes it with an
    atomic Store, and then looks its columns up in the entry it has (the
    loaded one on a hit).  For every interleaving: a published entry has all
    [n] fields, and every caller found all [n] fields. *)
Theorem C15_fill_then_store_complete : forall n w sched c,
  run fstep (finit (fill_then_store n) w) sched = Some c ->
  (forall e, fcache (fst c) = Some e -> nth_error (fheap (fst c)) e = Some n) /\
  (forall t k, In (t, k) (fseen (fst c)) -> k = n).
Proof.
  intros n w sched c Hr.
  exact (proj1 (invariant_always _ _ fstep (FInv n) _ (finit_inv n w) (fstep_inv n) _ _ Hr)).
Qed.

Print Assumptions C15_fill_then_store_complete.

(** The part of the property that is not a theorem: *)
Definition C15_full_statement : Prop :=
  (* "every documented concurrent use of the Go library produces the bytes and
     rows of some serial execution with no data race, deadlock or panic" is a
     statement about Go programs under the Go memory model; it is not
     expressible over these models.  The theorems above cover the protocols'
     logic; the rest is explored by harness/c15 (stress over GOMAXPROCS, race
     detector, trace validation).  P5 and P6 are tied to the code by outcomes
     only (scenarios K and J: no hook reports the Get/Put of the bufio reader
     pools or the Load/Store of the caches). *)
  True.

(** * Non-vacuity *)

(** P1: three threads share buffer 0: thread 0 gets it, makes two more
    references and sends them; threads 1 and 2 receive, use and release. *)
Definition ex_progs : list (list act) :=
  [ [Get 0; Use 0; Ref 0; Send 0; Ref 0; Send 0; Use 0; Unref 0; Release 0; Get 1; Use 1; Unref 1; Release 1];
    [Recv 0; Use 0; Unref 0; Release 0];
    [Recv 0; Use 0; Use 0; Unref 0; Release 0; Get 0; Use 0; Unref 0; Release 0] ].

Example C15_ex_wb : Forall (wb (fun _ => 0)) ex_progs.
Proof. repeat constructor; simpl; unfold upd; simpl; repeat split; auto. Qed.

(* a schedule in which the LAST unref is done by thread 2, which then gets
   the buffer again from the pool *)
Definition ex_sched : list nat :=
  [0;0;0;0;1;0;0;2;1;0;0;0;1;1;2;2;2;2;2;2;2;2;0;0;0;0].

Example C15_ex_run_trace :
  run_trace ex_progs ex_sched =
  Some [(EGet,0); (ERef,0); (ERef,0); (EUnref,0); (EUnref,0); (EUnref,0); (EPut,0);
        (EGet,0); (EUnref,0); (EPut,0); (EGet,1); (EUnref,1); (EPut,1)].
Proof. vm_compute. reflexivity. Qed.

Example C15_ex_trace_accepted :
  match check_trace_N [(EGet,0%N); (ERef,0%N); (EGet,1%N); (EUnref,0%N); (EUnref,1%N); (EPut,1%N); (EUnref,0%N); (EPut,0%N); (EGet,0%N)] with
  | inl _ => True | inr _ => False end.
Proof. vm_compute. exact I. Qed.

(** the checker rejects a put while a reference is still held (the seeded
    mutant "unref puts at count 1"), a use of the count after the put, and a
    second put *)
Example C15_ex_put_at_one_rejected :
  check_trace_N [(EGet,7%N); (ERef,7%N); (EUnref,7%N); (EPut,7%N)] = inr (3%N, BLive true 1).
Proof. vm_compute. reflexivity. Qed.

Example C15_ex_unref_after_put_rejected :
  check_trace_N [(EGet,7%N); (EUnref,7%N); (EPut,7%N); (EUnref,7%N)] = inr (3%N, BPooled).
Proof. vm_compute. reflexivity. Qed.

Example C15_ex_double_put_rejected :
  check_trace_N [(EGet,7%N); (EUnref,7%N); (EPut,7%N); (EPut,7%N)] = inr (3%N, BPooled).
Proof. vm_compute. reflexivity. Qed.

(** P2: two callers race: both load nil, both decode, caller 1 wins the
    compare-and-swap, caller 0 loses, reloads and returns caller 1's object. *)
Example C15_ex_lazy_race :
  match run (lstep 42) (linit cas_prog 2) [0;1;0;1;1;0;0;1;1;0] with
  | Some c => ptr (fst c) = Some (1, 42) /\ uses (fst c) = [(1, Some (1, 42)); (0, Some (1, 42))]
  | None => False
  end.
Proof. vm_compute. split; reflexivity. Qed.

(** P3: ReadPage, SeekToRow 5, ReadPage, Close.  The producer is holding
    page (0,1) of the old sequence, blocked on the read channel, when the seek
    arrives; it delivers that stale page first: the consumer discards it
    (version 0 <> 1), then gets (5,0). *)
Definition ex_calls : list cop := [CRead; CSeek 5; CRead; CRead; CClose].
Definition ex_asched : list alabel :=
  [LC; LP 0; LP 0; LP 0; LP 0;      (* ReadPage: (0,0) delivered *)
   LP 0;                            (* producer reads (0,1), now blocked in the select *)
   LC; LC; LC;                      (* SeekToRow 5: version 1, seek sent *)
   LC;                              (* ReadPage: blocked *)
   LP 0;                            (* stale (0,1) sent with version 0: discarded *)
   LP 0;                            (* producer reads (0,2) *)
   LP 1;                            (* takes the seek *)
   LP 0; LP 0; LP 0;                (* SeekToRow(5), ReadPage (5,0), deliver *)
   LC; LP 0; LP 0;                  (* ReadPage: (5,1) *)
   LC; LC; LP 0; LP 2; LP 0; LP 0; LC ].  (* Close *)

Example C15_ex_async_run :
  match run astep (ainit ex_calls) ex_asched with
  | Some st => hist (gh st) = [EvPage 0 0; EvSeek 5; EvPage 5 0; EvPage 5 1] /\
               prog (co st) = [] /\ pp (pr st) = PDone
  | None => False
  end.
Proof. vm_compute. repeat split; reflexivity. Qed.

(** without the version comparison (the seeded mutant) the same schedule
    delivers the stale page after the seek: the theorem rests on the check *)
Theorem C15_async_without_version_check_refuted :
  exists calls sched st,
    run astep_nocheck (ainit calls) sched = Some st /\ hist_okb 0 0 (hist (gh st)) = false.
Proof.
  exists ex_calls, (firstn 11 ex_asched).
  eexists. split; [vm_compute; reflexivity|vm_compute; reflexivity].
Qed.

(** P4: two writers, two interleavings, the same file *)
Definition ex_enc (off : nat) (rows : list nat) : list nat := off :: length rows :: rows.
Definition ex_batches : list (list (list nat)) := [[[1;2];[3]]; [[10];[20;30]]].

Example C15_ex_rowgroups :
  match run (gstep ex_enc) (ginit ex_batches [0;1]) [LW 0; LW 0; LW 1; LW 1; LCommit; LCommit],
        run (gstep ex_enc) (ginit ex_batches [0;1]) [LW 1; LW 0; LW 1; LW 0; LCommit; LCommit] with
  | Some a, Some b => file a = file b /\ file a = [0;3;1;2;3;5;3;10;20;30]
  | _, _ => False
  end.
Proof. vm_compute. split; reflexivity. Qed.

(* committing before every writer has finished is not a step *)
Example C15_ex_commit_needs_join :
  run (gstep ex_enc) (ginit ex_batches [0;1]) [LW 0; LW 0; LW 1; LCommit] = None.
Proof. vm_compute. reflexivity. Qed.

(** P5: reader 0 is closed twice; readers 1 and 2 are opened afterwards.  With
    the code (Close forgets what it gave back) reader 1 gets thing 0 from the
    pool and reader 2 a new one. *)
Definition ex_kprogs : list (list kact) :=
  [[KOpen 0; KRead; KClose; KClose]; [KOpen 0; KRead]; [KOpen 0; KRead]].

Example C15_ex_double_close :
  match run (kstep true) (kinit ex_kprogs) [0;0;0;0;1;2] with
  | Some c => kpool (fst c) = [] /\ map (fun th => krbuf (fst th)) (snd c) = [None; Some 0; Some 1]
  | None => False
  end.
Proof. vm_compute. split; reflexivity. Qed.

(** Without the two assignments `f.rbuf = nil; f.rbufpool = nil` the second
    Close puts thing 0 into the pool again: readers 1 and 2 are open at the
    same time on the same bufio.Reader (seeded change C15/12). *)
Theorem C15_close_without_forgetting_refuted :
  exists c, run (kstep false) (kinit ex_kprogs) [0;0;0;0;1;2] = Some c /\ shared_by c 1 2 0.
Proof.
  eexists. split; [vm_compute; reflexivity|].
  split; [discriminate|]. do 4 eexists. repeat split; reflexivity.
Qed.

(** P6: two callers, a type of three fields; caller 0 misses, fills and
    publishes; caller 1 hits and finds the three fields. *)
Example C15_ex_fill_then_store :
  match run fstep (finit (fill_then_store 3) 2) [0;0;0;0;0;0;1;1;1;1;1;1;1;0] with
  | Some c => fcache (fst c) = Some 0 /\ fheap (fst c) = [3; 0] /\ fseen (fst c) = [(1, 3); (0, 3)]
  | None => False
  end.
Proof. vm_compute. repeat split; reflexivity. Qed.

(** Publishing the entry before it is filled (seeded change C15/11): caller 1
    hits the entry when caller 0 has filled in one field of three, and writes
    the columns of the other two as zero. *)
Theorem C15_store_before_fill_refuted :
  exists c, run fstep (finit (store_then_fill 3) 2) [0;0;0;0;1;1;1;1;1;1;1;0;0;0] = Some c /\
            In (1, 1) (fseen (fst c)).
Proof. eexists. split; [vm_compute; reflexivity|]. simpl. auto. Qed.

(** Setting the "loaded" flag before the load (seeded change C15/13: the lazy
    decompression of a gzip bloom filter, bloom.go newBloomFilter, guarded by
    [loaded.CompareAndSwap(false, true)] instead of [sync.Once]) is the same
    shape with an entry of ONE field, the decompressed bits: the winner of the
    compare-and-swap publishes the flag (FStore) and only then loads (FFill);
    a caller that finds the flag set (FLoad hit) goes straight on to use the
    bits at hand (FUse) and finds 0 of 1: CheckSplitBlock over no bits answers
    (false, io.EOF) for a value that is present.  [C15_fill_then_store_complete]
    at n = 1 is the order "load, then publish"; that sync.Once makes the
    callers arriving meanwhile WAIT (instead of loading a copy of their own) is
    not modelled - harness/c15 scenario L compares every first Check with the
    serial answer. *)
Theorem C15_flag_before_load_refuted :
  exists c, run fstep (finit (store_then_fill 1) 2) [0;0;0;1;1;1;1;1;0;0] = Some c /\
            In (1, 0) (fseen (fst c)) /\ In (0, 1) (fseen (fst c)).
Proof. eexists. split; [vm_compute; reflexivity|]. simpl. auto. Qed.
