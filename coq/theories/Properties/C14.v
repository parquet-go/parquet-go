(** C14 — I/O failures and truncated files are always reported, never silently
    absorbed.  Statements only; the models are Sink/Model.v, Copy.v, Reader.v, Demand.v,
    Bloom.v and Once.v, the proofs the other files of Sink/. *)
From Coq Require Import List NArith Bool Arith Lia.
From PQ Require Import Sink.Model Sink.Proofs Sink.Termination Sink.Reader Sink.ReaderProofs.
From PQ Require Import Sink.Copy Sink.CopyProofs Sink.Demand Sink.DemandProofs Sink.FullErr Sink.Bloom Sink.Once.
Import ListNotations.
Open Scope N_scope.

(** The table of write sites of Flush/Close (Sink/Model.v, [site_checked],
    extracted by hand from writer.go with the line of every check): every site's
    error is looked at by every caller up to the API.  Proved by computation, so
    that a site entered as unchecked breaks this proof and, through the
    hypothesis below, every theorem about Close. *)
Theorem C14_all_sites_checked : all_sites_checked = true.
Proof. reflexivity. Qed.

Section Writer.
  Variable A : Type.   (* bytes *)

  (** A nil error from Close (and from every Write/Flush before it): the
      destination accepted exactly the concatenation of all modules of the file —
      for every fault script, with and without the bufio layer, any buffer size,
      every way the sites cut their bytes into Write calls. *)
  Theorem C14_close_nil_means_complete :
    all_sites_checked = true ->
    forall (f : fault) (bufsize : option N) (xs : list (site A)) t' i,
    close_current A f bufsize xs = (t', ENone, i) ->
    sink_bytes A (snk t') = all_data A xs.
  Proof.
    intros H f bs xs t' i. destruct (checked_all H) as [Hk _].
    exact (close_nil_means_complete A site_checked Hk f bs xs t' i).
  Qed.

  (** A destination that fails at byte offset k inside the file (accepting the
      bytes before k): some call reports an error.  A destination that once
      returns a short count with a nil error at k: an error is reported, or the
      rest was written again and nothing is missing (bufio.Writer.Write and
      memory.Buffer.WriteTo retry); without the bufio layer, and when no module
      travels below offsetTrackingWriter through memory.Buffer.WriteTo, it is
      always reported. *)
  Theorem C14_sink_fault_surfaces :
    all_sites_checked = true ->
    forall (bufsize : option N) (xs : list (site A)) (k : N),
    k < nlen A (all_data A xs) ->
    (forall t' e i, close_current A (ErrAt k) bufsize xs = (t', e, i) -> e <> ENone) /\
    (forall t' e i, close_current A (ShortAt k) bufsize xs = (t', e, i) ->
       e <> ENone \/ sink_bytes A (snk t') = all_data A xs) /\
    (no_lower_write_to A xs ->
     forall t' e i, close_current A (ShortAt k) None xs = (t', e, i) -> e <> ENone).
  Proof.
    intros H bs xs k Hk. destruct (checked_all H) as [Hc _]. repeat split.
    - intros t' e i. exact (err_fault_surfaces A site_checked Hc k bs xs t' e i Hk).
    - intros t' e i. exact (short_fault_surfaces A site_checked Hc (ShortAt k) bs xs t' e i).
    - intros Hn t' e i. exact (short_fault_unbuffered_reported A site_checked Hc k xs t' e i Hn Hk).
  Qed.
End Writer.

(** The fuelled loops of the model (bufio.Writer.Write/WriteString,
    memory.Buffer.WriteTo) end by their own exit condition under the fault
    model: the value the model would give on fuel exhaustion (io.ErrShortWrite)
    is never produced — an error returned by Write is the sticky error of the
    bufio.Writer, and more fuel does not change the result of WriteTo. *)
Theorem C14_model_loops_terminate : forall (A : Type),
  (forall direct (s : sink A) (b : bufw A) p s' b' n e,
     wf_sink A s -> wf_buf A b -> 1 <= b_size b ->
     bufio_write_gen A direct s b p = (s', b', n, e) -> e = b_err b') /\
  (forall w, w = otw_write A true \/ w = lower_write A ->
     forall (c : list A) (t : st A) k, wf_st A t ->
     retry A w (length c + 2) t c = retry A w (length c + 2 + k) t c).
Proof.
  intros A. split.
  - exact (bufio_write_gen_error_is_sticky A).
  - exact (write_to_fuel_enough A).
Qed.

Print Assumptions C14_all_sites_checked.
Print Assumptions C14_close_nil_means_complete.
Print Assumptions C14_sink_fault_surfaces.
Print Assumptions C14_model_loops_terminate.

(** The readAt wrapper (file.go, func readAt): for every answer (n, err) of an
    io.ReaderAt that honours its contract (n < len(p) => err != nil) the wrapper
    returns the same n; its error is nil exactly when the buffer was filled, and
    the reader's error is handed on unchanged otherwise. *)
Theorem C14_readat_never_masks : forall len r,
  readerat_ok len r ->
  fst (readat_wrap len r) = fst r /\
  (snd (readat_wrap len r) = RNone <-> fst r = len) /\
  (fst r < len -> snd (readat_wrap len r) = snd r /\ snd r <> RNone).
Proof. exact readat_never_masks. Qed.

(** File.ReadAt (file.go) over such a reader is such a reader: it never
    returns fewer bytes than asked for together with a nil error. *)
Theorem C14_file_readat_never_masks : forall size ra off len,
  (forall o l, readerat_ok l (ra o l)) -> readerat_ok len (file_readat size ra off len).
Proof. exact file_readat_ok. Qed.

(** Every strict prefix p of a file f: OpenFile fails — or p itself ends in
    footer ++ length ++ magic which decodes (OpenFile cannot tell p from a
    complete file then), and whatever that footer describes, a sequence of
    reads fails at the first range that needs a byte beyond p, while ranges
    inside p return the bytes of f. *)
Theorem C14_prefix_rejected : forall (M : Type) (decode : list byte -> option M) has_key f p q,
  f = p ++ q -> q <> [] ->
  (exists e, open_file M decode has_key p = OpenErr e) \/
  (exists m', open_file M decode has_key p = OpenOk m' /\ valid_trailer M decode p /\
     (forall rs, (exists off len, In (off, len) rs /\ 0 < len /\ flen p < off + len) -> read_all p rs = None) /\
     (forall off len, off + len <= flen p -> read_range p off len = RdOk (slice f off len))).
Proof. exact prefix_rejected. Qed.

Theorem C14_prefix_without_trailer_rejected : forall (M : Type) (decode : list byte -> option M) has_key p,
  ~ valid_trailer M decode p -> exists e, open_file M decode has_key p = OpenErr e.
Proof. exact prefix_without_trailer_rejected. Qed.

(** The same under the file options that change how OpenFile reads the ends of
    the file: SkipMagicBytes (no header stage), OptimisticRead with any
    ReadBufferSize (one read of min(ReadBufferSize, L) >= 8 bytes of the tail,
    a footer inside it is not read again).  The options that act after the
    footer was decoded (SkipPageIndex, SkipBloomFilters, PrefetchBloomFilters,
    read mode) do not change the open stages.  Without SkipMagicBytes the
    verdict is the one of the default configuration. *)
Theorem C14_prefix_rejected_under_options : forall (M : Type) (decode : list byte -> option M)
    skip_magic optimistic rbs has_key f p q,
  f = p ++ q -> q <> [] ->
  (exists e, open_file_cfg M decode skip_magic optimistic rbs has_key p = OpenErr e) \/
  (exists m', open_file_cfg M decode skip_magic optimistic rbs has_key p = OpenOk m' /\ valid_trailer M decode p /\
     (forall rs, (exists off len, In (off, len) rs /\ 0 < len /\ flen p < off + len) -> read_all p rs = None) /\
     (forall off len, off + len <= flen p -> read_range p off len = RdOk (slice f off len))).
Proof. exact prefix_rejected_cfg. Qed.

Theorem C14_prefix_without_trailer_rejected_under_options : forall (M : Type) (decode : list byte -> option M)
    skip_magic optimistic rbs has_key p,
  ~ valid_trailer M decode p -> exists e, open_file_cfg M decode skip_magic optimistic rbs has_key p = OpenErr e.
Proof. exact prefix_without_trailer_rejected_cfg. Qed.

Theorem C14_optimistic_read_same_verdict : forall (M : Type) optimistic rbs has_key L hdr tail decode_at,
  open_core_cfg M false optimistic rbs has_key L hdr tail decode_at = open_core M has_key L hdr tail decode_at.
Proof. exact open_core_cfg_tail_stages. Qed.

(** A column chunk (pages = (header length, body length)) whose source ends
    before the chunk does (anywhere: inside a header or a body, exactly between
    two pages, exactly between a header and its body) never ends with a plain
    io.EOF; a complete chunk is read to its end. *)
Theorem C14_chunk_early_end_reported : forall pages size avail,
  sumN pages = size -> avail < size ->
  snd (read_pages true size avail 0 pages) = PUnexpected.
Proof. intros. apply chunk_early_end_reported; lia. Qed.

Theorem C14_chunk_complete_read : forall pages size avail,
  sumN pages = size -> size <= avail -> (forall h b, In (h, b) pages -> 0 < h) ->
  read_pages true size avail 0 pages = (length pages, PEnd).
Proof. intros. apply chunk_complete_read; auto. Qed.

(** The same after a seek: SeekToRow then ReadPage to the end of the chunk,
    with an offset index (the stream goes to the page of the row) and without
    (SkipPageIndex or a file without page index: every page before the row is
    read and dropped).  Wherever the source ends before the chunk does --
    inside a page that is only skipped over, or later -- the sequence never
    ends with a plain io.EOF; over a complete source exactly the pages from the
    row on are returned. *)
Theorem C14_seek_early_end_reported : forall noindex size avail dict skipped rest,
  sumN dict + sumN skipped + sumN rest = size -> 0 < sumN rest -> avail < size ->
  snd (seek_read_pages true noindex size avail dict skipped rest) = PUnexpected.
Proof. exact seek_early_end_reported. Qed.
Print Assumptions C14_seek_early_end_reported.

Theorem C14_seek_complete_read : forall cur noindex size avail dict skipped rest,
  sumN dict + sumN skipped + sumN rest = size -> size <= avail ->
  (forall h b, In (h, b) (skipped ++ rest) -> 0 < h) ->
  seek_read_pages cur noindex size avail dict skipped rest = (length rest, PEnd).
Proof. exact seek_complete_read. Qed.
Print Assumptions C14_seek_complete_read.

(* source cut inside the body of the second skipped page: without offset index
   the cut is met while skipping, with one when the stream is repositioned *)
Example C14_ex_seek_cut_in_skipped_page :
  seek_read_pages true true 45 22 [(2, 3)] [(3, 7); (3, 7)] [(3, 7); (3, 7)] = (0%nat, PUnexpected)
  /\ seek_read_pages true false 45 22 [(2, 3)] [(3, 7); (3, 7)] [(3, 7); (3, 7)] = (0%nat, PUnexpected)
  /\ seek_read_pages true true 45 36 [(2, 3)] [(3, 7); (3, 7)] [(3, 7); (3, 7)] = (1%nat, PUnexpected)
  /\ seek_read_pages true true 45 45 [(2, 3)] [(3, 7); (3, 7)] [(3, 7); (3, 7)] = (2%nat, PEnd).
Proof. vm_compute. repeat split. Qed.

Print Assumptions C14_readat_never_masks.
Print Assumptions C14_file_readat_never_masks.
Print Assumptions C14_prefix_rejected.
Print Assumptions C14_prefix_without_trailer_rejected.
Print Assumptions C14_prefix_rejected_under_options.
Print Assumptions C14_prefix_without_trailer_rejected_under_options.
Print Assumptions C14_optimistic_read_same_verdict.
Print Assumptions C14_chunk_early_end_reported.
Print Assumptions C14_chunk_complete_read.


Definition bs (off n : nat) : list N := map (fun i => N.of_nat (i mod 251)) (seq off n).

(* a file of 8 modules, 69 bytes: magic, dictionary page (2 writes), data pages
   (2 chunks of the page buffer), a deferred bloom filter, column index and
   offset index (thrift: byte by byte and a string), footer, length + magic *)
Definition ex_file : list (site N) :=
  [ mkSite KHeader MWrite [(true, bs 0 4)];
    mkSite KDictPage MWrite [(false, bs 4 5); (false, bs 9 6)];
    mkSite KDataPages MWriteTo [(false, bs 15 12); (false, bs 27 9)];
    mkSite KBloomDeferred MLowerWriteTo [(false, bs 36 8)];
    mkSite KColumnIndex MWrite [(false, bs 44 1); (false, bs 45 1); (true, bs 46 3)];
    mkSite KOffsetIndex MWrite [(false, bs 49 1); (false, bs 50 2)];
    mkSite KFooter MWrite [(false, bs 52 1); (true, bs 53 8)];
    mkSite KFooterTail MWrite [(false, bs 61 8)] ].

Definition ex_file_unbuffered : list (site N) :=
  [ mkSite KHeader MWrite [(true, bs 0 4)];
    mkSite KDataPages MWriteTo [(false, bs 4 12); (false, bs 16 9)];
    mkSite KFooter MWrite [(false, bs 25 1); (true, bs 26 8)];
    mkSite KFooterTail MWrite [(false, bs 34 8)] ].

(* without a fault Close returns nil and the destination holds the file, for
   every buffer configuration *)
Example C14_ex_fault_free :
  forallb (fun b => let '(e, i, pos, complete) := close_verdict true NoFault b ex_file in
                    negb (is_err e) && complete && (pos =? 69))
          [None; Some 1; Some 7; Some 16; Some 100] = true.
Proof. vm_compute. reflexivity. Qed.

(* the hypotheses of C14_sink_fault_surfaces hold for every offset of the file;
   an error at offset 20 (inside the data pages) is reported by site 2 *)
Example C14_ex_total : nlen N (all_data N ex_file) = 69.
Proof. vm_compute. reflexivity. Qed.

Example C14_ex_err_reported : close_verdict true (ErrAt 20) None ex_file = (ESink, 2%nat, 20, false).
Proof. vm_compute. reflexivity. Qed.

(* with a 7 byte buffer the same failure is reported when the buffer is flushed *)
Example C14_ex_err_reported_buffered :
  close_verdict true (ErrAt 20) (Some 7) ex_file = (ESink, 2%nat, 20, false).
Proof. vm_compute. reflexivity. Qed.

(* a short count: reported as io.ErrShortWrite without buffer... *)
Example C14_ex_short_reported : close_verdict true (ShortAt 20) None ex_file = (EShort, 2%nat, 20, false).
Proof. vm_compute. reflexivity. Qed.

(* ...retried by bufio.Writer.Write (5 byte buffer: the 12 byte chunk goes directly to the
   destination): nil and complete *)
Example C14_ex_short_retried : close_verdict true (ShortAt 20) (Some 5) ex_file = (ENone, 8%nat, 69, true).
Proof. vm_compute. reflexivity. Qed.

(* ...and a short count hitting the flush of the 100 byte buffer at the very
   end is reported by the final flush of Close (index = number of sites) *)
Example C14_ex_short_final_flush : close_verdict true (ShortAt 20) (Some 100) ex_file = (EShort, 8%nat, 20, false).
Proof. vm_compute. reflexivity. Qed.

Example C14_ex_no_lower_write_to : no_lower_write_to N ex_file_unbuffered.
Proof. intros x [<-|[<-|[<-|[<-|[]]]]]; discriminate. Qed.

(** The offsetTrackingWriter of the pinned tree (before commit 1e4fc72: the
    short count of the destination was handed on with its nil error) refutes
    C14_close_nil_means_complete and the third clause of C14_sink_fault_surfaces:
    unbuffered, one short count inside the magic, Close returns nil and three
    bytes are missing. *)
Theorem C14_pinned_short_write_refuted :
  exists (xs : list (site N)) (k : N) t' i,
    k < nlen N (all_data N xs) /\ no_lower_write_to N xs /\
    close_pinned N (ShortAt k) None xs = (t', ENone, i) /\
    sink_bytes N (snk t') <> all_data N xs.
Proof.
  exists ex_file_unbuffered, 1.
  destruct (close_pinned N (ShortAt 1) None ex_file_unbuffered) as [[t' e] i] eqn:E.
  exists t', i. split; [vm_compute; reflexivity|]. split; [exact C14_ex_no_lower_write_to|].
  vm_compute in E. inversion E; subst; clear E. split; [reflexivity|].
  vm_compute. discriminate.
Qed.

(* the same input on the current model is reported *)
Example C14_ex_current_reports : close_verdict true (ShortAt 1) None ex_file_unbuffered = (EShort, 0%nat, 1, false).
Proof. vm_compute. reflexivity. Qed.

(** reader side: a 16 byte image  magic ++ body ++ footer ++ len ++ magic  whose
    footer decodes opens, none of its strict prefixes does *)
Definition ex_decode (b : list byte) : option unit := if beqb b [1; 2; 3] then Some tt else None.
Definition ex_image : list byte := magic_par1 ++ [9] ++ [1; 2; 3] ++ [3; 0; 0; 0] ++ magic_par1.

Example C14_ex_image_opens : open_file unit ex_decode false ex_image = OpenOk tt.
Proof. vm_compute. reflexivity. Qed.

Example C14_ex_prefixes_rejected :
  forallb (fun n => match open_file unit ex_decode false (firstn n ex_image) with OpenErr _ => true | OpenOk _ => false end)
          (seq 0 (length ex_image)) = true.
Proof. vm_compute. reflexivity. Qed.

(* a prefix that ends in a planted trailer passes the magic and length checks
   and is rejected by the footer decoder *)
Example C14_ex_planted_trailer :
  open_file unit ex_decode false (magic_par1 ++ [7; 7; 7; 2; 0; 0; 0] ++ magic_par1) = OpenErr OFooterDecode.
Proof. vm_compute. reflexivity. Qed.

(* every strict prefix of the example image is rejected under the options too:
   SkipMagicBytes x OptimisticRead x ReadBufferSize 1, 8, 9, 16, 4096; the whole
   image opens under all of them; the 5-byte prefix (shorter than the 8 bytes of
   length + magic) is a short tail read also with OptimisticRead *)
Example C14_ex_prefixes_rejected_under_options :
  forallb (fun '(sm, o, rbs) =>
    forallb (fun n => match open_file_cfg unit ex_decode sm o rbs false (firstn n ex_image) with OpenErr _ => true | OpenOk _ => false end)
            (seq 0 (length ex_image)) &&
    match open_file_cfg unit ex_decode sm o rbs false ex_image with OpenOk _ => true | OpenErr _ => false end)
    (list_prod (list_prod [false; true] [false; true]) [1; 8; 9; 16; 4096]) = true.
Proof. vm_compute. reflexivity. Qed.

Example C14_ex_optimistic_short_tail :
  open_file_cfg unit ex_decode false true 4096 false (firstn 5 ex_image) = OpenErr OShortTail /\
  open_file_cfg unit ex_decode true true 4096 false (firstn 3 ex_image) = OpenErr OShortTail /\
  tail_read_size true 4096 5 = 8 /\ tail_read_size true 4096 69 = 69 /\ tail_read_size true 16 69 = 16.
Proof. vm_compute. repeat split; reflexivity. Qed.

(* an encrypted footer (trailing magic "PARE") opened without keys is an error
   also when the header magic does not announce it (a corrupt or truncated file
   whose data plants such a trailer) and under SkipMagicBytes, where the header
   is not looked at; with keys the footer decoder decides *)
Example C14_ex_encrypted_trailer_needs_keys :
  let img := magic_par1 ++ [9] ++ [1; 2; 3] ++ [3; 0; 0; 0] ++ magic_pare in
  let enc := magic_pare ++ [9] ++ [1; 2; 3] ++ [3; 0; 0; 0] ++ magic_pare in
  open_file unit ex_decode false img = OpenErr ONeedDecryption /\
  open_file unit ex_decode true img = OpenOk tt /\
  open_file_cfg unit ex_decode true true 4096 false enc = OpenErr ONeedDecryption /\
  open_file_cfg unit ex_decode true false 4096 false (firstn 9 enc) = OpenErr OBadTailMagic /\
  open_file_cfg unit ex_decode false true 4096 false enc = OpenErr ONeedDecryption.
Proof. vm_compute. repeat split; reflexivity. Qed.

Example C14_ex_readat_contract : readerat_ok 10 (4, REOF) /\ readat_wrap 10 (4, REOF) = (4, REOF) /\
                                 readat_wrap 10 (10, REOF) = (10, RNone).
Proof. repeat split; cbn; try lia; discriminate. Qed.

(* a wrapper that dropped the error whenever some bytes were read would break the statement *)
Example C14_ex_lenient_wrapper_masks :
  readerat_ok 10 (4, REOF) /\ snd (readat_wrap_lenient 10 (4, REOF)) = RNone.
Proof. repeat split; cbn; try lia; discriminate. Qed.

(* three pages of 3 + 7 bytes, the source ends after the second page; after the
   header of the third *)
Example C14_ex_chunk_cut_between_pages : read_pages true 30 20 0 [(3, 7); (3, 7); (3, 7)] = (2%nat, PUnexpected).
Proof. vm_compute. reflexivity. Qed.

Example C14_ex_chunk_cut_after_header : read_pages true 30 23 0 [(3, 7); (3, 7); (3, 7)] = (2%nat, PUnexpected).
Proof. vm_compute. reflexivity. Qed.

Example C14_ex_chunk_complete : read_pages true 30 30 0 [(3, 7); (3, 7); (3, 7)] = (3%nat, PEnd).
Proof. vm_compute. reflexivity. Qed.

(** FilePages.ReadPage of the pinned tree (before commit fc42a8f and its
    follow-up) took the io.EOF met at a page boundary, and the one met between
    a page header and its body, for the end of the chunk: two of three pages
    and a plain end. *)
Theorem C14_pinned_page_boundary_eof_refuted :
  exists pages size avail1 avail2,
    sumN pages = size /\ avail1 < size /\ avail2 < size /\
    snd (read_pages false size avail1 0 pages) <> PUnexpected /\
    snd (read_pages false size avail2 0 pages) <> PUnexpected.
Proof. exists [(3, 7); (3, 7); (3, 7)], 30, 20, 23. vm_compute. repeat split; discriminate. Qed.


(** For every list of write sites (any cutting of the bytes into
    Write/WriteString calls, any of the four transfer mechanisms, i.e. any page
    buffer pool), with and without the bufio layer of any size >= 1
    (WriteBufferSize(0) is the writer without bufio.Writer), on the destination
    that never fails: no site returns an error (the run reaches the end,
    i = number of sites, so the calls of every prefix of the life returned nil
    as well), the final flush of Close returns nil, and the destination holds
    exactly the concatenation of all modules.  With
    C14_close_nil_means_complete (its converse direction for the bytes) this
    is: Close = nil iff nothing failed, and then the file is complete. *)
Theorem C14_fault_free_complete :
  all_sites_checked = true ->
  forall (A : Type) (bufsize : option N) (xs : list (site A)) t' e i,
  (forall sz, bufsize = Some sz -> 1 <= sz) ->
  close_current A NoFault bufsize xs = (t', e, i) ->
  e = ENone /\ i = length xs /\ sink_bytes A (snk t') = all_data A xs.
Proof.
  intros H A bs xs t' e i Hbs. destruct (checked_all H) as [Hk Hf].
  exact (fault_free_complete A site_checked final_flush_checked Hk Hf bs xs t' e i Hbs).
Qed.


(** Scripts of items (Sink/Copy.v): ordinary write sites, sections copied from
    the source straight to the output (dictionary page, data pages, bloom
    filter; copySection), bloom filters staged in deferred buffers (copied or
    built), the flush of the deferred buffers by Close.  A copied section has a
    declared length n (from the source's footer; it is what the new footer
    records) and the source delivers its first avail bytes only.
    (1) All calls returned nil: the destination holds every module with its
        declared length, and no source was short — for every fault script of
        the destination and every buffer size.
    (2) Hence a short source is always reported (by WriteRowGroup or Close).
    (3) With a destination that does not fail it is reported as
        io.ErrUnexpectedEOF by the very call that copies (or stages) the first
        short section, i.e. by WriteRowGroup. *)
Theorem C14_copy_source_short_reported :
  all_sites_checked = true ->
  forall (A : Type) (f : fault) (bufsize : option N) (xs : list (item A)),
  (forall t' i, copy_current A f bufsize xs = (t', CNil, i) ->
     sink_bytes A (snk t') = declared A [] xs /\ has_short A xs = false) /\
  (has_short A xs = true ->
     forall t' e i, copy_current A f bufsize xs = (t', e, i) -> e <> CNil) /\
  (forall k, (forall sz, bufsize = Some sz -> 1 <= sz) -> first_short A 0 xs = Some k ->
     forall t' e i, copy_current A NoFault bufsize xs = (t', e, i) -> e = CSrc /\ i = k).
Proof.
  intros H A f bs xs. destruct (checked_all H) as [Hk Hf].
  unfold copy_current. rewrite Hf. split; [|split].
  - intros t' i E. exact (copy_nil_means_complete A site_checked Hk f bs xs t' i E).
  - intros Hs t' e i. exact (copy_source_short_reported A site_checked Hk f bs xs t' e i Hs).
  - intros k Hbs Hfs t' e i E.
    exact (copy_short_reported_by_copying_call A site_checked bs xs k t' e i Hbs Hfs E).
Qed.

(** liveness and destination faults on the copy path *)
Theorem C14_copy_fault_free_complete :
  all_sites_checked = true ->
  forall (A : Type) (bufsize : option N) (xs : list (item A)) t' e i,
  (forall sz, bufsize = Some sz -> 1 <= sz) -> has_short A xs = false ->
  copy_current A NoFault bufsize xs = (t', e, i) ->
  e = CNil /\ i = length xs /\ sink_bytes A (snk t') = declared A [] xs.
Proof.
  intros H A bs xs t' e i Hbs Hs. destruct (checked_all H) as [Hk Hf].
  unfold copy_current. rewrite Hf.
  exact (copy_fault_free_complete A site_checked Hk bs xs t' e i Hbs Hs).
Qed.

Theorem C14_copy_sink_fault_surfaces :
  all_sites_checked = true ->
  forall (A : Type) (bufsize : option N) (xs : list (item A)) (k : N) t' e i,
  k < nlen A (declared A [] xs) ->
  copy_current A (ErrAt k) bufsize xs = (t', e, i) -> e <> CNil.
Proof.
  intros H A bs xs k t' e i Hk. destruct (checked_all H) as [Hc Hf].
  unfold copy_current. rewrite Hf.
  exact (copy_err_fault_surfaces A site_checked Hc k bs xs t' e i Hk).
Qed.

(** A destination that TAKES every byte of a write and returns an error with
    the full count (a quota reached by this write, a failed commit of the
    block): [FullErrAt k], the write that takes the byte before offset k,
    0 < k <= size of the file.  No byte is missing, so completeness of the
    output says nothing: the error itself has to reach the caller.  It does,
    from every write site (with or without the bufio layer, whose sticky error
    keeps it until the next operation on the buffer) and on the copy path
    (copySection looks at the error whatever the count). *)
Theorem C14_full_count_error_surfaces :
  all_sites_checked = true ->
  forall (A : Type) (bufsize : option N) (xs : list (site A)) (k : N) t' e i,
  0 < k -> k <= nlen A (all_data A xs) ->
  close_current A (FullErrAt k) bufsize xs = (t', e, i) -> e <> ENone.
Proof.
  intros H A bs xs k t' e i Hk0 Hk. destruct (checked_all H) as [Hc _].
  exact (full_err_fault_surfaces A k site_checked Hc bs xs t' e i Hk0 Hk).
Qed.

Theorem C14_copy_full_count_error_surfaces :
  all_sites_checked = true ->
  forall (A : Type) (bufsize : option N) (xs : list (item A)) (k : N) t' e i,
  0 < k -> k <= nlen A (declared A [] xs) ->
  copy_current A (FullErrAt k) bufsize xs = (t', e, i) -> e <> CNil.
Proof.
  intros H A bs xs k t' e i Hk0 Hk. destruct (checked_all H) as [Hc Hf].
  unfold copy_current. rewrite Hf.
  exact (copy_full_err_fault_surfaces A k site_checked Hc bs xs t' e i Hk0 Hk).
Qed.

(* non-vacuity: the magic written without the bufio layer, the destination
   takes its four bytes and fails: the error is reported by site 0 although
   the destination holds every byte; with a buffer of 100 bytes the final
   flush of Close (index = number of sites) reports it; a copied section
   whose last write fails the same way is reported by the item that copies it *)
Example C14_full_count_error_example :
  close_verdict true (FullErrAt 4) None [mkSite KHeader MWrite [(true, [80; 65; 82; 49])]] = (ESink, 0%nat, 4, true) /\
  close_verdict true (FullErrAt 4) (Some 100) [mkSite KHeader MWrite [(true, [80; 65; 82; 49])]] = (ESink, 1%nat, 4, true) /\
  copy_verdict true (FullErrAt 6) None
    [IPlain (mkSite KHeader MWrite [(true, [80; 65; 82; 49])]); ICopied KCopiedData [(false, [1; 2])] 2] = (CDst ESink, 1%nat, 6, true).
Proof. vm_compute. repeat split. Qed.

(** The TRANSIENT fault of the destination (Sink/Once.v [once_write]: the
    first write that reaches offset k stops there with an error, every later
    write is complete; harness fault kind "once", swept through every write
    entry point).  Up to and including the first error the destination
    returns, it is the destination [ErrAt k] write by write - same bytes
    accepted, same count, same error - and that error comes with a short
    count: this is why the verdict of the model for [ErrAt k]
    (C14_sink_fault_surfaces: first reporting site) is the one the harness
    demands of the transient fault.  That no later, successful call makes the
    writer forget the error is NOT in the model (which stops at the first
    report): it is the predicate of the sweep (every call returned nil => the
    destination returned no error and holds the complete file). *)
Theorem C14_transient_error_is_err_at_until_it_strikes :
  forall (A : Type) (k : N) (s : sink A) (p : list A),
  s_flt s = ErrAt k -> s_fired s = false ->
  let '(s1, n1, e1) := sink_write A s p in
  let '(s2, n2, e2) := once_write A k s p in
  s_rev s1 = s_rev s2 /\ s_pos s1 = s_pos s2 /\ n1 = n2 /\ e1 = e2 /\ s_fired s2 = is_err e2.
Proof. exact once_write_is_err_at. Qed.

Theorem C14_transient_error_loses_bytes :
  forall (A : Type) (k : N) (s : sink A) (p : list A) s' n,
  s_fired s = false -> s_pos s <= k -> once_write A k s p = (s', n, ESink) -> n < nlen A p.
Proof. exact once_write_error_is_short. Qed.

Theorem C14_transient_error_then_healthy :
  forall (A : Type) (k : N) (s : sink A) (p : list A),
  s_fired s = true -> once_write A k s p = (sink_accept A s p true, nlen A p, ENone).
Proof. exact once_write_after. Qed.

(* non-vacuity: a write of four bytes at offset 0 with k = 2 takes two bytes
   and fails; the next write is complete *)
Example C14_transient_error_example :
  let s0 := mkSink (A:=N) [] 0 (ErrAt 2) false in
  let '(s1, n1, e1) := once_write N 2 s0 [80; 65; 82; 49] in
  (n1, e1, s_fired s1) = (2, ESink, true) /\
  snd (once_write N 2 s1 [1; 2; 3]) = ENone /\ snd (fst (once_write N 2 s1 [1; 2; 3])) = 3.
Proof. vm_compute. repeat split. Qed.

(** Bloom filter lookups over a source that fails after the file was opened
    (Sink/Bloom.v): through the filter of one column chunk or through the
    filters of several row groups seen as one (MultiRowGroup, which is what
    the readers build over a file with several row groups).  A value stored
    in some row group is never reported absent, whichever reads fail; and
    "absent" is only said when every filter was consulted and no read that
    was needed failed. *)
Theorem C14_bloom_stored_value_never_absent : forall ps,
  (exists p, In p ps /\ p_clean p = true) -> fst (lookup ps) <> Absent.
Proof. exact stored_value_never_absent. Qed.

Theorem C14_bloom_absent_means_no_failure : forall ps,
  fst (lookup ps) = Absent ->
  snd (lookup ps) = length ps /\ forall p, In p ps -> p_needs_read p && p_faulted p = false /\ load_fails p = false.
Proof. exact absent_means_no_failure. Qed.

(* non-vacuity, and the behaviour the statement excludes: three row groups,
   the value is stored in the third, the reads of the second filter fail: the
   lookup fails; a lookup that takes the failed filter for "not here" finds
   the value, but reports it absent when the failing filter is the third *)
Example C14_bloom_example :
  lookup [mkPart true false false false; mkPart true true false false; mkPart true false true false] = (Failed, 2%nat) /\
  lookup [mkPart true false false false; mkPart false true false false; mkPart true false true false] = (Maybe, 3%nat) /\
  multi_check_absorbing [Absent; Absent; Failed] = Absent /\
  fst (lookup [mkPart true false false false; mkPart true false false false; mkPart true true true false]) = Failed /\
  (* the value is in the first row group, the filter of the second one is loaded lazily and fails to load *)
  lookup [mkPart true false true true; mkPart true true false true] = (Failed, 0%nat) /\
  lookup [mkPart true false true false; mkPart true true false false] = (Maybe, 1%nat).
Proof. vm_compute. repeat split. Qed.

(* the items which are ordinary sites are the model of Sink/Model.v *)
Theorem C14_copy_model_extends_sites : forall (A : Type) cur cnt chk (xs : list (site A)) i t q,
  run_items A cur cnt chk i t q (map IPlain xs) =
  let '(t', e, j) := run_sites A cur chk i t xs in (t', if is_err e then CDst e else CNil, j).
Proof. exact run_items_plain. Qed.

Print Assumptions C14_fault_free_complete.
Print Assumptions C14_copy_source_short_reported.
Print Assumptions C14_copy_fault_free_complete.
Print Assumptions C14_copy_sink_fault_surfaces.
Print Assumptions C14_copy_model_extends_sites.
Print Assumptions C14_full_count_error_surfaces.
Print Assumptions C14_bloom_stored_value_never_absent.
Print Assumptions C14_bloom_absent_means_no_failure.
Print Assumptions C14_copy_full_count_error_surfaces.
Print Assumptions C14_transient_error_is_err_at_until_it_strikes.
Print Assumptions C14_transient_error_loses_bytes.
Print Assumptions C14_transient_error_then_healthy.


(** The byte ranges OpenFile and a read of every page of every column chunk
    request from the io.ReaderAt, computed from the footer's chunk table
    (Sink/Demand.v: magic, trailer, footer, the two page index spans, bloom
    filter headers, and the reads of the buffered reader over every chunk):
    (1) every requested range lies inside a range the footer (with the size
        given to OpenFile) declares;
    (2) when the pages of every chunk add up to its TotalCompressedSize, a file
        image p shorter than the end of a needed declared range (magic,
        trailer, footer, page index spans, column chunks) makes some requested
        read return short: the sequence of reads fails (read_all = None, i.e.
        by C14_readat_never_masks the error of the io.ReaderAt is returned). *)
Theorem C14_full_read_needs_declared_ranges : forall t,
  1 <= ft_bufsize t ->
  (forall r, In r (full_demand t) -> exists d, In d (declared_ranges t) /\ inside r d) /\
  (chunks_tile t ->
   forall d p, In d (needed_ranges t) -> 0 < snd d -> flen p < fst d + snd d ->
   read_all p (full_demand t) = None).
Proof.
  intros t HB. split.
  - intros r. exact (demand_inside_declared t r HB).
  - intros Ht d p. exact (full_read_of_cut_file_fails t d p HB Ht).
Qed.

(* and every byte of every column chunk is requested *)
Theorem C14_full_read_requests_every_chunk_byte : forall t c x,
  1 <= ft_bufsize t -> chunks_tile t -> In c (ft_rows t) ->
  ck_start c <= x < ck_start c + ck_size c ->
  exists r, In r (read_demand t) /\ fst r <= x < fst r + snd r.
Proof. exact chunk_fully_requested. Qed.

Print Assumptions C14_full_read_needs_declared_ranges.
Print Assumptions C14_full_read_requests_every_chunk_byte.


(* a copy of one row group of two columns with bloom filters, 93 bytes: magic,
   copied dictionary page and data pages of column 0, copied data pages of
   column 1, the two bloom filters copied straight to the output, page index,
   footer *)
Definition ex_copy (a : N) : list (item N) :=
  [ IPlain (mkSite KHeader MWrite [(true, bs 0 4)]);
    ICopied KCopiedDict [(false, bs 4 10)] 10;
    ICopied KCopiedData [(false, bs 14 20)] a;
    ICopied KCopiedData [(false, bs 34 15)] 15;
    ICopied KCopiedBloom [(false, bs 49 12)] 12;
    ICopied KCopiedBloom [(false, bs 61 12)] 12;
    IPlain (mkSite KColumnIndex MWrite [(false, bs 73 1); (true, bs 74 3)]);
    IPlain (mkSite KOffsetIndex MWrite [(false, bs 77 2)]);
    IPlain (mkSite KFooter MWrite [(false, bs 79 1); (true, bs 80 5)]);
    IPlain (mkSite KFooterTail MWrite [(false, bs 85 8)]) ].

(* the same with the bloom filters staged in deferred buffers (the second one
   delivers b bytes) and written by Close in 8-byte chunks *)
Definition ex_copy_deferred (b : N) : list (item N) :=
  [ IPlain (mkSite KHeader MWrite [(true, bs 0 4)]);
    ICopied KCopiedDict [(false, bs 4 10)] 10;
    ICopied KCopiedData [(false, bs 14 20)] 20;
    ICopied KCopiedData [(false, bs 34 15)] 15;
    IStage [(false, bs 49 8); (false, bs 57 4)] 12;
    IStage [(false, bs 61 8); (false, bs 69 4)] b;
    IFlushDeferred MLowerWriteTo;
    IPlain (mkSite KColumnIndex MWrite [(false, bs 73 1); (true, bs 74 3)]);
    IPlain (mkSite KOffsetIndex MWrite [(false, bs 77 2)]);
    IPlain (mkSite KFooter MWrite [(false, bs 79 1); (true, bs 80 5)]);
    IPlain (mkSite KFooterTail MWrite [(false, bs 85 8)]) ].

Example C14_ex_copy_complete :
  forallb (fun b => let '(e, i, pos, complete) := copy_verdict true NoFault b (ex_copy 20) in
                    negb (is_cerr e) && complete && (pos =? 93) && Nat.eqb i 10)
          [None; Some 1; Some 7; Some 100] = true /\
  forallb (fun b => let '(e, i, pos, complete) := copy_verdict true NoFault b (ex_copy_deferred 12) in
                    negb (is_cerr e) && complete && (pos =? 93) && Nat.eqb i 11)
          [None; Some 1; Some 7; Some 100] = true.
Proof. vm_compute. split; reflexivity. Qed.

(* the source of the data pages of column 0 ends after 7 of 20 bytes: reported
   by the item that copies them (index 2), 21 bytes reached the destination *)
Example C14_ex_copy_short_reported :
  has_short N (ex_copy 7) = true /\ first_short N 0 (ex_copy 7) = Some 2%nat /\
  copy_verdict true NoFault None (ex_copy 7) = (CSrc, 2%nat, 21, false) /\
  copy_verdict true NoFault (Some 100) (ex_copy 7) = (CSrc, 2%nat, 0, false).
Proof. vm_compute. repeat split; reflexivity. Qed.

(* a short source of a deferred bloom filter is reported when it is staged *)
Example C14_ex_copy_deferred_short_reported :
  copy_verdict true NoFault None (ex_copy_deferred 5) = (CSrc, 5%nat, 49, false).
Proof. vm_compute. reflexivity. Qed.

(* a failing destination on the copy path: reported by the copying item *)
Example C14_ex_copy_sink_fault : copy_verdict true (ErrAt 40) None (ex_copy 20) = (CDst ESink, 3%nat, 40, false).
Proof. vm_compute. reflexivity. Qed.

(** The copy path of the tree before commit 9565563 (`_, err :=
    w.writer.ReadFrom(io.NewSectionReader(...))`, `_, err := io.Copy(buf,
    bloom)`: io.Copy takes the io.EOF of a source that ends early for the end
    of its input) refutes C14_copy_source_short_reported: with a destination
    that never fails every call returns nil, the footer describes 93 bytes and
    the destination holds 80 (86 in the deferred variant, where the truncated
    bloom filter is recorded with its truncated length). *)
Theorem C14_pinned_copy_short_source_refuted :
  (exists (xs : list (item N)) t' i,
     has_short N xs = true /\ copy_pinned N NoFault None xs = (t', CNil, i) /\
     sink_bytes N (snk t') <> declared N [] xs) /\
  (exists (xs : list (item N)) t' i,
     has_short N xs = true /\ copy_pinned N NoFault (Some 16) xs = (t', CNil, i) /\
     sink_bytes N (snk t') <> declared N [] xs).
Proof.
  split.
  - exists (ex_copy 7).
    destruct (copy_pinned N NoFault None (ex_copy 7)) as [[t' e] i] eqn:E.
    exists t', i. split; [vm_compute; reflexivity|].
    vm_compute in E. inversion E; subst; clear E. split; [reflexivity|].
    vm_compute. discriminate.
  - exists (ex_copy_deferred 5).
    destruct (copy_pinned N NoFault (Some 16) (ex_copy_deferred 5)) as [[t' e] i] eqn:E.
    exists t', i. split; [vm_compute; reflexivity|].
    vm_compute in E. inversion E; subst; clear E. split; [reflexivity|].
    vm_compute. discriminate.
Qed.

Example C14_ex_pinned_copy_verdicts :
  copy_verdict false NoFault None (ex_copy 7) = (CNil, 10%nat, 80, false) /\
  copy_verdict false NoFault None (ex_copy_deferred 5) = (CNil, 11%nat, 86, false).
Proof. vm_compute. split; reflexivity. Qed.

(* a file of 200 bytes: two column chunks (a dictionary page and two data pages;
   one data page), page index, one bloom filter, a footer of 40 bytes; buffered
   readers of 16 bytes *)
Definition ex_table : ftable :=
  mkTable 200 40 16
    [ mkChunk 4 60 [(5, 9); (6, 20); (6, 14)] (110, 12) (130, 8) (90, 14);
      mkChunk 64 26 [(6, 20)] (122, 8) (138, 6) (0, 0) ].

Example C14_ex_demand :
  full_demand ex_table =
    [(0, 4); (192, 8); (152, 40); (110, 20); (130, 14); (90, 16);
     (4, 16); (20, 16); (36, 16); (52, 12);
     (64, 16); (80, 10)].
Proof. vm_compute. reflexivity. Qed.

Example C14_ex_table_tiles : chunks_tile ex_table.
Proof. intros c [<-|[<-|[]]]; vm_compute; reflexivity. Qed.

(* the first chunk is a needed range: an image of 63 bytes (one byte short of
   its end) cannot be read completely, whatever it contains *)
Example C14_ex_cut_chunk_fails : forall p, flen p = 63 -> read_all p (full_demand ex_table) = None.
Proof.
  intros p Hp. destruct (C14_full_read_needs_declared_ranges ex_table) as [_ H]; [vm_compute; discriminate|].
  apply (H C14_ex_table_tiles (4, 60)); [vm_compute; tauto|cbn; lia|cbn; lia].
Qed.
