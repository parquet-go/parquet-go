(** C03 — all ingestion paths shred a Go value into the same Dremel column
    streams.  The proofs are in Dremel/Proofs.v (assembly), Dremel/Levels.v
    (level facts), Dremel/NullRunsProofs.v (the 64-rows-at-a-time null-run
    scanner of the typed path), Dremel/BatchProofs.v (column-at-a-time =
    row-at-a-time) and Dremel/BatchScanProofs.v (the scanner's cutting).

    Models: [shred] = the row-at-a-time reflection path (row.go
    deconstructFuncOf..., column_buffer_reflect.go writeValueFuncOf...);
    [shred_batch] = the typed path (column_buffer_write.go writeRowsFuncOf...);
    [scan] = the run scanner inside writeRowsFuncOfOptional; [asm] = re-assembly
    (row.go reconstructFuncOf...). *)
From Coq Require Import List Arith Bool NArith Lia.
From PQ Require Import Dremel.Model Dremel.Proofs Dremel.Levels Dremel.NullRuns Dremel.NullRunsProofs
  Dremel.Batch Dremel.BatchProofs Dremel.BatchScan Dremel.BatchScanProofs.
Import ListNotations.

Section C03.
  Variable V : Type.     (* leaf values: any type (bit patterns, byte strings) *)

  (** Re-assembling the shredded columns of a value yields the value, for every
      schema (groups non-empty), every well-formed value (repeated fields hold
      at most n elements; n is only the fuel of the assembly loop), every
      starting levels, and whatever columns of later rows follow ([tails],
      whose first entries are at a repetition level <= k). *)
  Theorem C03_reassembly :
    forall s, wf_schema s -> forall (v : value V) r d k n tails,
      wfn V n s v -> length tails = nleaves s -> heads_le V k tails ->
      asm s d k (S n) (zipapp (shred s v r d k) tails) = Some (v, tails).
  Proof. exact (asm_shred V). Qed.

  Theorem C03_reassembly_rows :
    forall s, wf_schema s -> forall n (rows : list (value V)),
      Forall (wfn V n s) rows ->
      asm_rows (length rows) s (S n) (shred_rows s rows) = Some rows.
  Proof. exact (asm_rows_shred_rows V). Qed.

  (** Every entry (x, r', d') of leaf column j of [shred s v r d k] has its
      levels within the bounds of that leaf, (maxr_j, maxd_j) = nth j (max_levels s 0 0). *)
  Theorem C03_levels_bounded :
    forall s (v : value V) r d k j x r' d', wf s v ->
      In (x, r', d') (nth j (shred s v r d k) []) ->
      d <= d' /\ d' <= d + snd (nth j (max_levels s 0 0) (0, 0)) /\
      r' <= Nat.max r (k + fst (nth j (max_levels s 0 0) (0, 0))).
  Proof.
    intros s v r d k j x r' d' Hw Hin.
    destruct (shred_levels_nth V s v r d k j x r' d' Hw Hin) as (A & B & C & _). auto.
  Qed.

  (** An entry is null exactly when its definition level is below the leaf's maximum. *)
  Theorem C03_null_iff_below_max_definition_level :
    forall s (v : value V) r d k j x r' d', wf s v ->
      In (x, r', d') (nth j (shred s v r d k) []) ->
      (x = None <-> d' < d + snd (nth j (max_levels s 0 0) (0, 0))).
  Proof.
    intros s v r d k j x r' d' Hw Hin.
    destruct (shred_levels_nth V s v r d k j x r' d' Hw Hin) as (_ & _ & _ & D). exact D.
  Qed.

  (** The same two facts for all columns at once, against [max_levels s k d]. *)
  Theorem C03_levels_all_columns :
    forall s (v : value V) r d k, wf s v ->
      Forall2 (fun col ml => Forall (entry_ok r d ml) col) (shred s v r d k) (max_levels s k d).
  Proof. exact (shred_levels V). Qed.

  (** In the columns of a row, the repetition level is 0 exactly for the first
      entry of each column: rows can be told apart in every column stream. *)
  Theorem C03_row_starts_at_repetition_zero :
    forall s (v : value V), wf s v ->
      Forall (fun col => exists e rest, col = e :: rest /\ e_r V e = 0 /\
                                        Forall (fun e' => 0 < e_r V e') rest)
             (shred_row s v).
  Proof. intros s v H. exact (shred_first_rep V s v 0 0 0 H). Qed.

  (** Column-at-a-time shredding of a batch (each field's writer is called once
      with all rows and recurses into its children with sub-arrays, one set of
      levels per call) produces exactly the streams of shredding the rows one
      after the other — for every schema, every batch of well-formed rows and
      every way [chunks] (indexed by the path of the optional field) of cutting
      the rows of optional fields into non-empty uniform sub-arrays. *)
  Theorem C03_batch_equals_rows :
    forall (chunks : list nat -> list (value V) -> list (list (value V))),
      (forall p col, chunks_ok (chunks p col) col) ->
      forall s (rows : list (value V)), Forall (wf s) rows ->
        shred_batch chunks s rows = shred_rows s rows.
  Proof. exact (shred_batch_rows V). Qed.

  (** The two cuttings of the library: one call per row (pointers), maximal
      runs (non-pointer `optional` fields, found by the bitmap scanner). *)
  Theorem C03_batch_one_call_per_row :
    forall s (rows : list (value V)), Forall (wf s) rows ->
      shred_batch (fun _ => singletons) s rows = shred_rows s rows.
  Proof.
    intros s rows. apply C03_batch_equals_rows. intros _ col. apply singletons_ok.
  Qed.

  Theorem C03_batch_maximal_runs :
    forall s (rows : list (value V)), Forall (wf s) rows ->
      shred_batch (fun _ => max_runs) s rows = shred_rows s rows.
  Proof.
    intros s rows. apply C03_batch_equals_rows. intros _ col. apply max_runs_ok.
  Qed.

  (** The typed path exactly as the library runs it on non-pointer `optional`
      fields: nullIndex builds the bitmap of the field's rows, the faithful model
      of the 64-rows-at-a-time scanner ([scan], below) cuts it into runs, and
      each run is one call ([scan_chunks]). *)
  Theorem C03_batch_with_bitmap_scanner :
    forall s (rows : list (value V)), Forall (wf s) rows ->
      shred_batch (fun _ => scan_chunks) s rows = shred_rows s rows.
  Proof.
    intros s rows. apply C03_batch_equals_rows. intros _ col. apply scan_chunks_ok.
  Qed.

  Theorem C03_bitmap_scanner_cutting_admissible :
    forall col : list (value V), chunks_ok (scan_chunks col) col.
  Proof. exact (scan_chunks_ok V). Qed.

  (** Which positions are null is the same on both paths. *)
  Theorem C03_null_positions_agree :
    forall (chunks : list nat -> list (value V) -> list (list (value V))),
      (forall p col, chunks_ok (chunks p col) col) ->
      forall s (rows : list (value V)), Forall (wf s) rows ->
        map (map (fun e : entry V => match fst (fst e) with None => true | Some _ => false end))
            (shred_batch chunks s rows)
        = map (map (fun e : entry V => match fst (fst e) with None => true | Some _ => false end))
              (shred_rows s rows).
  Proof. intros chunks H s rows Hr. now rewrite (C03_batch_equals_rows chunks H s rows Hr). Qed.
End C03.

(** The run scanner of writeRowsFuncOfOptional: for every bitmap of 64-bit
    words with at least ceil(n/64) words — the bits at positions >= n are
    arbitrary (the nullIndex kernels leave them 0) — the runs are
    consecutive from 0 to n, non-empty, and uniform (all rows of a null run
    have bit 0, all rows of a non-null run have bit 1): writing each run with a
    single definition level is right. *)
Theorem C03_null_runs_partition :
  forall bits n, wf_bitmap bits n -> runs_partition bits n (scan bits n).
Proof. exact null_runs_partition. Qed.

(** ... the runs are the maximal ones (adjacent runs differ in their flag) ... *)
Theorem C03_null_runs_maximal :
  forall bits n, wf_bitmap bits n ->
    forall r1 r2 l1 l2, scan bits n = l1 ++ r1 :: r2 :: l2 -> fst (fst r1) <> fst (fst r2).
Proof. exact null_runs_alternate. Qed.

(** ... and expanding them gives back the null flag of every row. *)
Theorem C03_null_runs_expand :
  forall bits n, wf_bitmap bits n -> expand (scan bits n) = null_flags bits n.
Proof. intros bits n Hwf. apply runs_partition_expand. now apply null_runs_partition. Qed.

(** The comparison of the pinned tree, (1<<y)-1 instead of (1<<(64-y))-1
    (before commit 697c643), violates the statement: 3 rows, only row 1
    non-null, gives the runs [0,1) null, [1,3) non-null although row 2 is null;
    with 130 rows, rows 2..63 are written as non-null. *)
Theorem C03_pinned_null_runs_refuted :
  exists bits n, wf_bitmap bits n /\ ~ runs_partition bits n (scan_pinned bits n).
Proof. exact pinned_null_runs_refuted. Qed.

Theorem C03_pinned_null_runs_refuted_130_rows :
  wf_bitmap [2; 0; 0]%N 130 /\ ~ runs_partition [2; 0; 0]%N 130 (scan_pinned [2; 0; 0]%N 130).
Proof. split; [exact wf_bitmap_130|exact pinned_null_runs_refuted_130]. Qed.

Print Assumptions C03_reassembly.
Print Assumptions C03_reassembly_rows.
Print Assumptions C03_levels_bounded.
Print Assumptions C03_null_iff_below_max_definition_level.
Print Assumptions C03_levels_all_columns.
Print Assumptions C03_row_starts_at_repetition_zero.
Print Assumptions C03_batch_equals_rows.
Print Assumptions C03_batch_one_call_per_row.
Print Assumptions C03_batch_maximal_runs.
Print Assumptions C03_batch_with_bitmap_scanner.
Print Assumptions C03_bitmap_scanner_cutting_admissible.
Print Assumptions C03_null_positions_agree.
Print Assumptions C03_null_runs_partition.
Print Assumptions C03_null_runs_maximal.
Print Assumptions C03_null_runs_expand.
Print Assumptions C03_pinned_null_runs_refuted.
Print Assumptions C03_pinned_null_runs_refuted_130_rows.

(** * Non-vacuity: a concrete schema, rows and bitmap meet the hypotheses. *)

(* message { optional leaf a; repeated group b { required leaf x; optional leaf y; repeated leaf z } } *)
Definition ex_schema : schema :=
  Group (FCons Opt Leaf
        (FCons Rpt (Group (FCons Req Leaf (FCons Opt Leaf (FCons Rpt Leaf FNil)))) FNil)).

Definition ex_row1 : value nat :=
  VGroup [VOpt None;
          VList [VGroup [VLeaf 1; VOpt (Some (VLeaf 2)); VList [VLeaf 5; VLeaf 6]];
                 VGroup [VLeaf 3; VOpt None; VList []]]].
Definition ex_row2 : value nat := VGroup [VOpt (Some (VLeaf 7)); VList []].
Definition ex_row3 : value nat := VGroup [VOpt (Some (VLeaf 8)); VList [VGroup [VLeaf 4; VOpt None; VList [VLeaf 9]]]].

Example C03_ex_wf_schema : wf_schema ex_schema.
Proof. cbn. repeat split; lia. Qed.

Example C03_ex_rows_wf : Forall (wfn nat 2 ex_schema) [ex_row1; ex_row2; ex_row3].
Proof. repeat constructor; cbn; repeat split; repeat constructor; lia. Qed.

Example C03_ex_rows_wf' : Forall (wf ex_schema) [ex_row1; ex_row2; ex_row3].
Proof. eapply Forall_impl; [|exact C03_ex_rows_wf]. apply wfn_wf. Qed.

Example C03_ex_streams :
  shred_rows ex_schema [ex_row1; ex_row2; ex_row3] =
  [ [(None, 0, 0); (Some 7, 0, 1); (Some 8, 0, 1)];
    [(Some 1, 0, 1); (Some 3, 1, 1); (None, 0, 0); (Some 4, 0, 1)];
    [(Some 2, 0, 2); (None, 1, 1); (None, 0, 0); (None, 0, 1)];
    [(Some 5, 0, 2); (Some 6, 2, 2); (None, 1, 1); (None, 0, 0); (Some 9, 0, 2)] ].
Proof. vm_compute. reflexivity. Qed.

Example C03_ex_batch :
  shred_batch (fun _ => max_runs) ex_schema [ex_row1; ex_row2; ex_row3]
  = shred_rows ex_schema [ex_row1; ex_row2; ex_row3].
Proof. vm_compute. reflexivity. Qed.

Example C03_ex_batch_scanner :
  shred_batch (fun _ => scan_chunks) ex_schema [ex_row1; ex_row2; ex_row3]
  = shred_rows ex_schema [ex_row1; ex_row2; ex_row3].
Proof. vm_compute. reflexivity. Qed.

Example C03_ex_reassembled :
  asm_rows 3 ex_schema 3 (shred_rows ex_schema [ex_row1; ex_row2; ex_row3]) = Some [ex_row1; ex_row2; ex_row3].
Proof. vm_compute. reflexivity. Qed.

Example C03_ex_max_levels : max_levels ex_schema 0 0 = [(0, 1); (1, 1); (1, 2); (2, 2)].
Proof. reflexivity. Qed.

(* 130 rows, only rows 1 and 65 non-null; the third word is all ones beyond row 130 *)
Example C03_ex_bitmap : wf_bitmap [2; 2; 18446744073709551612]%N 130.
Proof. split; [repeat constructor; reflexivity|vm_compute; discriminate]. Qed.

Example C03_ex_runs :
  scan [2; 2; 18446744073709551612]%N 130 =
  [(true, 0, 1); (false, 1, 2); (true, 2, 65); (false, 65, 66); (true, 66, 130)]%N.
Proof. vm_compute. reflexivity. Qed.

Example C03_ex_pinned_runs :
  scan_pinned [2; 0; 0]%N 130 = [(true, 0, 1); (false, 1, 64); (true, 64, 130)]%N.
Proof. vm_compute. reflexivity. Qed.
