(** C11 — row-group copy and re-encode fast paths are indistinguishable from
    the row path.  Statements only; the models are CopyPath/Decision.v (the
    decision cascade of Writer.WriteRowGroup), CopyPath/Batches.v
    (copyColumnValues / WriteRowValues), CopyPath/Splice.v (loadCopiedChunk
    and the byte-range splice), CopyPath/Groups.v (row groups of the output)
    and CopyPath/Filters.v (bloom filter sizes); the proofs are in CopyPath/*Proofs.v. *)
From Coq Require Import List NArith ZArith Bool Arith Lia.
From PQ Require Import CopyPath.Decision CopyPath.DecisionProofs
                       CopyPath.Groups CopyPath.GroupsProofs
                       CopyPath.Filters CopyPath.FiltersProofs
                       CopyPath.Batches CopyPath.BatchesProofs
                       CopyPath.Splice CopyPath.SpliceProofs
                       Dremel.Model Dremel.Proofs.
Import ListNotations.

(** * The decision cascade

    [decide sw w r] is the path WriteRowGroup takes for the source row group
    [r] (its dynamic type, rows, column chunks with the destination column
    each is paired with, segments), the destination writer [w] and the
    package switches [sw].  It is a function of the finite vector
    [cond_of sw w r : rg_cond] — 11 dynamic types x 2^14 condition outcomes
    = 180 224 vectors; each rule below follows from the order in which the
    cascade reads the conditions and from what each condition requires. *)
Theorem C11_decision_is_finite_cascade : forall sw w r,
  decide sw w r = decide_cond (cond_of sw w r).
Proof. exact decide_cond_of. Qed.

(** Verbatim copy is chosen only when every destination setting that shapes
    the bytes of a column chunk equals the source's: no encryption on either
    side, physical type, codec, data page version and encoding of every page,
    dictionary page present iff the destination uses a dictionary, column and
    offset index present, an equivalent bloom filter when the destination wants
    one (split-block, xxhash, uncompressed, same number of bytes), and the row
    count within MaxRowsPerRowGroup. *)
Theorem C11_copy_implies_settings_equal : forall sw w r,
  decide sw w r = PCopy ->
  sw_disable_copy sw = false /\ w_encryption w = false /\
  (rg_rows r <= w_max_rows w)%N /\
  chunk_transparent (rg_kind r) = true /\
  length (rg_cols r) = w_ncols w /\
  rg_schema_present r = true /\ (w_schema_set w = true -> rg_schema_equal r = true) /\
  forall c, In c (rg_cols r) -> column_settings_equal c.
Proof. exact copy_implies_settings_equal. Qed.

Theorem C11_copy_rule_on_whole_space : forall q : rg_cond,
  decide_cond q = PCopy ->
  q_disable_copy q = false /\ q_w_encryption q = false /\ q_rows_le_max q = true /\
  chunk_transparent (q_kind q) = true /\ q_ncols_eq q = true /\ q_all_cols_copyable q = true.
Proof.
  intros q H. apply decide_abs_copy in H. destruct H as (_ & _ & _ & H).
  cbn [g_copyable] in H. unfold copyable_q in H.
  rewrite !andb_true_iff, !negb_true_iff in H. tauto.
Qed.

(** The conditions of one column are exactly these (both directions); the
    last one (repair f873992): a destination
    with a dictionary size limit takes a verbatim copy only of a chunk whose
    dictionary page declares a size within the limit. *)
Theorem C11_column_copyable_iff : forall a : col_abs,
  column_copyable_abs a = true <->
  (a_file a = true /\ a_src_encrypted a = false /\ a_dst_enc_key a = false /\ a_type_eq a = true /\
   a_codec_eq a = true /\ (a_dst_filter a = true -> a_bloom_ok a = true) /\
   a_column_index a = true /\ a_offset_index a = true /\ a_stats_ok a = true /\
   (a_dict_limit a = true -> a_dict_fits a = true)).
Proof. exact column_copyable_abs_iff. Qed.

(** Column-wise re-encoding is chosen only for chunk-transparent row groups
    whose chunks are file chunks, column buffers or range views of these, with
    rows within the maximum — and only when a verbatim copy is not possible. *)
Theorem C11_reencode_implies : forall sw w r,
  decide sw w r = PReencode ->
  sw_disable_reencode sw = false /\ chunk_transparent (rg_kind r) = true /\
  (rg_rows r <= w_max_rows w)%N /\ length (rg_cols r) = w_ncols w /\ rg_cols r <> [] /\
  (forall c, In c (rg_cols r) -> column_oriented_chunk (c_class c) = true) /\
  copyable_column_chunks sw w r = false.
Proof. exact reencode_implies. Qed.

(** Wrappers that change row semantics are never bypassed: a deduplicating
    wrapper, a schema conversion, a foreign RowGroup implementation, an
    overlapping merge (and the empty row group) are read through Rows(). *)
Theorem C11_wrappers_use_row_path : forall sw w r,
  wrapper_kind (rg_kind r) = true ->
  (decide sw w r = PRows \/ decide sw w r = PReject) /\
  (rg_schema_present r = true -> (w_schema_set w = true -> rg_schema_equal r = true) ->
   decide sw w r = PRows).
Proof. exact wrappers_use_row_path. Qed.

(** Concatenations (MultiRowGroup, sorted disjoint segments of a merge) are
    never read chunk-wise as a whole: they are split into their segments, each
    written by its own WriteRowGroup, or read through Rows(). *)
Theorem C11_segmented_never_chunkwise : forall sw w r,
  segmented_kind (rg_kind r) = true -> decide sw w r <> PCopy /\ decide sw w r <> PReencode.
Proof. exact segmented_never_chunkwise. Qed.

Theorem C11_chunkwise_only_opted_in_types : forall sw w r,
  (decide sw w r = PCopy \/ decide sw w r = PReencode -> chunk_transparent (rg_kind r) = true) /\
  (decide sw w r = PPacked -> segmented_kind (rg_kind r) = true /\ 2 <= length (rg_segs r)).
Proof. exact chunkwise_only_transparent. Qed.

(** The switches force the expected paths. *)
Theorem C11_disable_switches : forall sw w r,
  (sw_disable_copy sw = true -> decide sw w r <> PCopy) /\
  (sw_disable_reencode sw = true -> decide sw w r <> PReencode) /\
  (sw_disable_copy sw = true -> sw_disable_reencode sw = true ->
   decide sw w r = PRows \/ decide sw w r = PReject).
Proof. exact disable_switches. Qed.

Theorem C11_disable_copy_no_chunk_copied_at_any_depth : forall sw w, sw_disable_copy sw = true ->
  forall fuel r, copy_count (plan fuel sw w r) = 0.
Proof. exact disable_copy_no_copy. Qed.

Theorem C11_disable_both_rows_only : forall sw w r fuel,
  sw_disable_copy sw = true -> sw_disable_reencode sw = true ->
  copy_count (plan fuel sw w r) = 0 /\ reencode_count (plan fuel sw w r) = 0.
Proof. exact disable_both_rows_only. Qed.

Theorem C11_enabled_paths : forall sw w r,
  sw_disable_copy sw = false -> sw_disable_reencode sw = false ->
  rg_schema_present r = true -> (w_schema_set w = true -> rg_schema_equal r = true) ->
  splittable sw w r = false ->
  decide sw w r = if copy_conditions w r then PCopy
                  else if column_oriented_row_group w r then PReencode else PRows.
Proof. exact enabled_paths. Qed.

(** A source larger than MaxRowsPerRowGroup is never written as one row group
    by a fast path. *)
Theorem C11_max_rows_respected : forall sw w r,
  (w_max_rows w < rg_rows r)%N -> decide sw w r <> PCopy /\ decide sw w r <> PReencode.
Proof. exact max_rows_respected. Qed.

(** Packing of segments (lists of any length): the batches are the segments in
    order; a batch of several segments holds only column-oriented segments and
    at most MaxRowsPerRowGroup rows. *)
Theorem C11_pack_preserves_order : forall w segs, concat (pack_segments w segs) = segs.
Proof. intros w segs. unfold pack_segments. now rewrite pack_loop_concat. Qed.

Theorem C11_pack_respects_max_rows : forall w segs, Forall (batch_ok w) (pack_segments w segs).
Proof. intros w segs. apply pack_loop_batches; [reflexivity|constructor|apply N.le_0_l]. Qed.

(** Rows written with WriteRows and still buffered when WriteRowGroup is called
    are flushed before every elementary write of the call (the packing of
    several segments included): with [written] rows handed to WriteRows before
    the call, the row groups of the output split into a prefix holding exactly
    those rows (each within MaxRowsPerRowGroup) and one row group per non-empty
    copy / column-wise / packing action holding exactly the rows of the action;
    no row is lost or added. *)
Theorem C11_buffered_rows_flushed_first : forall w written acts l,
  out_row_groups w written acts = Some l ->
  exists pre post, l = pre ++ post /\ sum_N pre = written /\ action_row_groups acts = Some post.
Proof. exact buffered_rows_not_shared. Qed.

Theorem C11_buffered_row_groups_within_max : forall w written,
  (0 < w_max_rows w)%N ->
  Forall (fun g => (g <= w_max_rows w)%N) (full_groups w written ++ cons_nonempty (buffered_rows w written) []).
Proof. exact buffered_groups_within_max. Qed.

Theorem C11_row_groups_sum : forall w written acts l,
  out_row_groups w written acts = Some l ->
  exists la, action_row_groups acts = Some la /\ sum_N l = (written + sum_N la)%N.
Proof. exact out_row_groups_sum. Qed.

(* non-vacuity: 600 buffered rows, then two segments of 400 rows packed column-wise *)
Example C11_ex_buffered_then_packed :
  out_row_groups {| w_schema_set := true; w_encryption := false; w_max_rows := 1000; w_ncols := 2 |} 600
                 [APack 2 800] = Some [600; 800]%N.
Proof. vm_compute; reflexivity. Qed.

(** * Bloom filters of row groups written column-wise

    The filter of a column is allocated before the values are written when
    every source chunk knows its exact value count, and is left to
    flushFilterPages otherwise (CopyPath/Filters.v).  Whatever mix of whole
    row groups (exact counts) and row-range views of repeated columns (upper
    bounds) is packed into one output row group, the filter written has the
    size SplitBlockFilter.Size prescribes for the values of that row group —
    the size the row path gives the same rows.  The hypothesis is what
    chunkNumValuesIsExact promises: a chunk that claims an exact count
    delivers that many values. *)
Theorem C11_pack_filter_prescribed : forall bits chunks,
  Forall chunk_honest chunks ->
  pack_filter_bytes bits chunks = filter_size bits (sum_delivered chunks).
Proof. exact pack_filter_prescribed. Qed.

Theorem C11_rowgroup_filter_prescribed : forall bits repeated rows max_rows c,
  chunk_honest c -> (rows <= max_rows)%N ->
  rowgroup_filter_bytes bits repeated rows max_rows c = filter_size bits (sg_delivered c).
Proof. exact rowgroup_filter_prescribed. Qed.

(* non-vacuity: a whole row group of 900 values packed with a range view that declares at most 5000
   values and delivers 4378: not allocated ahead, 10 bits per value of the 5278 values written *)
Example C11_ex_pack_exact_with_inexact :
  let chunks := [ {| sg_exact := true; sg_declared := 900; sg_delivered := 900 |};
                  {| sg_exact := false; sg_declared := 5000; sg_delivered := 4378 |} ]%N in
  Forall chunk_honest chunks /\ pack_filter_values chunks = None /\ pack_filter_bytes 10 chunks = 6624%N /\ filter_size 10 900 = 1152%N.
Proof.
  split; [repeat constructor; intro H; try discriminate H; reflexivity |].
  repeat split; vm_compute; reflexivity.
Qed.

Print Assumptions C11_pack_filter_prescribed.
Print Assumptions C11_rowgroup_filter_prescribed.

Print Assumptions C11_decision_is_finite_cascade.
Print Assumptions C11_buffered_rows_flushed_first.
Print Assumptions C11_buffered_row_groups_within_max.
Print Assumptions C11_row_groups_sum.
Print Assumptions C11_copy_implies_settings_equal.
Print Assumptions C11_copy_rule_on_whole_space.
Print Assumptions C11_column_copyable_iff.
Print Assumptions C11_reencode_implies.
Print Assumptions C11_wrappers_use_row_path.
Print Assumptions C11_segmented_never_chunkwise.
Print Assumptions C11_chunkwise_only_opted_in_types.
Print Assumptions C11_disable_switches.
Print Assumptions C11_disable_copy_no_chunk_copied_at_any_depth.
Print Assumptions C11_disable_both_rows_only.
Print Assumptions C11_enabled_paths.
Print Assumptions C11_max_rows_respected.
Print Assumptions C11_pack_preserves_order.
Print Assumptions C11_pack_respects_max_rows.

(** * Column-wise re-encoding *)

(** For EVERY value stream (any repetition levels, rows of any length,
    including rows longer than the buffer), every reader behaviour (any sizes
    of the reads, io.EOF alone or together with the last values), every buffer
    size and every carried-over prefix: the batches handed to WriteRowValues,
    concatenated, are the stream, and every batch begins at a row start — so
    each also ends at a row end, the next batch or the end of the stream. *)
Theorem C11_reencode_batches_end_on_row_boundaries :
  forall (A : Type) (rep : A -> nat) (R : Type) (read : R -> nat -> nat * bool * R)
         fuel repeated rd cap stream bs,
    (repeated = false -> Forall (fun x => rep x = 0) stream) ->   (* maxRepetitionLevel = 0 *)
    wf_stream rep stream ->                                        (* the column begins at a row start *)
    copy_loop rep read fuel repeated rd cap [] stream = Some bs ->
    concat bs = stream /\ Forall (starts_row rep) bs.
Proof.
  intros A rep R read fuel repeated rd cap stream bs H1 H2 H3.
  exact (copy_loop_sound A rep R read fuel repeated rd cap [] stream bs H1 H2 H3).
Qed.

(** On a column chunk (the reader serves the values page by page) the loop
    ends, with fuel = number of values + 2. *)
Theorem C11_reencode_batches_terminate :
  forall (A : Type) (rep : A -> nat) repeated cap pages stream,
    0 < cap -> sum_pages pages = length stream ->
    (repeated = false -> Forall (fun x => rep x = 0) stream) ->
    wf_stream rep stream ->
    exists bs, copy_column_values rep repeated cap pages stream = Some bs /\
               concat bs = stream /\ Forall (starts_row rep) bs.
Proof. exact copy_column_values_whole_rows. Qed.

(** The destination may flush a page after any call of WriteRowValues
    ([should_flush] is any predicate of the buffered values): the pages hold
    the stream and no row spans two pages. *)
Theorem C11_reencode_pages :
  forall (A : Type) (rep : A -> nat) (should_flush : list A -> bool) repeated cap pages stream,
    0 < cap -> sum_pages pages = length stream ->
    (repeated = false -> Forall (fun x => rep x = 0) stream) ->
    wf_stream rep stream ->
    exists bs, copy_column_values rep repeated cap pages stream = Some bs /\
               concat (write_row_values should_flush [] bs) = stream /\
               Forall (starts_row rep) (write_row_values should_flush [] bs).
Proof. exact reencode_pages. Qed.

(** Against the Dremel model (C01): the values written column-wise for a
    column are the column of the shredded rows, in pages that begin at record
    starts (entries with r = 0). *)
Theorem C11_reencode_equiv :
  forall (V : Type) (s : schema) (rows : list (value V)) (c : column V)
         (should_flush : list (entry V) -> bool) cap pages,
    wf_schema s -> Forall (wf s) rows -> In c (shred_rows s rows) ->
    0 < cap -> sum_pages pages = length c ->
    exists bs, copy_column_values (e_r V) true cap pages c = Some bs /\
               concat (write_row_values should_flush [] bs) = c /\
               Forall (starts_row (e_r V)) (write_row_values should_flush [] bs).
Proof.
  intros V s rows c sf cap pages Hs Hr Hc Hcap Hsum.
  apply reencode_pages; auto; [discriminate|].
  rewrite (shred_rows_eq V s Hs rows Hr) in Hc.
  pose proof (rows_cols_heads V s Hs rows Hr) as Hh. unfold heads_le in Hh.
  rewrite Forall_forall in Hh. specialize (Hh c Hc).
  destruct c as [|e c']; [exact I|]. cbn. lia.
Qed.

Print Assumptions C11_reencode_batches_end_on_row_boundaries.
Print Assumptions C11_reencode_batches_terminate.
Print Assumptions C11_reencode_pages.
Print Assumptions C11_reencode_equiv.

(** * The splice of copied chunks *)

(** For every column of a copied row group, whatever was written before it and
    whatever follows: the offset index written is the source's shifted by the
    distance between the data pages' positions, every location designates in
    the output the very bytes its source location designates in the source
    file, and the dictionary page lies directly before the data pages, at the
    recorded offset. *)
Theorem C11_splice_layout_sound :
  forall (B : Type) (cols : list (list B * src_chunk)) (ccs : list (list B * copied)) (out : list B),
    Forall2 (fun sm sc => fst sc = fst sm /\ valid_layout B (fst sm) (snd sm) /\
                          load_copied_chunk (snd sm) = Some (snd sc)) cols ccs ->
    let '(out', ps) := splice_chunks out ccs in
    (exists ext, out' = out ++ ext) /\
    Forall2 (fun sm p => placed_ok B (fst sm) (snd sm) out' p) cols ps.
Proof. exact splice_chunks_sound. Qed.

(* loadCopiedChunk accepts every chunk laid out as the format prescribes *)
Theorem C11_load_accepts_valid_layout : forall (B : Type) (src : list B) m,
  valid_layout B src m -> exists cc, load_copied_chunk m = Some cc.
Proof.
  intros B src m H. destruct (load_copied_chunk_valid B src m H) as (cc & E & _). now exists cc.
Qed.

Print Assumptions C11_splice_layout_sound.
Print Assumptions C11_load_accepts_valid_layout.

(** * Non-vacuity *)

(* a file-backed source column whose settings equal the destination's:
   SNAPPY (1), INT64 (2), v2 pages, RLE_DICTIONARY (8) with its dictionary page *)
Definition ex_col : col := {|
  c_class := CFile; c_src_encrypted := false; c_dst_enc_key := false;
  c_src_type := 2; c_dst_type := 2; c_src_codec := 1; c_dst_codec := 1;
  c_dst_filter := true; c_src_bloom_offset := true; c_src_bloom_length := true;
  c_dst_bloom_codec := None; c_src_bloom_header_ok := true; c_src_bloom_split_block := true;
  c_src_bloom_xxhash := true; c_src_bloom_uncompressed := true;
  c_src_bloom_num_bytes := 64; c_dst_filter_size := 128; c_dst_filter_size_dict := 64;
  c_src_column_index := true; c_src_offset_index := true;
  c_src_encoding_stats := [(PTDict, 0%N); (PTDataV2, 8%N)];
  c_dst_page_type := PTDataV2; c_dst_encoding := 8; c_dst_dict := true;
  c_dst_dict_max := 0; c_src_dict_page := true; c_src_dict_header_ok := true; c_src_dict_uncompressed := 400;
  c_src_page_header_stats := false; c_dst_page_header_stats := true
|}.

Definition ex_col_gzip : col := {|
  c_class := CFile; c_src_encrypted := false; c_dst_enc_key := false;
  c_src_type := 2; c_dst_type := 2; c_src_codec := 1; c_dst_codec := 2;
  c_dst_filter := false; c_src_bloom_offset := false; c_src_bloom_length := false;
  c_dst_bloom_codec := None; c_src_bloom_header_ok := false; c_src_bloom_split_block := false;
  c_src_bloom_xxhash := false; c_src_bloom_uncompressed := false;
  c_src_bloom_num_bytes := 0; c_dst_filter_size := 0; c_dst_filter_size_dict := 0;
  c_src_column_index := true; c_src_offset_index := true;
  c_src_encoding_stats := [(PTDataV2, 0%N)];
  c_dst_page_type := PTDataV2; c_dst_encoding := 0; c_dst_dict := false;
  c_dst_dict_max := 0; c_src_dict_page := false; c_src_dict_header_ok := false; c_src_dict_uncompressed := 0;
  c_src_page_header_stats := true; c_dst_page_header_stats := true
|}.

Definition ex_w : writer := {| w_schema_set := true; w_encryption := false; w_max_rows := 1000; w_ncols := 1 |}.
Definition ex_sw : switches := {| sw_disable_copy := false; sw_disable_reencode := false |}.
Definition ex_file (rows : N) (c : col) : rg := RG KFile true true rows [c] [].

Example C11_ex_copy : decide ex_sw ex_w (ex_file 100 ex_col) = PCopy.
Proof. vm_compute. reflexivity. Qed.

(* repair f873992: a destination limiting its dictionaries to 300 bytes does not take the chunk
   (its dictionary page declares 400 bytes) verbatim; with a limit of 400 bytes it does *)
Definition ex_col_limit (limit : N) : col := {|
  c_class := CFile; c_src_encrypted := false; c_dst_enc_key := false;
  c_src_type := 2; c_dst_type := 2; c_src_codec := 1; c_dst_codec := 1;
  c_dst_filter := false; c_src_bloom_offset := false; c_src_bloom_length := false;
  c_dst_bloom_codec := None; c_src_bloom_header_ok := false; c_src_bloom_split_block := false;
  c_src_bloom_xxhash := false; c_src_bloom_uncompressed := false;
  c_src_bloom_num_bytes := 0; c_dst_filter_size := 0; c_dst_filter_size_dict := 0;
  c_src_column_index := true; c_src_offset_index := true;
  c_src_encoding_stats := [(PTDict, 0%N); (PTDataV2, 8%N)];
  c_dst_page_type := PTDataV2; c_dst_encoding := 8; c_dst_dict := true;
  c_dst_dict_max := limit; c_src_dict_page := true; c_src_dict_header_ok := true; c_src_dict_uncompressed := 400;
  c_src_page_header_stats := true; c_dst_page_header_stats := true
|}.

Example C11_ex_dictionary_limit_demotes : decide ex_sw ex_w (ex_file 100 (ex_col_limit 300)) = PReencode.
Proof. vm_compute. reflexivity. Qed.

Example C11_ex_dictionary_within_limit_copied : decide ex_sw ex_w (ex_file 100 (ex_col_limit 400)) = PCopy.
Proof. vm_compute. reflexivity. Qed.

(* the cascade before the repair did not read the limit: the same conditions without the last one *)
Definition column_copyable_pinned (c : col) : bool :=
  let a := col_abs_of c in
  column_copyable_abs {| a_file := a_file a; a_src_encrypted := a_src_encrypted a; a_dst_enc_key := a_dst_enc_key a;
                         a_type_eq := a_type_eq a; a_codec_eq := a_codec_eq a; a_dst_filter := a_dst_filter a;
                         a_bloom_ok := a_bloom_ok a; a_column_index := a_column_index a; a_offset_index := a_offset_index a;
                         a_stats_ok := a_stats_ok a; a_dict_limit := false; a_dict_fits := a_dict_fits a |}.

Theorem C11_pinned_copy_ignores_dictionary_limit_refuted :
  exists c, column_copyable_pinned c = true /\ c_dst_dict c = true /\
            (0 < c_dst_dict_max c < c_src_dict_uncompressed c)%N /\ column_copyable c = false.
Proof. exists (ex_col_limit 300). vm_compute. repeat split; reflexivity. Qed.

Print Assumptions C11_pinned_copy_ignores_dictionary_limit_refuted.

(* repair cc7588b: [ex_col] is a dictionary column whose filter (64 bytes) has the size the
   destination builds from the 50 values of the dictionary, not the 128 bytes the 100 values of the
   chunk would give: it is copied; a filter of 128 bytes is not.  Before the repair the sizes were
   compared the other way round. *)
Definition ex_col_filter (num_bytes : N) : col := {|
  c_class := CFile; c_src_encrypted := false; c_dst_enc_key := false;
  c_src_type := 2; c_dst_type := 2; c_src_codec := 1; c_dst_codec := 1;
  c_dst_filter := true; c_src_bloom_offset := true; c_src_bloom_length := true;
  c_dst_bloom_codec := None; c_src_bloom_header_ok := true; c_src_bloom_split_block := true;
  c_src_bloom_xxhash := true; c_src_bloom_uncompressed := true;
  c_src_bloom_num_bytes := num_bytes; c_dst_filter_size := 128; c_dst_filter_size_dict := 64;
  c_src_column_index := true; c_src_offset_index := true;
  c_src_encoding_stats := [(PTDict, 0%N); (PTDataV2, 8%N)];
  c_dst_page_type := PTDataV2; c_dst_encoding := 8; c_dst_dict := true;
  c_dst_dict_max := 0; c_src_dict_page := true; c_src_dict_header_ok := true; c_src_dict_uncompressed := 400;
  c_src_page_header_stats := true; c_dst_page_header_stats := true
|}.

Example C11_ex_dictionary_filter_copied : decide ex_sw ex_w (ex_file 100 (ex_col_filter 64)) = PCopy.
Proof. vm_compute. reflexivity. Qed.

Example C11_ex_chunk_sized_filter_of_dictionary_column_rebuilt :
  decide ex_sw ex_w (ex_file 100 (ex_col_filter 128)) = PReencode.
Proof. vm_compute. reflexivity. Qed.

(* the comparison before the repair: always with the size for the values of the chunk *)
Definition bloom_size_check_pinned (c : col) : bool := N.eqb (c_src_bloom_num_bytes c) (c_dst_filter_size c).

Theorem C11_pinned_bloom_size_of_dictionary_column_refuted :
  exists c, c_dst_dict c = true /\ bloom_size_check_pinned c = true /\
            c_dst_filter_size c <> c_dst_filter_size_dict c /\ bloom_filter_is_copyable c = false.
Proof. exists (ex_col_filter 128). vm_compute. repeat split; try reflexivity; discriminate. Qed.

Print Assumptions C11_pinned_bloom_size_of_dictionary_column_refuted.

(* the same source into a destination with another codec is re-encoded column-wise *)
Example C11_ex_reencode : decide ex_sw ex_w (ex_file 100 ex_col_gzip) = PReencode.
Proof. vm_compute. reflexivity. Qed.

(* larger than MaxRowsPerRowGroup: the row path splits it *)
Example C11_ex_too_many_rows : decide ex_sw ex_w (ex_file 1001 ex_col) = PRows.
Proof. vm_compute. reflexivity. Qed.

(* the same chunks behind a deduplicating wrapper or a foreign type: row path *)
Example C11_ex_dedup : decide ex_sw ex_w (RG KDedup true true 100 [ex_col] []) = PRows.
Proof. vm_compute. reflexivity. Qed.
Example C11_ex_foreign : decide ex_sw ex_w (RG KForeign true true 100 [ex_col] []) = PRows.
Proof. vm_compute. reflexivity. Qed.

(* a MultiRowGroup of three files is packed: the copyable one alone keeps its
   bytes, ... *)
Example C11_ex_packed :
  plan 3 ex_sw ex_w (RG KMulti true true 1700 [] [ex_file 900 ex_col; ex_file 400 ex_col_gzip; ex_file 400 ex_col_gzip])
  = [ACopy 1 900; APack 2 800].
Proof. vm_compute. reflexivity. Qed.

(** What the copy path does not compare: the destination asks for statistics
    in the page headers, the source pages have none, and the chunk is copied. *)
Example C11_ex_copy_ignores_page_header_statistics :
  decide ex_sw ex_w (ex_file 100 ex_col) = PCopy /\
  c_src_page_header_stats ex_col <> c_dst_page_header_stats ex_col.
Proof. split; [vm_compute; reflexivity|discriminate]. Qed.

(** disableWriteReencode does not reach packSegmentsByColumn: segments packed
    together are still re-encoded column-wise (writer_reencode.go:127 calls
    columnOrientedRowGroup, not reencodableRowGroup). *)
Example C11_ex_disable_reencode_still_packs :
  reencode_count (plan 3 {| sw_disable_copy := false; sw_disable_reencode := true |} ex_w
    (RG KMulti true true 1700 [] [ex_file 900 ex_col; ex_file 400 ex_col_gzip; ex_file 400 ex_col_gzip])) = 1.
Proof. vm_compute. reflexivity. Qed.

(* a repeated column: rows of 3, 1 and 5 values, source pages of 4 and 5
   values, a buffer of 4 values: the second row is carried over, the third is
   larger than the buffer *)
Definition ex_reps : list nat := [0; 1; 1; 0; 0; 1; 1; 1; 1].

Example C11_ex_batches : batch_cuts true 4 [4; 5] ex_reps = Some [3; 4; 9].
Proof. vm_compute. reflexivity. Qed.

Example C11_ex_batches_hyp : wf_stream (fun r => r) ex_reps /\ sum_pages [4; 5] = length ex_reps.
Proof. split; reflexivity. Qed.

(* a splice: a chunk with a dictionary page (10 bytes at offset 4) and two
   data pages (5 and 7 bytes) copied after 3 bytes of output *)
Definition ex_src : list nat := seq 100 40.
Definition ex_chunk : src_chunk := {|
  sc_dict_offset := 4; sc_data_offset := 14; sc_total_compressed := 22;
  sc_locs := [ {| pl_offset := 14; pl_size := 5; pl_first_row := 0 |};
               {| pl_offset := 19; pl_size := 7; pl_first_row := 3 |} ] |}.

Example C11_ex_splice_valid : valid_layout nat ex_src ex_chunk.
Proof.
  unfold valid_layout, data_length; cbn. repeat split; try lia.
  repeat constructor; cbn; lia.
Qed.

Example C11_ex_splice :
  rebased_offsets ex_chunk 3 = Some (3, 13, [13; 18])%Z.
Proof. vm_compute. reflexivity. Qed.

(** * The code before commit bdd71f3 is refuted

    copyColumnValues handed every batch of reencodeValueBufferSize = 1 024
    VALUES to WriteRowValues.  A column of two rows of 1 000 and 100 values:
    the first batch ends 24 values into the second row, the second batch — and
    the page a destination that flushes after every call makes of it — starts
    in the middle of a row. *)
Definition pinned_stream : list nat := (0 :: repeat 1 999) ++ (0 :: repeat 1 99).

Theorem C11_pinned_reencode_batches_refuted :
  exists (stream : list nat) (pages : list nat),
    wf_stream (fun r => r) stream /\ sum_pages pages = length stream /\
    exists bs, copy_column_values_pinned reencode_buffer_size pages stream = Some bs /\
               concat bs = stream /\
               ~ Forall (starts_row (fun r => r)) bs /\
               ~ Forall (starts_row (fun r => r)) (write_row_values (fun _ => true) [] bs).
Proof.
  exists pinned_stream, [1100]. split; [reflexivity|]. split; [reflexivity|].
  eexists. split; [vm_compute; reflexivity|]. split; [vm_compute; reflexivity|].
  split; intro H; inversion H as [|? ? _ H2]; inversion H2 as [|? ? H3 _]; vm_compute in H3; discriminate.
Qed.

(* the repaired loop on the same input: the second row is carried over *)
Example C11_fixed_on_pinned_witness :
  batch_cuts true reencode_buffer_size [1100] pinned_stream = Some [1000; 1100] /\
  batch_cuts_pinned reencode_buffer_size [1100] pinned_stream = Some [1024; 1100].
Proof. split; vm_compute; reflexivity. Qed.

Print Assumptions C11_pinned_reencode_batches_refuted.
