(** C07 — bloom filters never answer absent for a value that was written.
    Statements only; proofs are in Bloom/FilterProofs.v, Bloom/XXHashProofs.v,
    Bloom/HashingProofs.v and Bloom/OrderProofs.v.  The models are Bloom/XXHash.v (XXH64, seed 0),
    Bloom/Filter.v (split-block filter, salts and block size taken from the
    generated PQ.Generated.Consts) and Bloom/Hashing.v (write-side hashing of
    page data per physical type, read-side Value.hash). *)
From Coq Require Import List NArith ZArith Bool Arith Lia.
From PQ Require Import Bloom.XXHash Bloom.Filter Bloom.Hashing
  Bloom.FilterProofs Bloom.XXHashProofs Bloom.HashingProofs Bloom.OrderProofs.
Import ListNotations.
Open Scope N_scope.

(** Every key inserted in a filter with n > 0 blocks (n below 2^31: the scale
    argument of fasthash1x64 is an int32) checks true afterwards, whatever
    the filter contained before and whatever else is inserted. *)
Theorem C07_check_after_insert : forall (hs : list N) (f : filter) (h : N),
  (0 < length f)%nat -> N.of_nat (length f) < 2 ^ 31 ->
  Forall (fun x => x < 2 ^ 64) hs -> In h hs ->
  filter_check (filter_insert_bulk f hs) h = true.
Proof. intros hs f h H0 H31. exact (check_after_insert hs f h (conj H0 H31)). Qed.
Print Assumptions C07_check_after_insert.

Theorem C07_check_after_insert_empty : forall (n : nat) (hs : list N) (h : N),
  (0 < n)%nat -> N.of_nat n < 2 ^ 31 -> Forall (fun x => x < 2 ^ 64) hs -> In h hs ->
  filter_check (filter_insert_bulk (empty_filter n) hs) h = true.
Proof. intros n hs h H0 H31. exact (check_after_insert hs _ h (blocks_ok_empty n H0 H31)). Qed.
Print Assumptions C07_check_after_insert_empty.

(** Insert never clears a bit: what checked true still checks true. *)
Theorem C07_insert_monotone : forall (f : filter) (x y : N),
  filter_check f y = true -> filter_check (filter_insert f x) y = true.
Proof. exact filter_check_insert_mono. Qed.
Print Assumptions C07_insert_monotone.

Theorem C07_insert_bulk_monotone : forall (xs : list N) (f : filter) (y : N),
  filter_check f y = true -> filter_check (filter_insert_bulk f xs) y = true.
Proof. exact filter_check_bulk_mono. Qed.
Print Assumptions C07_insert_bulk_monotone.

(** The specialised hashes are XXH64 of the K little-endian bytes. *)
Theorem C07_specialised_hash_eq :
  (forall v, v < 2 ^ 8 -> sum64uint8 v = xxh64 (le_bytes 1 v)) /\
  (forall v, v < 2 ^ 16 -> sum64uint16 v = xxh64 (le_bytes 2 v)) /\
  (forall v, v < 2 ^ 32 -> sum64uint32 v = xxh64 (le_bytes 4 v)) /\
  (forall v, v < 2 ^ 64 -> sum64uint64 v = xxh64 (le_bytes 8 v)) /\
  (forall b, length b = 16%nat -> sum64uint128 b = xxh64 b).
Proof.
  exact (conj sum64uint8_eq_le (conj sum64uint16_eq (conj sum64uint32_eq
        (conj sum64uint64_eq sum64uint128_eq)))).
Qed.
Print Assumptions C07_specialised_hash_eq.

(** Every hash the writer inserts is a uint64 (so the block index is in range). *)
Theorem C07_hashes_are_u64 : forall p, Forall (fun x => x < 2 ^ 64) (hashes_write p).
Proof. exact hashes_write_u64. Qed.
Print Assumptions C07_hashes_are_u64.

(** For every physical type: the hash the reader computes for a non-null
    value v is among the hashes the writer inserts for a page containing v. *)
Theorem C07_write_read_hash_agree : forall (t : ptype) (vs : list value) (v : value),
  Forall (typed t) vs -> In v vs ->
  In (hash_read v) (hashes_write (page_of_values t vs)).
Proof. exact write_read_hash_agree. Qed.
Print Assumptions C07_write_read_hash_agree.

(** Boolean pages that are slices at any bit offset (bits of neighbouring
    values before, padding after) still yield the key of each of their values. *)
Theorem C07_boolean_page_any_alignment : forall (pre bits post : list bool) (b : bool),
  In b bits ->
  In (hash_read (VBoolean b)) (hashes_write (PBoolean (pack (pre ++ bits ++ post)))).
Proof. exact boolean_page_agree. Qed.
Print Assumptions C07_boolean_page_any_alignment.

(** CheckSplitBlock on the serialised filter = Check on the filter in memory. *)
Theorem C07_check_through_bytes : forall (f : filter) (x : N),
  wf_filter f -> check_split_block (filter_bytes f) x = filter_check f x.
Proof. exact check_split_block_bytes. Qed.
Print Assumptions C07_check_through_bytes.

(** End to end: the filter of a column chunk is built by inserting the hashes
    of its pages (data pages one by one, or the dictionary page) in an empty
    filter of n > 0 blocks and stored as bytes; FileBloomFilter.Check of any
    value of any of those pages answers true. *)
Theorem C07_written_value_checks_true :
  forall (t : ptype) (nblocks : nat) (pages : list (list value)) (page : list value) (v : value),
  (0 < nblocks)%nat -> N.of_nat nblocks < 2 ^ 31 ->
  Forall (Forall (typed t)) pages -> In page pages -> In v page ->
  file_check (filter_bytes (chunk_filter nblocks t pages)) v = true.
Proof. exact written_value_checks_true. Qed.
Print Assumptions C07_written_value_checks_true.

(** The same when the filter is not empty to start with. *)
Theorem C07_written_value_checks_true_from :
  forall (t : ptype) (f : filter) (pages : list (list value)) (page : list value) (v : value),
  (0 < length f)%nat -> N.of_nat (length f) < 2 ^ 31 -> wf_filter f ->
  Forall (Forall (typed t)) pages -> In page pages -> In v page ->
  file_check (filter_bytes (write_pages_to_filter f (map (page_of_values t) pages))) v = true.
Proof.
  intros t f pages page v H0 H31. exact (written_value_checks_true_from t f pages page v (conj H0 H31)).
Qed.
Print Assumptions C07_written_value_checks_true_from.

(** Before the repair commit e35cc49 EncodeBoolean inserted one key per
    bit-packed byte of the page.  The faithful model of that code refutes the
    write/read agreement and the end-to-end statement: eight true values pack
    to the byte 0xFF, the reader looks up the hash of the byte 1. *)
Theorem C07_pinned_boolean_refuted :
  exists (vs : list value) (v : value),
    Forall (typed TBoolean) vs /\ In v vs /\
    ~ In (hash_read v) (hashes_write_pinned (page_of_values TBoolean vs)) /\
    file_check (filter_bytes (write_page_to_filter_pinned (empty_filter 1) (page_of_values TBoolean vs))) v = false.
Proof.
  exists pinned_witness, (VBoolean true).
  split; [repeat constructor|]. split; [left; reflexivity|].
  split; [exact pinned_boolean_hash_disagree|exact pinned_boolean_check_false].
Qed.
Print Assumptions C07_pinned_boolean_refuted.

(** Non-vacuity: concrete well-typed pages of several types; the written
    values check true, and the filters are not trivially full (an absent
    value checks false). *)
Definition ex_uuid (k : N) : value := VFixedLenByteArray (map (fun i => (k + i) mod 256) [0;1;2;3;4;5;6;7;8;9;10;11;12;13;14;15]).
Definition ex_uuid_pages : list (list value) := [[ex_uuid 1; ex_uuid 40]; [ex_uuid 200]].

Example C07_ex_uuid_typed : Forall (Forall (typed (TFixedLenByteArray 16))) ex_uuid_pages.
Proof. repeat constructor. Qed.

Example C07_ex_uuid_present :
  file_check (filter_bytes (chunk_filter 2 (TFixedLenByteArray 16) ex_uuid_pages)) (ex_uuid 200) = true.
Proof. vm_compute. reflexivity. Qed.

Example C07_ex_uuid_absent :
  file_check (filter_bytes (chunk_filter 2 (TFixedLenByteArray 16) ex_uuid_pages)) (ex_uuid 7) = false.
Proof. vm_compute. reflexivity. Qed.

Definition ex_bool_page : list value := repeat (VBoolean true) 8.

Example C07_ex_bool_typed : Forall (typed TBoolean) ex_bool_page.
Proof. repeat constructor. Qed.

Example C07_ex_bool_present :
  file_check (filter_bytes (chunk_filter 1 TBoolean [ex_bool_page])) (VBoolean true) = true.
Proof. vm_compute. reflexivity. Qed.

Example C07_ex_bool_absent :
  file_check (filter_bytes (chunk_filter 1 TBoolean [ex_bool_page])) (VBoolean false) = false.
Proof. vm_compute. reflexivity. Qed.

Definition ex_strings : list value := [VByteArray [104; 105]; VByteArray []; VByteArray (repeat 120 40)].

Example C07_ex_strings_typed : Forall (typed TByteArray) ex_strings.
Proof. repeat constructor. Qed.

Example C07_ex_strings_present :
  forallb (file_check (filter_bytes (chunk_filter 3 TByteArray [ex_strings]))) ex_strings = true.
Proof. vm_compute. reflexivity. Qed.

Example C07_ex_hashes_u64 : Forall (fun x => x < 2 ^ 64) [xxh64 []; sum64uint32 7].
Proof. repeat constructor. Qed.

(** Known digests of XXH64: "" and "a". *)
Example C07_ex_xxh64_vectors :
  xxh64 [] = 17241709254077376921 /\ xxh64 [97] = 15154266338359012955.
Proof. vm_compute. split; reflexivity. Qed.

(** File level: for every non-boolean type the stored filter is the fold of
    insert over the read-side hashes of all values of the chunk, so it depends
    only on the set of values: the page-by-page, from-dictionary and
    re-read-pages strategies, any page boundaries, any order and the
    dictionary's removal of duplicates all store the same bytes.  (Boolean
    pages may add the key of false for the padding bits of a partial byte.) *)
Theorem C07_file_level : forall (t : ptype) (n : nat) (pages : list (list value)),
  t <> TBoolean -> Forall (Forall (typed t)) pages ->
  chunk_filter n t pages = filter_insert_bulk (empty_filter n) (map hash_read (concat pages)).
Proof. exact chunk_filter_fold. Qed.
Print Assumptions C07_file_level.

Theorem C07_file_level_same_values : forall (t : ptype) (n : nat) (pages pages' : list (list value)),
  t <> TBoolean ->
  Forall (Forall (typed t)) pages -> Forall (Forall (typed t)) pages' ->
  incl (concat pages) (concat pages') -> incl (concat pages') (concat pages) ->
  chunk_filter n t pages = chunk_filter n t pages'.
Proof. exact chunk_filter_same_values. Qed.
Print Assumptions C07_file_level_same_values.

Theorem C07_insert_order_irrelevant : forall (xs ys : list N) (f : filter),
  incl xs ys -> incl ys xs -> filter_insert_bulk f xs = filter_insert_bulk f ys.
Proof. exact bulk_same_set. Qed.
Print Assumptions C07_insert_order_irrelevant.

Example C07_ex_file_level :
  chunk_filter 2 TInt32 [[VInt32 5; VInt32 9]; [VInt32 5]] = chunk_filter 2 TInt32 [[VInt32 9; VInt32 5]].
Proof. vm_compute. reflexivity. Qed.
