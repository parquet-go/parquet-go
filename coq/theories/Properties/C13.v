(** C13 — corruption inside a checksummed page is reported, never returned
    as data.  The model
    (CRC-32/IEEE as hash/crc32 computes it, and the page loaders of file.go)
    is Crc/Model.v.

    Bit numbering of a message: bit k is bit (k mod 8), counted from the least
    significant bit, of byte (k / 8) ([msg_bit]); this is the order in which
    the reflected CRC-32 consumes the bits, and the numbering in which the
    burst guarantee holds.  Every change confined to four adjacent bytes is a
    burst of at most 32 bits in this numbering
    ([C13_four_byte_window_detected]). *)
From Coq Require Import List NArith.
From PQ Require Import Crc.Model Crc.Proofs Crc.Consumers Crc.ConsumersProofs.
Import ListNotations.
Open Scope N_scope.

(** Main theorem.  For every message [m] and every error pattern [e] of the
    same length that is not all zero and whose set bits span at most 32
    consecutive bit positions, the checksum of the corrupted message differs.
    ([m] may be any list of numbers; [e] is a byte string.) *)
Theorem C13_crc_detects_bursts : forall m e : list N,
  length e = length m -> is_bytes e -> nonzero e -> burst_within 32 e ->
  crc32 (xor_bytes m e) <> crc32 m.
Proof. exact crc_detects_bursts. Qed.
Print Assumptions C13_crc_detects_bursts.

(** Flipping one bit of one byte of a message changes the checksum. *)
Theorem C13_single_bit_detected : forall (pre : list N) (x : N) (post : list N) (j : N),
  x < 256 -> j < 8 ->
  crc32 (pre ++ N.lxor x (N.shiftl 1 j) :: post) <> crc32 (pre ++ x :: post).
Proof. exact crc_detects_single_bit. Qed.
Print Assumptions C13_single_bit_detected.

(** Any change confined to at most four adjacent bytes changes the checksum. *)
Theorem C13_four_byte_window_detected : forall pre w w' post : list N,
  length w = length w' -> (length w <= 4)%nat -> is_bytes w -> is_bytes w' -> w <> w' ->
  crc32 (pre ++ w' ++ post) <> crc32 (pre ++ w ++ post).
Proof. exact crc_detects_window. Qed.
Print Assumptions C13_four_byte_window_detected.

(** What the reader does with it: [readPage] compares the stored checksum
    with the checksum of the body before anything is decoded.  A body written
    with its checksum and then altered by a burst is rejected -- provided the
    stored checksum is not 0: `if header.CRC != 0` treats 0 as "absent"
    (documented exclusion, see [C13_zero_stored_crc_disables_check]). *)
Theorem C13_corrupted_body_rejected : forall body e : list N,
  length e = length body -> is_bytes e -> nonzero e -> burst_within 32 e ->
  crc32 body <> 0 ->
  read_page_accepts (crc32 body) (xor_bytes body e) = false.
Proof. exact read_page_rejects. Qed.
Print Assumptions C13_corrupted_body_rejected.

Theorem C13_clean_body_accepted : forall body, read_page_accepts (crc32 body) body = true.
Proof. intros body. apply read_page_accepts_iff. now right. Qed.
Print Assumptions C13_clean_body_accepted.

(** The exclusion, stated: a stored checksum of 0 accepts every body, and a
    body whose checksum is 0 exists (so the case is reachable, with
    probability 2^-32 per page). *)
Theorem C13_zero_stored_crc_disables_check : forall body, read_page_accepts 0 body = true.
Proof. reflexivity. Qed.
Print Assumptions C13_zero_stored_crc_disables_check.

Example C13_zero_crc_reachable : crc32 [0x9d; 0x0a; 0xd9; 0x6d] = 0.
Proof. vm_compute. reflexivity. Qed.

(** The comparison of [readPage], characterised: a body is accepted exactly
    when the stored checksum is 0 (the exclusion above) or is the checksum of
    the body.  Hence an alteration of the STORED CHECKSUM FIELD (any non-zero
    bit pattern [e] flipped in it, as long as the result is not 0) is reported
    as well, and two bodies accepted against the same non-zero stored value
    have the same checksum: with the burst theorem, no body that differs from
    an accepted one by a burst of at most 32 bits is accepted. *)
Theorem C13_accepts_iff : forall stored body,
  read_page_accepts stored body = true <-> stored = 0 \/ stored = crc32 body.
Proof. exact read_page_accepts_iff. Qed.
Print Assumptions C13_accepts_iff.

Theorem C13_wrong_stored_checksum_rejected : forall stored body,
  stored <> 0 -> stored <> crc32 body -> read_page_accepts stored body = false.
Proof. exact read_page_rejects_wrong_stored. Qed.
Print Assumptions C13_wrong_stored_checksum_rejected.

Theorem C13_flipped_checksum_field_rejected : forall body e,
  e <> 0 -> N.lxor (crc32 body) e <> 0 ->
  read_page_accepts (N.lxor (crc32 body) e) body = false.
Proof.
  intros body e He Hz. apply read_page_rejects_wrong_stored; [exact Hz|].
  intros H. apply He. apply (f_equal (N.lxor (crc32 body))) in H.
  now rewrite lxor_cancel_l, N.lxor_nilpotent in H.
Qed.
Print Assumptions C13_flipped_checksum_field_rejected.

Theorem C13_accepted_bodies_share_checksum : forall stored body body',
  stored <> 0 -> read_page_accepts stored body = true -> read_page_accepts stored body' = true ->
  crc32 body = crc32 body'.
Proof.
  intros stored body body' H0 H1 H2. apply read_page_accepts_iff in H1, H2.
  destruct H1 as [H1|H1]; [contradiction|]. destruct H2 as [H2|H2]; [contradiction|]. congruence.
Qed.
Print Assumptions C13_accepted_bodies_share_checksum.

(** Why the comparison has to be the full equality: for EVERY non-zero
    32-bit difference [d] there is a change of the last four bytes of the body
    (a burst of at most 32 bits, computed by [suffix_fault]: 32 inverse
    register steps of [d]) after which the checksum of the body is the old one
    xor [d].  A reader that tolerates any difference [d] between the stored
    value and the checksum of the body therefore returns an altered body as
    data.  This is the search the check runs when the stored-checksum faults
    of the harness find such a tolerance (c13DeriveBodyFault). *)
Theorem C13_suffix_fault_has_difference : forall pre w d,
  length w = 4%nat -> bounded d ->
  crc32 (pre ++ xor_bytes w (suffix_fault d)) = N.lxor (crc32 (pre ++ w)) d.
Proof. exact crc_suffix_fault. Qed.
Print Assumptions C13_suffix_fault_has_difference.

Theorem C13_weaker_comparison_lets_a_burst_through : forall pre w d,
  length w = 4%nat -> is_bytes w -> bounded d -> d <> 0 ->
  let body := pre ++ w in
  let body' := pre ++ xor_bytes w (suffix_fault d) in
  body' <> body /\ length body' = length body /\
  N.lxor (crc32 body') (crc32 body) = d.
Proof. exact weaker_comparison_lets_a_burst_through. Qed.
Print Assumptions C13_weaker_comparison_lets_a_burst_through.

Example C13_ex_suffix_fault :
  bounded 0x01000000 /\
  suffix_fault 0x01000000 <> [0; 0; 0; 0] /\
  crc32 ([1; 2; 3] ++ xor_bytes [4; 5; 6; 7] (suffix_fault 0x01000000))
  = N.lxor (crc32 [1; 2; 3; 4; 5; 6; 7]) 0x01000000.
Proof. vm_compute. repeat split; discriminate. Qed.

(* non-vacuity: a non-zero pattern in the field of a page whose checksum is not 0 *)
Example C13_ex_flipped_field :
  crc32 [1; 2; 3] <> 0 /\ N.lxor (crc32 [1; 2; 3]) 1 <> 0 /\
  read_page_accepts (N.lxor (crc32 [1; 2; 3]) 1) [1; 2; 3] = false.
Proof. vm_compute. repeat split; discriminate. Qed.

(** The step with no input is injective on 32-bit registers (the inverse
    reads bit 31, which only the polynomial sets), and linear over xor. *)
Theorem C13_step_injective : forall s t,
  s < 2 ^ 32 -> t < 2 ^ 32 -> step0 s = step0 t -> s = t.
Proof. intros s t Hs Ht. apply step0_injective; now apply bounded_lt. Qed.
Print Assumptions C13_step_injective.

Theorem C13_crc_linear : forall m e : list N, length m = length e ->
  N.lxor (crc32 (xor_bytes m e)) (crc32 m) = update 0 e.
Proof. exact crc32_diff. Qed.
Print Assumptions C13_crc_linear.

(** The model is the function the code computes: Go's table-driven loop
    equals the bitwise definition, the writer's chained Update over the three
    sections of a page body equals the checksum of the stored body, and the
    result is a 32-bit number. *)
Theorem C13_table_driven_agrees : forall bs, crc32_table bs = crc32 bs.
Proof. exact crc32_table_eq. Qed.
Print Assumptions C13_table_driven_agrees.

Theorem C13_page_crc_is_crc_of_body : forall r d p, page_crc r d p = crc32 (r ++ d ++ p).
Proof. intros r d p. unfold page_crc, crc32. now rewrite !crc32_update_app. Qed.
Print Assumptions C13_page_crc_is_crc_of_body.

Theorem C13_crc_is_32_bits : forall bs, is_bytes bs -> crc32 bs < 2 ^ 32.
Proof. exact crc32_bound. Qed.
Print Assumptions C13_crc_is_32_bits.

Theorem C13_header_field_roundtrip : forall c, c < 2 ^ 32 -> int32_to_crc (crc_to_int32 c) = c.
Proof. exact int32_roundtrip. Qed.
Print Assumptions C13_header_field_roundtrip.

(** Every access path of the loader state machine hands a decoder only
    bodies fetched by a loader that compares the stored CRC or opens an
    AES-GCM module (finite case analysis on the loader table, for every
    trace of events). *)
Theorem C13_all_paths_verify : forall (enc dict : bool) (evs : list event),
  trace_verified loader_check enc dict evs = true.
Proof.
  intros enc dict evs. unfold trace_verified. apply forallb_forall. intros [k l] _. cbn.
  destruct l; reflexivity.
Qed.
Print Assumptions C13_all_paths_verify.

Theorem C13_every_loader_checks : forall l, loader_check l <> Unverified.
Proof. exact loader_check_verified. Qed.
Print Assumptions C13_every_loader_checks.

(** A dictionary in use always comes from a load of the dictionary page
    (skipping the dictionary page in the stream never stands in for one). *)
Theorem C13_dictionary_comes_from_a_load : forall enc dict evs,
  dict_loaded (final (init_state enc dict) evs) = true ->
  exists l, In (DictPage, l) (run (init_state enc dict) evs).
Proof. intros enc dict evs. now apply dictionary_always_loaded_from_page. Qed.
Print Assumptions C13_dictionary_comes_from_a_load.

(** The loader table of the pinned tree (before "fix: the lazy dictionary
    loader verifies the page checksum") refutes the statement: after a seek
    the dictionary is loaded by a loader that does not look at the CRC;
    the sequential path was fine. *)
Theorem C13_pinned_lazy_dictionary_refuted :
  exists evs, trace_verified loader_check_pinned false true evs = false.
Proof. exists [EvSeekToRow; EvStreamPage DataPageV2 true]. vm_compute. reflexivity. Qed.
Print Assumptions C13_pinned_lazy_dictionary_refuted.

Example C13_pinned_sequential_path_verified :
  trace_verified loader_check_pinned false true
    [EvStreamPage DictPage false; EvStreamPage DataPageV2 true] = true.
Proof. vm_compute. reflexivity. Qed.

Example C13_pinned_read_dictionary_unverified :
  path_check loader_check_pinned false true PathReadDictionary DataPageV1 DictPage = Some Unverified
  /\ path_check loader_check false true PathReadDictionary DataPageV1 DictPage = Some CrcVerified
  /\ path_check loader_check true true PathSeekThenRead DataPageV2 DictPage = Some AeadVerified.
Proof. vm_compute. repeat split. Qed.

(** The reader of a column across the row groups of a file,
    Column.Pages / PagesFrom: one FilePages per row group, read one after
    the other, sequentially or after a seek that went to the row group of the
    page or to an earlier one, with or without offset index.  The body of the
    page read, and of the dictionary page it needs, is fetched by a checking
    loader; a row group before the one the seek went to is not read. *)
Theorem C13_column_reader_verifies : forall enc dict p noindex k target,
  column_path_check loader_check enc dict p noindex k target <> Some Unverified.
Proof. exact column_path_never_unverified. Qed.
Print Assumptions C13_column_reader_verifies.

Theorem C13_column_reader_reads_the_page : forall enc dict p noindex k,
  k <> DictPage -> p <> ColSeek RgBefore ->
  column_path_check loader_check enc dict p noindex k k <> None /\
  (dict = true -> column_path_check loader_check enc dict p noindex k DictPage <> None).
Proof. exact column_path_reads_the_page. Qed.
Print Assumptions C13_column_reader_reads_the_page.

(** On the pinned tree the dictionary of a LATER row group was loaded without
    check when the file is read without offset index (SeekToRow 0 on that row
    group skips the dictionary page); with an offset index it is met in the
    stream and checked. *)
Example C13_pinned_column_reader_later_row_group :
  column_path_check loader_check_pinned false true (ColSeek RgAfter) true DataPageV2 DictPage = Some Unverified
  /\ column_path_check loader_check_pinned false true (ColSeek RgAfter) false DataPageV2 DictPage = Some CrcVerified
  /\ column_path_check loader_check false true (ColSeek RgAfter) true DataPageV2 DictPage = Some CrcVerified
  /\ column_path_check loader_check false true (ColSeek RgBefore) true DataPageV2 DataPageV2 = None.
Proof. vm_compute. repeat split. Qed.

(** Consumers.  The routines that read pages or rows on behalf of the caller
    (CopyPages, CopyRows, CopyValues, the re-encoding and the row path of
    Writer.WriteRowGroup, ReadRowsFrom, Reader.Read in a loop, Read...) are
    instances of the loop [consume]: over a source whose altered item is
    fetched by a checking loader the loop ends with the error, after handing
    on exactly the intact items in front of it; it never ends with success. *)
Theorem C13_consumer_loop_reports : forall before after c,
  checkb c = true -> consume (source before after c) = Reported before false.
Proof. exact consume_reports_checked. Qed.
Print Assumptions C13_consumer_loop_reports.

(** Every kind of consumer comes to report an alteration through a loader
    that checks: the consuming call itself when it decodes the pages, the
    reader of its output when it splices the stored bytes (the verbatim path
    of Writer.WriteRowGroup), and it does meet the page and the dictionary
    page of a column it reads. *)
Theorem C13_consumers_verify : forall enc dict kind k target,
  match consumer_check loader_check enc dict kind k target with
  | ByCall c | ByOutput c => checkb c = true
  | Untouched => True
  end.
Proof. exact consumer_check_verified. Qed.
Print Assumptions C13_consumers_verify.

Theorem C13_consumer_meets_the_page : forall enc dict kind k,
  k <> DictPage -> kind <> ProjectedAway ->
  consumer_check loader_check enc dict kind k k <> Untouched /\
  (dict = true -> consumer_check loader_check enc dict kind k DictPage <> Untouched).
Proof. exact consumer_meets_the_page. Qed.
Print Assumptions C13_consumer_meets_the_page.

(** The verbatim copy carries the stored checksum with the body: the reader of
    the copy rejects the page under the hypotheses of
    [C13_corrupted_body_rejected]. *)
Theorem C13_verbatim_copy_keeps_checksum : forall body e : list N,
  length e = length body -> is_bytes e -> nonzero e -> burst_within 32 e ->
  crc32 body <> 0 ->
  let p := splice {| sp_crc := crc32 body; sp_body := xor_bytes body e |} in
  read_page_accepts (sp_crc p) (sp_body p) = false.
Proof. intros body e H1 H2 H3 H4 H5. cbn. now apply read_page_rejects. Qed.
Print Assumptions C13_verbatim_copy_keeps_checksum.

Theorem C13_write_row_group_decodes_unless_verbatim : forall same enc transparent fits,
  wrg_kind (write_row_group_path same enc transparent fits) = Verbatim <->
  (same = true /\ enc = false /\ transparent = true /\ fits = true).
Proof. exact wrg_decodes_unless_verbatim. Qed.
Print Assumptions C13_write_row_group_decodes_unless_verbatim.

(** Non-vacuity: with an unchecked loader the altered page is handed on and
    the loop reports success; with a checking one it reports the error. *)
Example C13_unchecked_source_is_delivered :
  consume (source 3 2 Unverified) = Done 6 true /\
  consume (source 3 2 CrcVerified) = Reported 3 false /\
  consumer_check loader_check_pinned false true Decoding DataPageV2 DictPage = ByCall CrcVerified /\
  consumer_check loader_check false true Verbatim DataPageV1 DataPageV1 = ByOutput CrcVerified /\
  consumer_check loader_check true true Decoding DataPageV1 DictPage = ByCall AeadVerified.
Proof. vm_compute. repeat split. Qed.

(** Merges (MergeRowReaders, MergeRowGroups rows; two inputs and the loser
    tree alike): the inputs are refilled in an arbitrary order [sched]; when
    one of the first k inputs holds an altered page fetched by a checking
    loader and the merge went on until none of the k inputs had anything more
    to give, it ended with the error - it did not take the failed refill for
    the end of that input. *)
Theorem C13_merge_reports : forall sched ins n alt o rest k j before after c,
  merge_run false sched ins n alt = (o, rest) ->
  (forall j, (j < k)%nat -> at_end (rest j) = true) ->
  (j < k)%nat -> ins j = source before after c -> checkb c = true ->
  exists m a, o = Reported m a.
Proof. exact merge_reports_checked. Qed.
Print Assumptions C13_merge_reports.

Definition ex_merge_inputs : inputs := fun j =>
  match j with
  | O => repeat (AItem Clean) 3 ++ [AEnd]
  | S O => source 2 2 CrcVerified
  | _ => []
  end.

(** Non-vacuity, and the variant that takes a failed refill for the end of the
    input refuted: two inputs refilled in turn, the second one fails at its
    third refill (behind the first load); the merge reports it after 5 rows,
    the lenient variant returns 5 of the 7 intact rows and no error (the rows of the
    second input from the altered page on are missing), both with every input
    at its end or failed. *)
Example C13_lenient_merge_refuted :
  fst (merge_run false [0;1;0;1;0;1;0;1;0;1]%nat ex_merge_inputs 0 false) = Reported 5 false /\
  fst (merge_run true [0;1;0;1;0;1;0;1;0;1]%nat ex_merge_inputs 0 false) = Done 5 false /\
  at_end (snd (merge_run true [0;1;0;1;0;1;0;1;0;1]%nat ex_merge_inputs 0 false) 0%nat) = true /\
  first_stop (ex_merge_inputs 1%nat) = AFail.
Proof. vm_compute. repeat split. Qed.

(** Readers that deliver rows in windows (VariantReader.Next over the leaf
    columns of a variant group): wherever the windows end relative to the
    altered page - in particular when a window ends exactly where the page
    begins, so that the page is loaded by the peek behind a window whose rows
    are all there - the read ends with the error after exactly the intact rows
    in front of the page. *)
Theorem C13_windows_report : forall sizes before after c i rem n,
  checkb c = true ->
  read_windows true sizes (source before after c) i rem n false = Reported (before + n)%nat false.
Proof. exact windows_report_checked. Qed.
Print Assumptions C13_windows_report.

(** The variant that returns the complete window and drops the failure met by
    the peek is refuted by windows that end where the altered page begins
    (windows of 3 rows, 3 intact rows in front): 6 rows and no error, the page
    skipped; with windows of 2 rows the same variant still reports. *)
Example C13_dropped_peek_error_refuted :
  read_in_windows false (fun _ => 2%nat) (source 3 3 CrcVerified) = Done 6 false /\
  read_in_windows false (fun _ => 1%nat) (source 3 3 CrcVerified) = Reported 3 false /\
  read_in_windows true (fun _ => 2%nat) (source 3 3 CrcVerified) = Reported 3 false.
Proof. vm_compute. repeat split. Qed.

(** Non-vacuity: a concrete message and a 32-bit burst that starts in the
    middle of a byte and ends in the middle of the byte four bytes later meet
    the hypotheses; the checksums are different numbers. *)
Definition ex_msg : list N := [0x50; 0x41; 0x52; 0x31; 0x00; 0xff; 0x10; 0x20].
Definition ex_burst : list N := [0x00; 0xa0; 0x5b; 0x00; 0xc3; 0x1f; 0x00; 0x00].

Example C13_ex_burst_hyps :
  length ex_burst = length ex_msg /\ is_bytes ex_burst /\ nonzero ex_burst /\ burst_within 32 ex_burst.
Proof.
  split; [reflexivity|]. split; [repeat constructor|].
  split; [exists 0xa0; split; [cbn; tauto|discriminate]|].
  apply (burst_within_check 32 ex_burst 13). reflexivity.
Qed.

Example C13_ex_burst_is_wide :
  msg_bit ex_burst 13 = true /\ msg_bit ex_burst 44 = true.
Proof. vm_compute. split; reflexivity. Qed.

Example C13_ex_values :
  crc32 ex_msg = 0xc04b6cdc /\ crc32 (xor_bytes ex_msg ex_burst) = 0x922be223
  /\ crc32 [49; 50; 51; 52; 53; 54; 55; 56; 57] = 0xCBF43926.
Proof. vm_compute. repeat split. Qed.

(** The bound 32 is tight for this polynomial: the generator itself, a
    33-bit pattern, is not detected. *)
Example C13_bound_is_tight :
  exists m e, length e = length m /\ is_bytes e /\ nonzero e /\ burst_within 33 e /\
              crc32 (xor_bytes m e) = crc32 m.
Proof.
  exists [1; 2; 3; 4; 5; 6], [0; 0x41; 0x06; 0x71; 0xdb; 0x01].
  split; [reflexivity|]. split; [repeat constructor|].
  split; [exists 0x41; split; [cbn; tauto|discriminate]|].
  split; [|vm_compute; reflexivity].
  apply (burst_within_check 33 _ 8). reflexivity.
Qed.
