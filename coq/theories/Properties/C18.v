(** C18 -- encrypted files round-trip, leak no plaintext and authenticate every
    module.  The general theorems are in Aad/Proofs.v and Aad/Aead.v.

    What is proved, about the executable model Aad/Model.v of encrypt.go,
    writer.go and file.go:
    - the AAD of a module determines the file (for fixed lengths of the AAD
      prefix and the file identifier), the module type and its ordinals, as
      long as the ordinals fit 16 bits ([C18_aad_injective]); the Go code's
      conversion to int16 wraps ([C18_page_ordinal_wraps]) and the writer
      therefore refuses chunks of more than 32768 pages
      ([C18_writer_rejects_wrap], [C18_written_files_in_range]; the behaviour
      before that check is refuted by [C18_pinned_ordinal_wrap_refuted]);
    - for EVERY layout and EVERY reader history (sequential reads, seeks through
      the offset index or without it, explicit and lazy dictionary loads, page
      index / bloom filter / column metadata / footer readers) the type and AAD
      the reader computes for a module are those the writer sealed it with
      ([C18_ordinals_agree]);
    - CONDITIONAL on an idealised AEAD (hypotheses of the Section below, AES-GCM
      itself is not modelled): the reader recovers every plaintext
      ([C18_roundtrip]) and a module that was modified, truncated, replaced by
      another module of the same or another file, or opened with a wrong key is
      rejected ([C18_tamper_detected] and its corollaries); the streamed reader
      of pages, dictionary pages and bloom filters does the same for a module
      of any length that fits the 4-byte length field ([C18_stream_roundtrip],
      [C18_reader_accepts_written_lengths]);
    - whatever the constructor and however the options are nested in
      WriterConfig values used as options, the writer of the file uses the
      EncryptionConfig named last: one that was given is never dropped
      ([C18_options_reach_writer], [C18_encryption_not_dropped]);
    - in plaintext-footer mode the clear footer holds no column metadata
      ([C18_no_plain_stats_partial]: a statement about which ColumnChunk fields
      the model serialises; that ciphertexts do not reveal plaintext is an
      assumption about AES-GCM, not a theorem). *)
From Coq Require Import List ZArith Bool Lia String.
From PQ Require Import Base.Bytes Aad.Model Aad.Proofs Aad.Aead Aad.Keys.
Import ListNotations.

(** * AAD construction *)
Theorem C18_aad_injective : forall pfx fu pfx' fu' m m' rg col pg rg' col' pg',
  List.length pfx = List.length pfx' -> List.length fu = List.length fu' ->
  (0 <= rg < 65536)%Z -> (0 <= col < 65536)%Z -> (0 <= pg < 65536)%Z ->
  (0 <= rg' < 65536)%Z -> (0 <= col' < 65536)%Z -> (0 <= pg' < 65536)%Z ->
  make_aad pfx fu m rg col pg = make_aad pfx' fu' m' rg' col' pg' ->
  pfx = pfx' /\ fu = fu' /\ m = m' /\
  firstn (mtype_arity m) [rg; col; pg] = firstn (mtype_arity m') [rg'; col'; pg'].
Proof. exact make_aad_injective. Qed.
Print Assumptions C18_aad_injective.

(** No two modules of a file share an AAD, and modules of different files
    (different prefix or file identifier of the same lengths) never do. *)
Theorem C18_distinct_modules_distinct_aads : forall pfx fu pfx' fu' p p',
  List.length pfx = List.length pfx' -> List.length fu = List.length fu' ->
  pos_in_range p -> pos_in_range p' ->
  aad_of_pos pfx fu p = aad_of_pos pfx' fu' p' ->
  pfx = pfx' /\ fu = fu' /\ p = p'.
Proof. exact aad_of_pos_injective. Qed.
Print Assumptions C18_distinct_modules_distinct_aads.

(** File identifiers of ANY length (EncryptionConfig.FileIdentifier is used as
    it is, whatever its length: 1 byte, 8 bytes, a 16-byte UUID, a textual name):
    under one AAD prefix, the module at a given position of one file and the
    module of the same type at the same position of another file have equal
    AADs only if the two identifiers are EQUAL as byte strings -- sharing a
    prefix of 8 (or any number of) bytes is not enough, and no hypothesis on
    the lengths is needed when the positions are the same (the cross-file
    exchange the harness performs on pairs of identifiers of 1..20 bytes
    sharing 0..all of their bytes). *)
Theorem C18_identifier_binds_any_length : forall pfx fu fu' m rg col pg,
  make_aad pfx fu m rg col pg = make_aad pfx fu' m rg col pg -> fu = fu'.
Proof.
  intros pfx fu fu' m rg col pg H. unfold make_aad, make_aad_raw in H.
  apply app_inv_head in H. apply app_inv_tail in H. exact H.
Qed.
Print Assumptions C18_identifier_binds_any_length.

(** ... whereas for DIFFERENT positions the hypothesis of equal lengths in
    [C18_aad_injective] (and in [entries_ok]) cannot be dropped: identifier
    X of 8 bytes, data page body at row group 256, column 5, page 7, and
    identifier X ++ [2; 0] of 10 bytes, column metadata at row group 5,
    column 7, have the same AAD. *)
Example C18_ex_identifier_lengths_matter :
  let x := [1; 2; 3; 4; 5; 6; 7; 8]%N in
  make_aad [] x MDataBody 256 5 7 = make_aad [] (x ++ [2; 0]%N) MColMeta 5 7 0.
Proof. vm_compute. reflexivity. Qed.

(** * Keys are assigned, and resolved, by column PATH (Aad/Keys.v)

    The writer seals the modules of a column with the key ColumnKeys holds for
    its dot-joined path (else the footer key) and records the path in the
    crypto_metadata; the reader asks its retriever with that path for every
    chunk.  So a reader whose retriever answers what the configuration holds
    gets, for every column, the key the writer used ... *)
Theorem C18_reader_key_is_by_path : forall (key : Type) (m : keymap key) (footer : key) (r : retriever key) p,
  (forall q, r q = lookup_key key m (join_path q)) ->
  reader_key key r footer (snd (writer_key key m footer p)) = Some (fst (writer_key key m footer p)).
Proof.
  intros key m footer r p H. unfold writer_key.
  destruct (lookup_key key m (join_path p)) eqn:E; cbn; [rewrite H; exact E|reflexivity].
Qed.
Print Assumptions C18_reader_key_is_by_path.

(** ... and a column with its own key whose path the retriever refuses has no
    key, whatever the retriever answers for OTHER paths (a column with the same
    leaf name under another group, configured with the same key value, say). *)
Theorem C18_refused_path_has_no_key : forall (key : Type) (m : keymap key) (footer : key) (r : retriever key) p k,
  lookup_key key m (join_path p) = Some k -> r p = None ->
  reader_key key r footer (snd (writer_key key m footer p)) = None.
Proof.
  intros key m footer r p k E H. unfold writer_key. rewrite E. cbn. exact H.
Qed.
Print Assumptions C18_refused_path_has_no_key.

(* home.zip and work.zip configured with the same key 1, a retriever that holds
   home.zip only; the top-level column zip is under the footer key (0) *)
Definition ex_home_zip : path := [[104; 111; 109; 101]; [122; 105; 112]]%N.
Definition ex_work_zip : path := [[119; 111; 114; 107]; [122; 105; 112]]%N.
Definition ex_keymap : keymap N := [(join_path ex_home_zip, 1%N); (join_path ex_work_zip, 1%N)].
Definition ex_retriever : retriever N :=
  fun p => if bytes_eqb (join_path p) (join_path ex_home_zip) then Some 1%N else None.
Example C18_ex_same_leaf_name :
  reader_key N ex_retriever 0%N (snd (writer_key N ex_keymap 0%N ex_home_zip)) = Some 1%N /\
  reader_key N ex_retriever 0%N (snd (writer_key N ex_keymap 0%N ex_work_zip)) = None /\
  oracle_column_key ex_keymap [[122; 105; 112]]%N = (0%N, false).
Proof. vm_compute. repeat split. Qed.

(** Positions of a layout with at most 65536 row groups, columns per row group
    and pages per chunk are in range. *)
Theorem C18_wf_layout_in_range : forall ef lay p,
  wf_layout lay -> valid_pos ef lay p = true -> pos_in_range p.
Proof. exact valid_pos_in_range. Qed.
Print Assumptions C18_wf_layout_in_range.

(** int16 ordinals wrap silently (writer.go:2527 [int16(c.numPages)],
    file.go:1611 [int16(target)], 1544 [dataPageOrd++]). *)
Theorem C18_page_ordinal_wraps : forall pfx fu m rg col pg,
  make_aad pfx fu m rg col (pg + 65536) = make_aad pfx fu m rg col pg.
Proof. exact make_aad_page_wraps. Qed.
Print Assumptions C18_page_ordinal_wraps.

(** The writer refuses what does not fit (writer.go:2535-2540, 1503): a chunk
    of more than 32768 data pages makes the whole write fail, and every layout
    it accepts has all its ordinals in range, hence pairwise distinct AADs. *)
Theorem C18_writer_rejects_wrap : forall pfx fu ef lay rg col c,
  layout_chunk lay rg col = Some c -> (32768 < N.of_nat (c_pages c))%N ->
  write_file_chk pfx fu ef lay = None.
Proof. exact write_file_chk_rejects. Qed.
Print Assumptions C18_writer_rejects_wrap.

(** The acceptance test of the model is the check inside the page loop of
    writeDataPage ([write_data_pages_chk] returns an error exactly then). *)
Theorem C18_acceptance_is_the_page_loop : forall pfx fu rgo colo c,
  chunk_accepted c = true <-> write_data_pages_chk pfx fu rgo colo 0 (c_pages c) <> None.
Proof. intros. exact (pages_accepted_chk pfx fu rgo colo 0 (c_pages c)). Qed.
Print Assumptions C18_acceptance_is_the_page_loop.

Theorem C18_written_files_in_range : forall pfx fu ef lay wf,
  write_file_chk pfx fu ef lay = Some wf ->
  wf = write_file pfx fu ef lay /\ wf_layout lay /\
  forall p, valid_pos ef lay p = true -> pos_in_range p.
Proof.
  intros pfx fu ef lay wf H. destruct (write_file_chk_some pfx fu ef lay wf H) as [E W].
  split; [exact E|]. split; [exact W|]. intros p. exact (valid_pos_in_range ef lay p W).
Qed.
Print Assumptions C18_written_files_in_range.

(** Pinned (pre-fix) behaviour: without that check -- [write_file] is the
    writer minus the check -- a chunk of 65537 pages is written and page 0 and
    page 65536 are sealed under the same AAD: the two can be exchanged without
    the reader noticing.  Reproduced on the Go code by the harness (mutant). *)
Theorem C18_pinned_ordinal_wrap_refuted :
  exists lay p p', p <> p' /\
    forall pfx fu ef, exists m m',
      wfile_at (write_file pfx fu ef lay) p = Some m /\
      wfile_at (write_file pfx fu ef lay) p' = Some m' /\ m = m'.
Proof.
  exists [[mkChunk false (N.to_nat 65537) false]], (PDataBody 0 0 0), (PDataBody 0 0 (N.to_nat 65536)).
  split.
  - intros H. injection H. lia.
  - intros pfx fu ef.
    assert (V : forall k, (k < N.to_nat 65537)%nat ->
              valid_pos ef [[mkChunk false (N.to_nat 65537) false]] (PDataBody 0 0 k) = true).
    { intros k Hk. cbn [valid_pos layout_chunk nth_error c_pages]. now apply Nat.ltb_lt. }
    exists (mkMod MDataBody (aad_of_pos pfx fu (PDataBody 0 0 0))),
           (mkMod MDataBody (aad_of_pos pfx fu (PDataBody 0 0 (N.to_nat 65536)))).
    split; [|split].
    + apply (write_file_spec pfx fu ef _ (PDataBody 0 0 0)). apply V. lia.
    + apply (write_file_spec pfx fu ef _ (PDataBody 0 0 (N.to_nat 65536))). apply V. lia.
    + apply (f_equal (mkMod MDataBody)). unfold aad_of_pos. cbn [pos_ords pos_type].
      rewrite N_nat_Z. change (Z.of_N 65536) with (0 + 65536)%Z.
      symmetry. apply make_aad_page_wraps.
Qed.
Print Assumptions C18_pinned_ordinal_wrap_refuted.

(** * Writer and reader compute the same ordinals *)
(** The writer's state machine seals every module of the file under the
    closed-form AAD of its position. *)
Theorem C18_writer_ordinals : forall pfx fu ef lay p,
  valid_pos ef lay p = true ->
  wfile_at (write_file pfx fu ef lay) p = Some (mkMod (pos_type p) (aad_of_pos pfx fu p)).
Proof. exact write_file_spec. Qed.
Print Assumptions C18_writer_ordinals.

(** Page cursor of one chunk: for every layout of the chunk, every position of
    the chunk in the file and every history, each module read sits where the
    writer put a module of exactly the expected type and AAD. *)
Theorem C18_cursor_ordinals_agree : forall pfx fu ef rg col c (h : list rop),
  let wc := write_chunk pfx fu ef (Z.of_nat rg) (Z.of_nat col) c in
  Forall (fun e => nth_error (wc_mods wc) (ev_at e) = Some (mkMod (ev_type e) (ev_aad e)))
         (snd (rrun pfx fu (Z.of_nat rg) (Z.of_nat col) wc (rinit wc) h)).
Proof. exact cursor_agrees. Qed.
Print Assumptions C18_cursor_ordinals_agree.

(** Whole file: every layout, every sequence of accesses (footer, column
    metadata, page index, bloom filters, any number of page cursors each with
    any history): what the writer put where the reader looks is what the reader
    expects. *)
Theorem C18_ordinals_agree : forall pfx fu ef lay (h : list fop),
  forallb (fop_valid ef lay) h = true ->
  Forall (fun p => fst p = Some (snd p)) (frun pfx fu (write_file pfx fu ef lay) h).
Proof. exact file_reader_agrees. Qed.
Print Assumptions C18_ordinals_agree.

(** * Under an idealised AEAD *)
Section C18_Aead.
  Variable key : Type.
  Variable seal : key -> bytes -> bytes -> bytes -> bytes.
  Variable open_ : key -> bytes -> bytes -> bytes -> option bytes.

  (** The log of all Seal calls of the honest writers. *)
  Variable es : list (entry key).
  Let sealed := map (sealed_of_entry key) es.

  Hypothesis log_ok : entries_ok key es.
  Hypothesis seal_length : forall k n a p, List.length (seal k n a p) = (List.length p + tag_size)%nat.
  Hypothesis shapes : forall s, In s sealed -> sealed_shape key seal s.
  (* correctness of the AEAD on what was sealed *)
  Hypothesis open_seal : forall s, In s sealed ->
    open_ (s_key key s) (s_nonce key s) (s_aad key s) (s_cipher key seal s) = Some (s_plain key s).
  (* idealised authenticity: only recorded Seal outputs open, and only under
     their own key, nonce and AAD *)
  Hypothesis auth : forall k n a c p, open_ k n a c = Some p ->
    exists s, In s sealed /\ s_key key s = k /\ s_nonce key s = n /\ s_aad key s = a /\
              s_plain key s = p /\ c = s_cipher key seal s.

  Let ok : aead_ok key seal open_ sealed := conj seal_length (conj open_seal (conj auth shapes)).
  Let uniq : aad_unique key sealed := entries_aad_unique key es log_ok.

  (** The reader recovers the plaintext of every module: by
      [C18_ordinals_agree] the AAD it computes is the one of the entry. *)
  Theorem C18_roundtrip : forall e, In e es ->
    decrypt_module key open_ (e_key key e) (aad_of_pos (e_pfx key e) (e_fu key e) (e_pos key e))
      (envelope_of key seal (sealed_of_entry key e)) = Some (e_plain key e).
  Proof.
    intros e He.
    exact (decrypt_roundtrip key seal open_ sealed (sealed_of_entry key e) ok (in_map _ _ _ He)).
  Qed.

  (** If ANY bytes decrypt where module [e] is expected, with ANY key, then the
      key is [e]'s, the plaintext returned is [e]'s and the bytes start with
      [e]'s own envelope: a reader never returns data that was not sealed for
      exactly this position of this file. *)
  Theorem C18_tamper_detected : forall e k env p, In e es -> wf_bytes env ->
    decrypt_module key open_ k (aad_of_pos (e_pfx key e) (e_fu key e) (e_pos key e)) env = Some p ->
    k = e_key key e /\ p = e_plain key e /\
    exists rest, env = envelope_of key seal (sealed_of_entry key e) ++ rest.
  Proof.
    intros e k env p He.
    exact (decrypt_only_original key seal open_ sealed (sealed_of_entry key e) k env p ok uniq (in_map _ _ _ He)).
  Qed.

  (** Replaced by another module: another page, column or row group of the
      file, or a module of another file written with the same keys. *)
  Theorem C18_transplant_rejected : forall e e2 k, In e es -> In e2 es ->
    wf_bytes (envelope_of key seal (sealed_of_entry key e2)) ->
    e_nonce key e2 <> e_nonce key e ->
    decrypt_module key open_ k (aad_of_pos (e_pfx key e) (e_fu key e) (e_pos key e))
      (envelope_of key seal (sealed_of_entry key e2)) = None.
  Proof.
    intros e e2 k He He2.
    exact (transplant_fails key seal open_ sealed (sealed_of_entry key e) (sealed_of_entry key e2) k
             ok uniq (in_map _ _ _ He) (in_map _ _ _ He2)).
  Qed.

  (** Any change of the envelope bytes (length field, nonce, ciphertext, tag). *)
  Theorem C18_modified_rejected : forall e k env, In e es -> wf_bytes env ->
    List.length env = List.length (envelope_of key seal (sealed_of_entry key e)) ->
    env <> envelope_of key seal (sealed_of_entry key e) ->
    decrypt_module key open_ k (aad_of_pos (e_pfx key e) (e_fu key e) (e_pos key e)) env = None.
  Proof.
    intros e k env He.
    exact (modified_fails key seal open_ sealed (sealed_of_entry key e) k env ok uniq (in_map _ _ _ He)).
  Qed.

  Theorem C18_truncated_rejected : forall e k m, In e es ->
    wf_bytes (envelope_of key seal (sealed_of_entry key e)) ->
    (m < List.length (envelope_of key seal (sealed_of_entry key e)))%nat ->
    decrypt_module key open_ k (aad_of_pos (e_pfx key e) (e_fu key e) (e_pos key e))
      (firstn m (envelope_of key seal (sealed_of_entry key e))) = None.
  Proof.
    intros e k m He.
    exact (truncated_fails key seal open_ sealed (sealed_of_entry key e) k m ok uniq (in_map _ _ _ He)).
  Qed.

  (** The same through the streamed reader (readDecryptedEnvelopeFrom: pages,
      dictionary pages, bloom filters), whatever follows the module in the
      stream and whatever its size: the only bound is the one of the 4-byte
      length field ([shapes]: module length below 2^32). *)
  Theorem C18_stream_roundtrip : forall e rest, In e es ->
    read_envelope_from key open_ (e_key key e) (aad_of_pos (e_pfx key e) (e_fu key e) (e_pos key e))
      (envelope_of key seal (sealed_of_entry key e) ++ rest) = Some (e_plain key e, rest).
  Proof.
    intros e rest He.
    exact (stream_roundtrip key seal open_ sealed (sealed_of_entry key e) rest ok (in_map _ _ _ He)).
  Qed.

  Theorem C18_wrong_key_rejected : forall e k env, In e es -> wf_bytes env ->
    k <> e_key key e ->
    decrypt_module key open_ k (aad_of_pos (e_pfx key e) (e_fu key e) (e_pos key e)) env = None.
  Proof.
    intros e k env He.
    exact (wrong_key_fails key seal open_ sealed (sealed_of_entry key e) k env ok uniq (in_map _ _ _ He)).
  Qed.
End C18_Aead.

Print Assumptions C18_roundtrip.
Print Assumptions C18_stream_roundtrip.
Print Assumptions C18_tamper_detected.
Print Assumptions C18_transplant_rejected.
Print Assumptions C18_modified_rejected.
Print Assumptions C18_truncated_rejected.
Print Assumptions C18_wrong_key_rejected.

(** * Module sizes *)
(** The streamed reader accepts the length field of every module the writer
    can write (plaintext of any length whose module length fits the 4-byte
    field), provided the stream holds the module. *)
Theorem C18_reader_accepts_written_lengths : forall plain_len avail,
  (module_len_of_plain plain_len < 256 ^ 4)%N -> (module_len_of_plain plain_len <= avail)%N ->
  stream_accepts (len_field plain_len) avail = true.
Proof. exact stream_accepts_len_field. Qed.
Print Assumptions C18_reader_accepts_written_lengths.

(** * Writer options *)
(** Whatever the constructor (NewGenericWriter / NewWriter, or NewSortingWriter
    / Write / WriteFile which hand a WriterConfig to the writer of the file)
    and however the options are nested in WriterConfig values used as options,
    the writer of the file uses the EncryptionConfig named last; when any
    option names one, the writer encrypts. *)
Theorem C18_options_reach_writer : forall ct l,
  effective_encryption ct l = last_opt (flat_map enc_mentions l).
Proof. exact effective_encryption_spec. Qed.
Print Assumptions C18_options_reach_writer.

Theorem C18_encryption_not_dropped : forall ct l,
  flat_map enc_mentions l <> [] ->
  exists c, effective_encryption ct l = Some c /\ In c (flat_map enc_mentions l).
Proof. intros ct l H. rewrite effective_encryption_spec. now apply last_opt_some. Qed.
Print Assumptions C18_encryption_not_dropped.

(** * Footer modes *)
(** In both modes no ColumnChunk field that carries column metadata
    (statistics, min/max, null counts, sizes, page offsets) is serialised in
    the clear: with an encrypted footer the whole FileMetaData is the plaintext
    of the footer module; with a plaintext footer [MetaData] is the zero value
    and the metadata only exists inside [EncryptedColumnMetadata].  Partial:
    this is a statement about which fields the writer model serialises (tied
    to the Go writer by the plaintext scan of the harness); it does not say
    that ciphertexts hide their plaintext. *)
Theorem C18_no_plain_stats_partial : forall ef,
  footer_fields_known ef = true /\
  clear_metadata_fields ef = [] /\
  (ef = false ->
     In ("MetaData"%string, Absent) (footer_chunk ef) /\
     In ("EncryptedColumnMetadata"%string, Sealed MColMeta) (footer_chunk ef)).
Proof.
  intros ef. split; [destruct ef; apply footer_fields_are_known|].
  split; [apply no_clear_metadata|]. intros ->. exact plaintext_footer_metadata_absent.
Qed.
Print Assumptions C18_no_plain_stats_partial.

(** The full confidentiality statement is not formalised: it needs a model of
    indistinguishability of AES-GCM ciphertexts. *)
Definition C18_full_statement : Prop :=
  forall (file_bytes : list bytes -> bytes) (plaintexts plaintexts' : list bytes),
    map (@List.length N) plaintexts = map (@List.length N) plaintexts' ->
    (* the bytes of the file computed from different plaintexts of the same
       lengths cannot be told apart -- not a Prop of this development *)
    True.

(** * Examples (non-vacuity) *)
Definition ex_lay : layout :=
  [[mkChunk true 3 true; mkChunk false 2 false]; [mkChunk true 1 false; mkChunk false 0 true]].

Example C18_ex_wf : wf_layout ex_lay.
Proof.
  split; [vm_compute; discriminate|].
  repeat constructor; vm_compute; discriminate.
Qed.

(* makeAAD("ab", "\x09\x09\x09", dataPageHeaderModule, 1, 2, 300) *)
Example C18_ex_aad :
  make_aad [97; 98]%N [9; 9; 9]%N MDataHdr 1 2 300 = [97; 98; 9; 9; 9; 3; 1; 0; 2; 0; 44; 1]%N.
Proof. vm_compute. reflexivity. Qed.

(* footer AAD has no ordinals; bloom filter AAD has two *)
Example C18_ex_aad_arity :
  make_aad [1]%N [2]%N MFooter 5 6 7 = [1; 2; 0]%N /\
  make_aad [1]%N [2]%N MBloomBits 5 6 7 = [1; 2; 7; 5; 0; 6; 0]%N.
Proof. split; vm_compute; reflexivity. Qed.

(* a history with a lazy dictionary load after a seek, a seek back without
   index and an explicit dictionary load: 23 module reads in all, every one agrees *)
Definition ex_history : list fop :=
  [FFooter; FColIndex 1 1; FOffIndex 0 1; FBloom 0 0; FBloom 1 1;
   FPages 0 0 [RSeekIndex 2 false; RNext true; RNext true; RSeekNoIndex; RNext true; RLoadDict;
               RSeekIndex 1 false; RNext true; RSeekIndex 1 true; RNext true];
   FPages 1 0 [RLoadDict; RNext true; RNext true; RNext true]].

Example C18_ex_agree :
  forallb (fop_valid true ex_lay) ex_history = true /\
  List.length (frun [1]%N [7]%N (write_file [1]%N [7]%N true ex_lay) ex_history) = 23%nat /\
  forallb pair_agrees (frun [1]%N [7]%N (write_file [1]%N [7]%N true ex_lay) ex_history) = true.
Proof. vm_compute. repeat split; reflexivity. Qed.

(* a reader that forgets to synchronise the page ordinal on a seek computes a
   different AAD: the agreement is not a tautology of the model *)
Example C18_ex_unsynced_ordinal_differs :
  make_aad [1]%N [7]%N MDataHdr 0 0 0 <> make_aad [1]%N [7]%N MDataHdr 0 0 2.
Proof. vm_compute. discriminate. Qed.

(** The AEAD hypotheses are satisfiable: the toy AEAD of Aad/Aead.v on the log
    of two files written with the same keys and schema. *)
Definition ex_k1 : bytes := [11; 11]%N.
Definition ex_k2 : bytes := [22; 22]%N.
Definition ex_nonce (i : N) : bytes := repeat i 12.
Definition ex_entries : list (entry bytes) :=
  [mkEntry bytes [1]%N [7]%N (PDataBody 0 0 0) ex_k1 (ex_nonce 1) [100; 101]%N;
   mkEntry bytes [1]%N [7]%N (PDataBody 0 0 1) ex_k1 (ex_nonce 2) [102; 103]%N;
   mkEntry bytes [1]%N [7]%N (PDataBody 0 1 0) ex_k2 (ex_nonce 3) [104; 105]%N;
   mkEntry bytes [1]%N [8]%N (PDataBody 0 0 0) ex_k1 (ex_nonce 4) [106; 107]%N].
Definition ex_sealed := map (sealed_of_entry bytes) ex_entries.

Example C18_ex_log_ok : entries_ok bytes ex_entries.
Proof.
  split; [|split].
  - intros e He. exists true, ex_lay. split; [exact C18_ex_wf|].
    repeat (destruct He as [<-|He]; [vm_compute; reflexivity|]). destruct He.
  - intros e1 e2 H1 H2.
    repeat (destruct H1 as [<-|H1]; [repeat (destruct H2 as [<-|H2]; [split; reflexivity|]); destruct H2|]).
    destruct H1.
  - intros e1 e2 H1 H2.
    repeat (destruct H1 as [<-|H1];
            [repeat (destruct H2 as [<-|H2]; [cbn; intros; try reflexivity; try discriminate|]); destruct H2|]).
    destruct H1.
Qed.

Example C18_ex_hypotheses : aead_ok bytes toy_seal (toy_open ex_sealed) ex_sealed.
Proof.
  apply toy_aead_ok.
  intros s Hs. repeat (destruct Hs as [<-|Hs]; [split; vm_compute; reflexivity|]). destruct Hs.
Qed.

(* page 0 reads back; page 1, the same page of the other column and the same
   page of the other file are all rejected in its place; so is a wrong key *)
Example C18_ex_toy_run :
  let env i := envelope_of bytes toy_seal (nth i ex_sealed (mkSealed bytes [] [] [] [])) in
  let a0 := aad_of_pos [1]%N [7]%N (PDataBody 0 0 0) in
  decrypt_module bytes (toy_open ex_sealed) ex_k1 a0 (env 0%nat) = Some [100; 101]%N /\
  decrypt_module bytes (toy_open ex_sealed) ex_k1 a0 (env 1%nat) = None /\
  decrypt_module bytes (toy_open ex_sealed) ex_k1 a0 (env 2%nat) = None /\
  decrypt_module bytes (toy_open ex_sealed) ex_k1 a0 (env 3%nat) = None /\
  decrypt_module bytes (toy_open ex_sealed) ex_k2 a0 (env 0%nat) = None /\
  decrypt_module bytes (toy_open ex_sealed) ex_k1 a0 (firstn 30 (env 0%nat)) = None.
Proof. vm_compute. repeat split; reflexivity. Qed.

(** A module of 16 MiB and one of 1 MiB + 1: the length fields, accepted. *)
Example C18_ex_big_modules :
  oracle_envelope (2 ^ 24) (2 ^ 24 + 28) = ([28; 0; 0; 1]%N, true) /\
  oracle_envelope (2 ^ 20 + 1) (2 ^ 21) = ([29; 0; 16; 0]%N, true) /\
  (* the stream ends before the module: refused *)
  snd (oracle_envelope (2 ^ 20) (2 ^ 20)) = false.
Proof. vm_compute. repeat split. Qed.

(** NewSortingWriter(out, n, WithEncryption(cfg 1), other options): encrypts with 1;
    a decoy named earlier inside a configuration is overridden. *)
Example C18_ex_options :
  effective_encryption CViaConfig [WEnc 1; WOther] = Some 1%N /\
  effective_encryption CDirect [WConf [WEnc 2; WOther]; WConf [WConf [WEnc 1]]; WOther] = Some 1%N /\
  effective_encryption CDirect [WEnc 1; WConf [WOther]] = Some 1%N /\
  effective_encryption CDirect [WOther] = None.
Proof. vm_compute. repeat split. Qed.
