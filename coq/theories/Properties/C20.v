(** C20 — compression codecs are lossless whatever was compressed before.

    WHAT IS PROVED FOR EVERY HISTORY: the pooled wrappers of compress/compress.go
    (and the un-reset pools of compress/zstd) answer the next Encode/Decode call
    exactly as a fresh codec value would, after any sequence of earlier calls
    (valid or failing inputs, any dst buffers, any behaviour of sync.Pool, GC).

    HYPOTHESES-AS-CONTRACT (third-party streams; Section hypotheses below, NOT
    proved, validated only by the differential runs of harness/c20):
      Hr_new_ok Hr_reset_ok Hr_read_ok Hr_reset_fresh   readers: Reset of a usable
          reader makes it observationally fresh whatever it processed before;
          nothing is assumed after a Reset that failed NOR after a Read that
          reported an error (the wrapper drops such readers)
      Hw_new_ok Hw_reset_ok Hw_write_ok Hw_close_ok Hw_reset_fresh   writers
      Hw_enc Hr_dec enc_nonempty     the abstract codec is lossless: a fresh reader
          on [enc x] yields [x]  (C20_roundtrip_after_any_history only)
      Hz_new Hz_keep Hz_stateless    zstd EncodeAll/DecodeAll do not depend on
          what the encoder/decoder object processed before

    The full property also quantifies over the real third-party algorithms and
    over goroutine schedules; those parts are explored by the harness only
    (see [C20_full_statement]). *)
From Coq Require Import List NArith.
From PQ Require Import Codec.Model Codec.Snappy Codec.Lz4 Codec.Proofs Codec.DecoderProofs Codec.Instance.
Import ListNotations.

Section C20.
  Variable R : Type.
  Variable rd_new : bytes -> R * bool.
  Variable rd_reset : R -> option bytes -> R * bool.
  Variable rd_read : R -> nat -> (bytes * rstatus) * R.
  Variable W : Type.
  Variable wr_new : W * bool.
  Variable wr_reset : W -> bool -> W.
  Variable wr_write : W -> bytes -> (bytes * bool) * W.
  Variable wr_close : W -> (bytes * bool) * W.
  Variable fuel : nat.

  Notation step := (step R rd_new rd_reset rd_read W wr_new wr_reset wr_write wr_close fuel).
  Notation run_history := (run_history R rd_new rd_reset rd_read W wr_new wr_reset wr_write wr_close fuel).
  Notation fresh_result := (fresh_result R rd_new rd_reset rd_read W wr_new wr_reset wr_write wr_close fuel).
  Notation init := (init R W).
  Notation wrun := (wrun W wr_write wr_close).
  Notation obs_eq := (obs_eq R rd_read).
  Notation yields := (yields R rd_read).

  (** the growth loop of Decompressor.Decode needs no contract at all: it
      returns exactly dst followed by the chunks the reader handed out, in
      order; and it ends with the data when the reader makes progress *)
  Theorem C20_decode_growth_terminates_and_preserves_prefix :
    (forall f s dst cap out e,
       fst (fst (grow_loop R rd_read f s dst cap)) = Done out e ->
       out = dst ++ concat (snd (grow_loop R rd_read f s dst cap))) /\
    (forall k f s y dst cap,
       yields k s y -> (k <= f)%nat -> (length dst < cap)%nat ->
       fst (fst (grow_loop R rd_read f s dst cap)) = Done (dst ++ y) false).
  Proof. exact (conj (grow_loop_chunks R rd_read) (grow_loop_yields R rd_read)). Qed.

  Variable r_ok : R -> Prop.
  Variable w_ok : W -> Prop.
  Hypothesis Hr_new_ok : forall src, snd (rd_new src) = false -> r_ok (fst (rd_new src)).
  Hypothesis Hr_reset_ok : forall s o, r_ok s -> snd (rd_reset s o) = false -> r_ok (fst (rd_reset s o)).
  Hypothesis Hr_read_ok : forall s n, r_ok s -> snd (fst (rd_read s n)) <> Err -> r_ok (snd (rd_read s n)).
  Hypothesis Hr_reset_fresh : forall s src, r_ok s ->
    snd (rd_reset s (Some src)) = snd (rd_new src) /\
    (snd (rd_new src) = false -> obs_eq (fst (rd_reset s (Some src))) (fst (rd_new src))).
  Hypothesis Hw_new_ok : snd wr_new = false -> w_ok (fst wr_new).
  Hypothesis Hw_reset_ok : forall w b, w_ok w -> w_ok (wr_reset w b).
  Hypothesis Hw_write_ok : forall w src, w_ok w -> w_ok (snd (wr_write w src)).
  Hypothesis Hw_close_ok : forall w, w_ok w -> w_ok (snd (wr_close w)).
  Hypothesis Hw_reset_fresh : forall w out0 src, w_ok w -> snd wr_new = false ->
    fst (wrun (wr_reset w true) out0 src) = fst (wrun (fst wr_new) out0 src).

  (** for EVERY history the next call answers what a fresh codec value answers *)
  Theorem C20_history_independent : forall (h : list event) (ev : event),
    fst (step (run_history init h) ev) = fresh_result (ev_no_pick ev).
  Proof.
    exact (history_independent R rd_new rd_reset rd_read W wr_new wr_reset wr_write wr_close fuel
             r_ok w_ok Hr_new_ok Hr_reset_ok Hr_read_ok Hr_reset_fresh
             Hw_new_ok Hw_reset_ok Hw_write_ok Hw_close_ok Hw_reset_fresh).
  Qed.

  (** the pool invariant behind it: every pooled object is usable *)
  Theorem C20_pool_invariant : forall (h : list event),
    inv R W wr_new r_ok w_ok (run_history init h).
  Proof.
    intros h.
    exact (run_history_inv R rd_new rd_reset rd_read W wr_new wr_reset wr_write wr_close fuel
             r_ok w_ok Hr_new_ok Hr_reset_ok Hr_read_ok Hr_reset_fresh
             Hw_new_ok Hw_reset_ok Hw_write_ok Hw_close_ok Hw_reset_fresh h init
             (inv_init R W wr_new r_ok w_ok)).
  Qed.

  (** the bytes already in dst never reach the output *)
  Theorem C20_dst_contents_irrelevant : forall h pick dst dst' src,
    length dst = length dst' ->
    fst (step (run_history init h) (EvDecode pick dst src)) =
    fst (step (run_history init h) (EvDecode pick dst' src)) /\
    fst (step (run_history init h) (EvEncode pick dst src)) =
    fst (step (run_history init h) (EvEncode pick dst' src)).
  Proof.
    exact (dst_contents_irrelevant R rd_new rd_reset rd_read W wr_new wr_reset wr_write wr_close fuel
             r_ok w_ok Hr_new_ok Hr_reset_ok Hr_read_ok Hr_reset_fresh
             Hw_new_ok Hw_reset_ok Hw_write_ok Hw_close_ok Hw_reset_fresh).
  Qed.

  Section Roundtrip.
    Variable enc : bytes -> bytes.
    Hypothesis Hw_enc : forall x, snd wr_new = false /\ fst (wrun (fst wr_new) [] x) = (enc x, false).
    Hypothesis Hr_dec : forall x, snd (rd_new (enc x)) = false /\
      yields (S (length x)) (fst (rd_new (enc x))) x.
    Hypothesis enc_nonempty : forall x, enc x <> [].

    (** Decode(Encode(x)) = x after any history before each of the two calls *)
    Theorem C20_roundtrip_after_any_history : forall h1 h2 p1 p2 dst1 dst2 x,
      (length x < fuel)%nat ->
      fst (step (run_history init h1) (EvEncode p1 dst1 x)) = Done (enc x) false /\
      fst (step (run_history init h2) (EvDecode p2 dst2 (enc x))) = Done x false.
    Proof.
      exact (roundtrip_after_any_history R rd_new rd_reset rd_read W wr_new wr_reset wr_write wr_close fuel
               r_ok w_ok Hr_new_ok Hr_reset_ok Hr_read_ok Hr_reset_fresh
               Hw_new_ok Hw_reset_ok Hw_write_ok Hw_close_ok Hw_reset_fresh
               enc Hw_enc Hr_dec enc_nonempty).
    Qed.
  End Roundtrip.
End C20.

Print Assumptions C20_decode_growth_terminates_and_preserves_prefix.
Print Assumptions C20_history_independent.
Print Assumptions C20_pool_invariant.
Print Assumptions C20_dst_contents_irrelevant.
Print Assumptions C20_roundtrip_after_any_history.

Section C20Zstd.
  Variable ZS : Type.
  Variable z_new : ZS.
  Variable z_all : ZS -> bytes -> (bytes * bool) * ZS.
  Variable z_ok : ZS -> Prop.
  Hypothesis Hz_new : z_ok z_new.
  Hypothesis Hz_keep : forall z src, z_ok z -> z_ok (snd (z_all z src)).
  Hypothesis Hz_stateless : forall z src, z_ok z -> fst (z_all z src) = fst (z_all z_new src).

  (** compress/zstd: pooled encoders/decoders are not reset; under the
      statelessness contract of EncodeAll/DecodeAll the answer is the fresh one *)
  Theorem C20_zstd_history_independent : forall h pick dst src,
    fst (zstd_call ZS z_new z_all (zstd_history ZS z_new z_all [] h) pick dst src) =
    fst (zstd_call ZS z_new z_all [] None dst src).
  Proof. exact (zstd_history_independent ZS z_new z_all z_ok Hz_new Hz_keep Hz_stateless). Qed.
End C20Zstd.

Print Assumptions C20_zstd_history_independent.

(** ---- LZ4_RAW wrapper loop (compress/lz4/lz4.go Decode, repaired) -------- *)
Local Open Scope N_scope.

(** the loop ends for every input, every dst capacity and every behaviour of
    UncompressBlock; an error is reported only past the 255x bound; the buffer
    never grows beyond twice that bound (or the caller's own capacity) *)
Theorem C20_lz4_retry_terminates : forall ub src_len dst_len,
  lz4_retry (lz4_fuel src_len) ub src_len dst_len <> LzHang.
Proof. exact lz4_retry_terminates. Qed.

Theorem C20_lz4_retry_error_only_past_255x : forall f ub src_len d d',
  lz4_retry f ub src_len d = LzErr d' -> 255 * src_len + 64 < d'.
Proof. exact lz4_retry_err_bound. Qed.

Theorem C20_lz4_retry_allocation_bounded : forall f ub src_len d,
  match lz4_retry f ub src_len d with
  | LzOk _ d' | LzErr d' => d' <= N.max d (2 * (255 * src_len + 64))
  | LzHang => True
  end.
Proof. exact lz4_retry_alloc_bound. Qed.

(** the loop of the pinned tree (before commit a96dcfb) never stops on a
    block that UncompressBlock rejects, whatever the fuel *)
Theorem C20_lz4_pinned_loop_refuted : forall f src_len d,
  lz4_retry_pinned f (fun _ => None) src_len d = LzHang.
Proof. induction f as [|f IH]; intros; simpl; auto. Qed.

Print Assumptions C20_lz4_retry_terminates.
Print Assumptions C20_lz4_retry_error_only_past_255x.
Print Assumptions C20_lz4_retry_allocation_bounded.
Print Assumptions C20_lz4_pinned_loop_refuted.

(** total (Coq functions); the output has the declared length or the decoder
    reports corruption *)
Theorem C20_snappy_decode_length : forall s x,
  snappy_decode s = Some x -> snappy_declared_len s = Some (N.of_nat (length x)).
Proof. exact snappy_decode_length. Qed.

(** a stream made only of literal elements (what an encoder emits for
    incompressible data) decodes to the input *)
Theorem C20_snappy_literal_roundtrip : forall chunks,
  Forall lit_chunk_ok chunks ->
  N.of_nat (length (concat chunks)) < 4294967296 ->
  snappy_decode (sn_literal_stream chunks) = Some (concat chunks).
Proof. exact snappy_literal_roundtrip. Qed.

Theorem C20_lz4_decode_bounded : forall max_out s x,
  lz4_decode max_out s = Some x -> N.of_nat (length x) <= max_out.
Proof. exact lz4_decode_bounded. Qed.

Theorem C20_lz4_literal_roundtrip : forall x max_out,
  N.of_nat (length x) <= max_out -> lz4_decode max_out (lz4_literal_block x) = Some x.
Proof. exact lz4_literal_roundtrip. Qed.

Theorem C20_lz4_codec_decode_loop_total : forall dst_cap s,
  let src_len := N.of_nat (length s) in
  lz4_retry (lz4_fuel src_len)
    (fun n => match lz4_decode n s with Some x => Some (N.of_nat (length x)) | None => None end)
    src_len (lz4_reserve dst_cap src_len) <> LzHang.
Proof. intros. apply lz4_retry_terminates. Qed.

Print Assumptions C20_snappy_decode_length.
Print Assumptions C20_snappy_literal_roundtrip.
Print Assumptions C20_lz4_decode_bounded.
Print Assumptions C20_lz4_literal_roundtrip.
Print Assumptions C20_lz4_codec_decode_loop_total.

(** The full property.  [C20_history_independent] + [C20_roundtrip_after_any_history]
    prove it for the MODEL of the wrappers under the stream contract; that the
    real gzip/brotli/zstd/snappy/lz4 implementations meet the contract, and the
    behaviour under concurrent goroutines (sync.Pool hands an object to one
    goroutine at a time), are explored by harness/c20 only. *)
Definition C20_full_statement : Prop :=
  forall (codec : Type) (Encode Decode : codec -> list event -> bytes -> bytes -> outcome)
         (c : codec) (h1 h2 : list event) (dst1 dst2 x : bytes),
    exists y, Encode c h1 dst1 x = Done y false /\ Decode c h2 dst2 y = Done x false.

Example C20_ex_contract_satisfiable : forall fuel h ev,
  fst (mg_step fuel (run_history mg_R mg_new mg_reset mg_read mg_W mg_wnew mg_wreset mg_write mg_close fuel (init mg_R mg_W) h) ev) =
  fresh_result mg_R mg_new mg_reset mg_read mg_W mg_wnew mg_wreset mg_write mg_close fuel (ev_no_pick ev).
Proof.
  intros fuel. unfold mg_step.
  apply (history_independent mg_R mg_new mg_reset mg_read mg_W mg_wnew mg_wreset mg_write mg_close fuel
           mg_ok (fun _ => True));
    auto using mg_new_ok, mg_reset_ok, mg_read_ok, mg_reset_fresh, mg_wreset_fresh.
Qed.

Example C20_ex_roundtrip_instance : forall fuel h1 h2 p1 p2 dst1 dst2 x, (length x < fuel)%nat ->
  let run := run_history mg_R mg_new mg_reset mg_read mg_W mg_wnew mg_wreset mg_write mg_close fuel (init mg_R mg_W) in
  fst (mg_step fuel (run h1) (EvEncode p1 dst1 x)) = Done (mg_enc x) false /\
  fst (mg_step fuel (run h2) (EvDecode p2 dst2 (mg_enc x))) = Done x false.
Proof.
  intros fuel h1 h2 p1 p2 dst1 dst2 x Hf. unfold mg_step.
  apply (roundtrip_after_any_history mg_R mg_new mg_reset mg_read mg_W mg_wnew mg_wreset mg_write mg_close fuel
           mg_ok (fun _ => True));
    auto using mg_new_ok, mg_reset_ok, mg_read_ok, mg_reset_fresh, mg_wreset_fresh, mg_enc_spec, mg_dec_spec;
    discriminate.
Qed.

Print Assumptions C20_ex_contract_satisfiable.
Print Assumptions C20_ex_roundtrip_instance.

(** a concrete history: encode, a failing decode (bad magic byte: the reader is
    dropped), a decode into a small dst full of garbage served by the pooled
    reader (three doublings), a stream that ends in a Read error (the reader is
    broken although its Reset returns nil: NOT put back, the run was not clean), a
    valid decode right after it, a clean stream after which Reset(nil) fails (NOT
    put back), a valid decode, a GC, a decode with no dst *)
Example C20_ex_history :
  mg_outcomes 100
    [ EvEncode None [] [1; 2; 3];
      EvDecode None [] [31; 9; 8; 7; 6; 5];
      EvDecode (Some 0%nat) [7; 7] [99; 1];
      EvDecode (Some 0%nat) [7; 7] [31; 1; 2; 3; 4; 5; 6; 7; 8; 9];
      EvDecode (Some 0%nat) [] [30; 5; 6];
      EvDecode (Some 0%nat) [7] [31; 4; 4; 4];
      EvDecode (Some 0%nat) [] [29; 8; 8];
      EvDecode (Some 0%nat) [7] [31; 2; 2];
      EvGc true 0%nat;
      EvDecode (Some 3%nat) [] [31; 1; 2; 3] ]
  = [ Done [31; 1; 2; 3] false;
      Done [9; 8; 7; 6; 5] false;
      Done [] true;
      Done [1; 2; 3; 4; 5; 6; 7; 8; 9] false;
      Done [5; 6] true;
      Done [4; 4; 4] false;
      Done [8; 8] false;
      Done [2; 2] false;
      Done [] false;
      Done [1; 2; 3] false ].
Proof. vm_compute. reflexivity. Qed.

(** decoders on hand-made streams: literal + copy with overlap *)
Example C20_ex_snappy : snappy_decode [12; 8; 97; 98; 99; 34; 3; 0] =
  Some [97; 98; 99; 97; 98; 99; 97; 98; 99; 97; 98; 99].
Proof. vm_compute. reflexivity. Qed.

Example C20_ex_snappy_bad_offset : snappy_decode [12; 8; 97; 98; 99; 34; 4; 0] = None.
Proof. vm_compute. reflexivity. Qed.

Example C20_ex_lz4 : lz4_decode 100 [53; 97; 98; 99; 3; 0; 16; 122] =
  Some [97; 98; 99; 97; 98; 99; 97; 98; 99; 97; 98; 99; 122].
Proof. vm_compute. reflexivity. Qed.

Example C20_ex_lz4_short_dst : lz4_decode 12 [53; 97; 98; 99; 3; 0; 16; 122] = None.
Proof. vm_compute. reflexivity. Qed.

(** the repaired wrapper returns an error on a malformed block *)
Example C20_ex_lz4_garbage : lz4_codec_decode 0 [255; 255] = None.
Proof. vm_compute. reflexivity. Qed.
