(** C19 — basic lemmas: byte-string equality and order, insertion sort,
    take / read_uints parsing, offset sizes, prefix sums. *)
From Coq Require Import List NArith ZArith Bool Arith Lia Permutation.
From PQ Require Base.Insertion.
From PQ Require Import Base.Bytes Variant.Model.
Import ListNotations.
Open Scope N_scope.

(* the model spells "every element" as a local fixpoint so that its recursion is structural *)
Lemma fix_all_Forall {A} (P : A -> Prop) l :
  (fix all (l : list A) : Prop := match l with [] => True | x :: r => P x /\ all r end) l <-> Forall P l.
Proof.
  induction l as [|x l IH]; [split; [constructor|exact (fun _ => I)]|].
  rewrite Forall_cons_iff, <- IH. reflexivity.
Qed.

Lemma fix_all_snd_Forall {A B} (P : B -> Prop) (l : list (A * B)) :
  (fix all (l : list (A * B)) : Prop := match l with [] => True | (_, x) :: r => P x /\ all r end) l
  <-> Forall (fun kv => P (snd kv)) l.
Proof.
  induction l as [|[k x] l IH]; [split; [constructor|exact (fun _ => I)]|].
  rewrite Forall_cons_iff, <- IH. reflexivity.
Qed.

Lemma beq_refl a : beq a a = true.
Proof. induction a as [|x a IH]; cbn; [reflexivity|]. now rewrite N.eqb_refl, IH. Qed.

Lemma beq_eq a : forall b, beq a b = true -> a = b.
Proof.
  induction a as [|x a IH]; intros [|y b] H; cbn in H; try discriminate; [reflexivity|].
  apply andb_true_iff in H as [H1 H2]. apply N.eqb_eq in H1. f_equal; auto.
Qed.

Lemma beq_true_iff a b : beq a b = true <-> a = b.
Proof. split; [apply beq_eq|intros ->; apply beq_refl]. Qed.

Lemma beq_false_iff a b : beq a b = false <-> a <> b.
Proof.
  split.
  - intros H E. subst. rewrite beq_refl in H. discriminate.
  - intros H. destruct (beq a b) eqn:E; [|reflexivity]. apply beq_eq in E. contradiction.
Qed.

Lemma beq_sym a b : beq a b = beq b a.
Proof.
  destruct (beq a b) eqn:E.
  - apply beq_eq in E. subst. now rewrite beq_refl.
  - symmetry. apply beq_false_iff. apply beq_false_iff in E. congruence.
Qed.

Lemma memb_In k l : memb k l = true <-> In k l.
Proof.
  induction l as [|x l IH]; cbn; [split; [discriminate|tauto]|].
  rewrite orb_true_iff, IH, beq_true_iff. split; intros [H|H]; auto.
Qed.

Lemma memb_false k l : memb k l = false <-> ~ In k l.
Proof.
  rewrite <- memb_In. destruct (memb k l); split; intros H; try congruence; try discriminate; auto.
Qed.

Lemma nodupb_NoDup l : nodupb l = true <-> NoDup l.
Proof.
  induction l as [|x l IH]; cbn.
  - split; [constructor|reflexivity].
  - rewrite andb_true_iff, negb_true_iff, memb_false, IH. split.
    + intros [H1 H2]. now constructor.
    + intros H. inversion H. auto.
Qed.

Lemma ble_refl a : ble a a = true.
Proof. induction a as [|x a IH]; cbn; [reflexivity|]. rewrite N.ltb_irrefl. exact IH. Qed.

Lemma ble_cons_true x a y b : ble (x :: a) (y :: b) = true <-> x < y \/ (x = y /\ ble a b = true).
Proof.
  cbn [ble]. destruct (N.ltb_spec x y); [split; auto|].
  destruct (N.ltb_spec y x); [split; [discriminate|lia]|].
  split; [intros H'; right; split; [lia|exact H']|intros [|[_ H']]; [lia|exact H']].
Qed.

Lemma ble_total a : forall b, ble a b = true \/ ble b a = true.
Proof.
  induction a as [|x a IH]; intros [|y b]; [now left|now left|now right|].
  rewrite !ble_cons_true. destruct (N.lt_trichotomy x y) as [|[->|]]; auto.
  destruct (IH b); auto.
Qed.

Lemma ble_antisym a : forall b, ble a b = true -> ble b a = true -> a = b.
Proof.
  induction a as [|x a IH]; intros [|y b] H1 H2; [reflexivity|discriminate H2|discriminate H1|].
  apply ble_cons_true in H1, H2. destruct H1 as [|[-> H1]], H2 as [|[E H2]]; try lia. f_equal. auto.
Qed.

Lemma ble_trans a : forall b c, ble a b = true -> ble b c = true -> ble a c = true.
Proof.
  induction a as [|x a IH]; intros [|y b] [|z c] H1 H2; try reflexivity; try discriminate.
  apply ble_cons_true in H1, H2. apply ble_cons_true.
  destruct H1 as [H1|[-> H1]], H2 as [H2|[-> H2]]; [left; lia|left; lia|left; lia|right; eauto].
Qed.

Section Sorting.
  Context {A : Type}.
  Notation kl := (list (bytes * A)).

  Fixpoint ksorted (l : kl) : Prop :=
    match l with
    | a :: ((b :: _) as r) => ble (fst a) (fst b) = true /\ ksorted r
    | _ => True
    end.

  Lemma ksorted_cons a l : ksorted (a :: l) <->
    (match l with [] => True | b :: _ => ble (fst a) (fst b) = true end) /\ ksorted l.
  Proof. destruct l; cbn; tauto. Qed.

  Lemma isort_perm (l : kl) : Permutation (isort l) l.
  Proof.
    symmetry. exact (Insertion.isort_perm (fun a b : bytes * A => ble (fst a) (fst b)) ins
                       (fun _ => eq_refl) (fun _ _ _ => eq_refl) l).
  Qed.

  Lemma ins_sorted e (l : kl) : ksorted l -> ksorted (ins e l).
  Proof.
    induction l as [|h t IH]; intros Hs; cbn; [exact I|].
    destruct (ble (fst e) (fst h)) eqn:E.
    - apply ksorted_cons. split; [exact E|exact Hs].
    - apply ksorted_cons in Hs as [Hh Ht]. specialize (IH Ht).
      assert (Hhe : ble (fst h) (fst e) = true) by (destruct (ble_total (fst e) (fst h)); congruence).
      apply ksorted_cons. split; [|exact IH].
      destruct t as [|h' t']; cbn; [exact Hhe|].
      destruct (ble (fst e) (fst h')); [exact Hhe|exact Hh].
  Qed.

  Lemma isort_sorted (l : kl) : ksorted (isort l).
  Proof. induction l as [|e l IH]; cbn; [exact I|]. now apply ins_sorted. Qed.

  Lemma ins_sorted_head e (l : kl) :
    (match l with [] => True | b :: _ => ble (fst e) (fst b) = true end) -> ins e l = e :: l.
  Proof. destruct l as [|h t]; cbn; [reflexivity|]. now intros ->. Qed.

  Lemma isort_id (l : kl) : ksorted l -> isort l = l.
  Proof.
    induction l as [|e l IH]; intros Hs; [reflexivity|].
    change (isort (e :: l)) with (ins e (isort l)).
    apply ksorted_cons in Hs as [Hh Ht]. rewrite (IH Ht). now apply ins_sorted_head.
  Qed.

  Lemma ksorted_head_le a (l : kl) : ksorted (a :: l) -> forall x, In x l -> ble (fst a) (fst x) = true.
  Proof.
    revert a. induction l as [|b l IH]; intros a Hs x Hx; [contradiction|].
    apply ksorted_cons in Hs as [Hab Hs].
    destruct Hx as [->|Hx]; [exact Hab|].
    eapply ble_trans; [exact Hab|]. now apply IH.
  Qed.

  Lemma sorted_perm_eq (l1 : kl) : forall l2,
    ksorted l1 -> ksorted l2 -> NoDup (map fst l1) -> Permutation l1 l2 -> l1 = l2.
  Proof.
    induction l1 as [|a l1 IH]; intros l2 S1 S2 ND P.
    - apply Permutation_nil in P. now subst.
    - destruct l2 as [|b l2]; [apply Permutation_sym, Permutation_nil in P; discriminate|].
      assert (Hab : a = b).
      { assert (Ha : In a (b :: l2)) by (eapply Permutation_in; [exact P|now left]).
        assert (Hb : In b (a :: l1)) by (eapply Permutation_in; [exact (Permutation_sym P)|now left]).
        destruct Ha as [->|Ha]; [reflexivity|]. destruct Hb as [<-|Hb]; [reflexivity|].
        pose proof (ksorted_head_le _ _ S1 _ Hb) as L1.
        pose proof (ksorted_head_le _ _ S2 _ Ha) as L2.
        pose proof (ble_antisym _ _ L1 L2) as Ek.
        exfalso. inversion ND as [|? ? Hn _]; subst. apply Hn. rewrite Ek. now apply in_map. }
      subst b. f_equal. apply IH.
      + now apply ksorted_cons in S1.
      + now apply ksorted_cons in S2.
      + now inversion ND.
      + eapply Permutation_cons_inv; exact P.
  Qed.

  Lemma isort_perm_eq (l1 l2 : kl) :
    NoDup (map fst l1) -> Permutation l1 l2 -> isort l1 = isort l2.
  Proof.
    intros ND P. apply sorted_perm_eq; try apply isort_sorted.
    - eapply Permutation_NoDup; [|exact ND]. apply Permutation_map, Permutation_sym, isort_perm.
    - rewrite isort_perm, P. symmetry. apply isort_perm.
  Qed.

  Lemma isort_keys_NoDup (l : kl) : NoDup (map fst l) -> NoDup (map fst (isort l)).
  Proof.
    intros ND. eapply Permutation_NoDup; [|exact ND]. apply Permutation_map, Permutation_sym, isort_perm.
  Qed.

  Lemma isort_length (l : kl) : length (isort l) = length l.
  Proof. apply Permutation_length, isort_perm. Qed.
End Sorting.

Section SortRel.
  Context {A B : Type}.
  Variable R : bytes * A -> bytes * B -> Prop.
  Hypothesis Rkey : forall a b, R a b -> fst a = fst b.

  Lemma ins_Forall2 a b l1 l2 : R a b -> Forall2 R l1 l2 -> Forall2 R (ins a l1) (ins b l2).
  Proof.
    intros Hab H. induction H as [|x y l1 l2 Hxy H IH]; cbn; [constructor; [exact Hab|constructor]|].
    rewrite <- (Rkey _ _ Hab), <- (Rkey _ _ Hxy).
    destruct (ble (fst a) (fst x)); repeat constructor; auto.
  Qed.

  Lemma isort_Forall2 l1 l2 : Forall2 R l1 l2 -> Forall2 R (isort l1) (isort l2).
  Proof. induction 1; cbn; [constructor|]. now apply ins_Forall2. Qed.
End SortRel.

Lemma isort_map_values {A B} (g : bytes * A -> bytes * B) (l : list (bytes * A)) :
  (forall e, fst (g e) = fst e) -> isort (map g l) = map g (isort l).
Proof.
  intros Hg. induction l as [|e l IH]; [reflexivity|].
  change (isort (map g (e :: l))) with (ins (g e) (isort (map g l))).
  change (isort (e :: l)) with (ins e (isort l)). rewrite IH.
  generalize (isort l). intros s. induction s as [|h t IHs]; cbn; [reflexivity|].
  rewrite !Hg. destruct (ble (fst e) (fst h)); cbn; [reflexivity|]. now rewrite IHs.
Qed.

Lemma lenN_app {A} (a b : list A) : lenN (a ++ b) = lenN a + lenN b.
Proof. unfold lenN. rewrite app_length. lia. Qed.
Lemma lenN_cons {A} (x : A) l : lenN (x :: l) = 1 + lenN l.
Proof. unfold lenN. cbn [length]. lia. Qed.
Lemma lenN_nil {A} : lenN (@nil A) = 0.
Proof. reflexivity. Qed.
Lemma to_nat_lenN {A} (l : list A) : N.to_nat (lenN l) = length l.
Proof. unfold lenN. lia. Qed.
Lemma lenN_map {A B} (f : A -> B) (l : list A) : lenN (map f l) = lenN l.
Proof. unfold lenN. now rewrite map_length. Qed.

Lemma take_app_n n a b : length a = n -> take n (a ++ b) = Some (a, b).
Proof. intros <-. induction a as [|x a IH]; cbn; [reflexivity|]. now rewrite IH. Qed.

Lemma takeN_app a b : takeN (lenN a) (a ++ b) = Some (a, b).
Proof.
  unfold takeN. rewrite lenN_app.
  destruct (N.ltb_spec (lenN a + lenN b) (lenN a)); [lia|].
  rewrite to_nat_lenN. now apply take_app_n.
Qed.

Lemma takeN_app_n n a b : lenN a = n -> takeN n (a ++ b) = Some (a, b).
Proof. intros <-. apply takeN_app. Qed.

Lemma low_mod m b v : b < m -> (b + m * v) mod m = b.
Proof. intros H. rewrite (N.mul_comm m v), N.mod_add by lia. now apply N.mod_small. Qed.
Lemma low_div m b v : b < m -> (b + m * v) / m = v.
Proof. intros H. rewrite (N.mul_comm m v), N.div_add by lia. rewrite (N.div_small b m) by exact H. lia. Qed.

Lemma read_uint_to_le sz x rest : x < 256 ^ N.of_nat sz ->
  read_uint sz (to_le sz x ++ rest) = Some (x, rest).
Proof.
  intros H. unfold read_uint. rewrite take_app_n by apply to_le_length.
  now rewrite of_le_to_le.
Qed.

Lemma read_uints_write sz xs : forall rest,
  Forall (fun x => x < 256 ^ N.of_nat sz) xs ->
  read_uints (length xs) sz (write_uints sz xs ++ rest) = Some (xs, rest).
Proof.
  induction xs as [|x xs IH]; intros rest H; cbn; [reflexivity|].
  inversion H as [|? ? Hx Hxs]; subst.
  unfold write_uints in *. cbn [map concat]. rewrite <- app_assoc.
  rewrite take_app_n by apply to_le_length. rewrite IH by exact Hxs.
  now rewrite of_le_to_le.
Qed.

Lemma write_uints_length sz xs : length (write_uints sz xs) = (sz * length xs)%nat.
Proof.
  unfold write_uints. induction xs as [|x xs IH]; cbn; [lia|].
  rewrite app_length, to_le_length, IH. lia.
Qed.

Lemma offset_size_code_bound m x : m < 2 ^ 32 -> x <= m ->
  x < 256 ^ N.of_nat (osz_of (offset_size_code m)).
Proof.
  intros Hm Hx. unfold offset_size_code, osz_of.
  destruct (N.leb_spec m 255); [cbn; lia|].
  destruct (N.leb_spec m 65535); [cbn; lia|].
  destruct (N.leb_spec m 16777215); cbn; lia.
Qed.

Lemma offset_size_code_lt4 m : offset_size_code m < 4.
Proof.
  unfold offset_size_code.
  destruct (m <=? 255); [lia|]. destruct (m <=? 65535); [lia|]. destruct (m <=? 16777215); lia.
Qed.

Lemma psums_length acc l : length (psums acc l) = S (length l).
Proof. revert acc. induction l as [|x l IH]; intros acc; cbn; [reflexivity|]. now rewrite IH. Qed.

