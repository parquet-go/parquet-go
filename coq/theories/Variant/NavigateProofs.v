(** C19 — navigation (Variant/Navigate.v) does not see the order of object
    fields, hence does not see shredding: navigating the value the reader
    reconstructs from what the writer shredded gives, entry by entry, the
    values navigation gives on the value that was written. *)
From Coq Require Import List NArith ZArith Bool Arith Lia Permutation.
From PQ Require Import Base.Bytes Variant.Model Variant.Shred Variant.Navigate
  Variant.BaseLemmas Variant.EncProofs Variant.ShredProofs.
Import ListNotations.
Open Scope N_scope.

Definition wf_entry (e : nentry) : Prop :=
  match snd e with Some v => wf v | None => True end.

Lemma find_field_perm k (l1 l2 : list (bytes * value)) :
  NoDup (map fst l1) -> Permutation l1 l2 -> find_field k l1 = find_field k l2.
Proof.
  intros ND P.
  assert (ND2 : NoDup (map fst l2)) by (eapply Permutation_NoDup; [apply Permutation_map; exact P|exact ND]).
  destruct (find_field k l1) as [x|] eqn:E1.
  - symmetry. apply (find_field_In k x l2 ND2). eapply Permutation_in; [exact P|].
    now apply find_field_Some_In.
  - destruct (find_field k l2) as [y|] eqn:E2; [|reflexivity].
    exfalso. apply (find_field_None _ _ E1).
    apply find_field_Some_In in E2. apply Permutation_sym in P.
    change k with (fst (k, y)). apply in_map. eapply Permutation_in; [exact P|exact E2].
Qed.

Lemma field_of_canon name o :
  wf_entry (0, o) ->
  field_of name (option_map canon o) = option_map canon (field_of name o).
Proof.
  destruct o as [v|]; [|reflexivity]. unfold wf_entry. cbn [snd option_map].
  destruct v; try reflexivity. intros Hw. rewrite canon_object. cbn [field_of].
  apply wf_object in Hw. destruct Hw as [ND _].
  rewrite <- find_field_cmap. apply find_field_perm.
  - apply isort_keys_NoDup. now rewrite cmap_keys.
  - apply isort_perm.
Qed.

Lemma elems_of_canon o : elems_of (option_map canon o) = map canon (elems_of o).
Proof. destruct o as [v|]; [|reflexivity]. destruct v; reflexivity. Qed.

Lemma field_of_wf name o : wf_entry (0, o) -> wf_entry (0, field_of name o).
Proof.
  destruct o as [v|]; [|exact (fun _ => I)]. unfold wf_entry. cbn [snd].
  destruct v; try exact (fun _ => I). intros Hw. cbn [field_of].
  destruct (find_field name fs) as [x|] eqn:E; [|exact I].
  apply wf_object in Hw. destruct Hw as [_ Hall].
  apply find_field_Some_In in E. rewrite Forall_forall in Hall.
  exact (proj2 (Hall _ E)).
Qed.

Lemma elems_of_wf o : wf_entry (0, o) -> Forall wf (elems_of o).
Proof.
  destruct o as [v|]; [|constructor]. unfold wf_entry. cbn [snd].
  destruct v; try (intros; constructor). intros Hw. now apply wf_array.
Qed.

Lemma nav_step_wf st es : Forall wf_entry es -> Forall wf_entry (nav_step st es).
Proof.
  intros H. destruct st as [name|]; cbn [nav_step].
  - apply Forall_map. eapply Forall_impl; [|exact H]. intros [r o]. apply field_of_wf.
  - apply Forall_flat_map. eapply Forall_impl; [|exact H]. intros [r o] Ho.
    apply Forall_map. exact (elems_of_wf o Ho).
Qed.

Lemma nav_step_canon st es : Forall wf_entry es ->
  nav_step st (map canon_entry es) = map canon_entry (nav_step st es).
Proof.
  intros H. destruct st as [name|]; cbn [nav_step].
  - induction H as [|[r o] es Ho _ IH]; [reflexivity|]. cbn [map]. rewrite IH. f_equal.
    unfold canon_entry. cbn [fst snd]. f_equal. exact (field_of_canon name o Ho).
  - induction H as [|[r o] es Ho _ IH]; [reflexivity|]. cbn [map flat_map]. rewrite IH, map_app. f_equal.
    unfold canon_entry at 1 2. cbn [fst snd]. rewrite elems_of_canon, !map_map. reflexivity.
Qed.

(** navigation commutes with putting every object's fields in name order *)
Lemma navigate_canon p : forall es, Forall wf_entry es ->
  navigate p (map canon_entry es) = map canon_entry (navigate p es).
Proof.
  induction p as [|st p IH]; intros es H; [reflexivity|]. cbn [navigate].
  rewrite nav_step_canon by exact H. apply IH. now apply nav_step_wf.
Qed.

(** the entries reached by any path in the reconstruction of the shredded value
    are those reached in the written value (object fields in name order) *)
Lemma navigate_shredded s v p r : wf_schema s -> wf v ->
  exists v', reconstruct s (shred s v) = Some (Some v') /\
             navigate p [(r, Some (canon v'))] = map canon_entry (navigate p [(r, Some v)]).
Proof.
  intros Hs Hv. destruct (reconstruct_shred s v Hs Hv) as (v' & Hr & Hc).
  exists v'. split; [exact Hr|]. rewrite Hc.
  change [(r, Some (canon v))] with (map canon_entry [(r, Some v)]).
  apply navigate_canon. constructor; [exact Hv|constructor].
Qed.

(** ListOffsets do not see the order of object fields either *)
Lemma offsets_canon es : offsets (map canon_entry es) = offsets es.
Proof.
  unfold offsets. generalize 0. induction es as [|[r o] es IH]; intros acc; [reflexivity|].
  cbn [map offsets_from]. unfold canon_entry at 1. cbn [fst snd].
  rewrite elems_of_canon, map_length, IH. reflexivity.
Qed.
