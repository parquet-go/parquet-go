(** C19 — decode inverts encode: for every well-formed value tree whose
    encoding fits the format, the specification decoder applied to the bytes
    of the Go-mirroring encoder returns the tree with its object fields in
    name order ([canon]). *)
From Coq Require Import List NArith ZArith Bool Arith Lia Permutation.
From PQ Require Import Base.Bytes Base.ListExtra Variant.Model Variant.BaseLemmas Variant.Header
  Variant.HeaderProofs.
Import ListNotations.
Open Scope N_scope.

Section ValueInd.
  Variable P : value -> Prop.
  Hypothesis Hnull : P VNull.
  Hypothesis Hbool : forall b, P (VBool b).
  Hypothesis Hint : forall k z, P (VInt k z).
  Hypothesis Hflt : forall k b, P (VFlt k b).
  Hypothesis Hdec : forall k s z, P (VDec k s z).
  Hypothesis Hbin : forall b, P (VBinary b).
  Hypothesis Hstr : forall b, P (VString b).
  Hypothesis Huuid : forall b, P (VUuid b).
  Hypothesis Harr : forall l, Forall P l -> P (VArray l).
  Hypothesis Hobj : forall fs, Forall (fun kv => P (snd kv)) fs -> P (VObject fs).

  Fixpoint value_ind' (v : value) : P v :=
    match v with
    | VNull => Hnull
    | VBool b => Hbool b
    | VInt k z => Hint k z
    | VFlt k b => Hflt k b
    | VDec k s z => Hdec k s z
    | VBinary b => Hbin b
    | VString b => Hstr b
    | VUuid b => Huuid b
    | VArray l =>
        Harr l ((fix go (l : list value) : Forall P l :=
                   match l with
                   | [] => Forall_nil _
                   | x :: r => Forall_cons x (value_ind' x) (go r)
                   end) l)
    | VObject fs =>
        Hobj fs ((fix go (fs : list (bytes * value)) : Forall (fun kv => P (snd kv)) fs :=
                    match fs with
                    | [] => Forall_nil _
                    | kv :: r => Forall_cons kv (value_ind' (snd kv)) (go r)
                    end) fs)
    end.
End ValueInd.

Lemma wf_array l : wf (VArray l) <-> Forall wf l.
Proof. exact (fix_all_Forall wf l). Qed.

Lemma wf_object fs : wf (VObject fs) <->
  NoDup (map fst fs) /\ Forall (fun kv => wf_bytes (fst kv) /\ wf (snd kv)) fs.
Proof.
  cbn [wf]. apply and_iff_compat_l.
  induction fs as [|[k x] fs IH]; [split; [constructor|exact (fun _ => I)]|].
  rewrite IH. split.
  - intros (H1 & H2 & H3). constructor; auto.
  - intros H. inversion H as [|? ? [Ha Hb] Hc]; subst. auto.
Qed.

Lemma dec_S f d h rest : dec (S f) d (h :: rest) =
  match h mod 4 with
  | 0 => dec_prim (h / 4) rest
  | 1 => dec_short (h / 4) rest
  | 2 => dec_object (dec f d) d (h / 4) rest
  | _ => dec_array (dec f d) (h / 4) rest
  end.
Proof. reflexivity. Qed.

Lemma bitsN_pos w : (0 < w)%nat -> 0 < bitsN w.
Proof. unfold bitsN. lia. Qed.

Lemma dec_int k z rest : in_sint (bitsN (int_w k)) z ->
  dec_prim (int_id k) (to_le (int_w k) (wrapZ (bitsN (int_w k)) z) ++ rest) = Some (VInt k z).
Proof.
  intros Hz.
  assert (E : dec_prim (int_id k) (to_le (int_w k) (wrapZ (bitsN (int_w k)) z) ++ rest) =
              match take (int_w k) (to_le (int_w k) (wrapZ (bitsN (int_w k)) z) ++ rest) with
              | Some (a, _) => Some (VInt k (sintZ (bitsN (int_w k)) (of_le a)))
              | None => None
              end) by (destruct k; reflexivity).
  rewrite E, take_app_n by apply to_le_length.
  rewrite of_le_to_le by (rewrite pow256; apply wrapZ_lt).
  rewrite sintZ_wrapZ; [reflexivity| |exact Hz]. apply bitsN_pos. destruct k; cbn; lia.
Qed.

Lemma dec_flt k bits rest : bits < 2 ^ bitsN (flt_w k) ->
  dec_prim (flt_id k) (to_le (flt_w k) bits ++ rest) = Some (VFlt k bits).
Proof.
  intros Hb.
  assert (E : dec_prim (flt_id k) (to_le (flt_w k) bits ++ rest) =
              match take (flt_w k) (to_le (flt_w k) bits ++ rest) with
              | Some (a, _) => Some (VFlt k (of_le a))
              | None => None
              end) by (destruct k; reflexivity).
  rewrite E, take_app_n by apply to_le_length.
  now rewrite of_le_to_le by (rewrite pow256; exact Hb).
Qed.

Lemma dec_dec k s z rest : s < 256 -> in_sint (bitsN (dec_w k)) z ->
  dec_prim (dec_id k) ((s mod 256) :: to_le (dec_w k) (wrapZ (bitsN (dec_w k)) z) ++ rest) = Some (VDec k s z).
Proof.
  intros Hs Hz. rewrite (N.mod_small s 256) by exact Hs.
  assert (E : dec_prim (dec_id k) (s :: to_le (dec_w k) (wrapZ (bitsN (dec_w k)) z) ++ rest) =
              match take (dec_w k) (to_le (dec_w k) (wrapZ (bitsN (dec_w k)) z) ++ rest) with
              | Some (a, _) => Some (VDec k s (sintZ (bitsN (dec_w k)) (of_le a)))
              | None => None
              end) by (destruct k; reflexivity).
  rewrite E, take_app_n by apply to_le_length.
  rewrite of_le_to_le by (rewrite pow256; apply wrapZ_lt).
  rewrite sintZ_wrapZ; [reflexivity| |exact Hz]. apply bitsN_pos. destruct k; cbn; lia.
Qed.

Definition is_prim (v : value) : Prop :=
  match v with VArray _ | VObject _ => False | _ => True end.

Lemma dec_hdr0 f d vh rest : dec (S f) d (hdr 0 vh :: rest) = dec_prim vh rest.
Proof. rewrite dec_S. unfold hdr. now rewrite low_mod, low_div by lia. Qed.
Lemma dec_hdr1 f d vh rest : dec (S f) d (hdr 1 vh :: rest) = dec_short vh rest.
Proof. rewrite dec_S. unfold hdr. now rewrite low_mod, low_div by lia. Qed.
Lemma dec_hdr2 f d vh rest : dec (S f) d ((2 + 4 * vh) :: rest) = dec_object (dec f d) d vh rest.
Proof. rewrite dec_S. now rewrite low_mod, low_div by lia. Qed.
Lemma dec_hdr3 f d vh rest : dec (S f) d ((3 + 4 * vh) :: rest) = dec_array (dec f d) vh rest.
Proof. rewrite dec_S. now rewrite low_mod, low_div by lia. Qed.

Lemma dec_enc_prim v f d rest : is_prim v -> wf v -> lenN (enc_prim v) < 2 ^ 32 ->
  dec (S f) d (enc_prim v ++ rest) = Some v.
Proof.
  intros Hp Hw Hl. destruct v; try contradiction; cbn [enc_prim app] in *.
  - reflexivity.
  - destruct b; reflexivity.
  - rewrite dec_hdr0. now apply dec_int.
  - rewrite dec_hdr0. now apply dec_flt.
  - destruct Hw as [Hs Hz]. rewrite dec_hdr0. now apply dec_dec.
  - rewrite dec_hdr0. unfold id_binary, dec_prim.
    rewrite lenN_cons, lenN_app in Hl. unfold lenN at 1 in Hl. rewrite to_le_length in Hl.
    rewrite <- app_assoc, read_uint_to_le by (change (256 ^ N.of_nat 4) with (2 ^ 32); lia).
    now rewrite takeN_app.
  - destruct (N.leb_spec (lenN b) 63) as [Hs|Hs]; cbn [app].
    + rewrite dec_hdr1. unfold dec_short. now rewrite takeN_app.
    + rewrite dec_hdr0. unfold id_string, dec_prim.
      rewrite lenN_cons, lenN_app in Hl. unfold lenN at 1 in Hl. rewrite to_le_length in Hl.
      rewrite <- app_assoc, read_uint_to_le by (change (256 ^ N.of_nat 4) with (2 ^ 32); lia).
      now rewrite takeN_app.
  - destruct Hw as [Hb H16]. rewrite dec_hdr0. unfold id_uuid, dec_prim.
    now rewrite take_app_n by exact H16.
Qed.

Lemma psums_nonnil acc l : psums acc l <> [].
Proof. destruct l; discriminate. Qed.

Lemma psums_last acc l : last (psums acc l) 0 = acc + sumN l.
Proof.
  revert acc. induction l as [|x l IH]; intros acc; [cbn; lia|].
  cbn [psums]. rewrite last_cons, (last_nonempty_default _ acc 0) by apply psums_nonnil.
  rewrite IH. unfold sumN. cbn [fold_right]. lia.
Qed.

Lemma psums_bound acc l : Forall (fun x => x <= acc + sumN l) (psums acc l).
Proof.
  revert acc. induction l as [|x l IH]; intros acc; cbn [psums sumN fold_right].
  - constructor; [lia|constructor].
  - constructor; [lia|]. eapply Forall_impl; [|apply IH]. cbn. intros a Ha. fold (sumN l). lia.
Qed.

Lemma read_offsets (xs : list bytes) m rest :
  lenN (concat xs) <= m -> m < 2 ^ 32 ->
  read_uints (S (N.to_nat (lenN xs))) (osz_of (offset_size_code m))
    (write_uints (osz_of (offset_size_code m)) (psums 0 (map lenN xs)) ++ rest)
  = Some (psums 0 (map lenN xs), rest) /\ last (psums 0 (map lenN xs)) 0 = lenN (concat xs).
Proof.
  intros Hm H32. split; [|now rewrite psums_last, lenN_concat].
  replace (S (N.to_nat (lenN xs))) with (length (psums 0 (map lenN xs)))
    by (rewrite psums_length, map_length, to_nat_lenN; reflexivity).
  apply read_uints_write. eapply Forall_impl; [|apply psums_bound]. cbn. intros a Ha.
  rewrite <- lenN_concat in Ha. apply offset_size_code_bound; [exact H32|lia].
Qed.

Lemma psums_removelast acc x l : removelast (psums acc (x :: l)) = acc :: removelast (psums (acc + x) l).
Proof. cbn [psums removelast]. destruct (psums (acc + x) l) eqn:E; [now apply psums_nonnil in E|reflexivity]. Qed.

Lemma at_off_app p s : at_off (p ++ s) (lenN p) = Some s.
Proof.
  unfold at_off. rewrite lenN_app. destruct (N.ltb_spec (lenN p + lenN s) (lenN p)); [lia|].
  rewrite to_nat_lenN. now rewrite skipn_app_exact.
Qed.

Lemma in_concat_le {A} (x : list A) l : In x l -> (length x <= length (concat l))%nat.
Proof.
  induction l as [|y l IH]; intros H; [contradiction|]. cbn. rewrite app_length.
  destruct H as [->|H]; [lia|]. specialize (IH H). lia.
Qed.

Lemma dec_elems_region (rec : bytes -> option value) encs xs :
  Forall2 (fun b x => forall rest, rec (b ++ rest) = Some x) encs xs ->
  forall p,
  map_opt (fun off : N => match at_off (p ++ concat encs) off with Some sub => rec sub | None => None end)
          (removelast (psums (lenN p) (map lenN encs))) = Some xs.
Proof.
  induction 1 as [|b x encs xs Hb H IH]; intros p; [reflexivity|].
  cbn [map]. rewrite psums_removelast. cbn [map_opt concat].
  rewrite at_off_app, Hb.
  specialize (IH (p ++ b)). rewrite lenN_app, <- app_assoc in IH. now rewrite IH.
Qed.

Definition entry_id (e : entry) : N := N.of_nat (fst (snd e)).
Definition entry_enc (e : entry) : bytes := snd (snd e).

Definition field_ok (rec : bytes -> option value) (d : dict) (cf : bytes * value) (e : entry) : Prop :=
  fst cf = fst e /\ nth_error d (fst (snd e)) = Some (fst e) /\
  forall rest, rec (entry_enc e ++ rest) = Some (snd cf).

Lemma dec_fields_region rec d cfs es :
  Forall2 (field_ok rec d) cfs es ->
  forall p,
  map_opt (fun io : N * N =>
     match nth_error d (N.to_nat (fst io)) with
     | Some name =>
         match at_off (p ++ concat (map entry_enc es)) (snd io) with
         | Some sub => match rec sub with Some x => Some (name, x) | None => None end
         | None => None
         end
     | None => None
     end) (combine (map entry_id es) (psums (lenN p) (map lenN (map entry_enc es)))) = Some cfs.
Proof.
  induction 1 as [|cf e cfs es (Hk & Hid & Hb) H IH]; intros p; [reflexivity|].
  cbn [map psums combine map_opt concat fst snd].
  unfold entry_id at 1. rewrite Nat2N.id, Hid, at_off_app, Hb.
  specialize (IH (p ++ entry_enc e)). rewrite lenN_app, <- app_assoc in IH. rewrite IH.
  destruct cf as [k x]. cbn in *. now subst.
Qed.

Lemma lenN_write_uints sz xs : lenN (write_uints sz xs) = N.of_nat sz * lenN xs.
Proof. unfold lenN. rewrite write_uints_length. lia. Qed.

Lemma osz_ge1 c : 1 <= N.of_nat (osz_of c).
Proof. unfold osz_of. lia. Qed.

Lemma read_num_elems n rest : n < 2 ^ 32 ->
  read_num (255 <? n) (num_elems n ++ rest) = Some (n, rest).
Proof.
  intros H. unfold read_num, num_elems. destruct (N.ltb_spec 255 n).
  - apply read_uint_to_le. change (256 ^ N.of_nat 4) with (2 ^ 32). exact H.
  - apply read_uint_to_le. cbn. lia.
Qed.

Lemma num_elems_len n : 1 <= lenN (num_elems n).
Proof. unfold num_elems, lenN. destruct (255 <? n); rewrite to_le_length; lia. Qed.

Lemma large_flag (b : bool) : ((if b then 1 else 0) mod 2 =? 1) = b.
Proof. destruct b; reflexivity. Qed.

Lemma lenN_psums acc l : lenN (psums acc l) = 1 + lenN l.
Proof. unfold lenN. rewrite psums_length. lia. Qed.
Lemma le_mul_l o n : 1 <= o -> n <= o * n.
Proof. nia. Qed.

Lemma build_array_eq (encs : list bytes) :
  build_array encs =
  (3 + 4 * (offset_size_code (lenN (concat encs)) + 4 * (if 255 <? lenN encs then 1 else 0)))
    :: num_elems (lenN encs)
       ++ write_uints (osz_of (offset_size_code (lenN (concat encs)))) (psums 0 (map lenN encs))
       ++ concat encs.
Proof. unfold build_array. f_equal. lia. Qed.

Lemma dec_build_array f d (encs : list bytes) xs (rest : bytes) :
  Forall2 (fun b x => forall rest, dec f d (b ++ rest) = Some x) encs xs ->
  lenN (build_array encs) < 2 ^ 32 ->
  dec (S f) d (build_array encs ++ rest) = Some (VArray xs).
Proof.
  intros HF Hl. rewrite build_array_eq in Hl |- *. cbn [app]. rewrite dec_hdr3.
  pose proof (offset_size_code_lt4 (lenN (concat encs))) as Hosc.
  rewrite lenN_cons, !lenN_app, lenN_write_uints, lenN_psums, lenN_map in Hl.
  pose proof (num_elems_len (lenN encs)) as Hn1.
  pose proof (le_mul_l _ (lenN encs) (osz_ge1 (offset_size_code (lenN (concat encs))))) as Ho1.
  assert (Hn : lenN encs < 2 ^ 32) by (unfold bytes in *; lia).
  assert (Htot : lenN (concat encs) < 2 ^ 32) by lia.
  unfold dec_array. rewrite low_mod, low_div by exact Hosc. rewrite large_flag.
  rewrite <- !app_assoc, read_num_elems by exact Hn.
  match goal with |- context [if ?c then None else _] => assert (Hc : c = false) end.
  { apply N.ltb_ge. rewrite lenN_app, lenN_write_uints, lenN_psums, lenN_map. unfold bytes in *. lia. }
  rewrite Hc.
  destruct (read_offsets encs _ (concat encs ++ rest) (N.le_refl _) Htot) as [-> ->].
  rewrite takeN_app.
  pose proof (dec_elems_region (dec f d) encs xs HF []) as Hr. cbn [app] in Hr.
  change (lenN (@nil N)) with 0 in Hr. now rewrite Hr.
Qed.

Lemma max_id_bound (es : list entry) : Forall (fun e => entry_id e <= max_id es) es.
Proof.
  induction es as [|e es IH]; [constructor|]. cbn [max_id fold_right]. fold (max_id es).
  constructor; [unfold entry_id; lia|]. eapply Forall_impl; [|exact IH]. cbn. intros a Ha. lia.
Qed.

Lemma build_object_eq (es : list entry) :
  build_object es =
  (2 + 4 * (offset_size_code (lenN (concat (map entry_enc es)))
            + 4 * (offset_size_code (max_id es) + 4 * (if 255 <? lenN es then 1 else 0))))
    :: num_elems (lenN es)
       ++ write_uints (osz_of (offset_size_code (max_id es))) (map entry_id es)
       ++ write_uints (osz_of (offset_size_code (lenN (concat (map entry_enc es)))))
                      (psums 0 (map lenN (map entry_enc es)))
       ++ concat (map entry_enc es).
Proof. unfold build_object. f_equal. fold entry_enc. lia. Qed.

Lemma dec_build_object f d (es : list entry) cfs (rest : bytes) :
  Forall2 (field_ok (dec f d) d) cfs es -> NoDup (map fst cfs) ->
  lenN (build_object es) < 2 ^ 32 -> max_id es < 2 ^ 32 ->
  dec (S f) d (build_object es ++ rest) = Some (VObject cfs).
Proof.
  intros HF ND Hl Hmax. rewrite build_object_eq in Hl |- *. cbn [app]. rewrite dec_hdr2.
  pose proof (offset_size_code_lt4 (lenN (concat (map entry_enc es)))) as Hosc.
  pose proof (offset_size_code_lt4 (max_id es)) as Hfsc.
  rewrite lenN_cons, !lenN_app, !lenN_write_uints, lenN_psums, !lenN_map in Hl.
  pose proof (num_elems_len (lenN es)) as Hn1.
  pose proof (le_mul_l _ (lenN es) (osz_ge1 (offset_size_code (lenN (concat (map entry_enc es)))))) as Ho1.
  pose proof (le_mul_l _ (lenN es) (osz_ge1 (offset_size_code (max_id es)))) as Hf1.
  assert (Hn : lenN es < 2 ^ 32) by (unfold bytes in *; lia).
  assert (Htot : lenN (concat (map entry_enc es)) < 2 ^ 32) by (unfold bytes in *; lia).
  unfold dec_object. rewrite low_mod, low_div by exact Hosc. rewrite low_mod by exact Hfsc.
  change 16 with (4 * 4). rewrite <- N.div_div by discriminate.
  rewrite low_div by exact Hosc. rewrite low_div by exact Hfsc. rewrite large_flag.
  rewrite <- !app_assoc, read_num_elems by exact Hn.
  match goal with |- context [if ?c then None else _] => assert (Hc : c = false) end.
  { apply N.ltb_ge. rewrite lenN_app, lenN_write_uints, lenN_map. unfold bytes in *. lia. }
  rewrite Hc.
  replace (N.to_nat (lenN es)) with (length (map entry_id es))
    by (rewrite map_length, to_nat_lenN; reflexivity).
  rewrite read_uints_write.
  2:{ rewrite Forall_map. eapply Forall_impl; [|apply max_id_bound]. cbn. intros a Ha.
      apply offset_size_code_bound; [exact Hmax|exact Ha]. }
  rewrite map_length, <- (to_nat_lenN es), <- (lenN_map entry_enc es).
  destruct (read_offsets (map entry_enc es) _ (concat (map entry_enc es) ++ rest) (N.le_refl _) Htot)
    as [-> ->].
  rewrite takeN_app.
  pose proof (dec_fields_region (dec f d) d cfs es HF []) as Hr. cbn [app] in Hr.
  change (lenN (@nil N)) with 0 in Hr. rewrite Hr.
  apply nodupb_NoDup in ND. now rewrite ND.
Qed.

Definition ext (d d' : dict) : Prop := exists e, d' = d ++ e.

Lemma ext_refl d : ext d d.
Proof. exists []. now rewrite app_nil_r. Qed.
Lemma ext_trans a b c : ext a b -> ext b c -> ext a c.
Proof. intros [e ->] [e' ->]. exists (e ++ e'). now rewrite app_assoc. Qed.
Lemma ext_len d d' : ext d d' -> lenN d <= lenN d'.
Proof. intros [e ->]. rewrite lenN_app. lia. Qed.
Lemma ext_nth d d' i (x : bytes) : ext d d' -> nth_error d i = Some x -> nth_error d' i = Some x.
Proof.
  intros [e ->] H. rewrite nth_error_app1; [exact H|]. apply nth_error_Some. congruence.
Qed.

Lemma index_of_Some k d : forall i, index_of k d = Some i -> nth_error d i = Some k.
Proof.
  induction d as [|x d IH]; intros i H; cbn in H; [discriminate|].
  destruct (beq k x) eqn:E.
  - inversion H; subst. apply beq_eq in E. now subst.
  - destruct (index_of k d) as [j|]; [|discriminate]. inversion H; subst. cbn. now apply IH.
Qed.

Lemma index_of_None k d : index_of k d = None -> ~ In k d.
Proof.
  induction d as [|x d IH]; intros H; cbn in H; [tauto|].
  destruct (beq k x) eqn:E; [discriminate|].
  destruct (index_of k d); [discriminate|].
  apply beq_false_iff in E. intros [->|Hin]; [congruence|]. now apply IH.
Qed.

Lemma dict_add_ok d k d' i : dict_add d k = (d', i) -> ext d d' /\ nth_error d' i = Some k.
Proof.
  intros H. unfold dict_add in H. destruct (index_of k d) as [j|] eqn:E; inversion H; subst.
  - split; [apply ext_refl|now apply index_of_Some].
  - split; [now exists [k]|]. rewrite nth_error_app2 by lia. now rewrite Nat.sub_diag.
Qed.

Lemma dict_add_NoDup d k : NoDup d -> NoDup (fst (dict_add d k)).
Proof.
  intros ND. unfold dict_add. destruct (index_of k d) eqn:E; [exact ND|]. cbn [fst].
  eapply Permutation_NoDup; [apply Permutation_cons_append|].
  constructor; [now apply index_of_None|exact ND].
Qed.

(* the field names of a value, in the order the encoder interns them *)
Fixpoint keys (v : value) : list bytes :=
  match v with
  | VArray l => flat_map keys l
  | VObject fs => flat_map (fun kv : bytes * value => fst kv :: keys (snd kv)) fs
  | _ => []
  end.

Definition adds (d : dict) (ks : list bytes) : dict := fold_left (fun d k => fst (dict_add d k)) ks d.

Lemma adds_cons d k ks : adds d (k :: ks) = adds (fst (dict_add d k)) ks.
Proof. reflexivity. Qed.

Lemma adds_app d a b : adds d (a ++ b) = adds (adds d a) b.
Proof. apply fold_left_app. Qed.

Lemma adds_ext d ks : ext d (adds d ks).
Proof.
  revert d. induction ks as [|k ks IH]; intros d; [apply ext_refl|]. rewrite adds_cons.
  eapply ext_trans; [|apply IH]. destruct (dict_add d k) as [d0 i] eqn:E.
  exact (proj1 (dict_add_ok _ _ _ _ E)).
Qed.

Lemma adds_incl d ks : incl ks (adds d ks).
Proof.
  revert d. induction ks as [|k ks IH]; intros d a Ha; [contradiction|]. rewrite adds_cons.
  destruct Ha as [<-|Ha]; [|now apply IH].
  destruct (dict_add d k) as [d0 i] eqn:E. destruct (dict_add_ok _ _ _ _ E) as [_ Hi]. cbn [fst].
  destruct (adds_ext d0 ks) as [e ->]. apply in_or_app. left. eapply nth_error_In; exact Hi.
Qed.

Lemma adds_stable d ks : incl ks d -> adds d ks = d.
Proof.
  induction ks as [|k ks IH]; intros H; [reflexivity|]. rewrite adds_cons. unfold dict_add.
  assert (Hk : In k d) by (apply H; now left).
  destruct (index_of k d) eqn:E; [|now apply index_of_None in E].
  apply IH. intros a Ha. apply H. now right.
Qed.

Lemma enc_st_array d l : enc_st d (VArray l) =
  let '(d', encs) := enc_elems enc_st d l in (d', build_array encs).
Proof. reflexivity. Qed.
Lemma enc_st_object d fs : enc_st d (VObject fs) =
  let '(d', es) := enc_fields enc_st d fs in (d', build_object (isort es)).
Proof. reflexivity. Qed.

Lemma enc_elems_keys l : Forall (fun x => forall d, fst (enc_st d x) = adds d (keys x)) l ->
  forall d, fst (enc_elems enc_st d l) = adds d (flat_map keys l).
Proof.
  induction 1 as [|x l Hx _ IH]; intros d; [reflexivity|]. cbn [enc_elems flat_map].
  rewrite adds_app, <- Hx, <- IH. destruct (enc_st d x) as [d1 b]. cbn [fst].
  now destruct (enc_elems enc_st d1 l).
Qed.

Lemma enc_fields_keys fs : Forall (fun kv => forall d, fst (enc_st d (snd kv)) = adds d (keys (snd kv))) fs ->
  forall d, fst (enc_fields enc_st d fs) = adds d (flat_map (fun kv : bytes * value => fst kv :: keys (snd kv)) fs).
Proof.
  induction 1 as [|[k x] fs Hx _ IH]; intros d; [reflexivity|]. cbn [enc_fields flat_map fst snd] in *.
  change (adds d ((k :: keys x) ++ ?r)) with (adds (fst (dict_add d k)) (keys x ++ r)).
  rewrite adds_app, <- Hx, <- IH. destruct (dict_add d k) as [d0 i]. cbn [fst].
  destruct (enc_st d0 x) as [d1 b]. cbn [fst]. now destruct (enc_fields enc_st d1 fs).
Qed.

Lemma enc_st_keys v : forall d, fst (enc_st d v) = adds d (keys v).
Proof.
  induction v using value_ind'; intros d; try reflexivity.
  - rewrite enc_st_array. cbn [keys]. rewrite <- (enc_elems_keys l H d). now destruct (enc_elems enc_st d l).
  - rewrite enc_st_object. cbn [keys]. rewrite <- (enc_fields_keys fs H d). now destruct (enc_fields enc_st d fs).
Qed.

Lemma enc_st_ext v d d' b : enc_st d v = (d', b) -> ext d d'.
Proof. intros E. replace d' with (fst (enc_st d v)) by now rewrite E. rewrite enc_st_keys. apply adds_ext. Qed.

Definition dec_ok (d' : dict) (b : bytes) (cv : value) : Prop :=
  forall d'' fuel (rest : bytes), ext d' d'' -> (length b < fuel)%nat ->
    dec fuel d'' (b ++ rest) = Some cv.

Lemma dec_ok_ext d1 d2 b cv : ext d1 d2 -> dec_ok d1 b cv -> dec_ok d2 b cv.
Proof. intros He H d'' fuel rest He' Hf. apply H; [eapply ext_trans; eauto|exact Hf]. Qed.

Definition enc_good (v : value) : Prop :=
  wf v -> forall d d' b, enc_st d v = (d', b) -> lenN b < 2 ^ 32 -> lenN d' < 2 ^ 32 ->
  dec_ok d' b (canon v).

Lemma lenN_le_concat (b : bytes) (l : list bytes) : In b l -> lenN b <= lenN (concat l).
Proof. intros H. apply in_concat_le in H. unfold lenN. lia. Qed.

Lemma enc_elems_ok l : Forall enc_good l -> Forall wf l ->
  forall d d' encs, enc_elems enc_st d l = (d', encs) ->
  lenN (concat encs) < 2 ^ 32 -> lenN d' < 2 ^ 32 ->
  Forall2 (dec_ok d') encs (map canon l).
Proof.
  induction 1 as [|x l Hx Hl IH]; intros Hw d d' encs E Hlen Hd; cbn [enc_elems] in E.
  - inversion E; subst. constructor.
  - inversion Hw as [|? ? Hwx Hwl]; subst.
    destruct (enc_st d x) as [d1 b] eqn:E1. destruct (enc_elems enc_st d1 l) as [d2 bs] eqn:E2.
    inversion E; subst. cbn [concat] in Hlen. rewrite lenN_app in Hlen.
    assert (X2 : ext d1 d') by (apply (enc_st_ext (VArray l) d1 d' (build_array bs)); now rewrite enc_st_array, E2).
    pose proof (ext_len _ _ X2) as L2.
    cbn [map]. constructor.
    + eapply dec_ok_ext; [exact X2|]. apply (Hx Hwx _ _ _ E1); lia.
    + eapply IH; eauto. lia.
Qed.

Definition cmap (fs : list (bytes * value)) : list (bytes * value) :=
  map (fun kv => let '(k, x) := kv in (k, canon x)) fs.

Lemma canon_object fs : canon (VObject fs) = VObject (isort (cmap fs)).
Proof. reflexivity. Qed.
Lemma canon_array l : canon (VArray l) = VArray (map canon l).
Proof. reflexivity. Qed.

Lemma cmap_keys fs : map fst (cmap fs) = map fst fs.
Proof. unfold cmap. rewrite map_map. apply map_ext. now intros [k x]. Qed.

Definition entry_ok (d' : dict) (cf : bytes * value) (e : entry) : Prop :=
  fst cf = fst e /\ nth_error d' (fst (snd e)) = Some (fst e) /\
  dec_ok d' (entry_enc e) (snd cf).

Lemma enc_fields_ok fs : Forall (fun kv => enc_good (snd kv)) fs ->
  Forall (fun kv => wf_bytes (fst kv) /\ wf (snd kv)) fs ->
  forall d d' es, enc_fields enc_st d fs = (d', es) ->
  lenN (concat (map entry_enc es)) < 2 ^ 32 -> lenN d' < 2 ^ 32 ->
  Forall2 (entry_ok d') (cmap fs) es.
Proof.
  induction 1 as [|[k x] fs Hx Hl IH]; intros Hw d d' es E Hlen Hd; cbn [enc_fields] in E.
  - inversion E; subst. constructor.
  - inversion Hw as [|? ? [Hwk Hwx] Hwl]; subst. cbn [fst snd] in *.
    destruct (dict_add d k) as [d0 id] eqn:E0. destruct (enc_st d0 x) as [d1 b] eqn:E1.
    destruct (enc_fields enc_st d1 fs) as [d2 r] eqn:E2. inversion E; subst.
    cbn [map concat entry_enc snd] in Hlen. rewrite lenN_app in Hlen. fold entry_enc in Hlen.
    destruct (dict_add_ok _ _ _ _ E0) as [_ Hid].
    pose proof (enc_st_ext _ _ _ _ E1) as X1.
    assert (X2 : ext d1 d') by (apply (enc_st_ext (VObject fs) d1 d' (build_object (isort r))); now rewrite enc_st_object, E2).
    pose proof (ext_len _ _ X2) as L2.
    cbn [cmap map]. constructor.
    + repeat split; cbn [fst snd entry_enc].
      * apply (ext_nth d0 d'); [eapply ext_trans; [exact X1|exact X2]|exact Hid].
      * eapply dec_ok_ext; [exact X2|]. apply (Hx Hwx _ _ _ E1); lia.
    + eapply IH; eauto. lia.
Qed.

Lemma build_array_len (encs : list bytes) : lenN (concat encs) + 1 < lenN (build_array encs).
Proof.
  rewrite build_array_eq, lenN_cons, !lenN_app. pose proof (num_elems_len (lenN encs)). lia.
Qed.

Lemma build_object_len (es : list entry) :
  lenN (concat (map entry_enc es)) + 1 < lenN (build_object es).
Proof.
  rewrite build_object_eq, lenN_cons, !lenN_app. pose proof (num_elems_len (lenN es)). lia.
Qed.

Lemma perm_concat_len {A} (l l' : list (list A)) : Permutation l l' -> lenN (concat l) = lenN (concat l').
Proof.
  induction 1; cbn; rewrite ?lenN_app; try lia.
Qed.

Lemma Forall2_impl_in {A B} (P Q : A -> B -> Prop) l1 l2 :
  (forall a b, In a l1 -> In b l2 -> P a b -> Q a b) -> Forall2 P l1 l2 -> Forall2 Q l1 l2.
Proof.
  intros H F. induction F as [|a b l1 l2 Hab F IH]; constructor.
  - apply H; [now left|now left|exact Hab].
  - apply IH. intros a' b' Ha Hb. apply H; now right.
Qed.

Lemma Forall2_in_r {A B} (P : A -> B -> Prop) l1 l2 b :
  Forall2 P l1 l2 -> In b l2 -> exists a, In a l1 /\ P a b.
Proof.
  induction 1 as [|a b' l1 l2 Hab F IH]; intros Hin; [contradiction|].
  destruct Hin as [->|Hin]; [exists a; split; [now left|exact Hab]|].
  destruct (IH Hin) as (a' & Ha & Hp). exists a'. split; [now right|exact Hp].
Qed.

Lemma max_id_lt (es : list entry) M : 0 < M -> Forall (fun e => entry_id e < M) es -> max_id es < M.
Proof.
  intros HM. induction 1 as [|e es He H IH]; cbn [max_id fold_right]; [exact HM|].
  fold (max_id es). unfold entry_id in He. lia.
Qed.

Lemma enc_good_prim v : is_prim v -> enc_good v.
Proof.
  intros Hp Hw d d' bb E Hl Hd.
  assert (E' : enc_st d v = (d, enc_prim v)) by (destruct v; try contradiction; reflexivity).
  rewrite E' in E. inversion E; subst.
  intros d'' fuel rest _ Hf. destruct fuel as [|f]; [lia|].
  replace (canon v) with v by (destruct v; try contradiction; reflexivity). now apply dec_enc_prim.
Qed.

Lemma match3 {A} (a b c e : A) : match 3 with 0 => a | 1 => b | 2 => c | _ => e end = e.
Proof. reflexivity. Qed.
Lemma match2 {A} (a b c e : A) : match 2 with 0 => a | 1 => b | 2 => c | _ => e end = c.
Proof. reflexivity. Qed.

Lemma enc_st_good v : enc_good v.
Proof.
  induction v using value_ind'; try (apply enc_good_prim; exact I).
  - intros Hw d d' bb E Hl Hd. rewrite enc_st_array in E.
    destruct (enc_elems enc_st d l) as [d1 encs] eqn:E1. inversion E; subst.
    apply wf_array in Hw.
    pose proof (build_array_len encs) as Hbl.
    assert (HF : Forall2 (dec_ok d') encs (map canon l))
      by (apply (enc_elems_ok l H Hw d d' encs E1); [unfold bytes in *; lia|exact Hd]).
    intros d'' fuel rest Hext Hf. destruct fuel as [|f]; [lia|].
    rewrite canon_array. apply dec_build_array; [|exact Hl].
    eapply Forall2_impl_in; [|exact HF]. intros b x Hb _ Hok r.
    apply Hok; [exact Hext|]. apply lenN_le_concat in Hb. unfold lenN in *. lia.
  - intros Hw d d' bb E Hl Hd. rewrite enc_st_object in E.
    destruct (enc_fields enc_st d fs) as [d1 es] eqn:E1. inversion E; subst.
    apply wf_object in Hw as [Hnd Hw].
    pose proof (build_object_len (isort es)) as Hbl.
    assert (Hpl : lenN (concat (map entry_enc (isort es))) = lenN (concat (map entry_enc es)))
      by (apply perm_concat_len, Permutation_map, isort_perm).
    assert (HF : Forall2 (entry_ok d') (cmap fs) es)
      by (apply (enc_fields_ok fs H Hw d d' es E1); [unfold bytes in *; lia|exact Hd]).
    assert (HS : Forall2 (entry_ok d') (isort (cmap fs)) (isort es)).
    { apply isort_Forall2; [|exact HF]. intros a b0 (Hk & _). exact Hk. }
    intros d'' fuel rest Hext Hf. destruct fuel as [|f]; [lia|].
    rewrite canon_object. apply dec_build_object; [| |exact Hl|].
    + eapply Forall2_impl_in; [|exact HS]. intros cf e _ He (Hk & Hid & Hok).
      split; [exact Hk|]. split; [eapply ext_nth; eauto|]. intros r.
      apply Hok; [exact Hext|].
      assert (Hin : In (entry_enc e) (map entry_enc (isort es))) by now apply in_map.
      apply lenN_le_concat in Hin. unfold lenN in *. lia.
    + apply isort_keys_NoDup. now rewrite cmap_keys.
    + apply max_id_lt; [lia|]. apply Forall_forall. intros e He.
      destruct (Forall2_in_r _ _ _ _ HS He) as (cf & _ & (_ & Hid & _)).
      assert (Hlt : (fst (snd e) < length d')%nat) by (apply nth_error_Some; congruence).
      unfold entry_id, lenN in *. lia.
Qed.

Lemma psums_head acc l : exists t, psums acc l = acc :: t.
Proof. destruct l; eexists; reflexivity. Qed.

Lemma slice_mid (p x r : bytes) : slice (p ++ x ++ r) (lenN p, lenN p + lenN x) = Some x.
Proof.
  unfold slice. rewrite !lenN_app.
  destruct (N.ltb_spec (lenN p + lenN x) (lenN p)); [lia|].
  destruct (N.ltb_spec (lenN p + (lenN x + lenN r)) (lenN p + lenN x)); [lia|]. cbn [orb].
  replace (lenN p + lenN x - lenN p) with (lenN x) by lia.
  rewrite !to_nat_lenN, skipn_app_exact, firstn_app_exact. reflexivity.
Qed.

Lemma slices_ok (d : dict) : forall p : bytes,
  map_opt (slice (p ++ concat d))
    (combine (psums (lenN p) (map lenN d)) (tl (psums (lenN p) (map lenN d)))) = Some d.
Proof.
  induction d as [|x d IH]; intros p; [reflexivity|].
  cbn [map psums tl concat].
  destruct (psums_head (lenN p + lenN x) (map lenN d)) as (t & Et).
  rewrite Et. cbn [combine map_opt]. rewrite slice_mid.
  specialize (IH (p ++ x)). rewrite lenN_app, Et, <- app_assoc in IH. cbn [tl combine] in IH.
  now rewrite IH.
Qed.

Lemma decode_encode_metadata (d : dict) : lenN d < 2 ^ 32 -> lenN (concat d) < 2 ^ 32 ->
  decode_metadata (encode_metadata d) = Some (d, sortedb d).
Proof.
  intros Hn Ht. unfold encode_metadata.
  pose proof (offset_size_code_lt4 (N.max (lenN (concat d)) (lenN d))) as Hosc.
  assert (Hmax : N.max (lenN (concat d)) (lenN d) < 2 ^ 32) by lia.
  set (m := N.max (lenN (concat d)) (lenN d)) in *.
  set (s := if sortedb d then 1 else 0).
  assert (Hs : s < 2) by (unfold s; destruct (sortedb d); lia).
  replace (1 + 16 * s + 64 * offset_size_code m) with (1 + 16 * (s + 2 * (2 * offset_size_code m))) by lia.
  unfold decode_metadata.
  rewrite low_mod by lia. rewrite N.eqb_refl. cbn [negb].
  change 64 with (16 * 2 * 2). rewrite <- !N.div_div by discriminate.
  rewrite low_div by lia. rewrite (low_mod 2), (low_div 2) by exact Hs.
  rewrite N.mul_comm, N.div_mul by discriminate. rewrite (N.mod_small _ 4) by exact Hosc.
  rewrite read_uint_to_le by (apply offset_size_code_bound; [exact Hmax|lia]).
  match goal with |- context [if ?c then None else _] => assert (Hc : c = false) end.
  { apply N.ltb_ge. rewrite lenN_app, lenN_write_uints, lenN_psums, lenN_map.
    pose proof (le_mul_l _ (lenN d) (osz_ge1 (offset_size_code m))). unfold bytes in *. lia. }
  rewrite Hc.
  destruct (read_offsets d m (concat d) ltac:(lia) Hmax) as [-> _].
  pose proof (slices_ok d []) as Hsl. cbn [app] in Hsl. change (lenN (@nil N)) with 0 in Hsl.
  rewrite Hsl. f_equal. f_equal. unfold s. now destruct (sortedb d).
Qed.

Theorem decode_encode v meta val :
  wf v -> encodable v -> encode v = (meta, val) -> decode meta val = Some (canon v).
Proof.
  unfold encodable, encode. destruct (enc_st [] v) as [d b] eqn:E.
  intros Hw (Hb & Hn & Ht) Hm. inversion Hm; subst.
  unfold decode. rewrite decode_encode_metadata by assumption.
  pose proof (enc_st_good v Hw [] d val E Hb Hn) as Hok.
  unfold decode_value. rewrite <- (app_nil_r val) at 2. apply Hok; [apply ext_refl|lia].
Qed.

Lemma sortedb_ksorted {A} (l : list (bytes * A)) : sortedb (map fst l) = true -> ksorted l.
Proof.
  induction l as [|a l IH]; [exact (fun _ => I)|]. destruct l as [|b l]; [exact (fun _ => I)|].
  cbn [map sortedb]. intros H. apply andb_true_iff in H as [H1 H2]. split; [exact H1|]. apply IH. exact H2.
Qed.

Lemma key_sorted_array l : key_sorted (VArray l) <-> Forall key_sorted l.
Proof. exact (fix_all_Forall key_sorted l). Qed.

Lemma key_sorted_object fs : key_sorted (VObject fs) <->
  sortedb (map fst fs) = true /\ Forall (fun kv => key_sorted (snd kv)) fs.
Proof. cbn [key_sorted]. apply and_iff_compat_l. exact (fix_all_snd_Forall key_sorted fs). Qed.

Lemma canon_key_sorted v : key_sorted v -> canon v = v.
Proof.
  induction v using value_ind'; intros Hk; try reflexivity.
  - apply key_sorted_array in Hk. rewrite canon_array. f_equal.
    induction l as [|x l IHl]; [reflexivity|]. inversion H; inversion Hk; subst. cbn. f_equal; auto.
  - apply key_sorted_object in Hk as [Hs Hk]. rewrite canon_object.
    assert (Ec : cmap fs = fs).
    { clear Hs. induction fs as [|[k x] fs IHf]; [reflexivity|].
      inversion H; inversion Hk; subst. cbn in *. f_equal; [f_equal; auto|auto]. }
    rewrite Ec. f_equal. apply isort_id. now apply sortedb_ksorted.
Qed.

