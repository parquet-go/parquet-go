(** C19 — [Variant/Header.v] is the prefix of the model encoder. *)
From Coq Require Import List NArith ZArith Bool Arith Lia.
From PQ Require Import Base.Bytes Variant.Model Variant.BaseLemmas Variant.Header.
Import ListNotations.
Open Scope N_scope.

Lemma lenN_concat (l : list bytes) : lenN (concat l) = sumN (map lenN l).
Proof.
  induction l as [|a l IH]; [reflexivity|].
  cbn [concat map sumN fold_right]. rewrite lenN_app. fold (sumN (map lenN l)). now rewrite IH.
Qed.

Lemma max_id_map (es : list entry) :
  max_id es = fold_right N.max 0 (map (fun e : entry => N.of_nat (fst (snd e))) es).
Proof. induction es as [|e es IH]; [reflexivity|]. cbn [max_id map fold_right]. fold (max_id es). now rewrite IH. Qed.

Lemma build_array_header encs :
  build_array encs = array_header (map lenN encs) ++ concat encs.
Proof.
  unfold build_array, array_header. rewrite lenN_map, lenN_concat.
  cbn [app]. now rewrite <- app_assoc.
Qed.

Lemma build_object_header (es : list entry) :
  build_object es =
  object_header (map (fun e : entry => N.of_nat (fst (snd e))) es)
                (map (fun e : entry => lenN (snd (snd e))) es)
  ++ concat (map (fun e : entry => snd (snd e)) es).
Proof.
  unfold build_object, object_header.
  rewrite !lenN_map, lenN_concat, map_map, <- max_id_map.
  cbn [app]. now rewrite <- !app_assoc.
Qed.

Lemma encode_metadata_header d :
  encode_metadata d = metadata_header (sortedb d) (map lenN d) ++ concat d.
Proof.
  unfold encode_metadata, metadata_header. rewrite lenN_map, lenN_concat.
  cbn [app]. now rewrite <- !app_assoc.
Qed.
