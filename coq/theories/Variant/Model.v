(** C19 — executable model of the Variant binary encoding of parquet-go
    (/repo/variant): value trees, the metadata dictionary, the encoder
    (mirrors variant/encoding.go + variant/metadata.go) and a decoder written
    from the Variant encoding specification (VariantEncoding.md), accepting
    every conforming form (any offset sizes, is_large either way, values of
    objects/arrays stored in any order).  No proofs here. *)
From Coq Require Import List NArith ZArith Bool Arith Lia.
From PQ Require Import Base.Bytes.
Import ListNotations.
Open Scope N_scope.

(** * Value trees (variant/value.go: type Value) *)

(* integer-like primitives: payload is a signed two's complement integer *)
Inductive int_kind := I8 | I16 | I32 | I64 | IDate | ITs | ITsNtz | ITime | ITsNs | ITsNtzNs.
Inductive flt_kind := F32 | F64.
Inductive dec_kind := D4 | D8 | D16.

Inductive value :=
| VNull
| VBool (b : bool)
| VInt (k : int_kind) (z : Z)              (* int8/16/32/64, date, timestamps, time *)
| VFlt (k : flt_kind) (bits : N)           (* float/double as IEEE bit patterns *)
| VDec (k : dec_kind) (scale : N) (z : Z)  (* decimal4/8/16: scale byte + unscaled value *)
| VBinary (b : bytes)
| VString (b : bytes)                      (* short-string and long form are one value *)
| VUuid (b : bytes)                        (* 16 bytes *)
| VArray (l : list value)
| VObject (fs : list (bytes * value)).     (* field name, value; construction order *)

(* variant/types.go: PrimitiveType ids *)
Definition int_id (k : int_kind) : N :=
  match k with
  | I8 => 3 | I16 => 4 | I32 => 5 | I64 => 6 | IDate => 11 | ITs => 12 | ITsNtz => 13
  | ITime => 17 | ITsNs => 18 | ITsNtzNs => 19
  end.
(* variant/types.go: primitiveSize *)
Definition int_w (k : int_kind) : nat :=
  match k with
  | I8 => 1 | I16 => 2 | I32 => 4 | IDate => 4
  | I64 | ITs | ITsNtz | ITime | ITsNs | ITsNtzNs => 8
  end%nat.
Definition flt_id (k : flt_kind) : N := match k with F32 => 14 | F64 => 7 end.
Definition flt_w (k : flt_kind) : nat := match k with F32 => 4 | F64 => 8 end%nat.
Definition dec_id (k : dec_kind) : N := match k with D4 => 8 | D8 => 9 | D16 => 10 end.
Definition dec_w (k : dec_kind) : nat := match k with D4 => 4 | D8 => 8 | D16 => 16 end%nat.
Definition id_binary : N := 15.
Definition id_string : N := 16.
Definition id_uuid : N := 20.

Definition bitsN (w : nat) : N := 8 * N.of_nat w.

Definition int_kind_of_id (t : N) : option int_kind :=
  match t with
  | 3 => Some I8 | 4 => Some I16 | 5 => Some I32 | 6 => Some I64 | 11 => Some IDate
  | 12 => Some ITs | 13 => Some ITsNtz | 17 => Some ITime | 18 => Some ITsNs | 19 => Some ITsNtzNs
  | _ => None
  end.
Definition flt_kind_of_id (t : N) : option flt_kind :=
  match t with 14 => Some F32 | 7 => Some F64 | _ => None end.
Definition dec_kind_of_id (t : N) : option dec_kind :=
  match t with 8 => Some D4 | 9 => Some D8 | 10 => Some D16 | _ => None end.

(** * Byte strings: length, equality, Go string order *)

Definition lenN {A} (l : list A) : N := N.of_nat (length l).

Fixpoint beq (a b : bytes) : bool :=
  match a, b with
  | [], [] => true
  | x :: a', y :: b' => (x =? y) && beq a' b'
  | _, _ => false
  end.

(* Go's [a <= b] on strings: bytewise lexicographic, a proper prefix is smaller *)
Fixpoint ble (a b : bytes) : bool :=
  match a, b with
  | [], _ => true
  | _ :: _, [] => false
  | x :: a', y :: b' => if x <? y then true else if y <? x then false else ble a' b'
  end.

(** * Metadata dictionary (variant/metadata.go: MetadataBuilder) *)

Definition dict := list bytes.

Fixpoint index_of (k : bytes) (d : dict) : option nat :=
  match d with
  | [] => None
  | x :: r => if beq k x then Some O else
              match index_of k r with Some i => Some (S i) | None => None end
  end.

(* MetadataBuilder.Add: intern, return the stable index *)
Definition dict_add (d : dict) (k : bytes) : dict * nat :=
  match index_of k d with
  | Some i => (d, i)
  | None => (d ++ [k], length d)
  end.

(* [unsorted] is raised by Add when the new entry compares below its
   predecessor; entries are distinct, so at Build time the flag is the
   negation of "every adjacent pair is in order" *)
Fixpoint sortedb (d : dict) : bool :=
  match d with
  | a :: ((b :: _) as r) => ble a b && sortedb r
  | _ => true
  end.

(* variant/types.go: offsetSizeCode *)
Definition offset_size_code (m : N) : N :=
  if m <=? 255 then 0 else if m <=? 65535 then 1 else if m <=? 16777215 then 2 else 3.
Definition osz_of (code : N) : nat := S (N.to_nat code).

(* [acc; acc+x1; acc+x1+x2; ...]: n+1 offsets for n sizes *)
Fixpoint psums (acc : N) (sizes : list N) : list N :=
  match sizes with
  | [] => [acc]
  | x :: r => acc :: psums (acc + x) r
  end.

Definition write_uints (sz : nat) (xs : list N) : bytes := concat (map (to_le sz) xs).

(* MetadataBuilder.AppendTo *)
Definition encode_metadata (d : dict) : bytes :=
  let n := lenN d in
  let total := lenN (concat d) in
  let osc := offset_size_code (N.max total n) in
  let osz := osz_of osc in
  (1 + 16 * (if sortedb d then 1 else 0) + 64 * osc)
    :: to_le osz n ++ write_uints osz (psums 0 (map lenN d)) ++ concat d.

(** * Value encoder (variant/encoding.go) *)

(* makeHeader: basic | valueHeader << 2 *)
Definition hdr (basic vh : N) : N := basic + 4 * vh.

(* encodePrimitive / encodeValuePrimitive *)
Definition enc_prim (v : value) : bytes :=
  match v with
  | VNull => [hdr 0 0]
  | VBool true => [hdr 0 1]
  | VBool false => [hdr 0 2]
  | VInt k z => hdr 0 (int_id k) :: to_le (int_w k) (wrapZ (bitsN (int_w k)) z)
  | VFlt k bits => hdr 0 (flt_id k) :: to_le (flt_w k) bits
  | VDec k scale z => hdr 0 (dec_id k) :: (scale mod 256) :: to_le (dec_w k) (wrapZ (bitsN (dec_w k)) z)
  | VBinary b => hdr 0 id_binary :: to_le 4 (lenN b) ++ b
  | VString s =>
      if lenN s <=? 63 then hdr 1 (lenN s) :: s
      else hdr 0 id_string :: to_le 4 (lenN s) ++ s
  | VUuid b => hdr 0 id_uuid :: b
  | _ => [hdr 0 0]
  end.

Definition num_elems (n : N) : bytes := if 255 <? n then to_le 4 n else to_le 1 n.

(* buildArrayBytes: header | num_elements | offsets | values *)
Definition build_array (encs : list bytes) : bytes :=
  let n := lenN encs in
  let total := lenN (concat encs) in
  let osc := offset_size_code total in
  (3 + 4 * osc + 16 * (if 255 <? n then 1 else 0))
    :: num_elems n ++ write_uints (osz_of osc) (psums 0 (map lenN encs)) ++ concat encs.

(* an object field after its value has been encoded: name, (dictionary id, bytes) *)
Definition entry := (bytes * (nat * bytes))%type.

Section Sort.
  Variable A : Type.
  (* sort.Slice(entries, name <): keys are distinct, so every sort gives this list *)
  Fixpoint ins (e : bytes * A) (l : list (bytes * A)) : list (bytes * A) :=
    match l with
    | [] => [e]
    | h :: t => if ble (fst e) (fst h) then e :: l else h :: ins e t
    end.
  Definition isort (l : list (bytes * A)) : list (bytes * A) := fold_right ins [] l.
End Sort.
Arguments ins {A}. Arguments isort {A}.

Definition max_id (es : list entry) : N :=
  fold_right (fun e m => N.max (N.of_nat (fst (snd e))) m) 0 es.

(* buildObjectBytes: header | num_elements | field ids | offsets | values;
   [es] already sorted by name *)
Definition build_object (es : list entry) : bytes :=
  let n := lenN es in
  let encs := map (fun e : entry => snd (snd e)) es in
  let total := lenN (concat encs) in
  let fsc := offset_size_code (max_id es) in
  let osc := offset_size_code total in
  (2 + 4 * osc + 16 * fsc + 64 * (if 255 <? n then 1 else 0))
    :: num_elems n
    ++ write_uints (osz_of fsc) (map (fun e : entry => N.of_nat (fst (snd e))) es)
    ++ write_uints (osz_of osc) (psums 0 (map lenN encs))
    ++ concat encs.

Section EncLists.
  Variable enc : dict -> value -> dict * bytes.
  (* encodeValueArray: elements in order, dictionary threaded *)
  Fixpoint enc_elems (d : dict) (l : list value) : dict * list bytes :=
    match l with
    | [] => (d, [])
    | x :: r =>
        let '(d1, b) := enc d x in
        let '(d2, bs) := enc_elems d1 r in (d2, b :: bs)
    end.
  (* encodeValueObject: for each field in construction order: Add(name), then encode the value *)
  Fixpoint enc_fields (d : dict) (fs : list (bytes * value)) : dict * list entry :=
    match fs with
    | [] => (d, [])
    | (k, x) :: r =>
        let '(d0, id) := dict_add d k in
        let '(d1, b) := enc d0 x in
        let '(d2, es) := enc_fields d1 r in (d2, (k, (id, b)) :: es)
    end.
End EncLists.

(* encoder.encodeValue with the MetadataBuilder as state *)
Fixpoint enc_st (d : dict) (v : value) {struct v} : dict * bytes :=
  match v with
  | VArray l => let '(d', encs) := enc_elems enc_st d l in (d', build_array encs)
  | VObject fs => let '(d', es) := enc_fields enc_st d fs in (d', build_object (isort es))
  | _ => (d, enc_prim v)
  end.

(* variant.Encode on a fresh builder followed by Build: (metadata bytes, value bytes) *)
Definition encode (v : value) : bytes * bytes :=
  let '(d, b) := enc_st [] v in (encode_metadata d, b).
Definition dict_of (v : value) : dict := fst (enc_st [] v).

(** * Canonical field order: what any decoder returns for an encoded object *)

Fixpoint canon (v : value) : value :=
  match v with
  | VArray l => VArray (map canon l)
  | VObject fs => VObject (isort (map (fun kv => let '(k, x) := kv in (k, canon x)) fs))
  | _ => v
  end.

(** * Decoder, from the specification *)

(* the first [n] bytes and the rest; None when fewer are available *)
Fixpoint take (n : nat) (l : bytes) : option (bytes * bytes) :=
  match n with
  | O => Some ([], l)
  | S m =>
      match l with
      | [] => None
      | x :: r => match take m r with Some (a, b) => Some (x :: a, b) | None => None end
      end
  end.

(* size-checked before converting to unary *)
Definition takeN (n : N) (l : bytes) : option (bytes * bytes) :=
  if lenN l <? n then None else take (N.to_nat n) l.

(* [cnt] little-endian unsigned integers of [sz] bytes each *)
Fixpoint read_uints (cnt sz : nat) (data : bytes) : option (list N * bytes) :=
  match cnt with
  | O => Some ([], data)
  | S c =>
      match take sz data with
      | Some (a, r) =>
          match read_uints c sz r with
          | Some (xs, r') => Some (of_le a :: xs, r')
          | None => None
          end
      | None => None
      end
  end.

Definition read_uint (sz : nat) (data : bytes) : option (N * bytes) :=
  match take sz data with Some (a, r) => Some (of_le a, r) | None => None end.

Section MapOpt.
  Context {A B : Type}.
  Variable f : A -> option B.
  Fixpoint map_opt (l : list A) : option (list B) :=
    match l with
    | [] => Some []
    | x :: r =>
        match f x with
        | Some y => match map_opt r with Some ys => Some (y :: ys) | None => None end
        | None => None
        end
    end.
End MapOpt.

Fixpoint memb (k : bytes) (l : list bytes) : bool :=
  match l with [] => false | x :: r => beq k x || memb k r end.
Fixpoint nodupb (l : list bytes) : bool :=
  match l with [] => true | x :: r => negb (memb x r) && nodupb r end.

(* byte range [a, b) of [data] *)
Definition slice (data : bytes) (ab : N * N) : option bytes :=
  let '(a, b) := ab in
  if (b <? a) || (lenN data <? b) then None
  else Some (firstn (N.to_nat (b - a)) (skipn (N.to_nat a) data)).

(* metadata: header (version | sorted << 4 | (offset_size-1) << 6), dictionary_size,
   dictionary_size+1 offsets, string bytes *)
Definition decode_metadata (data : bytes) : option (dict * bool) :=
  match data with
  | [] => None
  | h :: r0 =>
      if negb (h mod 16 =? 1) then None else
      let sorted := (h / 16) mod 2 =? 1 in
      let osz := osz_of ((h / 64) mod 4) in
      match read_uint osz r0 with
      | Some (n, r1) =>
          if lenN r1 <? n then None else
          match read_uints (S (N.to_nat n)) osz r1 with
          | Some (offs, strs) =>
              match map_opt (slice strs) (combine offs (tl offs)) with
              | Some d => Some (d, sorted)
              | None => None
              end
          | None => None
          end
      | None => None
      end
  end.

Definition dec_prim (t : N) (rest : bytes) : option value :=
  match t with
  | 0 => Some VNull
  | 1 => Some (VBool true)
  | 2 => Some (VBool false)
  | 15 =>
      match read_uint 4 rest with
      | Some (n, r) => match takeN n r with Some (b, _) => Some (VBinary b) | None => None end
      | None => None
      end
  | 16 =>
      match read_uint 4 rest with
      | Some (n, r) => match takeN n r with Some (b, _) => Some (VString b) | None => None end
      | None => None
      end
  | 20 => match take 16 rest with Some (b, _) => Some (VUuid b) | None => None end
  | _ =>
      match int_kind_of_id t with
      | Some k =>
          match take (int_w k) rest with
          | Some (a, _) => Some (VInt k (sintZ (bitsN (int_w k)) (of_le a)))
          | None => None
          end
      | None =>
      match flt_kind_of_id t with
      | Some k =>
          match take (flt_w k) rest with
          | Some (a, _) => Some (VFlt k (of_le a))
          | None => None
          end
      | None =>
      match dec_kind_of_id t with
      | Some k =>
          match rest with
          | s :: r =>
              match take (dec_w k) r with
              | Some (a, _) => Some (VDec k s (sintZ (bitsN (dec_w k)) (of_le a)))
              | None => None
              end
          | [] => None
          end
      | None => None
      end end end
  end.

(* num_elements: 4 bytes when is_large, else 1 *)
Definition read_num (large : bool) (data : bytes) : option (N * bytes) :=
  read_uint (if large then 4 else 1)%nat data.

(* the value stored at [off] in the value area *)
Definition at_off (vals : bytes) (off : N) : option bytes :=
  if lenN vals <? off then None else Some (skipn (N.to_nat off) vals).

(* object: value_header = is_large << 4 | (field_id_size-1) << 2 | (offset_size-1);
   [rec] decodes a nested value *)
Definition dec_object (rec : bytes -> option value) (d : dict) (vh : N) (rest : bytes) : option value :=
  let osz := osz_of (vh mod 4) in
  let fsz := osz_of ((vh / 4) mod 4) in
  let large := (vh / 16) mod 2 =? 1 in
  match read_num large rest with
  | Some (n, r1) =>
      if lenN r1 <? n then None else
      match read_uints (N.to_nat n) fsz r1 with
      | Some (ids, r2) =>
          match read_uints (S (N.to_nat n)) osz r2 with
          | Some (offs, r3) =>
              match takeN (last offs 0) r3 with
              | Some (vals, _) =>
                  match map_opt (fun io : N * N =>
                           match nth_error d (N.to_nat (fst io)) with
                           | Some name =>
                               match at_off vals (snd io) with
                               | Some sub =>
                                   match rec sub with
                                   | Some x => Some (name, x)
                                   | None => None
                                   end
                               | None => None
                               end
                           | None => None
                           end) (combine ids offs) with
                  | Some fields =>
                      if nodupb (map fst fields) then Some (VObject fields) else None
                  | None => None
                  end
              | None => None
              end
          | None => None
          end
      | None => None
      end
  | None => None
  end.

(* array: value_header = is_large << 2 | (offset_size-1) *)
Definition dec_array (rec : bytes -> option value) (vh : N) (rest : bytes) : option value :=
  let osz := osz_of (vh mod 4) in
  let large := (vh / 4) mod 2 =? 1 in
  match read_num large rest with
  | Some (n, r1) =>
      if lenN r1 <? n then None else
      match read_uints (S (N.to_nat n)) osz r1 with
      | Some (offs, r3) =>
          match takeN (last offs 0) r3 with
          | Some (vals, _) =>
              match map_opt (fun off : N =>
                       match at_off vals off with
                       | Some sub => rec sub
                       | None => None
                       end) (removelast offs) with
              | Some elems => Some (VArray elems)
              | None => None
              end
          | None => None
          end
      | None => None
      end
  | None => None
  end.

Definition dec_short (vh : N) (rest : bytes) : option value :=
  match takeN vh rest with Some (s, _) => Some (VString s) | None => None end.

(* value_metadata byte: basic_type in the low 2 bits, value_header above *)
Fixpoint dec (fuel : nat) (d : dict) (data : bytes) {struct fuel} : option value :=
  match fuel with
  | O => None
  | S f =>
      match data with
      | [] => None
      | h :: rest =>
          match h mod 4 with
          | 0 => dec_prim (h / 4) rest
          | 1 => dec_short (h / 4) rest
          | 2 => dec_object (dec f d) d (h / 4) rest
          | _ => dec_array (dec f d) (h / 4) rest
          end
      end
  end.

Definition decode_value (d : dict) (data : bytes) : option value :=
  dec (S (length data)) d data.

(* variant.DecodeMetadata + variant.Decode *)
Definition decode (meta data : bytes) : option value :=
  match decode_metadata meta with
  | Some (d, _) => decode_value d data
  | None => None
  end.

(** * Well-formed trees *)

Definition wf_int (k : int_kind) (z : Z) : Prop := in_sint (bitsN (int_w k)) z.
Definition wf_key (k : bytes) : Prop := wf_bytes k.

Fixpoint wf (v : value) : Prop :=
  match v with
  | VNull | VBool _ => True
  | VInt k z => in_sint (bitsN (int_w k)) z
  | VFlt k bits => bits < 2 ^ bitsN (flt_w k)
  | VDec k scale z => scale < 256 /\ in_sint (bitsN (dec_w k)) z
  | VBinary b => wf_bytes b
  | VString s => wf_bytes s
  | VUuid b => wf_bytes b /\ length b = 16%nat
  | VArray l => (fix all (l : list value) : Prop :=
                   match l with [] => True | x :: r => wf x /\ all r end) l
  | VObject fs =>
      NoDup (map fst fs) /\
      (fix all (fs : list (bytes * value)) : Prop :=
         match fs with [] => True | (k, x) :: r => wf_bytes k /\ wf x /\ all r end) fs
  end.

(* every object lists its fields in increasing name order: [canon] is the identity *)
Fixpoint key_sorted (v : value) : Prop :=
  match v with
  | VArray l => (fix all (l : list value) : Prop :=
                   match l with [] => True | x :: r => key_sorted x /\ all r end) l
  | VObject fs =>
      sortedb (map fst fs) = true /\
      (fix all (fs : list (bytes * value)) : Prop :=
         match fs with [] => True | (k, x) :: r => key_sorted x /\ all r end) fs
  | _ => True
  end.

(* the encoding fits the format: 4-byte offsets, 4-byte dictionary offsets *)
Definition encodable (v : value) : Prop :=
  let '(d, b) := enc_st [] v in
  lenN b < 2 ^ 32 /\ lenN d < 2 ^ 32 /\ lenN (concat d) < 2 ^ 32.
