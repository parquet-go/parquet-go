(** C19 — reconstruction inverts shredding, for every shredding schema and
    every well-formed value: fully shredded, partially shredded (residual
    fields), not shredded, and type mismatches going to the residual value. *)
From Coq Require Import List NArith ZArith Bool Arith Lia Permutation.
From PQ Require Import Base.Bytes Variant.Model Variant.Shred
  Variant.BaseLemmas Variant.EncProofs.
Import ListNotations.
Open Scope N_scope.

Lemma int_kind_eqb_eq a b : int_kind_eqb a b = true -> a = b.
Proof. destruct a, b; cbn; intros H; try reflexivity; discriminate. Qed.
Lemma flt_kind_eqb_eq a b : flt_kind_eqb a b = true -> a = b.
Proof. destruct a, b; cbn; intros H; try reflexivity; discriminate. Qed.
Lemma dec_kind_eqb_eq a b : dec_kind_eqb a b = true -> a = b.
Proof. destruct a, b; cbn; intros H; try reflexivity; discriminate. Qed.

Lemma to_i32_id z : in_sint 32 z -> to_i32 z = z.
Proof. intros H. unfold to_i32. apply sintZ_wrapZ; [lia|exact H]. Qed.

Lemma in_sint_le a b z : a <= b -> 0 < a -> in_sint a z -> in_sint b z.
Proof.
  unfold in_sint. intros Hab Ha [H1 H2].
  assert (2 ^ (Z.of_N a - 1) <= 2 ^ (Z.of_N b - 1))%Z by (apply Z.pow_le_mono_r; lia).
  lia.
Qed.

(** * decimal leaves narrower than 16 bytes (the layouts of other writers:
    FIXED_LEN_BYTE_ARRAY(n), BYTE_ARRAY of minimal length): the sign extension
    of bigEndianToLittleEndian16 *)
Lemma to_le_snoc n : forall x, to_le (S n) x = to_le n x ++ [(x / 256 ^ N.of_nat n) mod 256].
Proof.
  induction n as [|n IH]; intros x.
  - cbn. now rewrite N.div_1_r.
  - change (to_le (S (S n)) x) with ((x mod 256) :: to_le (S n) (x / 256)).
    rewrite IH. cbn [to_le app]. f_equal. f_equal. f_equal. f_equal.
    rewrite N.div_div by (try lia; apply N.pow_nonzero; lia).
    f_equal. rewrite Nat2N.inj_succ, N.pow_succ_r'. reflexivity.
Qed.

Lemma be_to_le16_narrow n w : w < 256 ^ N.of_nat (S n) -> (S n <= 16)%nat ->
  of_le (be_to_le16 (rev (to_le (S n) w))) =
  w + 256 ^ N.of_nat (S n) * (if 128 * 256 ^ N.of_nat n <=? w then 256 ^ N.of_nat (16 - S n) - 1 else 0).
Proof.
  intros Hw Hn. unfold be_to_le16. cbv zeta.
  rewrite rev_involutive, to_le_length.
  rewrite of_le_app, to_le_length, of_le_to_le by exact Hw.
  f_equal. f_equal.
  rewrite to_le_snoc, rev_app_distr. cbn [rev app].
  assert (Hp : 0 < 256 ^ N.of_nat n) by (apply N.neq_0_lt_0, N.pow_nonzero; lia).
  rewrite Nat2N.inj_succ, N.pow_succ_r' in Hw.
  set (p := 256 ^ N.of_nat n) in *. clearbody p.
  assert (Hp0 : p <> 0) by lia.
  assert (Hq : w / p < 256). { apply N.div_lt_upper_bound; lia. }
  rewrite (N.mod_small _ _ Hq).
  assert (E : (128 <=? w / p) = (128 * p <=? w)).
  { destruct (N.leb_spec 128 (w / p)) as [H|H];
    destruct (N.leb_spec (128 * p) w) as [H'|H']; try reflexivity; exfalso.
    - apply (N.mul_le_mono_r _ _ p) in H.
      pose proof (N.mul_div_le w p Hp0). lia.
    - assert (128 <= w / p) by (apply N.div_le_lower_bound; lia). lia. }
  rewrite E. destruct (128 * p <=? w).
  - pose proof (of_le_repeat255 (16 - S n)). lia.
  - apply of_le_repeat0.
Qed.

(* sign extension from k to m bits: the upper m-k bits are copies of bit k-1 *)
Lemma sintZ_extend k m w : 0 < k -> k <= m -> w < 2 ^ k ->
  sintZ m (w + 2 ^ k * (if 2 ^ (k - 1) <=? w then 2 ^ (m - k) - 1 else 0)) = sintZ k w.
Proof.
  intros Hk Hkm Hw. unfold sintZ.
  assert (EK : 2 * 2 ^ (k - 1) = 2 ^ k) by (rewrite <- N.pow_succ_r'; f_equal; lia).
  assert (EM : 2 * 2 ^ (m - 1) = 2 ^ m) by (rewrite <- N.pow_succ_r'; f_equal; lia).
  assert (EQ : 2 ^ k * 2 ^ (m - k) = 2 ^ m) by (rewrite <- N.pow_add_r; f_equal; lia).
  assert (HH : 2 ^ (k - 1) <= 2 ^ (m - 1)) by (apply N.pow_le_mono_r; lia).
  assert (HKM : 2 ^ k <= 2 ^ m) by (apply N.pow_le_mono_r; lia).
  assert (ZK : (2 ^ Z.of_N k)%Z = Z.of_N (2 ^ k)) by now rewrite N2Z.inj_pow.
  assert (ZM : (2 ^ Z.of_N m)%Z = Z.of_N (2 ^ m)) by now rewrite N2Z.inj_pow.
  rewrite ZK, ZM. clear ZK ZM.
  generalize dependent (2 ^ (m - k)). generalize dependent (2 ^ (m - 1)). generalize dependent (2 ^ m).
  generalize dependent (2 ^ (k - 1)). generalize dependent (2 ^ k). intros K Hw H EK M HKM HM EM HH Q EQ.
  destruct (N.leb_spec H w); destruct (N.ltb_spec w H); try lia.
  - rewrite N.mul_sub_distr_l, N.mul_1_r, EQ. destruct (N.ltb_spec (w + (M - K)) HM); lia.
  - rewrite N.mul_0_r, N.add_0_r. destruct (N.ltb_spec w HM); lia.
Qed.

Lemma dec_narrow_back n z : (1 <= n <= 16)%nat -> in_sint (8 * N.of_nat n) z ->
  sintZ 128 (of_le (be_to_le16 (rev (to_le n (wrapZ (8 * N.of_nat n) z))))) = z.
Proof.
  intros Hn Hz. destruct n as [|m]; [lia|].
  set (k := 8 * N.of_nat (S m)) in *.
  assert (Hk : 0 < k) by (unfold k; lia).
  pose proof (wrapZ_lt k z) as Hw.
  rewrite be_to_le16_narrow; [| rewrite pow256; exact Hw | lia].
  replace (128 * 256 ^ N.of_nat m) with (2 ^ (k - 1)).
  2:{ rewrite pow256. change 128 with (2 ^ 7). rewrite <- N.pow_add_r. f_equal. unfold k. lia. }
  rewrite !pow256. replace (8 * N.of_nat (16 - S m)) with (128 - k) by (unfold k; lia).
  fold k.
  rewrite sintZ_extend by (try assumption; unfold k; lia). now apply sintZ_wrapZ.
Qed.

Lemma dec16_back z : in_sint 128 z ->
  sintZ 128 (of_le (be_to_le16 (rev (to_le 16 (wrapZ 128 z))))) = z.
Proof. exact (dec_narrow_back 16 z ltac:(lia)). Qed.

Opaque to_le.
Lemma of_to_parquet t v p : wf v -> to_parquet t v = Some p -> of_parquet t p = Some v.
Proof.
  intros Hw H. destruct t, v; cbn [to_parquet] in H; try discriminate.
  - inversion H; reflexivity.
  - destruct (int_kind_eqb k k0) eqn:E; [|discriminate]. apply int_kind_eqb_eq in E. subst k0.
    inversion H; subst. cbn [wf] in Hw. cbn [of_parquet].
    destruct (int_w k <=? 4)%nat eqn:Ew.
    + assert (H32 : in_sint 32 z).
      { eapply in_sint_le; [| |exact Hw]; unfold bitsN; destruct k; cbn in *; try lia; discriminate. }
      rewrite to_i32_id by exact H32.
      rewrite sintZ_wrapZ; [reflexivity| |exact Hw]. unfold bitsN. destruct k; cbn; lia.
    + reflexivity.
  - destruct (flt_kind_eqb k k0) eqn:E; [|discriminate]. apply flt_kind_eqb_eq in E. subst k0.
    inversion H; subst. destruct k; reflexivity.
  - inversion H; reflexivity.
  - inversion H; reflexivity.
  - destruct (dec_kind_eqb k k0) eqn:E; [|discriminate]. apply dec_kind_eqb_eq in E. subst k0.
    destruct (scale =? Z.of_N scale0)%Z eqn:Es; [|discriminate]. apply Z.eqb_eq in Es.
    destruct (fits_precision k z precision); [|discriminate]. cbn [andb] in H.
    cbn [wf] in Hw. destruct Hw as [Hs Hz]. subst scale.
    assert (Esc : Z.to_N (Z.of_N scale0) mod 256 = scale0) by (rewrite N2Z.id; now apply N.mod_small).
    destruct k; injection H as <-.
    + cbn [of_parquet]. rewrite Esc, to_i32_id; [reflexivity|exact Hz].
    + cbn [of_parquet]. now rewrite Esc.
    + unfold of_parquet. rewrite rev_length, to_le_length. cbn [Nat.ltb Nat.leb]. rewrite Esc.
      now rewrite dec16_back.
  - inversion H; subst. cbn [wf] in Hw. destruct Hw as [_ H16]. cbn [of_parquet].
    now rewrite H16.
Qed.
Transparent to_le.

Section SchemaInd.
  Variable P : schema -> Prop.
  Hypothesis Hnone : P SNone.
  Hypothesis Hprim : forall t, P (SPrim t).
  Hypothesis Hlist : forall e, P e -> P (SList e).
  Hypothesis Hobj : forall fs, Forall (fun kg => P (snd kg)) fs -> P (SObj fs).
  Fixpoint schema_ind' (s : schema) : P s :=
    match s with
    | SNone => Hnone
    | SPrim t => Hprim t
    | SList e => Hlist e (schema_ind' e)
    | SObj fs =>
        Hobj fs ((fix go (fs : list (bytes * schema)) : Forall (fun kg => P (snd kg)) fs :=
                    match fs with
                    | [] => Forall_nil _
                    | kg :: r => Forall_cons kg (schema_ind' (snd kg)) (go r)
                    end) fs)
    end.
End SchemaInd.

Lemma wf_schema_obj fs : wf_schema (SObj fs) <->
  NoDup (map fst fs) /\ Forall (fun kg => wf_schema (snd kg)) fs.
Proof. cbn [wf_schema]. apply and_iff_compat_l. exact (fix_all_snd_Forall wf_schema fs). Qed.

Lemma find_field_In k x fs : NoDup (map fst fs) -> (find_field k fs = Some x <-> In (k, x) fs).
Proof.
  induction fs as [|[k' x'] fs IH]; intros ND; cbn [find_field]; [split; [discriminate|contradiction]|].
  inversion ND as [|? ? Hn ND']; subst. destruct (beq k' k) eqn:E.
  - apply beq_eq in E. subst k'. split.
    + intros H. inversion H. now left.
    + intros [H|H]; [now inversion H|]. exfalso. apply Hn. change k with (fst (k, x)). now apply in_map.
  - rewrite (IH ND'). apply beq_false_iff in E. split; [now right|].
    intros [H|H]; [inversion H; congruence|exact H].
Qed.

Lemma find_field_Some_In k x fs : find_field k fs = Some x -> In (k, x) fs.
Proof.
  induction fs as [|[k' x'] fs IH]; cbn [find_field]; [discriminate|].
  destruct (beq k' k) eqn:E; [|intros H; right; now apply IH].
  apply beq_eq in E. subst. intros H. inversion H. now left.
Qed.

Lemma find_field_None k fs : find_field k fs = None -> ~ In k (map fst fs).
Proof.
  induction fs as [|[k' x'] fs IH]; cbn [find_field]; [tauto|].
  destruct (beq k' k) eqn:E; [discriminate|]. apply beq_false_iff in E.
  intros H [H1|H1]; [cbn in H1; congruence|now apply IH].
Qed.

Lemma find_field_cmap k fs : find_field k (cmap fs) = option_map canon (find_field k fs).
Proof.
  induction fs as [|[k' x'] fs IH]; [reflexivity|]. cbn [cmap map find_field].
  destruct (beq k' k); [reflexivity|exact IH].
Qed.

Definition keep (names : list bytes) (kv : bytes * value) : bool := negb (memb (fst kv) names).

Definition typed_part (names : list bytes) (L : list (bytes * value)) : list (bytes * value) :=
  flat_map (fun nm => match find_field nm L with Some c => [(nm, c)] | None => [] end) names.

Lemma NoDup_app_intro {A} (a b : list A) :
  NoDup a -> NoDup b -> (forall x, In x a -> ~ In x b) -> NoDup (a ++ b).
Proof.
  induction a as [|x a IH]; intros Ha Hb Hd; [exact Hb|]. inversion Ha; subst. cbn. constructor.
  - rewrite in_app_iff. intros [H|H]; [contradiction|]. apply (Hd x); [now left|exact H].
  - apply IH; auto. intros y Hy. apply Hd. now right.
Qed.

Lemma typed_part_keys names L : forall k, In k (map fst (typed_part names L)) -> In k names.
Proof.
  induction names as [|n names IH]; intros k H; [contradiction|].
  unfold typed_part in H. cbn [flat_map] in H. rewrite map_app, in_app_iff in H.
  destruct H as [H|H]; [|right; now apply IH].
  destruct (find_field n L); cbn in H; [destruct H as [<-|[]]; now left|contradiction].
Qed.

Lemma typed_part_NoDup names L : NoDup names -> NoDup (map fst (typed_part names L)).
Proof.
  induction 1 as [|n names Hn ND IH]; [constructor|].
  unfold typed_part. cbn [flat_map]. rewrite map_app. apply NoDup_app_intro.
  - destruct (find_field n L); cbn; [constructor; [tauto|constructor]|constructor].
  - exact IH.
  - intros k Hk Hk2. apply typed_part_keys in Hk2.
    destruct (find_field n L); cbn in Hk; [destruct Hk as [<-|[]]; contradiction|contradiction].
Qed.

Lemma filter_keys_NoDup (f : bytes * value -> bool) L : NoDup (map fst L) -> NoDup (map fst (filter f L)).
Proof.
  induction L as [|a L IH]; intros ND; [constructor|]. inversion ND; subst. cbn [filter].
  destruct (f a); [|now apply IH]. cbn. constructor; [|now apply IH].
  intros H. apply in_map_iff in H as (y & Ey & Hy). apply filter_In in Hy as [Hy _].
  match goal with Hn : ~ In (fst a) _ |- _ => apply Hn end. rewrite <- Ey. now apply in_map.
Qed.

Lemma partition_perm names L : NoDup names -> NoDup (map fst L) ->
  Permutation (typed_part names L ++ filter (keep names) L) L.
Proof.
  intros Hn HL. apply NoDup_Permutation.
  - apply NoDup_map_inv with (f := fst). rewrite map_app. apply NoDup_app_intro.
    + now apply typed_part_NoDup.
    + now apply filter_keys_NoDup.
    + intros k H1 H2. apply typed_part_keys in H1.
      apply in_map_iff in H2 as ([k' x] & Ek & H2). cbn in Ek. subst k'.
      apply filter_In in H2 as [_ H2]. unfold keep in H2. cbn in H2.
      apply negb_true_iff, memb_false in H2. contradiction.
  - now apply NoDup_map_inv with (f := fst).
  - intros [k x]. rewrite in_app_iff, filter_In. unfold typed_part. rewrite in_flat_map. split.
    + intros [(nm & Hnm & H)|[H _]]; [|exact H].
      destruct (find_field nm L) as [c|] eqn:E; [|contradiction].
      destruct H as [H|[]]. inversion H; subst. now apply find_field_Some_In.
    + intros H. destruct (memb k names) eqn:E.
      * left. exists k. split; [now apply memb_In|].
        apply (find_field_In k x L HL) in H. rewrite H. now left.
      * right. split; [exact H|]. unfold keep. cbn. now rewrite E.
Qed.

Lemma cmap_app a b : cmap (a ++ b) = cmap a ++ cmap b.
Proof. unfold cmap. apply map_app. Qed.

Lemma cmap_filter names L : cmap (filter (keep names) L) = filter (keep names) (cmap L).
Proof.
  induction L as [|[k x] L IH]; [reflexivity|].
  change (cmap ((k, x) :: L)) with ((k, canon x) :: cmap L). cbn [filter].
  change (keep names (k, canon x)) with (keep names (k, x)).
  destruct (keep names (k, x)); [|exact IH].
  change (cmap ((k, x) :: filter (keep names) L)) with ((k, canon x) :: cmap (filter (keep names) L)).
  now rewrite IH.
Qed.

Lemma filter_all {A} (f : A -> bool) l : Forall (fun x => f x = true) l -> filter f l = l.
Proof. induction 1 as [|x l Hx H IH]; [reflexivity|]. cbn. now rewrite Hx, IH. Qed.

Lemma wf_filter (f : bytes * value -> bool) ofs : wf (VObject ofs) -> wf (VObject (filter f ofs)).
Proof.
  rewrite !wf_object. intros [ND H]. split; [now apply filter_keys_NoDup|].
  apply Forall_forall. intros x Hx. apply filter_In in Hx as [Hx _].
  rewrite Forall_forall in H. now apply H.
Qed.

Section FragInd.
  Context {R : Type}.
  Variable P : frag R -> Prop.
  Hypothesis Hn : forall r, P (FNone r).
  Hypothesis Hp : forall r p, P (FPrim r p).
  Hypothesis Hl : forall r es, Forall P es -> P (FList r es).
  Hypothesis Ho : forall r fs, Forall P fs -> P (FObj r fs).
  Fixpoint frag_ind' (f : frag R) : P f :=
    match f with
    | FNone r => Hn r
    | FPrim r p => Hp r p
    | FList r es => Hl r es ((fix go (l : list (frag R)) : Forall P l :=
                                match l with [] => Forall_nil _ | x :: t => Forall_cons x (frag_ind' x) (go t) end) es)
    | FObj r fs => Ho r fs ((fix go (l : list (frag R)) : Forall P l :=
                                match l with [] => Forall_nil _ | x :: t => Forall_cons x (frag_ind' x) (go t) end) fs)
    end.
End FragInd.

Lemma frag_map_id {R} (f : frag R) : frag_map (fun x => x) f = f.
Proof.
  assert (Ho : forall r : option R, option_map (fun x => x) r = r) by now intros [x|].
  induction f using frag_ind'; cbn [frag_map]; rewrite Ho; try reflexivity.
  - f_equal. rewrite <- (map_id es) at 2. now apply map_ext_Forall.
  - f_equal. rewrite <- (map_id fs) at 2. now apply map_ext_Forall.
Qed.

Section Reconstruct.
  (* [n] stands for what happens to a residual value between the writer and
     the reader: nothing, or encoding followed by decoding *)
  Variable n : value -> value.
  Hypothesis n_canon : forall x, wf x -> canon (n x) = canon x.
  Hypothesis n_object : forall l, exists l', n (VObject l) = VObject l'.

  Definition rs_good (s : schema) : Prop :=
    wf_schema s -> forall v, wf v ->
    exists v', reconstruct s (frag_map n (shred s v)) = Some (Some v') /\ canon v' = canon v.

  Lemma fallback_good s v : wf v ->
    exists v', reconstruct s (frag_map n (FNone (Some v))) = Some (Some v') /\ canon v' = canon v.
  Proof. intros Hw. exists (n v). split; [destruct s; reflexivity|now apply n_canon]. Qed.

  Lemma rec_fields_ok fs ofs :
    Forall (fun kg => rs_good (snd kg)) fs -> Forall (fun kg => wf_schema (snd kg)) fs ->
    Forall (fun kv : bytes * value => wf (snd kv)) ofs ->
    exists typed,
      rec_fields reconstruct fs (map (frag_map n) (shred_fields shred ofs fs)) = Some typed /\
      cmap typed = typed_part (map fst fs) (cmap ofs).
  Proof.
    intros HG HS HW. induction fs as [|[name g] fs IH]; [exists []; split; reflexivity|].
    inversion HG as [|? ? Hg HG']; inversion HS as [|? ? Hs HS']; subst. cbn [fst snd] in *.
    destruct (IH HG' HS') as (rest & Er & Ec).
    unfold typed_part in *. cbn [shred_fields map rec_fields flat_map fst]. rewrite find_field_cmap.
    destruct (find_field name ofs) as [fv|] eqn:Ef; cbn [option_map].
    - assert (Hwf : wf fv).
      { apply find_field_Some_In in Ef. rewrite Forall_forall in HW. exact (HW _ Ef). }
      destruct (Hg Hs fv Hwf) as (v' & Ev & Ecv). rewrite Ev, Er.
      exists ((name, v') :: rest). split; [reflexivity|]. cbn [cmap map app]. fold (cmap rest).
      now rewrite Ecv, Ec.
    - assert (E0 : reconstruct g (frag_map n (FNone None)) = Some None) by (destruct g; reflexivity).
      rewrite E0, Er. exists rest. split; [reflexivity|exact Ec].
  Qed.

  Lemma object_good fs : Forall (fun kg => rs_good (snd kg)) fs -> rs_good (SObj fs).
  Proof.
    intros HG Hws v Hw. apply wf_schema_obj in Hws as [Hnd Hws].
    destruct v; try (apply fallback_good; exact Hw).
    rename fs0 into ofs. pose proof Hw as Hw0. apply wf_object in Hw as [Hond Hwo].
    assert (HW : Forall (fun kv : bytes * value => wf (snd kv)) ofs)
      by (eapply Forall_impl; [|exact Hwo]; cbn; tauto).
    destruct (rec_fields_ok fs ofs HG Hws HW) as (typed & Er & Ec).
    set (resid := filter (keep (map fst fs)) ofs).
    assert (Hshred : shred (SObj fs) (VObject ofs) =
              FObj (match resid with [] => None | _ => Some (VObject resid) end)
                   (shred_fields shred ofs fs)) by reflexivity.
    rewrite Hshred. cbn [frag_map reconstruct]. rewrite Er.
    assert (HL : NoDup (map fst (cmap ofs))) by now rewrite cmap_keys.
    pose proof (partition_perm (map fst fs) (cmap ofs) Hnd HL) as Hperm.
    assert (Hcanon : forall X, Permutation (cmap X) (filter (keep (map fst fs)) (cmap ofs)) ->
              canon (VObject (typed ++ X)) = canon (VObject ofs)).
    { intros X HX. rewrite !canon_object. f_equal. symmetry. apply isort_perm_eq; [exact HL|].
      rewrite cmap_app, Ec. symmetry. rewrite HX. exact Hperm. }
    destruct resid as [|r0 resid'] eqn:Eres.
    - cbn [option_map]. exists (VObject typed). split; [reflexivity|].
      rewrite <- (app_nil_r typed). apply Hcanon. cbn [cmap map]. rewrite <- cmap_filter.
      fold resid. rewrite Eres. reflexivity.
    - cbn [option_map]. rewrite <- Eres.
      assert (Hwr : wf (VObject resid)) by (apply wf_filter; exact Hw0).
      destruct (n_object resid) as (l' & El). pose proof (n_canon _ Hwr) as Hc.
      rewrite El in Hc |- *. rewrite !canon_object in Hc. injection Hc as Hc.
      assert (Hpl : Permutation (cmap l') (cmap resid)).
      { rewrite <- (isort_perm (cmap l')), Hc. apply isort_perm. }
      assert (Hall : Forall (fun kv => keep (map fst fs) kv = true) l').
      { apply Forall_forall. intros [k x] Hin.
        assert (Hk : In k (map fst (cmap resid))).
        { eapply Permutation_in; [apply Permutation_map; exact Hpl|].
          rewrite cmap_keys. change k with (fst (k, x)). now apply in_map. }
        rewrite cmap_keys in Hk. apply in_map_iff in Hk as ([k' x'] & Ek & Hk). cbn in Ek. subst k'.
        apply filter_In in Hk as [_ Hk]. exact Hk. }
      change (fun kv : bytes * value => negb (memb (fst kv) (schema_names fs))) with (keep (map fst fs)).
      rewrite (filter_all _ _ Hall).
      exists (VObject (typed ++ l')). split; [reflexivity|]. apply Hcanon.
      rewrite Hpl. unfold resid. now rewrite cmap_filter.
  Qed.

  Lemma list_good e : rs_good e -> rs_good (SList e).
  Proof.
    intros He Hws v Hw. cbn [wf_schema] in Hws.
    destruct v; try (apply fallback_good; exact Hw).
    apply wf_array in Hw.
    assert (Hshred : shred (SList e) (VArray l) = FList None (map (shred e) l)) by reflexivity.
    rewrite Hshred. clear Hshred. cbn [frag_map option_map reconstruct].
    assert (H : exists os, map_opt (reconstruct e) (map (frag_map n) (map (shred e) l)) = Some os /\
                           map canon (map or_null os) = map canon l).
    { induction l as [|x l IH]; [exists []; split; reflexivity|].
      inversion Hw as [|? ? Hx Hl]; subst. destruct (IH Hl) as (os & Eo & Ec).
      destruct (He Hws x Hx) as (v' & Ev & Ecv). cbn [map map_opt]. rewrite Ev, Eo.
      exists (Some v' :: os). split; [reflexivity|]. cbn [map or_null]. now rewrite Ecv, Ec. }
    destruct H as (os & Eo & Ec). rewrite Eo.
    exists (VArray (map or_null os)). split; [reflexivity|]. rewrite !canon_array. now rewrite Ec.
  Qed.

  Lemma prim_good t : rs_good (SPrim t).
  Proof.
    intros Hws v Hw. cbn [wf_schema] in Hws. cbn [shred].
    destruct (to_parquet t v) as [p|] eqn:E; [|apply fallback_good; exact Hw].
    cbn [frag_map option_map reconstruct]. rewrite (of_to_parquet t v p Hw E).
    exists v. split; reflexivity.
  Qed.

  Theorem reconstruct_shred_gen s : rs_good s.
  Proof.
    induction s using schema_ind'.
    - intros _ v Hw. apply fallback_good; exact Hw.
    - apply prim_good.
    - now apply list_good.
    - now apply object_good.
  Qed.
End Reconstruct.

Theorem reconstruct_shred s v : wf_schema s -> wf v ->
  exists v', reconstruct s (shred s v) = Some (Some v') /\ canon v' = canon v.
Proof.
  intros Hs Hw.
  destruct (reconstruct_shred_gen (fun x => x) (fun _ _ => eq_refl) (fun l => ex_intro _ l eq_refl) s Hs v Hw)
    as (v' & E & Ec).
  exists v'. split; [|exact Ec]. now rewrite frag_map_id in E.
Qed.

Lemma cmap_isort fs : cmap (isort fs) = isort (cmap fs).
Proof. unfold cmap. symmetry. apply isort_map_values. now intros [k x]. Qed.

Lemma canon_idem v : canon (canon v) = canon v.
Proof.
  induction v using value_ind'; try reflexivity.
  - rewrite !canon_array. f_equal. rewrite map_map.
    induction l as [|x l IHl]; [reflexivity|]. inversion H; subst. cbn. f_equal; auto.
  - rewrite !canon_object. f_equal. rewrite cmap_isort.
    assert (E : cmap (cmap fs) = cmap fs).
    { induction fs as [|[k x] fs IHf]; [reflexivity|]. inversion H; subst. cbn in *. f_equal; [f_equal; auto|auto]. }
    rewrite E. apply isort_id, isort_sorted.
Qed.

(* equality of variant values: objects are unordered sets of named fields *)
Inductive veq : value -> value -> Prop :=
| veq_refl v : veq v v
| veq_array l l' : Forall2 veq l l' -> veq (VArray l) (VArray l')
| veq_object fs fs' fs'' :
    Permutation fs fs' ->
    Forall2 (fun a b : bytes * value => fst a = fst b /\ veq (snd a) (snd b)) fs' fs'' ->
    veq (VObject fs) (VObject fs'').

Lemma veq_canon v : veq v (canon v).
Proof.
  induction v using value_ind'; try apply veq_refl.
  - rewrite canon_array. apply veq_array.
    induction H as [|x l Hx H IH]; [constructor|]. cbn. now constructor.
  - rewrite canon_object, <- cmap_isort. apply veq_object with (fs' := isort fs).
    + symmetry. apply isort_perm.
    + assert (HF : Forall (fun kv : bytes * value => veq (snd kv) (canon (snd kv))) (isort fs)).
      { eapply Permutation_Forall; [symmetry; apply isort_perm|exact H]. }
      induction HF as [|[k x] l Hx HF IH]; [constructor|]. cbn [cmap map]. constructor; [|exact IH].
      split; [reflexivity|exact Hx].
Qed.

Definition optP {A} (Q : A -> Prop) (o : option A) : Prop := match o with Some x => Q x | None => True end.

(* [Q] holds of every residual value of the fragment *)
Inductive all_resid (Q : value -> Prop) : frag value -> Prop :=
| ar_none r : optP Q r -> all_resid Q (FNone r)
| ar_prim r p : optP Q r -> all_resid Q (FPrim r p)
| ar_list r es : optP Q r -> Forall (all_resid Q) es -> all_resid Q (FList r es)
| ar_obj r fs : optP Q r -> Forall (all_resid Q) fs -> all_resid Q (FObj r fs).

Lemma all_resid_and Q1 Q2 f : all_resid Q1 f -> all_resid Q2 f -> all_resid (fun x => Q1 x /\ Q2 x) f.
Proof.
  induction f using frag_ind'; intros A B; inversion A; inversion B; subst; constructor;
    try (destruct r; cbn in *; tauto).
  - rewrite Forall_forall in *. intros x Hx. apply H; auto.
  - rewrite Forall_forall in *. intros x Hx. apply H; auto.
Qed.

Lemma all_resid_impl (Q1 Q2 : value -> Prop) f : (forall x, Q1 x -> Q2 x) -> all_resid Q1 f -> all_resid Q2 f.
Proof.
  intros HQ. induction f using frag_ind'; intros A; inversion A; subst; constructor;
    try (destruct r; cbn in *; now auto).
  - rewrite Forall_forall in *. intros x Hx. apply H; auto.
  - rewrite Forall_forall in *. intros x Hx. apply H; auto.
Qed.

(* properties inherited by the parts of a value that shredding can put in a value column *)
Definition closed (Q : value -> Prop) : Prop :=
  (forall l, Q (VArray l) -> Forall Q l) /\
  (forall fs, Q (VObject fs) -> Forall (fun kv => Q (snd kv)) fs) /\
  (forall f fs, Q (VObject fs) -> Q (VObject (filter f fs))).

Lemma shred_resid Q s : closed Q -> forall v, Q v -> all_resid Q (shred s v).
Proof.
  intros (Ca & Co & Cf). induction s using schema_ind'; intros v Hv.
  - constructor. exact Hv.
  - cbn [shred]. destruct (to_parquet t v); constructor; cbn; auto.
  - destruct v; try (constructor; exact Hv).
    change (shred (SList s) (VArray l)) with (FList (@None value) (map (shred s) l)).
    constructor; [exact I|]. apply Ca in Hv. rewrite Forall_map.
    eapply Forall_impl; [|exact Hv]. intros x Hx. now apply IHs.
  - destruct v; try (constructor; exact Hv). rename fs0 into ofs.
    change (shred (SObj fs) (VObject ofs)) with
      (FObj (match filter (keep (map fst fs)) ofs with [] => None | _ => Some (VObject (filter (keep (map fst fs)) ofs)) end)
            (shred_fields shred ofs fs)).
    constructor.
    + pose proof (Cf (keep (map fst fs)) ofs Hv) as Hr.
      destruct (filter (keep (map fst fs)) ofs); [exact I|exact Hr].
    + apply Co in Hv. induction H as [|[name g] fs Hg H IH]; [constructor|].
      cbn [shred_fields]. constructor; [|exact IH].
      destruct (find_field name ofs) as [fv|] eqn:E; [|constructor; exact I].
      apply Hg. apply find_field_Some_In in E. rewrite Forall_forall in Hv. exact (Hv _ E).
Qed.

Lemma frag_mapM_ok (enc : value -> bytes) (dcd : bytes -> option value) f :
  all_resid (fun x => dcd (enc x) = Some (canon x)) f ->
  frag_mapM dcd (frag_map enc f) = Some (frag_map canon f).
Proof.
  assert (Hopt : forall r, optP (fun x => dcd (enc x) = Some (canon x)) r ->
                 opt_mapM dcd (option_map enc r) = Some (option_map canon r)).
  { intros [x|] Hr; cbn in *; [now rewrite Hr|reflexivity]. }
  assert (Hlist : forall es, Forall (fun f => all_resid (fun x => dcd (enc x) = Some (canon x)) f ->
                     frag_mapM dcd (frag_map enc f) = Some (frag_map canon f)) es ->
                   Forall (all_resid (fun x => dcd (enc x) = Some (canon x))) es ->
                   map_opt (frag_mapM dcd) (map (frag_map enc) es) = Some (map (frag_map canon) es)).
  { induction 1 as [|x es Hx H IH]; intros A; [reflexivity|]. inversion A; subst.
    cbn [map map_opt]. now rewrite Hx, IH. }
  induction f using frag_ind'; intros A; inversion A; subst; cbn [frag_map frag_mapM].
  - now rewrite Hopt.
  - now rewrite Hopt.
  - now rewrite Hopt, Hlist.
  - now rewrite Hopt, Hlist.
Qed.

(* addVariantFieldNames registers the names exactly as Encode does *)
Lemma names_st_keys v : forall d, names_st d v = adds d (keys v).
Proof.
  induction v using value_ind'; intros d; try reflexivity.
  - change (names_st d (VArray l)) with (names_elems names_st d l). cbn [keys].
    revert d. induction H as [|x l Hx _ IH]; intros d; [reflexivity|].
    cbn [names_elems flat_map]. now rewrite adds_app, <- Hx, IH.
  - change (names_st d (VObject fs)) with (names_fields names_st d fs). cbn [keys].
    revert d. induction H as [|[k x] fs Hx _ IH]; intros d; [reflexivity|].
    cbn [names_fields flat_map fst snd] in *.
    change (adds d ((k :: keys x) ++ ?r)) with (adds (fst (dict_add d k)) (keys x ++ r)).
    now rewrite adds_app, <- Hx, IH.
Qed.

Lemma closed_wf_names d : closed (fun x => wf x /\ incl (keys x) d).
Proof.
  split; [|split].
  - intros l [Hw Hn]. apply wf_array in Hw. rewrite Forall_forall in *. intros x Hx.
    split; [now apply Hw|]. intros k Hk. apply Hn. cbn [keys]. apply in_flat_map. now exists x.
  - intros fs [Hw Hn]. apply wf_object in Hw as [_ Hw]. rewrite Forall_forall in *. intros kv Hkv.
    split; [now apply Hw|]. intros k Hk. apply Hn. cbn [keys]. apply in_flat_map. exists kv.
    split; [exact Hkv|now right].
  - intros f fs [Hw Hn]. split; [now apply wf_filter|]. intros k Hk. apply Hn.
    cbn [keys] in *. apply in_flat_map in Hk as (kv & Hkv & Hk). apply filter_In in Hkv as [Hkv _].
    apply in_flat_map. now exists kv.
Qed.

(** the shredded write and read of one row, residuals as variant binary *)
Theorem reconstruct_shred_bytes s v : wf_schema s -> wf v ->
  lenN (names_st [] v) < 2 ^ 32 -> lenN (concat (names_st [] v)) < 2 ^ 32 ->
  all_resid (fun x => lenN (snd (enc_st (names_st [] v) x)) < 2 ^ 32) (shred s v) ->
  exists v', reconstruct_bytes s (fst (shred_bytes s v)) (snd (shred_bytes s v)) = Some (Some v') /\
             canon v' = canon v.
Proof.
  intros Hs Hw Hn Ht Hfit. unfold shred_bytes, shred_row. cbn [fst snd].
  set (d := names_st [] v) in *.
  unfold reconstruct_bytes. rewrite decode_encode_metadata by assumption.
  assert (Hnames : incl (keys v) d) by (unfold d; rewrite names_st_keys; apply adds_incl).
  pose proof (shred_resid _ s (closed_wf_names d) v (conj Hw Hnames)) as Hres.
  pose proof (all_resid_and _ _ _ Hres Hfit) as Hall.
  unfold reconstruct_row.
  rewrite (frag_mapM_ok (fun x => snd (enc_st d x)) (decode_value d)).
  - apply (reconstruct_shred_gen canon (fun x _ => canon_idem x)
             (fun l => ex_intro _ _ (canon_object l)) s Hs v Hw).
  - eapply all_resid_impl; [|exact Hall]. intros x [[Hwx Hnx] Hfx]. cbv beta in *.
    pose proof (enc_st_keys x d) as Est. rewrite (adds_stable d _ Hnx) in Est.
    destruct (enc_st d x) as [d' b] eqn:E. cbn in Est, Hfx. subst d'.
    pose proof (enc_st_good x Hwx d d b E Hfx Hn) as Hok.
    cbn [snd]. unfold decode_value.
    replace (dec (S (length b)) d b) with (dec (S (length b)) d (b ++ [])) by now rewrite app_nil_r.
    apply Hok; [apply ext_refl|lia].
Qed.
