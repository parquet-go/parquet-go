(** runLength (merge.go:1148): on a sorted window the galloping search returns
    the length of the longest prefix whose rows compare <= max against the
    bound (max = 0: ties included, max = -1: ties excluded). *)
From Coq Require Import List ZArith Lia Sorting.Sorted.
From PQ Require Import Merge.Model Merge.AbstractProofs.
Import ListNotations.
Open Scope Z_scope.

Section RunLength.
  Variable K : Type.
  Variable cmp : K -> K -> Z.
  Hypothesis cmp_opp : forall a b, cmp a b < 0 <-> cmp b a > 0.
  Hypothesis cmp_trans : forall a b d, cmp a b <= 0 -> cmp b d <= 0 -> cmp a d <= 0.

  Notation row := (row K).
  Notation rcmp := (rcmp cmp).
  Notation sorted := (sorted K cmp).
  Notation qual := (qual cmp).

  Variable w : list row.
  Variable bound : row.
  Variable mx : Z.
  Hypothesis mx_ok : mx = 0 \/ mx = -1.

  Definition qualifies (r : row) : bool := rcmp r bound <=? mx.

  Lemma qual_lt i : qual w bound mx i = true -> (i < length w)%nat.
  Proof.
    unfold Model.qual. destruct (nth_error w i) eqn:E; [|discriminate].
    intros _. apply nth_error_Some. congruence.
  Qed.

  (* the qualifying rows of a sorted window form a prefix *)
  Lemma qual_mono i j : sorted w -> (i <= j)%nat ->
    qual w bound mx j = true -> qual w bound mx i = true.
  Proof.
    intros Hs Hij Hj. pose proof (qual_lt _ Hj) as Hlt. unfold Model.qual in *.
    destruct (nth_error w j) as [b|] eqn:Ej; [|discriminate].
    destruct (nth_error w i) as [a|] eqn:Ei; [|apply nth_error_None in Ei; lia].
    pose proof (sorted_nth_le K cmp cmp_opp w i j a b Hs Hij Ei Ej) as Hab.
    unfold rle, Model.rcmp in *. apply Z.leb_le in Hj. apply Z.leb_le.
    destruct mx_ok as [-> | ->].
    - eapply cmp_trans; eauto.
    - assert (cmp (key a) (key bound) < 0); [|lia].
      eapply cmp_le_lt_trans; eauto. lia.
  Qed.

  Lemma gallop_spec f : forall lo hi,
    (1 <= hi)%nat -> (length w <= hi + f)%nat ->
    qual w bound mx lo = true -> (lo < hi)%nat ->
    let '(lo', hi') := gallop K cmp f w bound mx lo hi in
    qual w bound mx lo' = true /\ (lo' < hi')%nat /\
    ((hi' < length w)%nat -> qual w bound mx hi' = false).
  Proof.
    induction f as [|f IH]; intros lo hi H1 Hf Hlo Hlt; cbn [gallop].
    - repeat split; auto. lia.
    - destruct (Nat.ltb_spec hi (length w)) as [Hh|Hh]; cbn [andb].
      + destruct (qual w bound mx hi) eqn:Eq.
        * apply IH; auto; lia.
        * repeat split; auto.
      + repeat split; auto. lia.
  Qed.

  Lemma bisect_spec f : forall lo hi,
    (hi - lo <= f)%nat -> qual w bound mx lo = true -> (lo < hi)%nat -> (hi <= length w)%nat ->
    ((hi < length w)%nat -> qual w bound mx hi = false) ->
    let h := bisect K cmp f w bound mx lo hi in
    (1 <= h)%nat /\ (h <= length w)%nat /\ qual w bound mx (h - 1) = true /\
    ((h < length w)%nat -> qual w bound mx h = false).
  Proof.
    induction f as [|f IH]; intros lo hi Hf Hlo Hlt Hle Hhi; cbn [bisect].
    - lia.
    - destruct (Nat.ltb_spec (lo + 1) hi) as [Hc|Hc].
      + assert (Hmid : (lo < (lo + hi) / 2 < hi)%nat).
        { split.
          - apply Nat.div_le_lower_bound; lia.
          - apply Nat.div_lt_upper_bound; lia. }
        destruct (qual w bound mx ((lo + hi) / 2)) eqn:Eq.
        * apply IH; auto; lia.
        * apply IH; auto; try lia.
      + assert (hi = S lo) by lia. subst hi. repeat split; auto; try lia.
        replace (S lo - 1)%nat with lo by lia. exact Hlo.
  Qed.

  Lemma run_length_boundary :
    let n := run_length cmp w bound mx in
    (n <= length w)%nat /\ ((0 < n)%nat -> qual w bound mx (n - 1) = true) /\
    ((n < length w)%nat -> qual w bound mx n = false).
  Proof.
    unfold run_length.
    destruct (Nat.eqb_spec (length w) 0) as [Hz|Hz]; cbn [orb]; [repeat split; intros; lia|].
    destruct (qual w bound mx 0) eqn:E0; cbn [negb]; [|repeat split; [lia|lia|auto]].
    destruct (qual w bound mx (length w - 1)) eqn:E1; [repeat split; [lia|auto|lia]|].
    pose proof (gallop_spec (length w) 0%nat 1%nat) as G.
    destruct (gallop K cmp (length w) w bound mx 0 1) as [lo hi].
    destruct G as [G1 [G2 G3]]; auto; try lia.
    pose proof (qual_lt _ G1).
    pose proof (bisect_spec (length w) lo (Nat.min hi (length w))) as B.
    cbv zeta in B. destruct B as [B1 [B2 [B3 B4]]]; auto; try lia.
    intros Hm. replace (Nat.min hi (length w)) with hi by lia. apply G3. lia.
  Qed.

  Lemma run_length_le : (run_length cmp w bound mx <= length w)%nat.
  Proof. apply run_length_boundary. Qed.

  Lemma run_length_spec_idx : sorted w ->
    let n := run_length cmp w bound mx in
    (forall i, (i < n)%nat -> qual w bound mx i = true) /\
    ((n < length w)%nat -> qual w bound mx n = false).
  Proof.
    intros Hs. destruct run_length_boundary as [_ [H1 H2]]. split; [|exact H2].
    intros i Hi. apply (qual_mono i (run_length cmp w bound mx - 1)); auto; [lia|]. apply H1. lia.
  Qed.

  (** the specification: the length of the longest qualifying prefix *)
  Fixpoint take_while (f : row -> bool) (l : list row) : list row :=
    match l with
    | [] => []
    | x :: t => if f x then x :: take_while f t else []
    end.

  Lemma take_while_char (f : row -> bool) : forall (l : list row) n,
    (n <= length l)%nat ->
    (forall i r, (i < n)%nat -> nth_error l i = Some r -> f r = true) ->
    (forall r, nth_error l n = Some r -> f r = false) ->
    length (take_while f l) = n.
  Proof.
    induction l as [|x l IH]; intros n Hn Hall Hstop; cbn in *.
    - lia.
    - destruct n as [|n].
      + rewrite (Hstop x eq_refl). reflexivity.
      + rewrite (Hall 0%nat x) by (auto; lia). cbn. f_equal. apply IH; [lia| |].
        * intros i r Hi Hr. apply (Hall (S i) r); [lia|exact Hr].
        * intros r Hr. apply (Hstop r). exact Hr.
  Qed.

  Theorem run_length_spec : sorted w ->
    run_length cmp w bound mx = length (take_while qualifies w).
  Proof.
    intros Hs. symmetry. destruct (run_length_spec_idx Hs) as [H1 H2].
    apply take_while_char.
    - apply run_length_le.
    - intros i r Hi Hr. specialize (H1 i Hi). unfold Model.qual in H1. now rewrite Hr in H1.
    - intros r Hr. assert (Hlt : (run_length cmp w bound mx < length w)%nat).
      { apply nth_error_Some. congruence. }
      specialize (H2 Hlt). unfold Model.qual in H2. now rewrite Hr in H2.
  Qed.

  Lemma run_length_prefix_qual : sorted w ->
    forall r, In r (firstn (run_length cmp w bound mx) w) -> rcmp r bound <= mx.
  Proof.
    intros Hs r Hr. destruct (run_length_spec_idx Hs) as [H1 _].
    apply In_nth_error in Hr. destruct Hr as [i Hi].
    assert (Hlt : (i < run_length cmp w bound mx)%nat).
    { assert (H : (i < length (firstn (run_length cmp w bound mx) w))%nat) by (apply nth_error_Some; congruence).
      rewrite firstn_length in H. lia. }
    specialize (H1 i Hlt). unfold Model.qual in H1.
    assert (E : nth_error w i = Some r).
    { rewrite <- (firstn_skipn (run_length cmp w bound mx) w). rewrite nth_error_app1; [exact Hi|].
      apply nth_error_Some. congruence. }
    rewrite E in H1. now apply Z.leb_le.
  Qed.
End RunLength.
