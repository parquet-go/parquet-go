(** Model of merge.go (bufferedRowReader, mergedRowReader2, mergedRowReader,
    runLength, overlappingRowGroups; rowGroupRangeOfSortedColumns is in
    Merge/Instance.v), dedupe.go
    (deduplicate / dedupeRowReader) and of the comparators of compare.go that
    the merge uses.  Executable; no proofs here (Merge/*Proofs.v), so that the
    model still extracts and runs when a proof breaks.

    A row is its sort key (abstract type [K], compared by [cmp], whose sign is
    the order as for Go's [func(Row, Row) int]) together with the identity
    (input reader, position in that reader) that the harness stores in two
    payload columns of every row. *)
From Coq Require Import List ZArith Bool Arith Lia.
From PQ Require Import Generated.Consts.
Import ListNotations.
Open Scope Z_scope.

(** replace element [i] of a list (out of range: unchanged) *)
Fixpoint upd {A : Type} (l : list A) (i : nat) (x : A) : list A :=
  match l, i with
  | [], _ => []
  | _ :: t, O => x :: t
  | h :: t, S j => h :: upd t j x
  end.

Section Merge.
  Variable K : Type.
  Variable cmp : K -> K -> Z.

  Record row := mkRow { key : K; input : nat; seq : nat }.

  Definition rcmp (a b : row) : Z := cmp (key a) (key b).

  (** ** (a) the abstract merge scheduler

      A state is the list of the rows that each input still has to deliver.  A
      step emits the head of one input provided it compares <= the head of
      every input (itself included).  [sched st out st'] : from [st] the rows
      [out] can be emitted in that order, leaving [st']. *)
  Definition heads_ge (st : list (list row)) (r : row) : Prop :=
    forall j r' t, nth_error st j = Some (r' :: t) -> rcmp r r' <= 0.

  Inductive sched : list (list row) -> list row -> list (list row) -> Prop :=
  | sched_nil : forall st, sched st [] st
  | sched_cons : forall st i r t out st',
      nth_error st i = Some (r :: t) -> heads_ge st r ->
      sched (upd st i t) out st' -> sched st (r :: out) st'.

  (** an executable instance of the scheduler: the first input whose head is
      minimal (used for non-vacuity and as the reference merge of a segment) *)
  Fixpoint min_head (st : list (list row)) (i : nat) (best : option (nat * row)) : option (nat * row) :=
    match st with
    | [] => best
    | [] :: rest => min_head rest (S i) best
    | (r :: _) :: rest =>
        match best with
        | None => min_head rest (S i) (Some (i, r))
        | Some (_, b) => if rcmp r b <? 0 then min_head rest (S i) (Some (i, r))
                         else min_head rest (S i) best
        end
    end.

  Fixpoint ref_merge (fuel : nat) (st : list (list row)) : list row :=
    match fuel with
    | O => []
    | S f =>
        match min_head st 0%nat None with
        | None => []
        | Some (i, r) => r :: ref_merge f (upd st i (tl (nth i st [])))
        end
    end.

  Definition ref_merge_all (st : list (list row)) : list row :=
    ref_merge (length (concat st)) st.

  (** ** runLength (merge.go:1148)

      [qual w bound mx i] : compare(window[i], bound) <= max.  An index out of
      range does not qualify (the Go code never reads one). *)
  Definition qual (w : list row) (bound : row) (mx : Z) (i : nat) : bool :=
    match nth_error w i with
    | Some r => rcmp r bound <=? mx
    | None => false
    end.

  (* for hi < len(window) && compare(window[hi], bound) <= max { lo = hi; hi *= 2 } *)
  Fixpoint gallop (fuel : nat) (w : list row) (bound : row) (mx : Z) (lo hi : nat) : nat * nat :=
    match fuel with
    | O => (lo, hi)
    | S f => if (hi <? length w)%nat && qual w bound mx hi
             then gallop f w bound mx hi (2 * hi)%nat
             else (lo, hi)
    end.

  (* for lo+1 < hi { mid := (lo+hi)>>1; if compare(window[mid]) <= max { lo = mid } else { hi = mid } } *)
  Fixpoint bisect (fuel : nat) (w : list row) (bound : row) (mx : Z) (lo hi : nat) : nat :=
    match fuel with
    | O => hi
    | S f => if (lo + 1 <? hi)%nat then
               let mid := ((lo + hi) / 2)%nat in
               if qual w bound mx mid then bisect f w bound mx mid hi
               else bisect f w bound mx lo mid
             else hi
    end.

  Definition run_length (w : list row) (bound : row) (mx : Z) : nat :=
    let n := length w in
    if (n =? 0)%nat || negb (qual w bound mx 0) then 0%nat
    else if qual w bound mx (n - 1) then n
    else let '(lo, hi) := gallop n w bound mx 0%nat 1%nat in
         bisect n w bound mx lo (Nat.min hi n).

  (** ** bufferedRowReader (merge.go:1083)

      [b_src]: the rows the underlying RowReader has not returned yet;
      [b_chunks]: oracle for the source: the i-th ReadRows call on it returns
      at most [max 1 c_i] rows (a reader returning (0, nil) breaks the
      RowReader contract; when the oracle is exhausted the source fills the
      slice it is given); [b_cap] = len(r.buf), 0 for a nil buffer;
      [b_win] = r.buf[r.off:r.end].  [read] is only ever called on an empty
      buffer, where off = end = 0 (advance resets both), so the window
      determines the buffer. *)
  Record buf := mkBuf {
    b_src : list row; b_chunks : list nat; b_cap : nat; b_full : bool; b_win : list row }.

  Definition no_buf : buf := mkBuf [] [] 0 false [].

  Definition min_buf : nat := Z.to_nat go_parquet_minRowBufferSize.
  Definition max_buf : nat := Z.to_nat go_parquet_maxRowBufferSize.
  Definition run_streak : Z := go_parquet_runDetectionStreak.

  (* read(): None = io.EOF (n == 0 with an error) *)
  Definition buf_read (b : buf) : option buf :=
    let cap := if (b_cap b =? 0)%nat then min_buf
               else if b_full b && (b_cap b <? max_buf)%nat
                    then Nat.min (2 * b_cap b) max_buf else b_cap b in
    let '(c, chunks') := match b_chunks b with
                         | [] => (cap, [])
                         | c :: t => (Nat.max 1 c, t)
                         end in
    let n := Nat.min (Nat.min c cap) (length (b_src b)) in
    match n with
    | O => None
    | _ => Some (mkBuf (skipn n (b_src b)) chunks' cap (n =? cap)%nat (firstn n (b_src b)))
    end.

  (* advance(n): consumes n buffered rows; hasNext = the window is not empty *)
  Definition advance (b : buf) (n : nat) : buf :=
    mkBuf (b_src b) (b_chunks b) (b_cap b) (b_full b) (skipn n (b_win b)).

  Definition has_next (b : buf) : bool :=
    match b_win b with [] => false | _ => true end.

  (* the rows an input still has to deliver *)
  Definition remaining (b : buf) : list row := b_win b ++ b_src b.
  Definition remaining_opt (r : option buf) : list row :=
    match r with Some b => remaining b | None => [] end.

  (** ** mergedRowReader2 (merge.go:671) *)
  Record m2 := mkM2 { m_r0 : option buf; m_r1 : option buf; m_prev : Z; m_streak : Z }.

  (* initialize(): a reader whose first read is io.EOF is dropped (nil) *)
  Definition m2_init (b0 b1 : buf) : m2 := mkM2 (buf_read b0) (buf_read b1) 0 0.

  (* if r != nil && r.empty() { if r.read() == io.EOF { r = nil } } *)
  Definition refill (r : option buf) : option buf :=
    match r with
    | Some b => match b_win b with [] => buf_read b | _ => Some b end
    | None => None
    end.

  (* case r0 == nil / r1 == nil: copy buffered rows until the batch is full or
     the window is exhausted *)
  Definition drain (room : nat) (b : buf) : list row * buf :=
    let t := Nat.min room (length (b_win b)) in
    (firstn t (b_win b), advance b t).

  (* emitRun (merge.go:821): max = -1, ties excluded *)
  Definition emit_run (room : nat) (b : buf) (bound : row) : list row * buf :=
    let window := firstn room (b_win b) in
    let run := (1 + match window with
                    | _ :: ((_ :: _) as t) => run_length t bound (-1)
                    | _ => 0
                    end)%nat in
    (firstn run window, advance b run).

  (* the loop of the default case of ReadRows; [room] = len(rows) - n.  The
     loop stops when the batch is full or one window is exhausted
     (!hasNext0 || !hasNext1). *)
  Fixpoint loop2 (fuel room : nat) (b0 b1 : buf) (prev streak : Z)
    : list row * buf * buf * Z * Z :=
    match fuel with
    | O => ([], b0, b1, prev, streak)
    | S f =>
      if (room =? 0)%nat then ([], b0, b1, prev, streak) else
      match b_win b0, b_win b1 with
      | h0 :: _, h1 :: _ =>
        let c := rcmp h0 h1 in
        if c <? 0 then
          let streak' := if prev <? 0 then streak + 1 else 0 in
          let '(em, b0') := if streak' >=? run_streak then emit_run room b0 h1
                            else ([h0], advance b0 1) in
          if has_next b0' then
            let '(out, x0, x1, p, s) := loop2 f (room - length em) b0' b1 (-1) streak' in
            (em ++ out, x0, x1, p, s)
          else (em, b0', b1, -1, streak')
        else if c >? 0 then
          let streak' := if prev >? 0 then streak + 1 else 0 in
          let '(em, b1') := if streak' >=? run_streak then emit_run room b1 h0
                            else ([h1], advance b1 1) in
          if has_next b1' then
            let '(out, x0, x1, p, s) := loop2 f (room - length em) b0 b1' 1 streak' in
            (em ++ out, x0, x1, p, s)
          else (em, b0, b1', 1, streak')
        else
          (* tie: r0's row, then r1's row if the batch has room for it *)
          let b0' := advance b0 1 in
          if (1 <? room)%nat then
            let b1' := advance b1 1 in
            if has_next b0' && has_next b1' then
              let '(out, x0, x1, p, s) := loop2 f (room - 2) b0' b1' 0 0 in
              (h0 :: h1 :: out, x0, x1, p, s)
            else ([h0; h1], b0', b1', 0, 0)
          else ([h0], b0', b1, 0, 0)   (* the batch is full: the loop ends *)
      | _, _ => ([], b0, b1, prev, streak)   (* not reached: both windows are non-empty *)
      end
    end.

  (* ReadRows(rows) with len(rows) = n: (rows produced, err == io.EOF, state) *)
  Definition read_rows2 (m : m2) (n : nat) : list row * bool * m2 :=
    let r0 := refill (m_r0 m) in
    let r1 := refill (m_r1 m) in
    match r0, r1 with
    | None, None => ([], true, mkM2 None None (m_prev m) (m_streak m))
    | None, Some b1 =>
        let '(out, b1') := drain n b1 in (out, false, mkM2 None (Some b1') (m_prev m) (m_streak m))
    | Some b0, None =>
        let '(out, b0') := drain n b0 in (out, false, mkM2 (Some b0') None (m_prev m) (m_streak m))
    | Some b0, Some b1 =>
        let '(out, b0', b1', p, s) := loop2 n n b0 b1 (m_prev m) (m_streak m) in
        (out, false, mkM2 (Some b0') (Some b1') p s)
    end.

  (* successive ReadRows calls with the given slice lengths, until io.EOF *)
  Fixpoint run2 (m : m2) (batches : list nat) : list (list row) * bool * m2 :=
    match batches with
    | [] => ([], false, m)
    | n :: t =>
        let '(out, eof, m') := read_rows2 m n in
        if eof then ([], true, m')
        else let '(outs, e, m'') := run2 m' t in (out :: outs, e, m'')
    end.

  Definition source (rows : list row) (chunks : list nat) : buf := mkBuf rows chunks 0 false [].

  Definition merge2 (in0 in1 : list row) (ch0 ch1 : list nat) (batches : list nat)
    : list (list row) * bool * m2 :=
    (* initialize() runs in the first ReadRows call; it only reads from the
       sources, so running it up front is not observable *)
    run2 (m2_init (source in0 ch0) (source in1 ch1)) batches.

  (** ** mergedRowReader (merge.go:849): tournament tree of losers

      [k_losers] has k entries (internal nodes 0..k-1), players are buffer
      indexes, a negative player is an exhausted reader; the leaf of buffer i
      is the implicit position k+i. *)
  Record mk := mkMK {
    k_bufs : list buf; k_losers : list Z; k_count : nat;
    k_winner : Z; k_leaf : Z; k_streak : Z }.

  Definition head_of (bufs : list buf) (p : Z) : option row :=
    match b_win (nth (Z.to_nat p) bufs no_buf) with
    | h :: _ => Some h
    | [] => None
    end.

  (* compare(m.buffers[a].head(), m.buffers[b].head()); players on which the
     Go code calls it always have a buffered head *)
  Definition cmp_heads (bufs : list buf) (a b : Z) : Z :=
    match head_of bufs a, head_of bufs b with
    | Some x, Some y => rcmp x y
    | _, _ => 0
    end.

  (* playGame(n1, n2) = (loser, winner): the second argument wins ties *)
  Definition play_game (bufs : list buf) (n1 n2 : Z) : Z * Z :=
    if n1 <? 0 then (n1, n2)
    else if n2 <? 0 then (n2, n1)
    else if cmp_heads bufs n1 n2 <? 0 then (n2, n1)
    else (n1, n2).

  (* playInitialGames(i, leaves) *)
  Fixpoint play_initial (fuel : nat) (bufs : list buf) (leaves : list Z) (losers : list Z) (i : nat)
    : list Z * Z :=
    let k := length bufs in
    if (k <=? i)%nat then (losers, nth (i - k) leaves (-1))
    else match fuel with
         | O => (losers, -1)
         | S f =>
             let '(l1, n1) := play_initial f bufs leaves losers (2 * i + 1) in
             let '(l2, n2) := play_initial f bufs leaves l1 (2 * i + 2) in
             let '(loser, winner) := play_game bufs n1 n2 in
             (upd l2 i loser, winner)
         end.

  (* the walk of replayGames from [offset] to the root: the incumbent wins ties *)
  Fixpoint replay_walk (fuel : nat) (bufs : list buf) (losers : list Z) (winner : Z) (offset : nat)
    : list Z * Z :=
    let player := nth offset losers (-1) in
    let '(losers', winner') :=
      if (0 <=? player) && ((winner <? 0) || (cmp_heads bufs player winner <? 0))
      then (upd losers offset winner, player) else (losers, winner) in
    match offset, fuel with
    | O, _ => (losers', winner')
    | _, O => (losers', winner')
    | _, S f => replay_walk f bufs losers' winner' ((offset - 1) / 2)%nat
    end.

  Definition leaf_parent (leaf : Z) : nat := Z.to_nat ((leaf - 1) / 2).

  (* replayGames() *)
  Definition replay (m : mk) : mk :=
    let '(losers', w) := replay_walk (length (k_bufs m)) (k_bufs m) (k_losers m) (k_winner m)
                                     (leaf_parent (k_leaf m)) in
    mkMK (k_bufs m) losers' (k_count m) w (Z.of_nat (length (k_bufs m)) + w) (k_streak m).

  (* runBound(): the smallest head among the losers on the winner's path *)
  Fixpoint bound_walk (fuel : nat) (bufs : list buf) (losers : list Z) (offset : nat) (bound : option row)
    : option row :=
    let player := nth offset losers (-1) in
    let bound' :=
      if 0 <=? player then
        match head_of bufs player with
        | Some h => match bound with
                    | None => Some h
                    | Some b => if rcmp h b <? 0 then Some h else bound
                    end
        | None => bound
        end
      else bound in
    match offset, fuel with
    | O, _ => bound'
    | _, O => bound'
    | _, S f => bound_walk f bufs losers ((offset - 1) / 2)%nat bound'
    end.

  Definition run_bound (m : mk) : option row :=
    bound_walk (length (k_bufs m)) (k_bufs m) (k_losers m) (leaf_parent (k_leaf m)) None.

  Definition set_buf (m : mk) (i : nat) (b : buf) : mk :=
    mkMK (upd (k_bufs m) i b) (k_losers m) (k_count m) (k_winner m) (k_leaf m) (k_streak m).
  Definition set_streak (m : mk) (s : Z) : mk :=
    mkMK (k_bufs m) (k_losers m) (k_count m) (k_winner m) (k_leaf m) s.

  (* initialize() *)
  Fixpoint init_reads (bufs : list buf) (i : nat) : list buf * list Z * nat :=
    match bufs with
    | [] => ([], [], 0%nat)
    | b :: t =>
        let '(bs, ls, cnt) := init_reads t (S i) in
        match buf_read b with
        | Some b' => (b' :: bs, Z.of_nat i :: ls, S cnt)
        | None => (b :: bs, (-1) :: ls, cnt)
        end
    end.

  Definition mk_init (bufs : list buf) : mk :=
    let k := length bufs in
    let '(bs, leaves, cnt) := init_reads bufs 0 in
    let zero := repeat 0 k in
    match cnt with
    | O => mkMK bs zero 0 0 0 0
    | _ => let '(losers, w) := play_initial (S k) bs leaves zero 0 in
           mkMK bs losers cnt w (Z.of_nat k + w) 0
    end.

  (* the inner loop of run mode: (rows, buffer, returned) where [returned]
     tells that the buffer was exhausted (return n, nil) *)
  Fixpoint run_loop (fuel room : nat) (c : buf) (bound : option row) : list row * buf * bool :=
    match fuel with
    | O => ([], c, false)
    | S f =>
      if (room =? 0)%nat then ([], c, false) else
      let window := firstn room (b_win c) in
      let run := match bound with
                 | None => length window
                 | Some b => run_length window b 0
                 end in
      let em := firstn run window in
      let c' := advance c run in
      if negb (has_next c') then (em, c', true)
      else if (run <? length window)%nat then (em, c', false)
      else let '(em2, c'', r) := run_loop f (room - run) c' bound in (em ++ em2, c'', r)
    end.

  (* the loop of ReadRows; result: rows, err == io.EOF, state *)
  Fixpoint loopk (fuel room : nat) (m : mk) : list row * bool * mk :=
    match fuel with
    | O => ([], false, m)
    | S f =>
      if (room =? 0)%nat || (k_count m =? 0)%nat then ([], (k_count m =? 0)%nat, m) else
      let w := Z.to_nat (k_winner m) in
      let c := nth w (k_bufs m) no_buf in
      match b_win c with
      | [] =>
          (* the winner's buffer is exhausted: repopulate it *)
          match buf_read c with
          | Some c' =>
              let m1 := replay (set_buf m w c') in
              loopk f room (if k_winner m1 =? k_winner m then m1 else set_streak m1 0)
          | None =>
              let m0 := mkMK (k_bufs m) (k_losers m) (k_count m - 1) (-1) (k_leaf m) (k_streak m) in
              let m1 := replay m0 in
              loopk f room (if k_winner m1 =? -1 then m1 else set_streak m1 0)
          end
      | h :: _ =>
          let c' := advance c 1 in
          let m' := set_buf m w c' in
          if negb (has_next c') then ([h], false, m')
          else if k_streak m >=? run_streak then
            let bound := run_bound m' in
            let '(em, c'', returned) := run_loop (S room) (room - 1) c' bound in
            let m'' := set_buf m' w c'' in
            if returned then (h :: em, false, m'')
            else
              let '(out, e, mf) := loopk f (room - 1 - length em) (replay (set_streak m'' 0)) in
              (h :: em ++ out, e, mf)
          else
            let m1 := replay m' in
            let m2 := set_streak m1 (if k_winner m1 =? k_winner m then k_streak m + 1 else 0) in
            let '(out, e, mf) := loopk f (room - 1) m2 in
            (h :: out, e, mf)
      end
    end.

  Definition read_rowsk (m : mk) (n : nat) : list row * bool * mk := loopk (2 * n + 2) n m.

  Fixpoint runk (m : mk) (batches : list nat) : list (list row) * bool * mk :=
    match batches with
    | [] => ([], false, m)
    | n :: t =>
        let '(out, eof, m') := read_rowsk m n in
        if eof then (match out with [] => [] | _ => [out] end, true, m')
        else let '(outs, e, m'') := runk m' t in (out :: outs, e, m'')
    end.

  Fixpoint sources (ins : list (list row)) (chunks : list (list nat)) : list buf :=
    match ins with
    | [] => []
    | r :: t => source r (hd [] chunks) :: sources t (tl chunks)
    end.

  Definition mergek (ins : list (list row)) (chunks : list (list nat)) (batches : list nat)
    : list (list row) * bool * mk :=
    runk (mk_init (sources ins chunks)) batches.

  (** ** dedupe.go: deduplicate / dedupeRowReader

      [last] is d.lastRow ([None] when empty).  A row is a duplicate when it
      compares equal to the last row kept; the batch is rewritten to hold the
      kept rows first. *)
  Fixpoint dedupe_batch (last : option row) (rows : list row) : list row * option row :=
    match rows with
    | [] => ([], last)
    | r :: t =>
        let dup := match last with Some l => rcmp r l =? 0 | None => false end in
        if dup then dedupe_batch last t
        else let '(u, l') := dedupe_batch (Some r) t in (r :: u, l')
    end.

  (* dedupeRowReader.ReadRows over the successive batches of the underlying
     reader: batches left empty by deduplication are skipped (the loop reads
     again) *)
  Fixpoint dedupe_batches (last : option row) (batches : list (list row)) : list (list row) :=
    match batches with
    | [] => []
    | b :: t =>
        let '(u, l') := dedupe_batch last b in
        match u with
        | [] => dedupe_batches l' t
        | _ => u :: dedupe_batches l' t
        end
    end.

  (* batch-free specification: keep a row unless it equals the previous kept row *)
  Definition dedupe_spec (rows : list row) : list row := fst (dedupe_batch None rows).

  (** ** overlappingRowGroups (merge.go:189)

      A range is the identity of a row group with the bounds of its sorting
      columns, expressed as keys. *)
  Record range := mkRange { r_id : nat; r_min : K; r_max : K }.

  (* slices.SortFunc by min.  For at most 12 elements pdqsortCmpFunc is
     insertionSortCmpFunc: data[i] moves left while it is strictly less than
     its predecessor.  [acc] is the sorted prefix, reversed. *)
  Fixpoint ins_rev (x : range) (acc : list range) : list range :=
    match acc with
    | [] => [x]
    | y :: t => if cmp (r_min x) (r_min y) <? 0 then y :: ins_rev x t else x :: acc
    end.

  Definition sort_ranges (l : list range) : list range :=
    rev (fold_left (fun acc x => ins_rev x acc) l []).

  (* the sweep with currentMax; [cur] is the current segment, reversed *)
  Fixpoint sweep (cur : list range) (curmax : K) (rest : list range) : list (list range) :=
    match rest with
    | [] => [rev cur]
    | rr :: t =>
        if cmp (r_min rr) curmax <=? 0
        then sweep (rr :: cur) (if cmp (r_max rr) curmax >? 0 then r_max rr else curmax) t
        else rev cur :: sweep [rr] (r_max rr) t
    end.

  (* the segments of already sorted ranges *)
  Definition segments_sorted (sorted : list range) : list (list range) :=
    match sorted with
    | [] => []
    | r :: t => sweep [r] (r_max r) t
    end.

  Definition segments (ranges : list range) : list (list range) :=
    segments_sorted (sort_ranges ranges).
End Merge.

Arguments mkRow {K}.
Arguments key {K}.
Arguments input {K}.
Arguments seq {K}.
Arguments rcmp {K}.
Arguments heads_ge {K}.
Arguments sched {K}.
Arguments ref_merge_all {K}.
Arguments qual {K}.
Arguments run_length {K}.
Arguments mkBuf {K}.
Arguments b_src {K}.
Arguments b_chunks {K}.
Arguments b_cap {K}.
Arguments b_full {K}.
Arguments b_win {K}.
Arguments buf_read {K}.
Arguments advance {K}.
Arguments has_next {K}.
Arguments remaining {K}.
Arguments remaining_opt {K}.
Arguments mkM2 {K}.
Arguments m_r0 {K}.
Arguments m_r1 {K}.
Arguments m_prev {K}.
Arguments m_streak {K}.
Arguments source {K}.
Arguments sources {K}.
Arguments merge2 {K}.
Arguments mergek {K}.
Arguments k_bufs {K}.
Arguments k_losers {K}.
Arguments k_count {K}.
Arguments k_winner {K}.
Arguments k_leaf {K}.
Arguments k_streak {K}.
Arguments dedupe_batch {K}.
Arguments dedupe_batches {K}.
Arguments dedupe_spec {K}.
Arguments mkRange {K}.
Arguments r_id {K}.
Arguments r_min {K}.
Arguments r_max {K}.
Arguments sort_ranges {K}.
Arguments sweep {K}.
Arguments segments_sorted {K}.
Arguments segments {K}.
