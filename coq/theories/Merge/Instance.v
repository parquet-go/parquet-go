(** Instances of the merge model used by the extracted oracle and by the
    concrete theorems: keys are tuples of optional integers (one per sorting
    column) ordered as compareRowsFuncOfColumnValues does (compare.go:424):
    lexicographically, each column by the integer order, reversed when the
    column is Descending, nulls first or last (the null wrapper is outermost,
    so the null order does not depend on the direction).  Also the model of
    rowGroupRangeOfSortedColumns and of the unrefined plan of MergeRowGroups. *)
From Coq Require Import List ZArith Bool Arith Lia.
From PQ Require Import Merge.Model.
Import ListNotations.
Open Scope Z_scope.

Definition cmpZ (a b : Z) : Z :=
  match Z.compare a b with Lt => -1 | Eq => 0 | Gt => 1 end.

(* one sorting column: (descending, nulls first) *)
Definition colcfg := (bool * bool)%type.
Definition keyL := list (option Z).

Definition cmp_col (cf : colcfg) (a b : option Z) : Z :=
  let '(desc, nf) := cf in
  match a, b with
  | None, None => 0
  | None, Some _ => if nf then -1 else 1
  | Some _, None => if nf then 1 else -1
  | Some x, Some y => if desc then - cmpZ x y else cmpZ x y
  end.

Fixpoint cmpL (cfg : list colcfg) (a b : keyL) : Z :=
  match cfg with
  | [] => 0
  | cf :: cfg' =>
      let c := cmp_col cf (hd None a) (hd None b) in
      if c =? 0 then cmpL cfg' (tl a) (tl b) else c
  end.

(* single required ascending integer key *)
Definition cmpZ_nulls_last (a b : option Z) : Z := cmp_col (false, false) a b.

(** rows of input [i] from its keys *)
Fixpoint tag_from {K : Type} (i s : nat) (keys : list K) : list (row K) :=
  match keys with
  | [] => []
  | k :: t => mkRow k i s :: tag_from i (S s) t
  end.
Definition tag {K : Type} (i : nat) (keys : list K) : list (row K) := tag_from i 0 keys.

Fixpoint tag_all_from {K : Type} (i : nat) (ins : list (list K)) : list (list (row K)) :=
  match ins with
  | [] => []
  | l :: t => tag i l :: tag_all_from (S i) t
  end.
Definition tag_all {K : Type} (ins : list (list K)) : list (list (row K)) := tag_all_from 0 ins.

Definition ids {K : Type} (l : list (row K)) : list (nat * nat) := map (fun r => (input r, seq r)) l.

(** oracle entry points *)
Definition c09_merge2 (cfg : list colcfg) (ch0 ch1 batches : list nat) (in0 in1 : list keyL)
  : list (list (nat * nat)) * bool :=
  let '(outs, eof, _) := merge2 (cmpL cfg) (tag 0 in0) (tag 1 in1) ch0 ch1 batches in
  (map ids outs, eof).

Definition c09_mergek (cfg : list colcfg) (chunks : list (list nat)) (batches : list nat)
           (ins : list (list keyL)) : list (list (nat * nat)) * bool :=
  let '(outs, eof, _) := mergek (cmpL cfg) (tag_all ins) chunks batches in
  (map ids outs, eof).

(* batches of one reader (input 0, seq = position in the whole sequence) *)
Fixpoint tag_batches (s : nat) (bs : list (list keyL)) : list (list (row keyL)) :=
  match bs with
  | [] => []
  | b :: t => tag_from 0 s b :: tag_batches (s + length b) t
  end.

Definition c09_dedupe (cfg : list colcfg) (bs : list (list keyL)) : list (list nat) :=
  map (map (@seq keyL)) (dedupe_batches (cmpL cfg) None (tag_batches 0 bs)).

(** ** rowGroupRangeOfSortedColumns (merge.go:296)

    The values of one sorting column of a row group, page by page.  The page
    statistics describe the non-null values only. *)
Definition somes (l : list (option Z)) : list Z :=
  flat_map (fun o => match o with Some v => [v] | None => [] end) l.

Definition page_min (p : list (option Z)) : option Z :=
  match somes p with [] => None | v :: t => Some (fold_left Z.min t v) end.
Definition page_max (p : list (option Z)) : option Z :=
  match somes p with [] => None | v :: t => Some (fold_left Z.max t v) end.
Definition has_null (p : list (option Z)) : bool := existsb (fun o => match o with None => true | _ => false end) p.

(* first non-null page (NullPage = no non-null value) *)
Fixpoint first_some {A : Type} (f : list (option Z) -> option A) (pages : list (list (option Z))) : option A :=
  match pages with
  | [] => None
  | p :: t => match f p with Some v => Some v | None => first_some f t end
  end.

(* bounds of one column in sort order; [pinned] = the code before commit
   77fc8c6, which did not look at null counts *)
Definition column_bounds (pinned : bool) (cf : colcfg) (pages : list (list (option Z))) : option (Z * Z) :=
  let desc := fst cf in
  if negb pinned && existsb has_null pages then None else
  match first_some (if desc then page_max else page_min) pages,
        first_some (if desc then page_min else page_max) (rev pages) with
  | Some lo, Some hi => Some (lo, hi)
  | _, _ => None
  end.

(* pages of [n] rows (n = 0: a single page, as for an in-memory Buffer) *)
Fixpoint paginate_aux {A : Type} (fuel n : nat) (l : list A) : list (list A) :=
  match fuel, l with
  | _, [] => []
  | O, _ => [l]
  | S f, _ => firstn n l :: paginate_aux f n (skipn n l)
  end.
Definition paginate {A : Type} (n : nat) (l : list A) : list (list A) :=
  match n, l with
  | _, [] => []
  | O, _ => [l]
  | _, _ => paginate_aux (length l) n l
  end.

(* the column j of the keys of a row group *)
Definition column (j : nat) (rows : list keyL) : list (option Z) := map (fun k => nth j k None) rows.

Fixpoint bounds_cols (pinned : bool) (cfg : list colcfg) (j page_rows : nat) (rows : list keyL)
  : option (keyL * keyL) :=
  match cfg with
  | [] => Some ([], [])
  | cf :: cfg' =>
      match column_bounds pinned cf (paginate page_rows (column j rows)) with
      | None => None
      | Some (lo, hi) =>
          match bounds_cols pinned cfg' (S j) page_rows rows with
          | None => None
          | Some (los, his) => Some (Some lo :: los, Some hi :: his)
          end
      end
  end.

Definition row_group_bounds (pinned : bool) (cfg : list colcfg) (page_rows : nat) (rows : list keyL) :=
  bounds_cols pinned cfg 0 page_rows rows.

(** ** the unrefined plan of MergeRowGroups (merge.go:96-140)

    [plan_segments]: the input ids of each segment.  Empty row groups are
    skipped; when the bounds of a row group are unavailable every row group
    (the empty ones included) goes into a single segment, in argument order. *)
Fixpoint collect_ranges (pinned : bool) (cfg : list colcfg) (page_rows i : nat) (ins : list (list keyL))
  : option (list (range keyL)) :=
  match ins with
  | [] => Some []
  | rows :: t =>
      match rows with
      | [] => collect_ranges pinned cfg page_rows (S i) t
      | _ =>
          match row_group_bounds pinned cfg page_rows rows with
          | None => None
          | Some (lo, hi) =>
              match collect_ranges pinned cfg page_rows (S i) t with
              | None => None
              | Some rs => Some (mkRange i lo hi :: rs)
              end
          end
      end
  end.

Definition plan_segments (pinned : bool) (cfg : list colcfg) (page_rows : nat) (ins : list (list keyL))
  : list (list nat) :=
  match collect_ranges pinned cfg page_rows 0 ins with
  | None => [List.seq 0 (length ins)]
  | Some rs => map (map (@r_id keyL)) (segments (cmpL cfg) rs)
  end.

(* the rows a merged reader over [ins] delivers when read with slices of
   [batch] rows from sources that fill the slice they are given *)
Definition merge_flat (cfg : list colcfg) (batch : nat) (ins : list (list (row keyL))) : list (row keyL) :=
  let n := length (concat ins) in
  let batches := repeat batch (n + 2) in
  match ins with
  | [] => []
  | [a] => a
  | [a; b] => concat (fst (fst (merge2 (cmpL cfg) a b [] [] batches)))
  | _ => concat (fst (fst (mergek (cmpL cfg) ins [] batches)))
  end.

Definition plan_rows (pinned : bool) (cfg : list colcfg) (page_rows batch : nat) (dedupe : bool)
           (ins : list (list keyL)) : list (row keyL) :=
  let tagged := tag_all ins in
  let segs := plan_segments pinned cfg page_rows ins in
  let rows := flat_map (fun seg => merge_flat cfg batch (map (fun i => nth i tagged []) seg)) segs in
  if dedupe then dedupe_spec (cmpL cfg) rows else rows.

Definition c09_plan (pinned : bool) (cfg : list colcfg) (page_rows batch : nat) (dedupe : bool)
           (ins : list (list keyL)) : list (nat * nat) :=
  ids (plan_rows pinned cfg page_rows batch dedupe ins).

Definition c09_segments (cfg : list colcfg) (page_rows : nat) (ins : list (list keyL)) : list (list nat) :=
  plan_segments false cfg page_rows ins.

(* sortedness of a key sequence, executable (used by the refutation witness) *)
Fixpoint sortedb (cfg : list colcfg) (l : list keyL) : bool :=
  match l with
  | a :: ((b :: _) as t) => (cmpL cfg a b <=? 0) && sortedb cfg t
  | _ => true
  end.
