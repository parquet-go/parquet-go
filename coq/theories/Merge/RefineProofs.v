(** refineSegment (merge_refine.go) preserves the merge: the rows of the
    refined plan -- lone slices read as they are, the regions in between
    merged -- are exactly the rows of the merge of the whole segment, in the
    same order ([refine_plan_equiv], for the stable merge); and whatever valid
    merge procedure reads the regions, the concatenation is a run of the
    abstract scheduler on the whole segment ([refine_plan_sched]).

    The proof follows the sweep over the sorted events with an invariant:
    the closed part of the plan covers the rows below a cursor vector [pc]
    which is a clean cut of the inputs (every row below the cut of one input
    is strictly below every row above the cut of every other input). *)
From Coq Require Import List ZArith Bool Lia Sorting.Sorted Sorting.Permutation.
From PQ Require Import Base.Order Base.ListExtra Merge.Model Merge.Instance Merge.InstanceProofs Merge.AbstractProofs Merge.Refine
  Merge.RefineMergeProofs Merge.RefineCutProofs Merge.RefineEventProofs.
Import ListNotations.
Open Scope Z_scope.

Lemma In_skipn {A} (l : list A) n x : In x (skipn n l) -> In x l.
Proof. intros H. rewrite <- (firstn_skipn n l). apply in_or_app. now right. Qed.

Lemma In_firstn {A} (l : list A) n x : In x (firstn n l) -> In x l.
Proof. intros H. rewrite <- (firstn_skipn n l). apply in_or_app. now left. Qed.

Lemma In_skipn_mono {A} (l : list A) n m x : (n <= m)%nat -> In x (skipn m l) -> In x (skipn n l).
Proof.
  revert n m; induction l as [|y l IH]; intros n m Hle H.
  - rewrite skipn_nil in H. contradiction.
  - destruct n as [|n]; [cbn [skipn]; eapply In_skipn; eauto|].
    destruct m as [|m]; [lia|]. cbn [skipn] in *. apply (IH n m); [lia|exact H].
Qed.

Lemma In_firstn_mono {A} (l : list A) n m x : (n <= m)%nat -> In x (firstn n l) -> In x (firstn m l).
Proof.
  intros Hle H. replace m with (n + (m - n))%nat by lia. rewrite firstn_add.
  apply in_or_app. now left.
Qed.

Lemma zapp_map {A B} (f g : B -> list A) (l : list B) :
  zapp (map f l) (map g l) = map (fun j => f j ++ g j) l.
Proof. induction l as [|x l IH]; cbn; [reflexivity|]. now rewrite IH. Qed.

Lemma ssort_single {A} (cmpf : A -> A -> Z) x : ssort cmpf [x] = [x].
Proof. reflexivity. Qed.

Section RefineProofs.
  Variable K : Type.
  Variable cmp : K -> K -> Z.
  Variable V : Type.
  Variable col0 : K -> V.
  Variable cmp0 : V -> V -> Z.
  Hypothesis cmp_opp : forall a b, cmp a b < 0 <-> cmp b a > 0.
  Hypothesis cmp_trans : forall a b d, cmp a b <= 0 -> cmp b d <= 0 -> cmp a d <= 0.
  Hypothesis cmp0_opp : forall a b, cmp0 a b < 0 <-> cmp0 b a > 0.
  Hypothesis cmp0_trans : forall a b d, cmp0 a b <= 0 -> cmp0 b d <= 0 -> cmp0 a d <= 0.
  Hypothesis col0_strict : forall a b, cmp0 (col0 a) (col0 b) < 0 -> cmp a b < 0.

  Variable thr : nat.
  Variable ts : list (target K).
  Variable dk : K.

  Notation row := (row K).
  Notation rcmp := (rcmp cmp).
  Notation sorted := (sorted K cmp).
  Notation event := (event K).
  Notation state := (state K).
  Notation tgt := (tgt K ts dk).
  Notation k := (length ts).
  Notation rowsj j := (t_rows (tgt j)).
  Notation nrows j := (num_rows (tgt j)).
  Notation part_rows := (part_rows K ts dk).
  Notation piece_rows := (piece_rows K cmp ts dk).
  Notation plan_rows := (refined_rows K cmp ts dk).
  Notation smerge := (smerge cmp).
  Notation cur s j := (cursor K s j).
  Notation startedb := (evb K true).
  Notation endedb := (evb K false).

  (** what is assumed of every row group of the segment: its rows are sorted,
      there is at least one, minRow / maxRow bound them, and when the cut
      lookups exist the pages of the first sorting column hold rows *)
  Definition target_ok (t : target K) : Prop :=
    sorted (t_rows t) /\ t_rows t <> [] /\
    (forall r, In r (t_rows t) -> cmp (t_min t) (key r) <= 0 /\ cmp (key r) (t_max t) <= 0) /\
    (t_cuts t = true -> Forall (fun pg => pg <> []) (t_pages t)).

  Hypothesis ts_ok : forall j, (j < k)%nat -> target_ok (tgt j).

  Lemma ts_rows_sorted : Forall sorted (map (@t_rows K) ts).
  Proof.
    rewrite Forall_forall. intros l Hl. apply in_map_iff in Hl. destruct Hl as [t [<- Hin]].
    apply In_nth_error in Hin. destruct Hin as [j Hj].
    assert (Hlt : (j < k)%nat) by (apply nth_error_Some; congruence).
    destruct (ts_ok j Hlt) as [Hs _]. unfold Refine.tgt in Hs.
    now rewrite (nth_error_nth _ _ (no_target K dk) Hj) in Hs.
  Qed.

  Lemma bounds_ordered j : (j < k)%nat -> cmp (t_min (tgt j)) (t_max (tgt j)) <= 0.
  Proof.
    intros Hj. destruct (ts_ok j Hj) as [_ [Hne [Hb _]]]. destruct (rowsj j) as [|r l]; [contradiction|].
    destruct (Hb r (or_introl eq_refl)). eapply cmp_trans; eauto.
  Qed.

  Definition vecf (f : nat -> list row) : list (list row) := map f (List.seq 0 k).

  Lemma vecf_length f : length (vecf f) = k.
  Proof. unfold vecf. now rewrite map_length, seq_length. Qed.

  Lemma vecf_nth f j : (j < k)%nat -> nth j (vecf f) [] = f j.
  Proof.
    intros H. unfold vecf. now rewrite nth_map_seq.
  Qed.

  Lemma vecf_in f j x : In x (nth j (vecf f) []) -> (j < k)%nat /\ In x (f j).
  Proof.
    intros H. destruct (Nat.lt_ge_cases j k) as [Hlt|Hge].
    - split; [exact Hlt|]. now rewrite vecf_nth in H.
    - rewrite nth_overflow in H by (now rewrite vecf_length). contradiction.
  Qed.

  Lemma vecf_ext f g : (forall j, (j < k)%nat -> f j = g j) -> vecf f = vecf g.
  Proof. intros H. unfold vecf. apply map_ext_in. intros j Hj. apply in_seq in Hj. apply H. lia. Qed.

  Lemma ins_vecf : map (@t_rows K) ts = vecf (fun j => rowsj j).
  Proof.
    apply (nth_ext _ _ [] []); [now rewrite map_length, vecf_length|].
    intros n Hn. rewrite map_length in Hn. rewrite vecf_nth by assumption.
    change (@nil row) with (t_rows (no_target K dk)). now rewrite map_nth.
  Qed.

  Definition takev (c : nat -> nat) := vecf (fun j => firstn (c j) (rowsj j)).
  Definition betw (c c' : nat -> nat) := vecf (fun j => firstn (c' j - c j) (skipn (c j) (rowsj j))).

  Lemma takev_betw c c' : (forall j, (j < k)%nat -> (c j <= c' j)%nat) ->
    zapp (takev c) (betw c c') = takev c'.
  Proof.
    intros H. unfold takev, betw, vecf. rewrite zapp_map. apply vecf_ext. intros j Hj.
    rewrite <- firstn_add. f_equal. specialize (H j Hj). lia.
  Qed.

  Lemma takev_all c : (forall j, (j < k)%nat -> c j = nrows j) -> takev c = map (@t_rows K) ts.
  Proof.
    intros H. rewrite ins_vecf. apply vecf_ext. intros j Hj. rewrite (H j Hj). apply firstn_all.
  Qed.

  (** a clean cut of the inputs at the cursor vector [c] *)
  Definition clean (c : nat -> nat) : Prop :=
    forall i j a b, (i < k)%nat -> (j < k)%nat -> i <> j ->
      In a (firstn (c i) (rowsj i)) -> In b (skipn (c j) (rowsj j)) -> rcmp a b < 0.

  Lemma clean_cut_betw c c' : clean c -> clean_cut K cmp (takev c) (betw c c').
  Proof.
    intros Hc i j a b Hij Ha Hb. apply vecf_in in Ha. apply vecf_in in Hb.
    destruct Ha as [Hi Ha], Hb as [Hj Hb]. apply (Hc i j); auto. eapply In_firstn; eauto.
  Qed.

  (** ** what the closed part of the plan means *)
  Definition piece_run (pc : piece) (out : list row) : Prop :=
    exists E, sched cmp (map part_rows pc) out E /\ all_empty K E.

  Definition PlanSem (plan : list piece) (c : nat -> nat) : Prop :=
    plan_rows plan = smerge (takev c) /\
    forall outs, Forall2 piece_run plan outs ->
      exists E, sched cmp (takev c) (concat outs) E /\ all_empty K E.

  Lemma piece_rows_smerge pc : piece_rows pc = smerge (map part_rows pc).
  Proof.
    destruct pc as [|p [|q pc]]; try reflexivity. cbn [Refine.piece_rows map]. now rewrite smerge_single.
  Qed.

  Lemma plan_rows_app p1 p2 : plan_rows (p1 ++ p2) = plan_rows p1 ++ plan_rows p2.
  Proof. unfold Refine.refined_rows. now rewrite flat_map_app. Qed.

  Definition idx_cmp (a b : part) : Z := Z.of_nat (p_idx a) - Z.of_nat (p_idx b).

  (* the parts of a region relative to the cursors before ([c]) and after ([c']) *)
  Definition RegOK (region : list part) (c c' : nat -> nat) : Prop :=
    NoDup (map p_idx region) /\
    (forall p, In p region -> (p_idx p < k)%nat /\ p_off p = c (p_idx p) /\ (p_off p + p_len p)%nat = c' (p_idx p)) /\
    (forall j, (j < k)%nat -> (forall p, In p region -> p_idx p <> j) -> c j = c' j).

  Definition tagp (p : part) : nat * list row := (p_idx p, part_rows p).

  Lemma scatter_region region c c' : RegOK region c c' ->
    scatter K k (map tagp region) = betw c c'.
  Proof.
    intros [Hnd [Hin Hout]]. apply (nth_ext _ _ [] []); [unfold betw; now rewrite scatter_length, vecf_length|].
    intros j Hj. rewrite scatter_length in Hj. rewrite scatter_nth by assumption.
    unfold betw. rewrite vecf_nth by assumption.
    destruct (in_dec Nat.eq_dec j (map p_idx region)) as [Hi|Hni].
    - apply in_map_iff in Hi. destruct Hi as [p [Ep Hp]].
      rewrite (lookup_in K j (map tagp region) (tagp p)).
      + cbn [snd tagp]. unfold Refine.part_rows. destruct (Hin p Hp) as [_ [Ho Hl]]. rewrite Ep in *.
        rewrite Ho. f_equal. lia.
      + rewrite map_map. cbn [fst tagp]. exact Hnd.
      + now apply in_map.
      + exact Ep.
    - rewrite lookup_none.
      + rewrite (Hout j Hj), Nat.sub_diag; [reflexivity|]. intros p Hp E. apply Hni. rewrite <- E. now apply in_map.
      + intros x Hx. apply in_map_iff in Hx. destruct Hx as [p [<- Hp]]. cbn. intros E. apply Hni.
        rewrite <- E. now apply in_map.
  Qed.

  Lemma RegOK_perm r1 r2 c c' : Permutation r1 r2 -> RegOK r1 c c' -> RegOK r2 c c'.
  Proof.
    intros Hp [H1 [H2 H3]]. split; [|split].
    - eapply Permutation_NoDup; [apply Permutation_map; exact Hp|exact H1].
    - intros p Hin. apply H2. eapply Permutation_in; [symmetry; exact Hp|exact Hin].
    - intros j Hj Hn. apply H3; [exact Hj|]. intros p Hin. apply Hn. eapply Permutation_in; eauto.
  Qed.

  Lemma RegOK_ext region c c' c'' : RegOK region c c' -> (forall j, c' j = c'' j) -> RegOK region c c''.
  Proof. intros [H1 [H2 H3]] E. split; [exact H1|split]; intros; rewrite <- E; auto. Qed.

  Lemma RegOK_snoc region c c' c'' j n : RegOK region c c' -> (j < k)%nat ->
    (forall p, In p region -> p_idx p <> j) -> (c' j <= n)%nat ->
    (forall q, c'' q = if (q =? j)%nat then n else c' q) ->
    RegOK (region ++ [mkPart j (c' j) (n - c' j)]) c c''.
  Proof.
    intros [Hnd [Hin Hout]] Hj Hnot Hle E.
    assert (Hcj : c j = c' j) by (apply Hout; assumption).
    split; [|split].
    - rewrite map_app. cbn [map p_idx].
      apply (Permutation_NoDup (l := j :: map p_idx region)); [apply Permutation_cons_append|].
      constructor; [|exact Hnd]. intros Hi. apply in_map_iff in Hi. destruct Hi as [p [Ep Hp]]. exact (Hnot p Hp Ep).
    - intros p Hp. rewrite E. apply in_app_or in Hp. destruct Hp as [Hp|[<-|[]]].
      + destruct (Nat.eqb_spec (p_idx p) j) as [Ej|_]; [exfalso; exact (Hnot p Hp Ej)|]. now apply Hin.
      + cbn [p_idx p_off p_len]. rewrite Nat.eqb_refl. repeat split; [exact Hj|now symmetry|lia].
    - intros q Hq Hn. rewrite E. destruct (Nat.eqb_spec q j) as [->|Hne].
      + exfalso. apply (Hn (mkPart j (c' j) (n - c' j))); [apply in_or_app; right; now left|reflexivity].
      + apply Hout; [exact Hq|]. intros p Hp. apply Hn. apply in_or_app. now left.
  Qed.

  Lemma sorted_idx_strict (r : list part) :
    StronglySorted (fle part idx_cmp) r -> NoDup (map p_idx r) -> StronglySorted lt (map p_idx r).
  Proof.
    induction 1 as [|p r Hs IH Hf]; cbn; intros Hnd; [constructor|].
    inversion Hnd as [|? ? Hnin Hnd']; subst. constructor; [auto|].
    rewrite Forall_forall in *. intros x Hx. apply in_map_iff in Hx. destruct Hx as [q [<- Hq]].
    specialize (Hf q Hq). unfold fle, idx_cmp in Hf.
    assert (p_idx p <> p_idx q) by (intros E; apply Hnin; rewrite E; now apply in_map). lia.
  Qed.

  (** closing a region moves the cursor vector of the closed plan *)
  Lemma close_sem plan region c c' :
    PlanSem plan c -> clean c -> RegOK region c c' ->
    (forall j, (j < k)%nat -> (c j <= c' j)%nat) ->
    PlanSem (close_region plan region) c'.
  Proof.
    intros [Hrows Hrun] Hclean Hreg Hle.
    destruct region as [|p0 region0] eqn:Ereg.
    - (* no participant: nothing moves *)
      cbn [close_region]. destruct Hreg as [_ [_ Hout]].
      assert (E : takev c = takev c').
      { apply vecf_ext. intros j Hj. rewrite (Hout j Hj); [reflexivity|]. intros p []. }
      unfold PlanSem. rewrite <- E. split; assumption.
    - set (sr := ssort idx_cmp (p0 :: region0)).
      assert (Hclose : close_region plan (p0 :: region0) = plan ++ [sr]).
      { unfold sr. destruct region0; reflexivity. }
      rewrite Hclose. clear Hclose.
      assert (Hperm : Permutation (p0 :: region0) sr) by apply ssort_perm.
      pose proof (RegOK_perm _ _ _ _ Hperm Hreg) as Hreg'.
      pose proof (scatter_region _ _ _ Hreg') as Hsc.
      destruct Hreg' as [Hnd [Hin _]].
      assert (Hk : forall x, In x (map tagp sr) -> (fst x < k)%nat).
      { intros x Hx. apply in_map_iff in Hx. destruct Hx as [p [<- Hp]]. cbn. now apply Hin. }
      assert (Hmapfst : map fst (map tagp sr) = map p_idx sr) by (rewrite map_map; reflexivity).
      assert (Hmapsnd : map snd (map tagp sr) = map part_rows sr) by (rewrite map_map; reflexivity).
      split.
      + rewrite plan_rows_app, Hrows. unfold Refine.refined_rows at 1. cbn [flat_map]. rewrite app_nil_r.
        rewrite piece_rows_smerge, <- Hmapsnd, <- (smerge_scatter K cmp k).
        * rewrite Hsc, <- (smerge_split K cmp cmp_opp).
          -- now rewrite takev_betw.
          -- unfold takev, betw. now rewrite !vecf_length.
          -- now apply clean_cut_betw.
        * rewrite Hmapfst. apply sorted_idx_strict; [|exact Hnd].
          apply (ssort_sorted part idx_cmp); unfold idx_cmp; intros; lia.
        * exact Hk.
      + intros outs Hf. apply Forall2_app_inv_l in Hf. destruct Hf as [o1 [o2 [Hf1 [Hf2 ->]]]].
        inversion Hf2 as [|? o ? ? Hrun2 Hnil]; subst. inversion Hnil; subst. clear Hf2 Hnil.
        destruct (Hrun _ Hf1) as [E1 [R1 He1]]. destruct Hrun2 as [E2 [R2 He2]].
        rewrite <- Hmapsnd in R2.
        destruct (sched_embed_complete K cmp _ _ _ _ _ R2 He2 (embeds_scatter K k (map tagp sr)
                    ltac:(rewrite Hmapfst; exact Hnd) Hk)) as [E2' [R2' He2']].
        rewrite Hsc in R2'. exists E2'. split; [|exact He2'].
        rewrite concat_app. cbn [concat]. rewrite app_nil_r. rewrite <- (takev_betw c c') by assumption.
        eapply (sched_split K cmp); eauto.
        * unfold takev, betw. now rewrite !vecf_length.
        * intros i j a b Hij Ha Hb. assert (rcmp a b < 0); [|lia].
          eapply (clean_cut_betw c c' Hclean); eauto.
  Qed.

  Lemma slice_sem plan region pc curf i off en :
    PlanSem plan pc -> clean pc -> RegOK region pc curf -> (i < k)%nat ->
    (forall p, In p region -> p_idx p <> i) -> (forall j, (j < k)%nat -> (pc j <= curf j)%nat) ->
    (curf i <= off <= en)%nat ->
    (forall x, (off <= x <= en)%nat -> clean (fun j => if (j =? i)%nat then x else curf j)) ->
    PlanSem (close_region plan (if (curf i <? off)%nat then region ++ [mkPart i (curf i) (off - curf i)] else region)
               ++ [[mkPart i off (en - off)]])
            (fun j => if (j =? i)%nat then en else curf j).
  Proof.
    intros Hplan Hcl Hreg Hi Hnotreg Hle Hoff Hclean.
    set (c1 := fun j => if (j =? i)%nat then off else curf j).
    set (c2 := fun j => if (j =? i)%nat then en else curf j).
    assert (Hreg1 : RegOK (if (curf i <? off)%nat then region ++ [mkPart i (curf i) (off - curf i)] else region) pc c1).
    { destruct (Nat.ltb_spec (curf i) off) as [Hlt|Hge].
      - apply (RegOK_snoc _ _ _ _ _ _ Hreg Hi Hnotreg); [lia|reflexivity].
      - apply (RegOK_ext _ _ _ _ Hreg). intros j. unfold c1.
        destruct (Nat.eqb_spec j i) as [->|_]; [lia|reflexivity]. }
    assert (Hle1 : forall j, (j < k)%nat -> (pc j <= c1 j)%nat).
    { intros j Hj. unfold c1. destruct (Nat.eqb_spec j i) as [->|_]; [|now apply Hle]. specialize (Hle i Hi). lia. }
    pose proof (close_sem _ _ _ _ Hplan Hcl Hreg1 Hle1) as Hsem1.
    assert (Hreg2 : RegOK [mkPart i off (en - off)] c1 c2).
    { split; [|split].
      - cbn. constructor; [intros []|constructor].
      - intros p [<-|[]]. cbn [p_idx p_off p_len]. unfold c1, c2. rewrite Nat.eqb_refl. repeat split; [exact Hi|lia].
      - intros j Hj Hn. unfold c1, c2. destruct (Nat.eqb_spec j i) as [->|_]; [|reflexivity].
        exfalso. apply (Hn (mkPart i off (en - off))); [now left|reflexivity]. }
    assert (Hle2 : forall j, (j < k)%nat -> (c1 j <= c2 j)%nat).
    { intros j Hj. unfold c1, c2. destruct (Nat.eqb_spec j i); lia. }
    exact (close_sem _ _ _ _ Hsem1 (Hclean off ltac:(lia)) Hreg2 Hle2).
  Qed.

  Lemma rows_le_max j r : (j < k)%nat -> In r (rowsj j) -> cmp (key r) (t_max (tgt j)) <= 0.
  Proof. intros Hj Hr. destruct (ts_ok j Hj) as [_ [_ [Hb _]]]. now apply Hb. Qed.

  Lemma rows_ge_min j r : (j < k)%nat -> In r (rowsj j) -> cmp (t_min (tgt j)) (key r) <= 0.
  Proof. intros Hj Hr. destruct (ts_ok j Hj) as [_ [_ [Hb _]]]. now apply Hb. Qed.

  Lemma rows_apart j j' a b : (j < k)%nat -> (j' < k)%nat ->
    cmp (t_max (tgt j)) (t_min (tgt j')) < 0 -> In a (rowsj j) -> In b (rowsj j') -> rcmp a b < 0.
  Proof.
    intros Hj Hj' Hlt Ha Hb. unfold Model.rcmp.
    apply (cmp_le_lt_trans K cmp cmp_opp cmp_trans) with (t_max (tgt j)); [now apply rows_le_max|].
    apply (cmp_lt_le_trans K cmp cmp_opp cmp_trans) with (t_min (tgt j')); [exact Hlt|now apply rows_ge_min].
  Qed.

  (** the cut around a lone stretch of target [i]: every other target is
      entirely below ([E]: its rows are consumed) or entirely above ([F]: none
      of its rows is) *)
  Lemma clean_lone (E F : nat -> Prop) (curf : nat -> nat) i off en x :
    (off <= x <= en)%nat ->
    (forall j, (j < k)%nat -> j <> i -> (E j /\ curf j = nrows j) \/ (F j /\ curf j = 0%nat)) ->
    (forall j a b, (j < k)%nat -> j <> i -> E j -> In a (rowsj j) -> In b (skipn off (rowsj i)) -> rcmp a b < 0) ->
    (forall j a b, (j < k)%nat -> j <> i -> F j -> In a (firstn en (rowsj i)) -> In b (rowsj j) -> rcmp a b < 0) ->
    (forall j j' a b, (j < k)%nat -> (j' < k)%nat -> E j -> F j' -> In a (rowsj j) -> In b (rowsj j') -> rcmp a b < 0) ->
    clean (fun j => if (j =? i)%nat then x else curf j).
  Proof.
    intros Hx Hcls Hlow Hup Hef a b ra rb Ha Hb Hab Hra Hrb. cbn beta in *.
    destruct (Nat.eqb_spec a i) as [->|Hai]; destruct (Nat.eqb_spec b i) as [->|Hbi]; try congruence.
    - (* rows of the lone target before the cut against another target *)
      destruct (Hcls b Hb Hbi) as [[_ Hc]|[Hf Hc]]; rewrite Hc in Hrb.
      + unfold num_rows in Hrb. rewrite skipn_all in Hrb. contradiction.
      + cbn [skipn] in Hrb. apply (Hup b); auto. eapply In_firstn_mono; [|exact Hra]. lia.
    - destruct (Hcls a Ha Hai) as [[He Hc]|[_ Hc]]; rewrite Hc in Hra.
      + unfold num_rows in Hra. rewrite firstn_all in Hra. apply (Hlow a); auto.
        eapply In_skipn_mono; [|exact Hrb]. lia.
      + cbn [firstn] in Hra. contradiction.
    - destruct (Hcls a Ha Hai) as [[He Hc]|[_ Hc]]; rewrite Hc in Hra; [|cbn [firstn] in Hra; contradiction].
      destruct (Hcls b Hb Hbi) as [[_ Hc']|[Hf Hc']]; rewrite Hc' in Hrb.
      + unfold num_rows in Hrb. rewrite skipn_all in Hrb. contradiction.
      + unfold num_rows in Hra. rewrite firstn_all in Hra. cbn [skipn] in Hrb. apply (Hef a b); auto.
  Qed.

  (** ** the invariant of the sweep, after the events [pre] *)
  Definition lone_low (pre : list event) (s : state) (i : nat) : Prop :=
    match s_leftk s with
    | Some kk => forall e, In e pre -> cmp (e_key e) kk <= 0
    | None => cur s i = 0%nat /\ forall e, In e pre -> e_start e = false -> cmp (e_key e) (t_min (tgt i)) < 0
    end.

  Record Inv (pre : list event) (s : state) (pc : nat -> nat) : Prop := mkInv {
    i_len : length (s_cursors s) = k;
    i_le : forall j, (j < k)%nat -> (pc j <= cur s j <= nrows j)%nat;
    i_nodup : NoDup (s_active s);
    i_act : forall j, In j (s_active s) <-> ((j < k)%nat /\ startedb j pre = true /\ endedb j pre = false);
    i_c0 : forall j, (j < k)%nat -> startedb j pre = false -> cur s j = 0%nat;
    i_cN : forall j, (j < k)%nat -> endedb j pre = true -> cur s j = nrows j;
    i_lone : forall i, s_lone s = Some i -> s_active s = [i] /\ lone_low pre s i;
    i_plan : PlanSem (s_plan s) pc;
    i_clean : clean pc;
    i_regok : RegOK (s_region s) pc (fun j => cur s j);
    i_reg_ended : forall p, In p (s_region s) -> endedb (p_idx p) pre = true }.

  Definition EFfact (pre : list event) : Prop :=
    forall j j', (j < k)%nat -> (j' < k)%nat -> endedb j pre = true -> startedb j' pre = false ->
      cmp (t_max (tgt j)) (t_min (tgt j')) < 0.

  Definition Upfact (pre : list event) (s : state) (rightk : option K) : Prop :=
    match rightk with
    | Some kk => forall j, (j < k)%nat -> startedb j pre = false -> cmp kk (t_min (tgt j)) <= 0
    | None => forall i, s_lone s = Some i -> forall j, (j < k)%nat -> startedb j pre = false ->
                cmp (t_max (tgt i)) (t_min (tgt j)) < 0
    end.

  Notation resolve_lone := (resolve_lone K V col0 cmp0 true thr ts dk).

  Lemma lone_clean pre s pc rightk i off en x :
    Inv pre s pc -> EFfact pre -> Upfact pre s rightk -> (forall e, In e pre -> ev_ok K ts dk e) ->
    s_lone s = Some i -> t_cuts (tgt i) = true ->
    match s_leftk s with
    | Some kk => (cut_above_gen K V col0 cmp0 true (tgt i) kk <= off)%nat | None => True end ->
    match rightk with
    | Some kk => (en <= cut_below K V col0 cmp0 (tgt i) kk)%nat | None => True end ->
    (off <= x <= en)%nat -> clean (fun j => if (j =? i)%nat then x else cur s j).
  Proof.
    intros HI HEF HU Hpre El Ecuts Hoffk Henk Hx.
    destruct (i_lone _ _ _ HI i El) as [Hact Hlow].
    assert (Hi : (i < k)%nat) by (apply (i_act _ _ _ HI); rewrite Hact; now left).
    destruct (ts_ok i Hi) as [Hsorted [_ [_ Hpages]]]. specialize (Hpages Ecuts).
    (* every other target is consumed or untouched *)
    assert (Hcls : forall j, (j < k)%nat -> j <> i ->
              (endedb j pre = true /\ cur s j = nrows j) \/ (startedb j pre = false /\ cur s j = 0%nat)).
    { intros j Hj Hji. destruct (endedb j pre) eqn:Ee; [left; split; [reflexivity|now apply (i_cN _ _ _ HI)]|].
      destruct (startedb j pre) eqn:Es; [|right; split; [reflexivity|now apply (i_c0 _ _ _ HI)]].
      exfalso. assert (Hin : In j (s_active s)) by (apply (i_act _ _ _ HI); auto).
      rewrite Hact in Hin. destruct Hin as [Hin|[]]. congruence. }
    apply (clean_lone (fun j => endedb j pre = true) (fun j => startedb j pre = false) (fun j => cur s j) i off en x);
      auto.
    - intros j a b Hj Hji He Ha Hb. destruct (evb_ex K _ _ _ He) as [e [Hine [Hes Hei]]].
      destruct (Hpre e Hine) as [_ Hk]. rewrite Hes, Hei in Hk.
      pose proof (rows_le_max j a Hj Ha) as Hamax. unfold Model.rcmp.
      unfold lone_low in Hlow. destruct (s_leftk s) as [kk|].
      + apply (cmp_le_lt_trans K cmp cmp_opp cmp_trans) with kk.
        * apply cmp_trans with (t_max (tgt j)); [exact Hamax|]. rewrite <- Hk. now apply Hlow.
        * apply (cut_above_safe K cmp V col0 cmp0 cmp_opp cmp_trans cmp0_opp cmp0_trans col0_strict (tgt i) Hsorted Hpages).
          eapply In_skipn_mono; [exact Hoffk|exact Hb].
      + destruct Hlow as [_ Hlow]. specialize (Hlow e Hine Hes). rewrite Hk in Hlow.
        apply (cmp_le_lt_trans K cmp cmp_opp cmp_trans) with (t_max (tgt j)); [exact Hamax|].
        apply (cmp_lt_le_trans K cmp cmp_opp cmp_trans) with (t_min (tgt i)); [exact Hlow|].
        apply rows_ge_min; [exact Hi|]. eapply In_skipn; eauto.
    - intros j a b Hj Hji Hs Ha Hb. pose proof (rows_ge_min j b Hj Hb) as Hbmin. unfold Model.rcmp.
      unfold Upfact in HU. destruct rightk as [kk|].
      + apply (cmp_lt_le_trans K cmp cmp_opp cmp_trans) with kk.
        * apply (cut_below_safe K cmp V col0 cmp0 cmp_opp cmp_trans cmp0_opp cmp0_trans col0_strict (tgt i) Hsorted Hpages).
          eapply In_firstn_mono; [exact Henk|exact Ha].
        * apply cmp_trans with (t_min (tgt j)); [now apply HU|exact Hbmin].
      + apply (rows_apart i j); auto. eapply In_firstn; eauto.
    - intros j j' a b Hj Hj' He Hs Ha Hb. apply (rows_apart j j'); auto.
  Qed.

  Lemma resolve_inv pre s pc rightk :
    Inv pre s pc -> EFfact pre -> Upfact pre s rightk -> (forall e, In e pre -> ev_ok K ts dk e) ->
    exists pc', Inv pre (resolve_lone s rightk) pc' /\
                s_lone (resolve_lone s rightk) = None /\ s_active (resolve_lone s rightk) = s_active s.
  Proof.
    intros HI HEF HU Hpre. unfold Refine.resolve_lone. destruct (s_lone s) as [i|] eqn:El.
    2:{ exists pc. split; [exact HI|split; [exact El|reflexivity]]. }
    destruct (i_lone _ _ _ HI i El) as [Hact Hlow].
    assert (Hiact : (i < k)%nat /\ startedb i pre = true /\ endedb i pre = false).
    { apply (i_act _ _ _ HI). rewrite Hact. now left. }
    destruct Hiact as [Hi [Hist Hien]].
    set (s0 := mkState K (s_plan s) (s_region s) (s_cursors s) (s_active s) (s_sliced s) None (s_leftk s)).
    assert (HI0 : Inv pre s0 pc).
    { destruct HI. constructor; cbn [s0 s_plan s_region s_cursors s_active s_sliced s_lone s_leftk]; try assumption.
      intros ? Hd. discriminate. }
    destruct (t_cuts (tgt i)) eqn:Ecuts; cbn [negb]; [|exists pc; split; [exact HI0|split; reflexivity]].
    set (off0 := match s_leftk s with Some k0 => cut_above_gen K V col0 cmp0 true (tgt i) k0 | None => 0%nat end).
    set (en0 := match rightk with Some k0 => cut_below K V col0 cmp0 (tgt i) k0 | None => nrows i end).
    set (off := Nat.max off0 (cur s i)). set (en := Nat.min en0 (nrows i)).
    destruct (Nat.ltb_spec en (off + thr)) as [Hsmall|Hbig]; [exists pc; split; [exact HI0|split; reflexivity]|].
    (* the slice [off, en) of target i *)
    assert (Hoff : (cur s i <= off <= en)%nat) by lia.
    assert (Hen : (en <= nrows i)%nat) by lia.
    assert (Hnotreg : forall p, In p (s_region s) -> p_idx p <> i).
    { intros p Hp E. pose proof (i_reg_ended _ _ _ HI p Hp) as He. rewrite E in He. congruence. }
    set (c2 := fun j => if (j =? i)%nat then en else cur s j).
    assert (Hclean : forall x, (off <= x <= en)%nat -> clean (fun j => if (j =? i)%nat then x else cur s j)).
    { intros x Hx. apply (lone_clean pre s pc rightk i off en x HI HEF HU Hpre El Ecuts); [| |exact Hx].
      - unfold off, off0. destruct (s_leftk s); [lia|exact I].
      - unfold en, en0. destruct rightk; [lia|exact I]. }
    pose proof (slice_sem _ _ _ (fun j => cur s j) i off en (i_plan _ _ _ HI) (i_clean _ _ _ HI) (i_regok _ _ _ HI)
                  Hi Hnotreg (fun j Hj => proj1 (i_le _ _ _ HI j Hj)) Hoff Hclean) as Hsem2.
    exists c2. split; [|split; reflexivity].
    pose proof (i_len _ _ _ HI) as Hlen.
    assert (Hcur : forall j, nth j (upd (s_cursors s) i en) 0%nat = c2 j).
    { intros j. rewrite nth_upd by lia. reflexivity. }
    constructor; unfold cursor; cbn [s_plan s_region s_cursors s_active s_sliced s_lone s_leftk].
    - now rewrite upd_length.
    - intros j Hj. rewrite Hcur. unfold c2. destruct (Nat.eqb_spec j i) as [->|_]; [lia|].
      pose proof (i_le _ _ _ HI j Hj). unfold cursor in *. lia.
    - exact (i_nodup _ _ _ HI).
    - exact (i_act _ _ _ HI).
    - intros j Hj Hs. rewrite Hcur. unfold c2. destruct (Nat.eqb_spec j i) as [->|_]; [congruence|].
      exact (i_c0 _ _ _ HI j Hj Hs).
    - intros j Hj He. rewrite Hcur. unfold c2. destruct (Nat.eqb_spec j i) as [->|_]; [congruence|].
      exact (i_cN _ _ _ HI j Hj He).
    - intros ? Hd. discriminate.
    - exact Hsem2.
    - apply Hclean. lia.
    - split; [constructor|split; [intros p []|]]. intros j Hj _. now rewrite Hcur.
    - intros p [].
  Qed.

  Notation step := (step K V col0 cmp0 true thr ts dk).
  Notation evs := (evs K cmp ts).

  Lemma later_start pre post j : evs = pre ++ post -> (j < k)%nat -> startedb j pre = false ->
    exists e', In e' post /\ e_start e' = true /\ e_key e' = t_min (tgt j).
  Proof.
    intros E Hj Hs. destruct (evs_all_started K cmp ts dk j Hj) as [Hall _].
    rewrite E, evb_app, Hs in Hall. destruct (evb_ex K _ _ _ Hall) as [e' [Hin [Hes Hei]]].
    exists e'. split; [exact Hin|]. split; [exact Hes|].
    destruct (evs_ok K cmp ts dk e') as [_ Hk]; [rewrite E; apply in_or_app; now right|].
    now rewrite Hes, Hei in Hk.
  Qed.

  Lemma EF_holds pre post : evs = pre ++ post -> EFfact pre.
  Proof.
    intros E j j' Hj Hj' He Hs. destruct (evb_ex K _ _ _ He) as [e [Hine [Hes Hei]]].
    destruct (later_start pre post j' E Hj' Hs) as [e' [Hine' [Hes' Hk']]].
    pose proof (evs_sorted K cmp cmp_opp cmp_trans ts) as Hsrt. rewrite E in Hsrt.
    apply SS_app_iff in Hsrt. destruct Hsrt as [_ [_ Hc]].
    pose proof (end_before_start K cmp _ _ (Hc e e' Hine Hine') Hes Hes') as Hlt.
    destruct (evs_ok K cmp ts dk e) as [_ Hk]; [rewrite E; apply in_or_app; now left|].
    rewrite Hes, Hei in Hk. now rewrite Hk, Hk' in Hlt.
  Qed.

  Lemma start_build pre ev s1 pc lone' leftk' :
    let f := e_idx ev in
    Inv pre s1 pc -> e_start ev = true -> (f < k)%nat -> e_key ev = t_min (tgt f) ->
    startedb f pre = false -> endedb f pre = false ->
    (forall e, In e pre -> ev_cmp K cmp e ev <= 0) ->
    (lone' = None \/ (lone' = Some f /\ leftk' = None /\ s_active s1 = [])) ->
    Inv (pre ++ [ev]) (mkState K (s_plan s1) (s_region s1) (s_cursors s1) (s_active s1 ++ [f])
                               (s_sliced s1) lone' leftk') pc.
  Proof.
    intros f HI Est Hf Hkey Hfs Hfe S1 Hlone.
    assert (Hnin : ~ In f (s_active s1)).
    { intros Hin. apply (i_act _ _ _ HI) in Hin. destruct Hin as [_ [Hin _]]. congruence. }
    assert (Hsb : forall j, startedb j (pre ++ [ev]) = startedb j pre || (f =? j)%nat).
    { intros j. rewrite evb_snoc, Est. reflexivity. }
    assert (Heb : forall j, endedb j (pre ++ [ev]) = endedb j pre).
    { intros j. rewrite evb_snoc, Est. apply orb_false_r. }
    constructor; unfold cursor; cbn [s_plan s_region s_cursors s_active s_sliced s_lone s_leftk].
    - exact (i_len _ _ _ HI).
    - exact (i_le _ _ _ HI).
    - apply (Permutation_NoDup (l := f :: s_active s1)); [apply Permutation_cons_append|].
      constructor; [exact Hnin|exact (i_nodup _ _ _ HI)].
    - intros j. rewrite Hsb, Heb, in_app_iff, (i_act _ _ _ HI j). cbn [In].
      rewrite orb_true_iff, Nat.eqb_eq. split.
      + intros [[H1 [H2 H3]]|[<-|[]]]; [auto|]. repeat split; auto.
      + intros [H1 [[H2|H2] H3]]; [left; auto|right; left; exact H2].
    - intros j Hj Hs. rewrite Hsb in Hs. apply orb_false_iff in Hs. destruct Hs as [Hs _].
      exact (i_c0 _ _ _ HI j Hj Hs).
    - intros j Hj He. rewrite Heb in He. exact (i_cN _ _ _ HI j Hj He).
    - intros i Hi. destruct Hlone as [->|[-> [-> Hnil]]]; [discriminate|]. inversion Hi; subst i.
      rewrite Hnil. split; [reflexivity|]. unfold lone_low. cbn [s_leftk]. unfold cursor. cbn [s_cursors].
      split; [exact (i_c0 _ _ _ HI f Hf Hfs)|].
      intros e He Hes. apply in_app_or in He. destruct He as [He|[<-|[]]]; [|congruence].
      rewrite <- Hkey. apply (end_before_start K cmp); auto.
    - exact (i_plan _ _ _ HI).
    - exact (i_clean _ _ _ HI).
    - exact (i_regok _ _ _ HI).
    - intros p Hp. rewrite Heb. exact (i_reg_ended _ _ _ HI p Hp).
  Qed.

  Lemma end_build pre ev s1 pc region' cursors' lone' leftk' :
    let f := e_idx ev in
    Inv pre s1 pc -> e_start ev = false -> (f < k)%nat ->
    startedb f pre = true -> endedb f pre = false ->
    length cursors' = k ->
    (forall j, nth j cursors' 0%nat = if (j =? f)%nat then nrows f else cur s1 j) ->
    ((region' = s_region s1 /\ cur s1 f = nrows f) \/
     (region' = s_region s1 ++ [mkPart f (cur s1 f) (nrows f - cur s1 f)] /\ (cur s1 f < nrows f)%nat)) ->
    (lone' = None \/ exists l, lone' = Some l /\ del_active (s_active s1) f = [l] /\ leftk' = Some (e_key ev)) ->
    (forall e, In e pre -> cmp (e_key e) (e_key ev) <= 0) ->
    Inv (pre ++ [ev]) (mkState K (s_plan s1) region' cursors' (del_active (s_active s1) f) (s_sliced s1) lone' leftk') pc.
  Proof.
    intros f HI Hend Hf Hfs Hfe Hlen Hcur Hreg Hlone Hkeys.
    assert (Hsb : forall j, startedb j (pre ++ [ev]) = startedb j pre).
    { intros j. rewrite evb_snoc, Hend. apply orb_false_r. }
    assert (Heb : forall j, endedb j (pre ++ [ev]) = endedb j pre || (f =? j)%nat).
    { intros j. rewrite evb_snoc, Hend. reflexivity. }
    assert (Hnotreg : forall p, In p (s_region s1) -> p_idx p <> f).
    { intros p Hp E. pose proof (i_reg_ended _ _ _ HI p Hp) as He. rewrite E in He. congruence. }
    pose proof (i_le _ _ _ HI f Hf) as Hlef.
    constructor; unfold cursor; cbn [s_plan s_region s_cursors s_active s_sliced s_lone s_leftk].
    - exact Hlen.
    - intros j Hj. rewrite Hcur. pose proof (i_le _ _ _ HI j Hj) as H. unfold cursor in *.
      destruct (Nat.eqb_spec j f) as [->|_]; lia.
    - unfold del_active. apply NoDup_filter. exact (i_nodup _ _ _ HI).
    - intros j. rewrite Hsb, Heb. unfold del_active. rewrite filter_In, (i_act _ _ _ HI j).
      rewrite negb_true_iff, orb_false_iff, !Nat.eqb_neq. split; [intros [[H1 [H2 H3]] H4]|intros [H1 [H2 [H3 H4]]]]; auto.
    - intros j Hj Hs. rewrite Hsb in Hs. rewrite Hcur.
      destruct (Nat.eqb_spec j f) as [->|_]; [congruence|]. exact (i_c0 _ _ _ HI j Hj Hs).
    - intros j Hj He. rewrite Heb in He. rewrite Hcur.
      destruct (Nat.eqb_spec j f) as [->|Hne]; [reflexivity|].
      apply orb_true_iff in He. destruct He as [He|He]; [exact (i_cN _ _ _ HI j Hj He)|].
      apply Nat.eqb_eq in He. congruence.
    - intros i Hi. destruct Hlone as [->|[l [-> [Hact ->]]]]; [discriminate|]. inversion Hi; subst i.
      split; [exact Hact|]. unfold lone_low. cbn [s_leftk]. intros e He. apply in_app_or in He.
      destruct He as [He|[<-|[]]]; [now apply Hkeys|]. apply (cmp_refl_le K cmp cmp_opp).
    - exact (i_plan _ _ _ HI).
    - exact (i_clean _ _ _ HI).
    - destruct Hreg as [[-> Hc]|[-> Hlt]].
      + apply (RegOK_ext _ _ _ _ (i_regok _ _ _ HI)). intros j. rewrite Hcur.
        destruct (Nat.eqb_spec j f) as [->|_]; [exact Hc|reflexivity].
      + apply (RegOK_snoc _ _ _ _ _ _ (i_regok _ _ _ HI) Hf Hnotreg); [lia|exact Hcur].
    - intros p Hp. rewrite Heb.
      assert (Hp' : In p (s_region s1) \/ p_idx p = f).
      { destruct Hreg as [[-> _]|[-> _]]; [now left|]. apply in_app_or in Hp. destruct Hp as [Hp|[<-|[]]]; auto. }
      destruct Hp' as [Hp'|Ep]; [now rewrite (i_reg_ended _ _ _ HI p Hp')|]. rewrite Ep, Nat.eqb_refl. apply orb_true_r.
  Qed.

  Lemma remainder_spec pre s1 pc f : Inv pre s1 pc -> (f < k)%nat ->
    let '(r, cursors') := remainder K ts dk s1 f in
    length cursors' = k /\
    (forall j, nth j cursors' 0%nat = if (j =? f)%nat then nrows f else cur s1 j) /\
    let region' := match r with Some p => s_region s1 ++ [p] | None => s_region s1 end in
    (region' = s_region s1 /\ cur s1 f = nrows f) \/
    (region' = s_region s1 ++ [mkPart f (cur s1 f) (nrows f - cur s1 f)] /\ (cur s1 f < nrows f)%nat).
  Proof.
    intros HI Hf. pose proof (i_len _ _ _ HI) as Hlen.
    unfold Refine.remainder. destruct (Nat.leb_spec (nrows f) (cur s1 f)) as [Hfull|Hpart].
    - assert (Hceq : cur s1 f = nrows f) by (pose proof (i_le _ _ _ HI f Hf); lia).
      split; [exact Hlen|]. split; [|now left].
      intros j. destruct (Nat.eqb_spec j f) as [->|_]; [exact Hceq|reflexivity].
    - split; [now rewrite upd_length|]. split; [|now right]. intros j. now rewrite nth_upd by lia.
  Qed.

  Lemma step_inv pre ev post s pc : evs = pre ++ ev :: post -> Inv pre s pc ->
    exists pc', Inv (pre ++ [ev]) (step s ev) pc'.
  Proof.
    intros E HI.
    destruct (event_facts K cmp cmp_opp cmp_trans ts dk bounds_ordered pre ev post E)
      as [Hev [S1 [S2 [S3 [Hpre [Hpost [Hst Hen]]]]]]].
    destruct Hev as [Hf Hkey]. set (f := e_idx ev) in *.
    pose proof (EF_holds pre (ev :: post) E) as HEF.
    assert (Hahead : forall e', In e' (ev :: post) -> cmp (e_key ev) (e_key e') <= 0).
    { intros e' [<-|He']; [apply (cmp_refl_le K cmp cmp_opp)|apply (ev_le_key K cmp); now apply S2]. }
    unfold Refine.step. fold f. destruct (e_start ev) eqn:Est.
    - (* a start event *)
      destruct (Hst eq_refl) as [Hfs Hfe]. fold f in Hfs, Hfe.
      assert (HU : Upfact pre s (Some (e_key ev))).
      { intros j Hj Hs. destruct (later_start pre _ j E Hj Hs) as [e' [Hine' [_ <-]]]. now apply Hahead. }
      destruct (resolve_inv pre s pc (Some (e_key ev)) HI HEF HU Hpre) as [pc1 [HI1 [Hl1 Ha1]]].
      set (s1 := resolve_lone s (Some (e_key ev))) in *.
      assert (Hadd : add_active (s_active s1) f = s_active s1 ++ [f]).
      { unfold add_active. destruct (existsb (Nat.eqb f) (s_active s1)) eqn:Eex; [|reflexivity].
        exfalso. apply existsb_exists in Eex. destruct Eex as [x [Hx Efx]]. apply Nat.eqb_eq in Efx. subst x.
        apply (i_act _ _ _ HI1) in Hx. destruct Hx as [_ [Hx _]]. congruence. }
      rewrite Hadd. exists pc1.
      destruct (Nat.eqb_spec (length (s_active s1 ++ [f])) 1) as [Hone|_]; apply start_build; auto.
      right. repeat split. rewrite app_length in Hone. cbn in Hone.
      destruct (s_active s1); [reflexivity|cbn in Hone; lia].
    - (* an end event *)
      destruct (Hen eq_refl) as [Hfs Hfe]. fold f in Hfs, Hfe.
      assert (Hfact : In f (s_active s)) by (apply (i_act _ _ _ HI); auto).
      set (s1 := match s_lone s with
                 | Some l => if (l =? f)%nat then resolve_lone s None else s
                 | None => s
                 end).
      assert (Hs1 : exists pc1, Inv pre s1 pc1 /\ s_lone s1 = None /\ s_active s1 = s_active s).
      { unfold s1. destruct (s_lone s) as [l|] eqn:El; [|exists pc; auto].
        destruct (i_lone _ _ _ HI l El) as [Hact _]. rewrite Hact in Hfact. destruct Hfact as [->|[]].
        rewrite Nat.eqb_refl. apply (resolve_inv pre s pc None HI HEF); [|exact Hpre].
        (* the lone target ends here: every target yet to start is strictly above its maxRow *)
        intros i Hi j Hj Hs. rewrite El in Hi. inversion Hi; subst i.
        destruct (later_start pre _ j E Hj Hs) as [e' [Hine' [Hes' <-]]].
        destruct Hine' as [<-|Hine']; [congruence|].
        rewrite <- Hkey. apply (end_before_start K cmp); auto. }
      destruct Hs1 as [pc1 [HI1 [Hl1 Ha1]]]. exists pc1.
      assert (Hkeys : forall e, In e pre -> cmp (e_key e) (e_key ev) <= 0).
      { intros e He. apply (ev_le_key K cmp). now apply S1. }
      rewrite Hl1. pose proof (remainder_spec pre s1 pc1 f HI1 Hf) as Hrem.
      destruct (remainder K ts dk s1 f) as [r cursors']. destruct Hrem as [Hlen' [Hcur Hreg]].
      destruct (del_active (s_active s1) f) as [|l [|l2 rest]] eqn:Edel; rewrite <- Edel;
        apply end_build; auto.
      right. exists l. auto.
  Qed.

  Lemma sweep_inv post : forall pre s pc, evs = pre ++ post -> Inv pre s pc ->
    exists pc', Inv evs (fold_left step post s) pc'.
  Proof.
    induction post as [|ev post IH]; intros pre s pc E HI; cbn [fold_left].
    - rewrite app_nil_r in E. rewrite E. eauto.
    - destruct (step_inv pre ev post s pc E HI) as [pc1 HI1].
      apply (IH (pre ++ [ev]) _ pc1); [|exact HI1]. now rewrite <- app_assoc.
  Qed.

  Lemma smerge_all_nil (l : list nat) : smerge (map (fun _ => @nil row) l) = [].
  Proof. induction l as [|x l IH]; [reflexivity|]. cbn [map]. change (smerge ([] :: ?st)) with (smerge st). exact IH. Qed.

  Lemma init_inv : Inv [] (init_state K ts) (fun _ => 0%nat).
  Proof.
    constructor; unfold cursor; cbn [init_state s_plan s_region s_cursors s_active s_sliced s_lone s_leftk].
    - apply repeat_length.
    - intros j Hj. rewrite nth_repeat. lia.
    - constructor.
    - intros j. split; [intros []|]. intros [_ [H _]]. discriminate.
    - intros j _ _. apply nth_repeat.
    - intros j _ H. discriminate.
    - intros i H. discriminate.
    - assert (Et : takev (fun _ => 0%nat) = map (fun _ => []) (List.seq 0 k)) by reflexivity.
      split.
      + rewrite Et, smerge_all_nil. reflexivity.
      + intros outs Hf. inversion Hf; subst. exists (takev (fun _ => 0%nat)). split; [constructor|].
        rewrite Et. unfold all_empty. rewrite Forall_forall. intros l Hl. apply in_map_iff in Hl.
        now destruct Hl as [? [<- _]].
    - intros i j a b _ _ _ Ha. cbn in Ha. contradiction.
    - split; [constructor|split; [intros p []|]]. intros j _ _. now rewrite nth_repeat.
    - intros p [].
  Qed.

  Theorem refine_plan_sem plan :
    refine_segment K cmp V col0 cmp0 true thr ts dk = Some plan ->
    plan_rows plan = smerge (map (@t_rows K) ts) /\
    forall outs, Forall2 piece_run plan outs ->
      exists E, sched cmp (map (@t_rows K) ts) (concat outs) E /\ all_empty K E.
  Proof.
    unfold refine_segment. destruct (k <? 2)%nat; [discriminate|].
    unfold sweep_events. change (sorted_events K cmp ts) with evs.
    destruct (sweep_inv evs [] (init_state K ts) (fun _ => 0%nat) eq_refl init_inv) as [pc HI].
    set (s := fold_left step evs (init_state K ts)) in *.
    destruct (s_sliced s); [|discriminate]. intros H. inversion H; subst plan. clear H.
    assert (Hall : forall j, (j < k)%nat -> cur s j = nrows j).
    { intros j Hj. apply (i_cN _ _ _ HI j Hj). now destruct (evs_all_started K cmp ts dk j Hj). }
    assert (Hle : forall j, (j < k)%nat -> (pc j <= cur s j)%nat) by (intros j Hj; apply (i_le _ _ _ HI j Hj)).
    pose proof (close_sem _ _ _ _ (i_plan _ _ _ HI) (i_clean _ _ _ HI) (i_regok _ _ _ HI) Hle) as [Hrows Hrun].
    rewrite (takev_all (fun j => cur s j) Hall) in Hrows, Hrun. split; assumption.
  Qed.

  (** the refined plan delivers exactly the rows of the merge of the whole
      segment, in the same order, ties included (on equal keys the row of the
      row group that comes first in the segment goes first) *)
  Theorem refine_plan_equiv plan :
    refine_segment K cmp V col0 cmp0 true thr ts dk = Some plan ->
    plan_rows plan = segment_rows cmp ts.
  Proof. intros H. exact (proj1 (refine_plan_sem plan H)). Qed.

  (** whatever valid merge reads the regions (each [out] is a complete run of
      the abstract scheduler on the participants of its piece; a single part is
      read as it is), the concatenation is a complete run of the abstract
      scheduler on the whole segment *)
  Theorem refine_plan_sched plan outs :
    refine_segment K cmp V col0 cmp0 true thr ts dk = Some plan ->
    Forall2 piece_run plan outs ->
    exists E, sched cmp (map (@t_rows K) ts) (concat outs) E /\ all_empty K E.
  Proof. intros H. exact (proj2 (refine_plan_sem plan H) outs). Qed.

  Lemma piece_rows_run pc : (forall p, In p pc -> (p_idx p < k)%nat) -> piece_run pc (piece_rows pc).
  Proof.
    intros Hp. rewrite piece_rows_smerge. apply (smerge_sched K cmp cmp_opp cmp_trans).
    rewrite Forall_forall. intros l Hl. apply in_map_iff in Hl. destruct Hl as [p [<- Hin]].
    unfold Refine.part_rows. apply (sorted_firstn K cmp). apply (sorted_skipn K cmp).
    destruct (ts_ok _ (Hp p Hin)) as [Hs _]. exact Hs.
  Qed.
End RefineProofs.

(** ** the instance: keys are tuples of optional integers; the value of the
    first sorting column orders the keys strictly *)

Lemma col0L_strict cf cfg a b :
  cmp0L (cf :: cfg) (col0L a) (col0L b) < 0 -> cmpL (cf :: cfg) a b < 0.
Proof.
  unfold cmp0L, col0L. cbn [hd cmpL]. intros H.
  destruct (Z.eqb_spec (cmp_col cf (hd None a) (hd None b)) 0); lia.
Qed.

Theorem refine_plan_equiv_keys cf cfg thr (ts : list (target keyL)) plan :
  (forall j, (j < length ts)%nat -> target_ok keyL (cmpL (cf :: cfg)) (tgt keyL ts [] j)) ->
  refine_segment keyL (cmpL (cf :: cfg)) (option Z) col0L (cmp0L (cf :: cfg)) true thr ts [] = Some plan ->
  refined_rows keyL (cmpL (cf :: cfg)) ts [] plan = segment_rows (cmpL (cf :: cfg)) ts.
Proof.
  intros Hok. apply (refine_plan_equiv keyL (cmpL (cf :: cfg)) (option Z) col0L (cmp0L (cf :: cfg))
    (cmpL_opp _) (cmpL_trans _) (cmp_col_opp cf) (cmp_col_trans cf) (col0L_strict cf cfg) thr ts [] Hok).
Qed.
