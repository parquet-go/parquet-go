(** The comparators of the instances are total preorders, and the bounds of
    the tree before commit 77fc8c6 (first / last non-null page only) make two
    sorted row groups with null keys look disjoint. *)
From Coq Require Import List ZArith Bool Lia Sorting.Sorted.
From PQ Require Import Base.Order Merge.Model Merge.Instance Merge.AbstractProofs.
Import ListNotations.
Open Scope Z_scope.

Lemma cmpZ_spec x y :
  (cmpZ x y = -1 /\ x < y) \/ (cmpZ x y = 0 /\ x = y) \/ (cmpZ x y = 1 /\ x > y).
Proof. unfold cmpZ. destruct (Z.compare_spec x y); lia. Qed.

Lemma cmpZ_opp a b : cmpZ a b < 0 <-> cmpZ b a > 0.
Proof. destruct (cmpZ_spec a b) as [|[|]], (cmpZ_spec b a) as [|[|]]; lia. Qed.

Lemma cmpZ_trans a b d : cmpZ a b <= 0 -> cmpZ b d <= 0 -> cmpZ a d <= 0.
Proof. destruct (cmpZ_spec a b) as [|[|]], (cmpZ_spec b d) as [|[|]], (cmpZ_spec a d) as [|[|]]; lia. Qed.

Lemma cmp_col_opp cf a b : cmp_col cf a b < 0 <-> cmp_col cf b a > 0.
Proof.
  destruct cf as [[|] [|]], a as [x|], b as [y|]; cbn; try lia;
    destruct (cmpZ_spec x y) as [|[|]], (cmpZ_spec y x) as [|[|]]; lia.
Qed.

Lemma cmp_col_trans cf a b d : cmp_col cf a b <= 0 -> cmp_col cf b d <= 0 -> cmp_col cf a d <= 0.
Proof.
  destruct cf as [[|] [|]], a as [x|], b as [y|], d as [z|]; cbn; try lia;
    destruct (cmpZ_spec x y) as [|[|]], (cmpZ_spec y z) as [|[|]], (cmpZ_spec x z) as [|[|]]; lia.
Qed.

Lemma cmpL_opp cfg : forall a b, cmpL cfg a b < 0 <-> cmpL cfg b a > 0.
Proof.
  induction cfg as [|cf cfg IH]; intros a b; cbn [cmpL]; [lia|].
  apply (lexz_opp _ (cmp_col cf) (cmp_col_opp cf)), IH.
Qed.

Lemma cmpL_trans cfg : forall a b d, cmpL cfg a b <= 0 -> cmpL cfg b d <= 0 -> cmpL cfg a d <= 0.
Proof.
  induction cfg as [|cf cfg IH]; intros a b d; cbn [cmpL]; [lia|].
  apply (lexz_trans _ (cmp_col cf) (cmp_col_opp cf) (fun _ => True) (fun x y z _ _ _ => cmp_col_trans cf x y z));
    [exact I..|apply IH].
Qed.

Lemma sortedb_Sorted cfg l : sortedb cfg l = true <-> Sorted (fun a b => cmpL cfg a b <= 0) l.
Proof.
  induction l as [|a l IH]; cbn [sortedb]; [split; [constructor|reflexivity]|].
  destruct l as [|b l].
  - split; [repeat constructor|reflexivity].
  - rewrite andb_true_iff, Z.leb_le, IH. split.
    + intros [H1 H2]. constructor; [exact H2|constructor; exact H1].
    + intros H. inversion H as [|? ? H2 H1]; subst. inversion H1; subst. auto.
Qed.

(** ** the witness of the repaired defect *)
Definition ex_cfg : list colcfg := [(false, false)].
Definition ex_inputs : list (list keyL) :=
  [[[Some 1]; [Some 2]; [None]]; [[Some 3]; [Some 4]; [None]]].

Lemma ex_inputs_sorted : Forall (fun l => Sorted (fun a b => cmpL ex_cfg a b <= 0) l) ex_inputs.
Proof. constructor; [|constructor; [|constructor]]; apply sortedb_Sorted; reflexivity. Qed.

(* with the bounds of the pinned tree the row groups fall into two segments and
   the plan concatenates them: 1,2,null,3,4,null *)
Lemma ex_pinned_plan :
  plan_segments true ex_cfg 0 ex_inputs = [[0%nat]; [1%nat]] /\
  map (@key keyL) (plan_rows true ex_cfg 0 64 false ex_inputs) =
    [[Some 1]; [Some 2]; [None]; [Some 3]; [Some 4]; [None]].
Proof. split; vm_compute; reflexivity. Qed.

Lemma ex_pinned_not_sorted :
  ~ Sorted (fun a b => cmpL ex_cfg a b <= 0) (map (@key keyL) (plan_rows true ex_cfg 0 64 false ex_inputs)).
Proof. rewrite (proj2 ex_pinned_plan), <- sortedb_Sorted. discriminate. Qed.

(* the pinned bounds are not bounds: the null row of the first group is above its "max" *)
Lemma ex_pinned_bounds_wrong :
  row_group_bounds true ex_cfg 0 (nth 0 ex_inputs []) = Some ([Some 1], [Some 2]) /\
  cmpL ex_cfg [None] [Some 2] > 0.
Proof. split; vm_compute; reflexivity. Qed.

(* the current code reports the bounds as unavailable and merges *)
Lemma ex_current_plan :
  row_group_bounds false ex_cfg 0 (nth 0 ex_inputs []) = None /\
  plan_segments false ex_cfg 0 ex_inputs = [[0%nat; 1%nat]] /\
  Sorted (fun a b => cmpL ex_cfg a b <= 0) (map (@key keyL) (plan_rows false ex_cfg 0 64 false ex_inputs)).
Proof. repeat split; try (vm_compute; reflexivity). apply sortedb_Sorted. vm_compute. reflexivity. Qed.

(** tagging sorted keys gives sorted, well-tagged rows *)
Lemma tag_from_forall cfg k i j s l :
  Forall (fun b => cmpL cfg k b <= 0) l -> Forall (rle keyL (cmpL cfg) (mkRow k i j)) (tag_from i s l).
Proof. intros H. revert s. induction H; intros s; cbn; constructor; auto. Qed.

Lemma keys_sorted_sorted cfg i s l :
  Sorted (fun a b => cmpL cfg a b <= 0) l -> sorted keyL (cmpL cfg) (tag_from i s l).
Proof.
  intros H. apply Sorted_StronglySorted in H.
  2:{ intros a b d. apply cmpL_trans. }
  revert s. induction H as [|k l Hs IH Hf]; intros s; cbn; [constructor|].
  constructor; [apply IH|]. now apply tag_from_forall.
Qed.

Lemma tag_from_input {A} i s (l : list A) r : In r (tag_from i s l) -> input r = i.
Proof. revert s; induction l; cbn; intros s H; [contradiction|]. destruct H as [<-|H]; eauto. Qed.

Lemma tag_all_tagged {A} (ins : list (list A)) : tagged A (tag_all ins).
Proof.
  assert (H : forall s i l r, nth_error (tag_all_from s ins) i = Some l -> In r l -> input r = (s + i)%nat).
  { induction ins as [|l0 ins IH]; intros s [|i] l r E Hr; try discriminate.
    - inversion E; subst. rewrite Nat.add_0_r. exact (tag_from_input _ _ _ _ Hr).
    - rewrite (IH (S s) i l r E Hr). lia. }
  intros i l r. exact (H 0%nat i l r).
Qed.
