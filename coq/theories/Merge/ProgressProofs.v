(** Progress of the merge readers: a ReadRows call with room returns at least
    one row or io.EOF (mergedRowReader2 and mergedRowReader), so a merge
    terminates: after at most one call per row of the inputs and one more,
    io.EOF has been reported. *)
From Coq Require Import List ZArith Bool Lia Sorting.Sorted Sorting.Permutation.
From PQ Require Import Merge.Model Merge.AbstractProofs Merge.Merge2Proofs Merge.TreeProofs.
Import ListNotations.
Open Scope Z_scope.

Section Progress.
  Variable K : Type.
  Variable cmp : K -> K -> Z.
  Hypothesis cmp_opp : forall a b, cmp a b < 0 <-> cmp b a > 0.
  Hypothesis cmp_trans : forall a b d, cmp a b <= 0 -> cmp b d <= 0 -> cmp a d <= 0.

  Notation row := (row K).
  Notation buf := (buf K).
  Notation sorted := (sorted K cmp).
  Notation sched := (sched cmp).
  Notation no_buf := (no_buf K).

  Lemma emit_choice_nonempty (run : bool) room (b : buf) bound h t :
    b_win b = h :: t -> (1 <= room)%nat ->
    fst (if run then emit_run K cmp room b bound else ([h], advance b 1)) <> [].
  Proof.
    intros Hw Hr. destruct run; [|discriminate]. unfold emit_run. rewrite Hw.
    destruct room as [|room]; [lia|]. cbn [firstn fst]. destruct (firstn room t); cbn; discriminate.
  Qed.

  Lemma loop2_progress f room (b0 b1 : buf) prev streak h0 t0 h1 t1 :
    b_win b0 = h0 :: t0 -> b_win b1 = h1 :: t1 -> (1 <= room)%nat ->
    fst (fst (fst (fst (loop2 K cmp (S f) room b0 b1 prev streak)))) <> [].
  Proof.
    intros H0 H1 Hr. cbn [loop2]. destruct (Nat.eqb_spec room 0) as [|_]; [lia|]. rewrite H0, H1.
    destruct (rcmp cmp h0 h1 <? 0).
    - pose proof (emit_choice_nonempty ((if prev <? 0 then streak + 1 else 0) >=? run_streak)
                    room b0 h1 h0 t0 H0 Hr) as Hne.
      destruct (if _ >=? run_streak then _ else _) as [em b0']. cbn [fst] in Hne.
      destruct (has_next b0'); [|exact Hne].
      destruct (loop2 K cmp f (room - length em) b0' b1 (-1) _) as [[[[out x0] x1] p] s]. cbn [fst].
      destruct em; [contradiction|discriminate].
    - destruct (rcmp cmp h0 h1 >? 0).
      + pose proof (emit_choice_nonempty ((if prev >? 0 then streak + 1 else 0) >=? run_streak)
                      room b1 h0 h1 t1 H1 Hr) as Hne.
        destruct (if _ >=? run_streak then _ else _) as [em b1']. cbn [fst] in Hne.
        destruct (has_next b1'); [|exact Hne].
        destruct (loop2 K cmp f (room - length em) b0 b1' 1 _) as [[[[out x0] x1] p] s]. cbn [fst].
        destruct em; [contradiction|discriminate].
      + destruct (1 <? room)%nat; [|discriminate].
        destruct (has_next (advance b0 1) && has_next (advance b1 1)); [|discriminate].
        destruct (loop2 K cmp f (room - 2) (advance b0 1) (advance b1 1) 0 0) as [[[[out x0] x1] p] s].
        discriminate.
  Qed.

  (** a call with room returns a row or io.EOF *)
  Theorem read_rows2_progress (m : m2 K) n out eof m' :
    (1 <= n)%nat -> read_rows2 K cmp m n = (out, eof, m') -> out <> [] \/ eof = true.
  Proof.
    intros Hn H. unfold read_rows2 in H.
    destruct (refill_spec K (m_r0 m)) as [_ R0]. destruct (refill_spec K (m_r1 m)) as [_ R1].
    destruct (refill K (m_r0 m)) as [b0|]; destruct (refill K (m_r1 m)) as [b1|].
    - specialize (R0 b0 eq_refl). specialize (R1 b1 eq_refl).
      destruct (b_win b0) as [|h0 t0] eqn:E0; [contradiction|]. destruct (b_win b1) as [|h1 t1] eqn:E1; [contradiction|].
      destruct n as [|f]; [lia|].
      pose proof (loop2_progress f (S f) b0 b1 (m_prev m) (m_streak m) h0 t0 h1 t1 E0 E1 Hn) as Hp.
      destruct (loop2 K cmp (S f) (S f) b0 b1 (m_prev m) (m_streak m)) as [[[[o x0] x1] p] s].
      inversion H; subst. left. exact Hp.
    - specialize (R0 b0 eq_refl). unfold drain in H. inversion H; subst. left.
      destruct (b_win b0) as [|h0 t0]; [contradiction|]. destruct n; [lia|]. cbn. discriminate.
    - specialize (R1 b1 eq_refl). unfold drain in H. inversion H; subst. left.
      destruct (b_win b1) as [|h1 t1]; [contradiction|]. destruct n; [lia|]. cbn. discriminate.
    - inversion H; subst. now right.
  Qed.

  Lemma run2_progress batches : forall (m : m2 K) outs eof m',
    Forall (fun n => (1 <= n)%nat) batches -> run2 K cmp m batches = (outs, eof, m') ->
    eof = true \/ (length batches <= length (concat outs))%nat.
  Proof.
    induction batches as [|n t IH]; intros m outs eof m' Hb H; cbn [run2] in H.
    - inversion H; subst. right. cbn. lia.
    - inversion Hb as [|? ? Hn Ht]; subst.
      destruct (read_rows2 K cmp m n) as [[out e] m1] eqn:Er.
      destruct (read_rows2_progress _ _ _ _ _ Hn Er) as [Hne|He].
      + destruct e; [inversion H; subst; now left|].
        destruct (run2 K cmp m1 t) as [[outs' e'] m2'] eqn:Et. inversion H; subst.
        destruct (IH _ _ _ _ Ht Et) as [I|I]; [now left|right].
        cbn [concat length]. rewrite app_length. destruct out; [contradiction|cbn [length]; lia].
      + subst e. inversion H; subst. now left.
  Qed.

  (** the two-way merge terminates: with more calls than rows, each with
      room, io.EOF is reported *)
  Theorem merge2_terminates in0 in1 ch0 ch1 batches outs eof m' :
    sorted in0 -> sorted in1 -> Forall (fun n => (1 <= n)%nat) batches ->
    (length in0 + length in1 < length batches)%nat ->
    merge2 cmp in0 in1 ch0 ch1 batches = (outs, eof, m') -> eof = true.
  Proof.
    intros Hs0 Hs1 Hb Hlen H.
    assert (R : sched (st2 K in0 in1) (concat outs) (abs2 K m')) by (eapply (merge2_refines K cmp); eauto).
    apply (sched_length K cmp) in R. cbn [concat st2 length] in R. rewrite app_nil_r, app_length in R.
    unfold merge2 in H. destruct (run2_progress _ _ _ _ _ Hb H) as [E|E]; [exact E|lia].
  Qed.

  Lemma loopk_head f room (m : mk K) h t :
    (room =? 0)%nat || (k_count m =? 0)%nat = false ->
    b_win (nth (Z.to_nat (k_winner m)) (k_bufs m) no_buf) = h :: t ->
    exists o e m', loopk K cmp (S f) room m = (h :: o, e, m').
  Proof.
    intros H1 H2. cbn [loopk]. rewrite H1, H2.
    destruct (negb (has_next (advance (nth (Z.to_nat (k_winner m)) (k_bufs m) no_buf) 1))); [eauto|].
    destruct (k_streak m >=? run_streak).
    - destruct (run_loop K cmp (S room) (room - 1) _ _) as [[em c''] returned].
      destruct returned; [eauto|]. destruct (loopk K cmp f _ _) as [[out e] mf]. eauto.
    - destruct (loopk K cmp f (room - 1) _) as [[out e] mf]. eauto.
  Qed.

  Lemma loopk_stop f room (m : mk K) out eof m' :
    (room =? 0)%nat || (k_count m =? 0)%nat = true -> (1 <= room)%nat ->
    loopk K cmp (S f) room m = (out, eof, m') -> eof = true.
  Proof.
    intros Estop Hr H. cbn [loopk] in H. rewrite Estop in H. inversion H; subst.
    destruct (Nat.eqb_spec room 0); [lia|]. exact Estop.
  Qed.

  Lemma loopk_full_progress f room (m : mk K) out eof m' :
    Full K cmp m -> (1 <= room)%nat -> loopk K cmp (S f) room m = (out, eof, m') -> out <> [] \/ eof = true.
  Proof.
    intros [P _] Hr H. destruct ((room =? 0)%nat || (k_count m =? 0)%nat) eqn:Estop.
    - right. exact (loopk_stop _ _ _ _ _ _ Estop Hr H).
    - destruct (kpre_winner K cmp cmp_opp cmp_trans m _ P) as [wn [Hw [Hlt Hal]]].
      { apply orb_false_iff in Estop. apply Nat.eqb_neq, Estop. }
      rewrite heads_win in Hal.
      destruct (b_win (nth wn (k_bufs m) no_buf)) as [|h t] eqn:Ew; [congruence|].
      destruct (loopk_head f room m h t Estop) as [o [e [mf E]]]; [now rewrite Hw, Nat2Z.id|].
      rewrite E in H. inversion H; subst. left. discriminate.
  Qed.

  Lemma loopk_progress f room (m : mk K) hd out eof m' :
    KInv K cmp m hd -> (1 <= room)%nat -> loopk K cmp (S (S f)) room m = (out, eof, m') -> out <> [] \/ eof = true.
  Proof.
    intros [P Ihdw] Hr H. destruct ((room =? 0)%nat || (k_count m =? 0)%nat) eqn:Estop.
    - right. exact (loopk_stop _ _ _ _ _ _ Estop Hr H).
    - destruct (kpre_winner K cmp cmp_opp cmp_trans m hd P) as [wn [Hw [Hlt Hal]]].
      { apply orb_false_iff in Estop. apply Nat.eqb_neq, Estop. }
      destruct (b_win (nth wn (k_bufs m) no_buf)) as [|h t] eqn:Ew.
      + (* the winner's buffer is exhausted: one iteration repopulates or drops it *)
        destruct (loopk_refill K cmp cmp_opp (S f) room m hd wn P Estop Hw Ew) as [mm [E [F3 _]]].
        rewrite E in H. exact (loopk_full_progress _ _ _ _ _ _ F3 Hr H).
      + destruct (loopk_head (S f) room m h t Estop) as [o [e [mf E]]]; [now rewrite Hw, Nat2Z.id|].
        rewrite E in H. inversion H; subst. left. discriminate.
  Qed.

  (** a call with room returns a row or io.EOF *)
  Theorem read_rowsk_progress (m : mk K) n out eof m' :
    KTop K cmp m -> (1 <= n)%nat -> read_rowsk K cmp m n = (out, eof, m') -> out <> [] \/ eof = true.
  Proof.
    intros [[Hc He]|[hd I]] Hn H.
    - rewrite (read_rowsk_done K cmp m n Hc) in H. inversion H; subst. now right.
    - unfold read_rowsk in H. replace (2 * n + 2)%nat with (S (S (2 * n))) in H by lia. exact (loopk_progress _ _ _ _ _ _ _ I Hn H).
  Qed.

  Lemma runk_progress batches : forall (m : mk K) outs eof m',
    KTop K cmp m -> Forall (fun n => (1 <= n)%nat) batches -> runk K cmp m batches = (outs, eof, m') ->
    eof = true \/ (length batches <= length (concat outs))%nat.
  Proof.
    induction batches as [|n t IH]; intros m outs eof m' I Hb H; cbn [runk] in H.
    - inversion H; subst. right. cbn. lia.
    - inversion Hb as [|? ? Hn Ht]; subst.
      destruct (read_rowsk K cmp m n) as [[out e] m1] eqn:Er.
      assert (I1 : KTop K cmp m1) by (eapply (read_rowsk_refines K cmp); eauto).
      destruct (read_rowsk_progress _ _ _ _ _ I Hn Er) as [Hne|He].
      + destruct e; [inversion H; subst; now left|].
        destruct (runk K cmp m1 t) as [[outs' e'] m2] eqn:Et. inversion H; subst.
        destruct (IH _ _ _ _ I1 Ht Et) as [J|J]; [now left|right].
        cbn [concat length]. rewrite app_length. destruct out; [contradiction|cbn [length]; lia].
      + subst e. inversion H; subst. now left.
  Qed.

  (** after any history of ReadRows calls on a merge of sorted inputs, the
      next call with room returns a row or io.EOF *)
  Theorem mergek_progress ins chunks history outs eof m' n out e m'' :
    Forall sorted ins -> mergek cmp ins chunks history = (outs, eof, m') ->
    (1 <= n)%nat -> read_rowsk K cmp m' n = (out, e, m'') -> out <> [] \/ e = true.
  Proof.
    intros Hs H Hn Hr. destruct (mergek_init K cmp cmp_opp ins chunks Hs) as [I _].
    destruct (runk_refines K cmp cmp_opp cmp_trans _ _ _ _ _ I H) as [_ [I' _]].
    exact (read_rowsk_progress _ _ _ _ _ I' Hn Hr).
  Qed.

  Theorem mergek_terminates ins chunks batches outs eof m' :
    Forall sorted ins -> Forall (fun n => (1 <= n)%nat) batches ->
    (length (concat ins) < length batches)%nat ->
    mergek cmp ins chunks batches = (outs, eof, m') -> eof = true.
  Proof.
    intros Hs Hb Hlen H.
    assert (R : sched ins (concat outs) (absk K m')) by (eapply (mergek_refines K cmp); eauto).
    apply (sched_length K cmp) in R.
    destruct (mergek_init K cmp cmp_opp ins chunks Hs) as [I _].
    destruct (runk_progress _ _ _ _ _ I Hb H) as [E|E]; [exact E|lia].
  Qed.
End Progress.
