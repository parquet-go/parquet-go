(** mergedRowReader2 refines the abstract scheduler: for every source
    chunking and every sequence of ReadRows slice lengths, the rows it emits
    are a run of the scheduler on the two inputs. *)
From Coq Require Import List ZArith Bool Lia Sorting.Sorted Sorting.Permutation.
From PQ Require Import Base.Order Merge.Model Merge.AbstractProofs Merge.RunLengthProofs.
Import ListNotations.
Open Scope Z_scope.

Section Merge2.
  Variable K : Type.
  Variable cmp : K -> K -> Z.
  Hypothesis cmp_opp : forall a b, cmp a b < 0 <-> cmp b a > 0.
  Hypothesis cmp_trans : forall a b d, cmp a b <= 0 -> cmp b d <= 0 -> cmp a d <= 0.

  Notation row := (row K).
  Notation buf := (buf K).
  Notation rcmp := (rcmp cmp).
  Notation sorted := (sorted K cmp).
  Notation rle := (rle K cmp).
  Notation sched := (sched cmp).

  Lemma min_buf_pos : (1 <= min_buf)%nat.
  Proof. vm_compute. lia. Qed.
  Lemma max_buf_pos : (1 <= max_buf)%nat.
  Proof. vm_compute. lia. Qed.

  Lemma buf_read_some (b b' : buf) : buf_read b = Some b' -> b_win b = [] ->
    remaining b' = remaining b /\ b_win b' <> [].
  Proof.
    unfold buf_read. intros H Hw.
    destruct (match b_chunks b with [] => _ | c :: t => _ end) as [c chunks'].
    destruct (Nat.min (Nat.min c _) (length (b_src b))) as [|n] eqn:En; [discriminate|].
    remember (S n) as N eqn:EN. injection H as <-. unfold remaining. cbn [b_win b_src]. rewrite Hw. cbn [app]. split.
    - apply firstn_skipn.
    - subst N. destruct (b_src b); [cbn in En; lia|discriminate].
  Qed.

  Lemma buf_read_none (b : buf) : buf_read b = None -> b_src b = [].
  Proof.
    unfold buf_read. intros H.
    set (cap := if (b_cap b =? 0)%nat then min_buf
                else if b_full b && (b_cap b <? max_buf)%nat then Nat.min (2 * b_cap b) max_buf
                     else b_cap b) in *.
    assert (Hcap : (1 <= cap)%nat).
    { unfold cap. pose proof min_buf_pos. pose proof max_buf_pos.
      destruct (Nat.eqb_spec (b_cap b) 0); [assumption|].
      destruct (b_full b && (b_cap b <? max_buf)%nat); lia. }
    destruct (b_chunks b) as [|c t].
    - destruct (Nat.min (Nat.min cap cap) (length (b_src b))) eqn:En; [|discriminate].
      destruct (b_src b) as [|x l]; [reflexivity|]. cbn [length] in En. lia.
    - destruct (Nat.min (Nat.min (Nat.max 1 c) cap) (length (b_src b))) eqn:En; [|discriminate].
      destruct (b_src b) as [|x l]; [reflexivity|]. cbn [length] in En. lia.
  Qed.

  Lemma remaining_advance (b : buf) n :
    remaining b = firstn n (b_win b) ++ remaining (advance b n).
  Proof. unfold remaining, advance. cbn. now rewrite app_assoc, firstn_skipn. Qed.

  Lemma has_next_true (b : buf) : has_next b = true -> b_win b <> [].
  Proof. unfold has_next. destruct (b_win b); [discriminate|discriminate]. Qed.

  Lemma has_next_false (b : buf) : has_next b = false -> b_win b = [].
  Proof. unfold has_next. destruct (b_win b); [reflexivity|discriminate]. Qed.

  Lemma remaining_head (b : buf) h t : b_win b = h :: t -> remaining b = h :: (t ++ b_src b).
  Proof. unfold remaining. now intros ->. Qed.

  Definition opt_sorted (r : option buf) : Prop := sorted (remaining_opt r).

  Lemma refill_spec (r : option buf) :
    remaining_opt (refill K r) = remaining_opt r /\
    (forall b, refill K r = Some b -> b_win b <> []).
  Proof.
    destruct r as [b|]; cbn; [|split; [reflexivity|discriminate]].
    destruct (b_win b) eqn:Ew.
    - destruct (buf_read b) as [b'|] eqn:Er.
      + destruct (buf_read_some _ _ Er Ew) as [H1 H2]. split; [exact H1|].
        intros ? E; inversion E; subst; assumption.
      + split; [|discriminate]. cbn. unfold remaining. rewrite Ew, (buf_read_none _ Er). reflexivity.
    - split; [reflexivity|]. intros ? E; inversion E; subst. congruence.
  Qed.

  Lemma run_length_nil bound mx : run_length cmp [] bound mx = 0%nat.
  Proof. reflexivity. Qed.

  Lemma emit_run_spec room (b : buf) bound h t :
    b_win b = h :: t -> (1 <= room)%nat -> sorted (remaining b) -> rcmp h bound < 0 ->
    let '(em, b') := emit_run K cmp room b bound in
    remaining b = em ++ remaining b' /\ (forall r, In r em -> rcmp r bound < 0) /\
    (1 <= length em <= room)%nat.
  Proof.
    intros Hw Hroom Hs Hh. unfold emit_run. rewrite Hw.
    destruct room as [|r']; [lia|]. cbn [firstn].
    set (wt := firstn r' t).
    assert (Hrun : match h :: wt with _ :: ((_ :: _) as t') => run_length cmp t' bound (-1) | _ => 0%nat end
                   = run_length cmp wt bound (-1)) by (destruct wt; reflexivity).
    rewrite Hrun. set (rl := run_length cmp wt bound (-1)).
    assert (Hst : sorted t).
    { rewrite (remaining_head _ _ _ Hw) in Hs. inversion Hs as [|? ? Hs' _]; subst.
      now apply sorted_app_inv in Hs'. }
    assert (Hswt : sorted wt) by (apply sorted_firstn; exact Hst).
    assert (Hrl : (rl <= length wt)%nat) by (apply run_length_le; auto).
    assert (Hwt : (length wt <= r')%nat) by (unfold wt; rewrite firstn_length; lia).
    change (1 + rl)%nat with (S rl). cbn [firstn].
    assert (Hf : firstn rl wt = firstn rl t).
    { unfold wt. rewrite firstn_firstn. f_equal. lia. }
    repeat split.
    - rewrite (remaining_advance b (S rl)), Hw. cbn [firstn]. now rewrite Hf.
    - intros r [<-|Hr]; [exact Hh|].
      assert (rcmp r bound <= -1); [|lia].
      eapply (run_length_prefix_qual K cmp cmp_opp cmp_trans wt bound (-1)); eauto.
    - cbn. lia.
    - cbn. rewrite firstn_length. lia.
  Qed.

  Lemma emit_one_spec (b : buf) h t :
    b_win b = h :: t -> remaining b = [h] ++ remaining (advance b 1).
  Proof. intros Hw. rewrite (remaining_advance b 1), Hw. reflexivity. Qed.

  Definition st2 (x0 x1 : list row) : list (list row) := [x0; x1].

  Lemma sched_emit i x0 x1 em rest : (i < 2)%nat -> nth i (st2 x0 x1) [] = em ++ rest -> sorted (em ++ rest) ->
    (forall h t r, nth (1 - i) (st2 x0 x1) [] = h :: t -> In r em -> rle r h) ->
    sched (st2 x0 x1) em (upd (st2 x0 x1) i rest) /\ sorted rest.
  Proof.
    intros Hi Hnth Hs Hle. split; [|now apply sorted_app_inv in Hs].
    apply (sched_prefix K cmp cmp_opp); [|exact Hs|].
    - destruct i as [|[|]]; cbn in *; try lia; now subst.
    - intros r j r' t Hr Hj E. apply (Hle r' t r); [|exact Hr].
      destruct i as [|[|]], j as [|[|j]]; cbn in *; try lia; try congruence; destruct j; discriminate.
  Qed.

  Lemma win_step i (run : bool) room (b bo : buf) h t ho to x0 x1 :
    (i < 2)%nat -> nth i (st2 x0 x1) [] = remaining b -> nth (1 - i) (st2 x0 x1) [] = remaining bo ->
    b_win b = h :: t -> b_win bo = ho :: to -> rcmp h ho < 0 -> (1 <= room)%nat -> sorted (remaining b) ->
    let '(em, bx) := if run then emit_run K cmp room b ho else ([h], advance b 1) in
    sched (st2 x0 x1) em (upd (st2 x0 x1) i (remaining bx)) /\ sorted (remaining bx) /\
    (1 <= length em <= room)%nat.
  Proof.
    intros Hi Eb Ebo Hw Hwo Hlt Hroom Hs.
    assert (Hem : let '(em, bx) := if run then emit_run K cmp room b ho else ([h], advance b 1) in
              remaining b = em ++ remaining bx /\ (forall r, In r em -> rcmp r ho < 0) /\ (1 <= length em <= room)%nat).
    { destruct run; [exact (emit_run_spec room b ho h t Hw Hroom Hs Hlt)|].
      split; [exact (emit_one_spec _ _ _ Hw)|]. split; [intros r [<-|[]]; exact Hlt|cbn; lia]. }
    destruct (if run then _ else _) as [em bx]. destruct Hem as [Hrem [Hlt_em Hlen]].
    destruct (sched_emit i x0 x1 em (remaining bx)) as [Hstep Hsx]; [exact Hi|now rewrite Eb|now rewrite <- Hrem|..]; auto.
    intros h' t' r E Hr. rewrite Ebo, (remaining_head _ _ _ Hwo) in E. inversion E; subst. apply rle_of_lt. auto.
  Qed.

  Lemma tie_steps (b0 b1 : buf) h0 t0 h1 t1 :
    b_win b0 = h0 :: t0 -> b_win b1 = h1 :: t1 -> rcmp h0 h1 = 0 ->
    sorted (remaining b0) -> sorted (remaining b1) ->
    sched (st2 (remaining b0) (remaining b1)) [h0] (st2 (remaining (advance b0 1)) (remaining b1)) /\
    sorted (remaining (advance b0 1)) /\
    sched (st2 (remaining (advance b0 1)) (remaining b1)) [h1]
          (st2 (remaining (advance b0 1)) (remaining (advance b1 1))) /\
    sorted (remaining (advance b1 1)).
  Proof.
    intros Ew0 Ew1 Heq Hs0 Hs1.
    destruct (sched_emit 0 (remaining b0) (remaining b1) [h0] (remaining (advance b0 1))) as [Hstep0 Hs0'];
      [lia|exact (emit_one_spec _ _ _ Ew0)|now rewrite <- (emit_one_spec _ _ _ Ew0)|..].
    { intros h t r E [<-|[]]. cbn in E. rewrite (remaining_head _ _ _ Ew1) in E. inversion E; subst.
      unfold AbstractProofs.rle. lia. }
    destruct (sched_emit 1 (remaining (advance b0 1)) (remaining b1) [h1] (remaining (advance b1 1)))
      as [Hstep1 Hs1']; [lia|exact (emit_one_spec _ _ _ Ew1)|now rewrite <- (emit_one_spec _ _ _ Ew1)|..]; auto.
    (* h1 <= h0 <= the next row of r0 *)
    intros h t r E [<-|[]]. change (remaining (advance b0 1) = h :: t) in E. apply (rle_trans K cmp cmp_trans) with h0.
    - unfold AbstractProofs.rle, Model.rcmp in *. rewrite (cmp_eq_sym K cmp cmp_opp _ _ Heq). lia.
    - rewrite (emit_one_spec _ _ _ Ew0), E in Hs0. cbn in Hs0.
      eapply (sorted_head_le K cmp cmp_opp); [exact Hs0|]. right. now left.
  Qed.

  Lemma loop2_refines fuel : forall room (b0 b1 : buf) prev streak out b0' b1' p s,
    loop2 K cmp fuel room b0 b1 prev streak = (out, b0', b1', p, s) ->
    sorted (remaining b0) -> sorted (remaining b1) ->
    sched (st2 (remaining b0) (remaining b1)) out (st2 (remaining b0') (remaining b1')) /\
    (length out <= room)%nat.
  Proof.
    induction fuel as [|f IH]; intros room b0 b1 prev streak out b0' b1' p s H Hs0 Hs1.
    { cbn in H. inversion H; subst. split; [constructor|cbn; lia]. }
    cbn [loop2] in H.
    destruct (Nat.eqb_spec room 0) as [Hr|Hr].
    { inversion H; subst. split; [constructor|cbn; lia]. }
    destruct (b_win b0) as [|h0 t0] eqn:Ew0.
    { inversion H; subst. split; [constructor|cbn; lia]. }
    destruct (b_win b1) as [|h1 t1] eqn:Ew1.
    { inversion H; subst. split; [constructor|cbn; lia]. }
    destruct (Z.ltb_spec (rcmp h0 h1) 0) as [Hlt|Hge].
    - (* r0 wins *)
      pose proof (win_step 0 ((if prev <? 0 then streak + 1 else 0) >=? run_streak) room b0 b1 h0 t0 h1 t1
                    (remaining b0) (remaining b1) ltac:(lia) eq_refl eq_refl Ew0 Ew1 Hlt ltac:(lia) Hs0) as W.
      destruct (if _ >=? run_streak then _ else _) as [em bx]. destruct W as [Hstep [Hsx Hlen]].
      destruct (has_next bx).
      + destruct (loop2 K cmp f (room - length em) bx b1 (-1) _) as [[[[o x0] x1] pp] ss] eqn:El.
        inversion H; subst. destruct (IH _ _ _ _ _ _ _ _ _ _ El Hsx Hs1) as [I1 I2].
        split; [eapply sched_app; eauto|]. rewrite app_length. lia.
      + inversion H; subst. split; [exact Hstep|lia].
    - destruct (Z.gtb_spec (rcmp h0 h1) 0) as [Hgt|Hle].
      + (* r1 wins *)
        assert (Hlt : rcmp h1 h0 < 0) by (apply cmp_opp; exact (Z.lt_gt _ _ Hgt)).
        pose proof (win_step 1 ((if prev >? 0 then streak + 1 else 0) >=? run_streak) room b1 b0 h1 t1 h0 t0
                      (remaining b0) (remaining b1) ltac:(lia) eq_refl eq_refl Ew1 Ew0 Hlt ltac:(lia) Hs1) as W.
        destruct (if _ >=? run_streak then _ else _) as [em bx]. destruct W as [Hstep [Hsx Hlen]].
        destruct (has_next bx).
        * destruct (loop2 K cmp f (room - length em) b0 bx 1 _) as [[[[o x0] x1] pp] ss] eqn:El.
          inversion H; subst. destruct (IH _ _ _ _ _ _ _ _ _ _ El Hs0 Hsx) as [I1 I2].
          split; [eapply sched_app; eauto|]. rewrite app_length. lia.
        * inversion H; subst. split; [exact Hstep|lia].
      + (* tie: r0's row, then r1's *)
        destruct (tie_steps b0 b1 h0 t0 h1 t1 Ew0 Ew1 ltac:(lia) Hs0 Hs1) as [Hstep0 [Hs0' [Hstep1 Hs1']]].
        destruct (Nat.ltb_spec 1 room) as [Hroom|Hroom]; [|inversion H; subst; split; [exact Hstep0|cbn; lia]].
        pose proof (sched_app K cmp _ _ _ _ _ Hstep0 Hstep1) as Hboth.
        destruct (has_next (advance b0 1) && has_next (advance b1 1)).
        * destruct (loop2 K cmp f (room - 2) (advance b0 1) (advance b1 1) 0 0) as [[[[o x0] x1] pp] ss] eqn:El.
          inversion H; subst. destruct (IH _ _ _ _ _ _ _ _ _ _ El Hs0' Hs1') as [I1 I2].
          split; [exact (sched_app K cmp _ _ _ _ _ Hboth I1)|cbn; lia].
        * inversion H; subst. split; [exact Hboth|cbn; lia].
  Qed.

  (** ties: the row of input 0 goes first *)
  Lemma loop2_tie_first f room (b0 b1 : buf) prev streak h0 t0 h1 t1 :
    b_win b0 = h0 :: t0 -> b_win b1 = h1 :: t1 -> rcmp h0 h1 = 0 -> (1 <= room)%nat ->
    exists rest, fst (fst (fst (fst (loop2 K cmp (S f) room b0 b1 prev streak)))) = h0 :: rest.
  Proof.
    intros E0 E1 Heq Hroom. cbn [loop2]. rewrite E0, E1.
    destruct (Nat.eqb_spec room 0); [lia|].
    destruct (Z.ltb_spec (rcmp h0 h1) 0); [lia|]. destruct (Z.gtb_spec (rcmp h0 h1) 0); [lia|].
    destruct (1 <? room)%nat; [|eexists; reflexivity].
    destruct (has_next (advance b0 1) && has_next (advance b1 1)); [|eexists; reflexivity].
    destruct (loop2 K cmp f (room - 2) (advance b0 1) (advance b1 1) 0 0) as [[[[o x0] x1] pp] ss].
    eexists; reflexivity.
  Qed.

  Definition abs2 (m : m2 K) : list (list row) := st2 (remaining_opt (m_r0 m)) (remaining_opt (m_r1 m)).
  Definition m2_ok (m : m2 K) : Prop := opt_sorted (m_r0 m) /\ opt_sorted (m_r1 m).

  Lemma drain_spec room (b : buf) : let '(out, b') := drain K room b in
    remaining b = out ++ remaining b' /\ (length out <= room)%nat.
  Proof.
    unfold drain. split; [apply remaining_advance|]. rewrite firstn_length. lia.
  Qed.

  Lemma read_rows2_refines (m : m2 K) n out eof m' :
    read_rows2 K cmp m n = (out, eof, m') -> m2_ok m ->
    sched (abs2 m) out (abs2 m') /\ m2_ok m' /\ (length out <= n)%nat /\
    (eof = true -> abs2 m' = st2 [] [] /\ out = []).
  Proof.
    unfold read_rows2, m2_ok, abs2, opt_sorted. intros H [Hs0 Hs1].
    destruct (refill_spec (m_r0 m)) as [R0 _]. destruct (refill_spec (m_r1 m)) as [R1 _].
    rewrite <- R0, <- R1 in *.
    destruct (refill K (m_r0 m)) as [b0|]; destruct (refill K (m_r1 m)) as [b1|]; cbn [remaining_opt] in *.
    - destruct (loop2 K cmp n n b0 b1 (m_prev m) (m_streak m)) as [[[[o x0] x1] pp] ss] eqn:El.
      inversion H; subst. cbn. destruct (loop2_refines _ _ _ _ _ _ _ _ _ _ _ El Hs0 Hs1) as [I1 I2].
      assert (Hc : Forall sorted (st2 (remaining x0) (remaining x1))).
      { eapply (sched_preserves_sorted K cmp); [exact I1|]. repeat constructor; assumption. }
      inversion Hc as [|? ? Hc0 Hc']; subst. inversion Hc' as [|? ? Hc1 _]; subst.
      repeat split; auto; discriminate.
    - pose proof (drain_spec n b0) as D. destruct (drain K n b0) as [o b0'].
      inversion H; subst. cbn. destruct D as [D1 D2]. rewrite D1 in *.
      destruct (sched_emit 0 (out ++ remaining b0') [] out (remaining b0')) as [Hstep Hs0']; [lia|reflexivity|exact Hs0|discriminate|].
      repeat split; auto; discriminate.
    - pose proof (drain_spec n b1) as D. destruct (drain K n b1) as [o b1'].
      inversion H; subst. cbn. destruct D as [D1 D2]. rewrite D1 in *.
      destruct (sched_emit 1 [] (out ++ remaining b1') out (remaining b1')) as [Hstep Hs1']; [lia|reflexivity|exact Hs1|discriminate|].
      repeat split; auto; discriminate.
    - inversion H; subst. cbn. repeat split; auto; try constructor; cbn; lia.
  Qed.
  Lemma run2_refines batches : forall (m : m2 K) outs eof m',
    run2 K cmp m batches = (outs, eof, m') -> m2_ok m ->
    sched (abs2 m) (concat outs) (abs2 m') /\ m2_ok m' /\ (eof = true -> abs2 m' = st2 [] []).
  Proof.
    induction batches as [|n t IH]; intros m outs eof m' H Hok; cbn [run2] in H.
    - inversion H; subst. repeat split; try apply Hok; [constructor|discriminate].
    - destruct (read_rows2 K cmp m n) as [[out e] m1] eqn:Er.
      destruct (read_rows2_refines _ _ _ _ _ Er Hok) as [R1 [R2 [_ R4]]].
      destruct e.
      + inversion H; subst. destruct (R4 eq_refl) as [E1 E2]. subst out. cbn.
        repeat split; try apply R2; auto.
      + destruct (run2 K cmp m1 t) as [[outs' e'] m2'] eqn:Et. inversion H; subst.
        destruct (IH _ _ _ _ Et R2) as [I1 [I2 I3]]. cbn [concat].
        repeat split; try apply I2; auto. eapply sched_app; eauto.
  Qed.

  Lemma remaining_first_read (rows : list row) chunks :
    remaining_opt (buf_read (source rows chunks)) = rows.
  Proof.
    pose proof (refill_spec (Some (source rows chunks))) as [R _]. cbn in R. exact R.
  Qed.

  (** for every chunking of the two sources and every sequence of slice
      lengths, the rows emitted so far are a run of the scheduler; when io.EOF
      is reported nothing is left *)
  Theorem merge2_refines in0 in1 ch0 ch1 batches outs eof m' :
    sorted in0 -> sorted in1 ->
    merge2 cmp in0 in1 ch0 ch1 batches = (outs, eof, m') ->
    sched (st2 in0 in1) (concat outs) (abs2 m') /\ (eof = true -> abs2 m' = st2 [] []).
  Proof.
    intros Hs0 Hs1 H. unfold merge2 in H.
    assert (Habs : abs2 (m2_init K (source in0 ch0) (source in1 ch1)) = st2 in0 in1).
    { unfold abs2, m2_init. cbn [m_r0 m_r1]. now rewrite !remaining_first_read. }
    assert (Hok : m2_ok (m2_init K (source in0 ch0) (source in1 ch1))).
    { unfold m2_ok, opt_sorted, m2_init. cbn [m_r0 m_r1]. now rewrite !remaining_first_read. }
    destruct (run2_refines _ _ _ _ _ H Hok) as [R1 [_ R3]]. rewrite Habs in R1. auto.
  Qed.

  Theorem merge2_correct in0 in1 ch0 ch1 batches outs m' :
    sorted in0 -> sorted in1 ->
    (forall r, In r in0 -> input r = 0%nat) -> (forall r, In r in1 -> input r = 1%nat) ->
    merge2 cmp in0 in1 ch0 ch1 batches = (outs, true, m') ->
    sorted (concat outs) /\ Permutation (in0 ++ in1) (concat outs) /\
    of_input K 0 (concat outs) = in0 /\ of_input K 1 (concat outs) = in1.
  Proof.
    intros Hs0 Hs1 Ht0 Ht1 H. destruct (merge2_refines _ _ _ _ _ _ _ _ Hs0 Hs1 H) as [R1 R2].
    rewrite (R2 eq_refl) in R1.
    assert (He : all_empty K (st2 [] [])) by (repeat constructor).
    assert (Hs : Forall sorted (st2 in0 in1)) by (repeat constructor; assumption).
    assert (Ht : tagged K (st2 in0 in1)).
    { intros [|[|i]] l r E Hr; cbn in E; try (destruct i; discriminate); inversion E; subst; auto. }
    destruct (sched_complete_correct K cmp cmp_opp cmp_trans _ _ _ R1 He Hs Ht) as [C1 [C2 C3]].
    repeat split; auto.
    - cbn in C2. now rewrite app_nil_r in C2.
    - exact (C3 0%nat).
    - exact (C3 1%nat).
  Qed.
End Merge2.
