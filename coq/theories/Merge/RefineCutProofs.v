(** newCutLookups of merge_refine.go is conservative: every row at or after
    cutAbove(key) is strictly above [key], every row before cutBelow(key) is
    strictly below it -- for every page layout, whatever sort.Search finds.
    Also: the stable insertion sort is a sort. *)
From Coq Require Import List ZArith Bool Lia Sorting.Sorted Sorting.Permutation.
From PQ Require Import Base.Order Base.ListExtra Base.Insertion Merge.Model Merge.AbstractProofs Merge.Refine.
Import ListNotations.
Open Scope Z_scope.

(** ** sort.Search: without any assumption on [f], the index found is at most
    [n], [f] holds at it (if it is below [n]) and fails just before it *)
Lemma search_loop_spec n f : forall fuel i j,
  (i <= j <= n)%nat -> (j - i < fuel)%nat ->
  ((j < n)%nat -> f j = true) -> ((0 < i)%nat -> f (i - 1)%nat = false) ->
  let p := search_loop fuel f i j in
  (p <= n)%nat /\ ((p < n)%nat -> f p = true) /\ ((0 < p)%nat -> f (p - 1)%nat = false).
Proof.
  induction fuel as [|fu IH]; intros i j Hij Hf Hj Hi; [lia|].
  cbn [search_loop]. destruct (Nat.ltb_spec i j) as [Hlt|Hge].
  - assert (Hh : (i <= (i + j) / 2 < j)%nat).
    { pose proof (Nat.div_mod (i + j) 2). pose proof (Nat.mod_upper_bound (i + j) 2). lia. }
    destruct (f ((i + j) / 2)%nat) eqn:Ef.
    + apply IH; [lia|lia|intros _; exact Ef|exact Hi].
    + apply IH; [lia|lia|exact Hj|].
      intros _. replace ((i + j) / 2 + 1 - 1)%nat with ((i + j) / 2)%nat by lia. exact Ef.
  - cbn zeta. assert (i = j) by lia. subst. repeat split; [lia|exact Hj|exact Hi].
Qed.

Lemma search_spec n f :
  let p := search n f in
  (p <= n)%nat /\ ((p < n)%nat -> f p = true) /\ ((0 < p)%nat -> f (p - 1)%nat = false).
Proof. unfold search. apply search_loop_spec; lia. Qed.

(** ** the stable insertion sort sorts *)
Section StableSortProofs.
  Variable A : Type.
  Variable cmpf : A -> A -> Z.
  Hypothesis cmpf_opp : forall a b, cmpf a b < 0 <-> cmpf b a > 0.
  Hypothesis cmpf_trans : forall a b d, cmpf a b <= 0 -> cmpf b d <= 0 -> cmpf a d <= 0.

  Definition fle (a b : A) : Prop := cmpf a b <= 0.

  Lemma sinsert_cons x y t :
    sinsert cmpf x (y :: t) = if negb (cmpf y x <? 0) then x :: y :: t else y :: sinsert cmpf x t.
  Proof. cbn. now destruct (cmpf y x <? 0). Qed.

  Lemma ssort_perm l : Permutation l (ssort cmpf l).
  Proof. exact (isort_perm _ (sinsert cmpf) (fun _ => eq_refl) sinsert_cons l). Qed.

  Lemma ssort_sorted l : StronglySorted fle (ssort cmpf l).
  Proof.
    apply (isort_sorted _ (sinsert cmpf) (fun _ => eq_refl) sinsert_cons fle); unfold fle.
    - intros x y H. apply negb_true_iff, Z.ltb_ge in H. apply (cmp_nlt_le A cmpf cmpf_opp). lia.
    - intros x y H. apply negb_false_iff, Z.ltb_lt in H. lia.
    - intros x y z. apply cmpf_trans.
  Qed.
End StableSortProofs.

Section Cuts.
  Variable K : Type.
  Variable cmp : K -> K -> Z.
  Variable V : Type.
  Variable col0 : K -> V.
  Variable cmp0 : V -> V -> Z.
  Hypothesis cmp_opp : forall a b, cmp a b < 0 <-> cmp b a > 0.
  Hypothesis cmp_trans : forall a b d, cmp a b <= 0 -> cmp b d <= 0 -> cmp a d <= 0.
  Hypothesis cmp0_opp : forall a b, cmp0 a b < 0 <-> cmp0 b a > 0.
  Hypothesis cmp0_trans : forall a b d, cmp0 a b <= 0 -> cmp0 b d <= 0 -> cmp0 a d <= 0.
  (* "strict inequality on the first sort column implies strict inequality on the full sorting tuple" *)
  Hypothesis col0_strict : forall a b, cmp0 (col0 a) (col0 b) < 0 -> cmp a b < 0.

  Notation row := (row K).
  Notation sorted := (sorted K cmp).
  Notation target := (target K).

  Lemma fold_pick (pick : V -> V -> V) (R : V -> V -> Prop) (g : row -> V) :
    (forall a, R a a) -> (forall a b d, R a b -> R b d -> R a d) ->
    (forall m y, R (pick m y) m /\ R (pick m y) y) ->
    forall t m, let r := fold_left (fun m x => pick m (g x)) t m in
    R r m /\ forall x, In x t -> R r (g x).
  Proof.
    intros Hrefl Htrans Hpick. induction t as [|y t IH]; intros m; cbn [fold_left];
      [split; [apply Hrefl|contradiction]|].
    destruct (IH (pick m (g y))) as [I1 I2]. destruct (Hpick m (g y)) as [P1 P2].
    split; [eapply Htrans; eauto|]. intros x [<-|Hx]; [eapply Htrans; eauto|auto].
  Qed.

  Lemma min0_le m y : cmp0 (min0 V cmp0 m y) m <= 0 /\ cmp0 (min0 V cmp0 m y) y <= 0.
  Proof.
    unfold min0. destruct (Z.ltb_spec (cmp0 y m) 0); split; try apply (cmp_refl_le V cmp0 cmp0_opp); [lia|].
    apply (cmp_ge_le V cmp0 cmp0_opp). lia.
  Qed.

  Lemma max0_ge m y : cmp0 m (max0 V cmp0 m y) <= 0 /\ cmp0 y (max0 V cmp0 m y) <= 0.
  Proof.
    unfold max0. destruct (Z.gtb_spec (cmp0 y m) 0); split; try apply (cmp_refl_le V cmp0 cmp0_opp); [|lia].
    apply (cmp_ge_le V cmp0 cmp0_opp). lia.
  Qed.

  Lemma page_earliest_le pg e r : page_earliest K V col0 cmp0 pg = Some e -> In r pg -> cmp0 e (col0 (key r)) <= 0.
  Proof.
    destruct pg as [|r0 t]; [discriminate|]. cbn. intros E Hr. inversion E; subst. clear E.
    destruct (fold_pick (min0 V cmp0) (fun a b => cmp0 a b <= 0) (fun x => col0 (key x))
                (cmp_refl_le V cmp0 cmp0_opp) cmp0_trans min0_le t (col0 (key r0))) as [I1 I2].
    destruct Hr as [<-|Hr]; auto.
  Qed.

  Lemma page_latest_ge pg e r : page_latest K V col0 cmp0 pg = Some e -> In r pg -> cmp0 (col0 (key r)) e <= 0.
  Proof.
    destruct pg as [|r0 t]; [discriminate|]. cbn. intros E Hr. inversion E; subst. clear E.
    destruct (fold_pick (max0 V cmp0) (fun a b => cmp0 b a <= 0) (fun x => col0 (key x))
                (cmp_refl_le V cmp0 cmp0_opp) (fun a b d H1 H2 => cmp0_trans d b a H2 H1) max0_ge t (col0 (key r0))) as [I1 I2].
    destruct Hr as [<-|Hr]; auto.
  Qed.

  Lemma skipn_concat_pages (pages : list (list row)) p :
    skipn (length (concat (firstn p pages))) (concat pages) = concat (skipn p pages).
  Proof.
    rewrite <- (firstn_skipn p pages) at 2. rewrite concat_app.
    rewrite skipn_app, skipn_all, Nat.sub_diag. reflexivity.
  Qed.

  Lemma firstn_concat_pages (pages : list (list row)) p :
    firstn (length (concat (firstn p pages))) (concat pages) = concat (firstn p pages).
  Proof.
    rewrite <- (firstn_skipn p pages) at 2. rewrite concat_app.
    rewrite firstn_app, firstn_all, Nat.sub_diag. cbn. now rewrite app_nil_r.
  Qed.

  Lemma firstn_S_snoc {A} (l : list A) p d : (p < length l)%nat -> firstn (S p) l = firstn p l ++ [nth p l d].
  Proof.
    revert p; induction l as [|x l IH]; intros [|p] H; cbn in *; try lia; auto. f_equal. apply IH. lia.
  Qed.

  Section OneTarget.
    Variable t : target.
    Hypothesis t_sorted : sorted (t_rows t).
    Hypothesis t_pages_ne : Forall (fun pg => pg <> []) (t_pages t).

    Lemma page_ne p : (p < length (t_pages t))%nat -> nth p (t_pages t) [] <> [].
    Proof. intros H. rewrite Forall_forall in t_pages_ne. apply t_pages_ne. now apply nth_In. Qed.

    Lemma cut_above_eq k :
      exists p, (p <= length (t_pages t))%nat /\
        cut_above_gen K V col0 cmp0 true t k =
          (if (p <? length (t_pages t))%nat then first_row_index K t p else num_rows t) /\
        ((p < length (t_pages t))%nat ->
           match earliest K V col0 cmp0 t p with Some e => cmp0 e (col0 k) > 0 | None => False end).
    Proof.
      unfold cut_above_gen. set (f := fun p => match earliest K V col0 cmp0 t p with Some e => _ | None => false end).
      destruct (search_spec (length (t_pages t)) f) as [Hle [Htrue _]].
      set (p := search (length (t_pages t)) f) in *. exists p. split; [exact Hle|]. split.
      - destruct (Nat.eqb_spec p 0) as [E|Hne].
        + rewrite E. destruct (Nat.ltb_spec 0 (length (t_pages t))) as [|H0]; [reflexivity|].
          unfold num_rows, t_rows. destruct (t_pages t); [reflexivity|cbn in H0; lia].
        + unfold page_end. replace (p - 1 + 1)%nat with p by lia. reflexivity.
      - intros Hlt. specialize (Htrue Hlt). unfold f in Htrue.
        destruct (earliest K V col0 cmp0 t p); [|discriminate]. apply Z.gtb_lt in Htrue. lia.
    Qed.

    (** cutAbove: every row at or after the cut is strictly above [k] *)
    Theorem cut_above_safe k r :
      In r (skipn (cut_above_gen K V col0 cmp0 true t k) (t_rows t)) -> cmp k (key r) < 0.
    Proof.
      destruct (cut_above_eq k) as [p [Hle [-> Hp]]].
      destruct (Nat.ltb_spec p (length (t_pages t))) as [Hlt|Hge].
      - specialize (Hp Hlt). unfold first_row_index, t_rows. rewrite skipn_concat_pages.
        rewrite (skipn_nth_cons _ _ [] Hlt). cbn [concat].
        unfold earliest in Hp. pose proof (page_ne p Hlt) as Hne.
        destruct (nth p (t_pages t) []) as [|r0 pg] eqn:Epg; [contradiction|].
        destruct (page_earliest K V col0 cmp0 (r0 :: pg)) as [e|] eqn:Ee; [|contradiction].
        intros Hr.
        assert (Hs : sorted ((r0 :: pg) ++ concat (skipn (S p) (t_pages t)))).
        { pose proof (sorted_skipn K cmp (length (concat (firstn p (t_pages t)))) _ t_sorted) as H.
          unfold t_rows in H. rewrite skipn_concat_pages, (skipn_nth_cons _ _ [] Hlt), Epg in H. exact H. }
        assert (H0 : cmp k (key r0) < 0).
        { apply col0_strict. pose proof (page_earliest_le _ _ r0 Ee (or_introl eq_refl)) as H1.
          apply (cmp_lt_le_trans V cmp0 cmp0_opp cmp0_trans) with e; [|exact H1].
          apply cmp0_opp. lia. }
        apply (cmp_lt_le_trans K cmp cmp_opp cmp_trans) with (key r0); [exact H0|].
        exact (sorted_head_le K cmp cmp_opp _ _ _ Hs Hr).
      - unfold num_rows. rewrite skipn_all. contradiction.
    Qed.

    (** cutBelow: every row before the cut is strictly below [k] *)
    Theorem cut_below_safe k r :
      In r (firstn (cut_below K V col0 cmp0 t k) (t_rows t)) -> cmp (key r) k < 0.
    Proof.
      unfold cut_below. set (n := length (t_pages t)).
      set (f := fun p => match latest K V col0 cmp0 t p with Some e => cmp0 e (col0 k) >=? 0 | None => false end).
      destruct (search_spec n f) as [Hle [_ Hfalse]]. set (p := search n f) in *.
      assert (Hin : In r (firstn (if (p =? n)%nat then num_rows t else first_row_index K t p) (t_rows t)) ->
                    In r (concat (firstn p (t_pages t)))).
      { destruct (Nat.eqb_spec p n) as [E|_].
        - unfold num_rows. rewrite firstn_all. unfold t_rows. rewrite E. unfold n. now rewrite firstn_all.
        - unfold first_row_index, t_rows. now rewrite firstn_concat_pages. }
      intros Hr. apply Hin in Hr. clear Hin.
      destruct p as [|q]; [contradiction|].
      assert (Hq : (q < n)%nat) by lia.
      specialize (Hfalse (Nat.lt_0_succ q)). replace (S q - 1)%nat with q in Hfalse by lia.
      unfold f, latest in Hfalse. pose proof (page_ne q Hq) as Hne.
      destruct (nth q (t_pages t) []) as [|r0 pg] eqn:Epg; [contradiction|].
      destruct (page_latest K V col0 cmp0 (r0 :: pg)) as [e|] eqn:Ee; [|discriminate].
      assert (He : cmp0 e (col0 k) < 0) by (destruct (Z.geb_spec (cmp0 e (col0 k)) 0); [discriminate|lia]).
      assert (Hpage : forall x, In x (r0 :: pg) -> cmp (key x) k < 0).
      { intros x Hx. apply col0_strict. apply (cmp_le_lt_trans V cmp0 cmp0_opp cmp0_trans) with e; [|exact He].
        eapply page_latest_ge; eauto. }
      rewrite (firstn_S_snoc _ _ [] Hq), Epg, concat_app in Hr. cbn [concat] in Hr. rewrite app_nil_r in Hr.
      apply in_app_or in Hr. destruct Hr as [Hr|Hr]; [|now apply Hpage].
      (* an earlier page: below the first row of page q *)
      apply (cmp_le_lt_trans K cmp cmp_opp cmp_trans) with (key r0); [|apply Hpage; now left].
      pose proof (sorted_firstn K cmp (length (concat (firstn (S q) (t_pages t)))) _ t_sorted) as Hs.
      unfold t_rows in Hs. rewrite firstn_concat_pages, (firstn_S_snoc _ _ [] Hq), Epg, concat_app in Hs.
      cbn [concat] in Hs. rewrite app_nil_r in Hs.
      apply (sorted_app_inv K cmp) in Hs. destruct Hs as [_ [_ Hs]]. apply Hs; [exact Hr|now left].
    Qed.
  End OneTarget.
End Cuts.
