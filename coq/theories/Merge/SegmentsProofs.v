(** overlappingRowGroups (merge.go:189): when the ranges are true bounds of
    the rows of their row groups, the segments formed by the sweep are pairwise
    ordered, so concatenating the merged segments in order is sorted and
    complete. *)
From Coq Require Import List ZArith Bool Lia Sorting.Sorted Sorting.Permutation.
From PQ Require Import Base.Order Base.Insertion Merge.Model Merge.AbstractProofs.
Import ListNotations.
Open Scope Z_scope.

Lemma SS_rev {A} (R : A -> A -> Prop) l :
  StronglySorted (fun a b => R b a) l -> StronglySorted R (rev l).
Proof.
  induction 1 as [|x l Hs IH Hf]; cbn; [constructor|].
  apply SS_app_iff. split; [exact IH|]. split; [repeat constructor|].
  intros a b Ha [<-|[]]. rewrite Forall_forall in Hf. apply Hf. now apply in_rev.
Qed.

Section Segments.
  Variable K : Type.
  Variable cmp : K -> K -> Z.
  Hypothesis cmp_opp : forall a b, cmp a b < 0 <-> cmp b a > 0.
  Hypothesis cmp_trans : forall a b d, cmp a b <= 0 -> cmp b d <= 0 -> cmp a d <= 0.

  Notation row := (row K).
  Notation range := (range K).
  Notation rcmp := (rcmp cmp).
  Notation sorted := (sorted K cmp).
  Notation rle := (rle K cmp).

  Definition min_le (a b : range) : Prop := cmp (r_min a) (r_min b) <= 0.
  Definition by_min (l : list range) : Prop := StronglySorted min_le l.

  (* every range of [s] ends strictly before every range of [s'] starts *)
  Definition seg_before (s s' : list range) : Prop :=
    forall a b, In a s -> In b s' -> cmp (r_max a) (r_min b) < 0.

  Lemma sweep_spec rest : forall cur curmax,
    (forall a, In a cur -> cmp (r_max a) curmax <= 0) -> by_min rest ->
    concat (sweep cmp cur curmax rest) = rev cur ++ rest /\
    ForallOrdPairs seg_before (sweep cmp cur curmax rest).
  Proof.
    induction rest as [|rr t IH]; intros cur curmax Hmax Hs; cbn [sweep].
    - cbn. split; [now rewrite app_nil_r|]. constructor; constructor.
    - inversion Hs as [|? ? Hs' Hf]; subst.
      destruct (Z.leb_spec (cmp (r_min rr) curmax) 0) as [Hov|Hno].
      + (* overlapping: the segment grows *)
        destruct (IH (rr :: cur) (if cmp (r_max rr) curmax >? 0 then r_max rr else curmax)) as [I1 I2]; auto.
        * intros a [<-|Ha].
          -- destruct (Z.gtb_spec (cmp (r_max rr) curmax) 0); [|lia].
             apply (cmp_refl_le K cmp cmp_opp).
          -- destruct (Z.gtb_spec (cmp (r_max rr) curmax) 0) as [Hgt|]; [|auto].
             eapply cmp_trans; [apply Hmax; exact Ha|]. apply (cmp_ge_le K cmp cmp_opp). lia.
        * split; [|exact I2]. rewrite I1. cbn. now rewrite <- app_assoc.
      + (* the current segment ends strictly before rr starts *)
        destruct (IH [rr] (r_max rr)) as [I1 I2]; auto.
        * intros a [<-|[]]. apply (cmp_refl_le K cmp cmp_opp).
        * split; [cbn [concat]; rewrite I1; reflexivity|].
          constructor; [|exact I2]. rewrite Forall_forall. intros s' Hs'' a b Ha Hb.
          assert (Hb' : In b (rr :: t)).
          { change (rr :: t) with (rev [rr] ++ t). rewrite <- I1. apply in_concat. eauto. }
          assert (Hrr : cmp (r_min rr) (r_min b) <= 0).
          { destruct Hb' as [<-|Hb']; [apply (cmp_refl_le K cmp cmp_opp)|].
            rewrite Forall_forall in Hf. exact (Hf b Hb'). }
          apply in_rev in Ha.
          (* r_max a <= curmax < r_min rr <= r_min b *)
          eapply (cmp_le_lt_trans K cmp cmp_opp cmp_trans); [apply Hmax; exact Ha|].
          eapply (cmp_lt_le_trans K cmp cmp_opp cmp_trans); [|exact Hrr].
          apply cmp_opp. lia.
  Qed.

  Theorem segments_sorted_spec rs : by_min rs ->
    concat (segments_sorted cmp rs) = rs /\ ForallOrdPairs seg_before (segments_sorted cmp rs).
  Proof.
    destruct rs as [|r t]; cbn [segments_sorted]; intros Hs.
    - split; [reflexivity|constructor].
    - inversion Hs; subst. apply (sweep_spec t [r] (r_max r)); auto.
      intros a [<-|[]]. apply (cmp_refl_le K cmp cmp_opp).
  Qed.

  (** ** concatenating the merged segments *)
  Variable content : range -> list row.     (* the rows of each row group *)
  Variable merged : list range -> list row. (* what the merge of a segment delivers *)

  Definition true_bounds (rs : list range) : Prop :=
    forall rg r, In rg rs -> In r (content rg) ->
      cmp (r_min rg) (key r) <= 0 /\ cmp (key r) (r_max rg) <= 0.

  Definition merge_ok (seg : list range) : Prop :=
    sorted (merged seg) /\ Permutation (merged seg) (flat_map content seg).

  Lemma seg_before_rows rs s s' r r' :
    true_bounds rs -> incl s rs -> incl s' rs -> seg_before s s' ->
    In r (flat_map content s) -> In r' (flat_map content s') -> rle r r'.
  Proof.
    intros Hb Hi Hi' Hlt Hr Hr'. apply in_flat_map in Hr, Hr'.
    destruct Hr as [a [Ha Hra]], Hr' as [b [Hb' Hrb]].
    destruct (Hb a r (Hi _ Ha) Hra) as [_ H1]. destruct (Hb b r' (Hi' _ Hb') Hrb) as [H2 _].
    specialize (Hlt a b Ha Hb'). unfold AbstractProofs.rle, Model.rcmp.
    assert (cmp (key r) (r_min b) < 0) by (eapply (cmp_le_lt_trans K cmp cmp_opp cmp_trans); eauto).
    assert (cmp (key r) (key r') < 0) by (eapply (cmp_lt_le_trans K cmp cmp_opp cmp_trans); eauto).
    lia.
  Qed.

  Lemma concat_segments_sorted rs segs :
    true_bounds rs -> (forall s, In s segs -> incl s rs) ->
    ForallOrdPairs seg_before segs -> Forall merge_ok segs ->
    sorted (flat_map merged segs) /\
    Permutation (flat_map merged segs) (flat_map content (concat segs)).
  Proof.
    intros Hb Hincl Hord Hok. induction Hord as [|s segs Hf Hord IH]; cbn.
    - split; constructor.
    - inversion Hok as [|? ? [Hs Hp] Hok']; subst.
      destruct IH as [I1 I2]; auto. { intros; apply Hincl; now right. }
      split.
      + apply sorted_app; auto. intros a b Ha Hb'.
        apply in_flat_map in Hb'. destruct Hb' as [s' [Hs' Hb']].
        rewrite Forall_forall in Hf, Hok'. destruct (Hok' s' Hs') as [_ Hp'].
        eapply (seg_before_rows rs s s'); eauto.
        * apply Hincl. now left.
        * apply Hincl. now right.
        * now rewrite <- Hp.
        * now rewrite <- Hp'.
      + rewrite flat_map_app. apply Permutation_app; auto.
  Qed.

  (** the plan of MergeRowGroups: segments of the ranges sorted by min, each
      merged, concatenated in order *)
  Theorem segments_concat_sorted rs sorted_rs :
    Permutation rs sorted_rs -> by_min sorted_rs ->     (* what slices.SortFunc delivers *)
    true_bounds rs ->
    (forall seg, In seg (segments_sorted cmp sorted_rs) -> merge_ok seg) ->
    sorted (flat_map merged (segments_sorted cmp sorted_rs)) /\
    Permutation (flat_map merged (segments_sorted cmp sorted_rs)) (flat_map content rs).
  Proof.
    intros Hperm Hmin Hb Hok. destruct (segments_sorted_spec sorted_rs Hmin) as [S1 S2].
    assert (Hb' : true_bounds sorted_rs).
    { intros rg r Hrg Hr. apply (Hb rg r); auto. eapply Permutation_in; [symmetry; exact Hperm|exact Hrg]. }
    destruct (concat_segments_sorted sorted_rs (segments_sorted cmp sorted_rs)) as [C1 C2]; auto.
    - intros s Hs a Ha. rewrite <- S1. apply in_concat. eauto.
    - now apply Forall_forall.
    - split; [exact C1|]. rewrite C2, S1.
      clear - Hperm. induction Hperm; cbn; auto.
      + now apply Permutation_app_head.
      + rewrite !app_assoc. apply Permutation_app_tail. apply Permutation_app_comm.
      + etransitivity; eauto.
  Qed.

  (** ** the insertion sort of the model meets the contract assumed above *)
  Lemma ins_rev_cons x y t : ins_rev K cmp x (y :: t) =
    if negb (cmp (r_min x) (r_min y) <? 0) then x :: y :: t else y :: ins_rev K cmp x t.
  Proof. cbn. now destruct (cmp (r_min x) (r_min y) <? 0). Qed.

  Lemma ins_rev_spec x acc :
    StronglySorted (fun a b => min_le b a) acc ->
    StronglySorted (fun a b => min_le b a) (ins_rev K cmp x acc) /\ Permutation (x :: acc) (ins_rev K cmp x acc).
  Proof.
    intros Hs. split; [|exact (ins_perm _ (ins_rev K cmp) (fun _ => eq_refl) ins_rev_cons x acc)].
    apply (ins_sorted _ (ins_rev K cmp) (fun _ => eq_refl) ins_rev_cons (fun a b => min_le b a)); [..|exact Hs];
      unfold min_le.
    - intros a b H. apply negb_true_iff, Z.ltb_ge in H. apply (cmp_ge_le K cmp cmp_opp). lia.
    - intros a b H. apply negb_false_iff, Z.ltb_lt in H. lia.
    - intros a b d H1 H2. exact (cmp_trans _ _ _ H2 H1).
  Qed.

  Lemma sort_ranges_spec rs : Permutation rs (sort_ranges cmp rs) /\ by_min (sort_ranges cmp rs).
  Proof.
    unfold sort_ranges.
    assert (H : forall l acc, StronglySorted (fun a b => min_le b a) acc ->
              StronglySorted (fun a b => min_le b a) (fold_left (fun acc x => ins_rev K cmp x acc) l acc) /\
              Permutation (l ++ acc) (fold_left (fun acc x => ins_rev K cmp x acc) l acc)).
    { induction l as [|x l IH]; intros acc Hacc; cbn [fold_left app]; [split; auto|].
      destruct (ins_rev_spec x acc Hacc) as [I1 I2]. destruct (IH _ I1) as [J1 J2].
      split; [exact J1|]. rewrite <- J2. rewrite <- I2. apply Permutation_middle. }
    destruct (H rs [] ltac:(constructor)) as [H1 H2]. rewrite app_nil_r in H2. split.
    - etransitivity; [exact H2|apply Permutation_rev].
    - apply SS_rev. exact H1.
  Qed.

  Theorem segments_plan_sorted rs :
    true_bounds rs -> (forall seg, In seg (segments cmp rs) -> merge_ok seg) ->
    sorted (flat_map merged (segments cmp rs)) /\
    Permutation (flat_map merged (segments cmp rs)) (flat_map content rs).
  Proof.
    intros Hb Hok. destruct (sort_ranges_spec rs) as [S1 S2].
    exact (segments_concat_sorted rs (sort_ranges cmp rs) S1 S2 Hb Hok).
  Qed.
End Segments.
