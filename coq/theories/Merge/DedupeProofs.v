(** dedupe.go: over a sorted sequence, however it is cut into batches, the
    deduplicating reader keeps exactly one row per distinct key: the first row
    of each run of equal keys. *)
From Coq Require Import List ZArith Lia Sorting.Sorted.
From PQ Require Import Base.Order Merge.Model Merge.AbstractProofs.
Import ListNotations.
Open Scope Z_scope.

Section Dedupe.
  Variable K : Type.
  Variable cmp : K -> K -> Z.
  Hypothesis cmp_opp : forall a b, cmp a b < 0 <-> cmp b a > 0.
  Hypothesis cmp_trans : forall a b d, cmp a b <= 0 -> cmp b d <= 0 -> cmp a d <= 0.

  Notation row := (row K).
  Notation rcmp := (rcmp cmp).
  Notation sorted := (sorted K cmp).
  Notation rle := (rle K cmp).

  (** ** batch boundaries do not matter *)
  Lemma dedupe_batch_app a : forall last b,
    dedupe_batch cmp last (a ++ b) =
    (fst (dedupe_batch cmp last a) ++ fst (dedupe_batch cmp (snd (dedupe_batch cmp last a)) b),
     snd (dedupe_batch cmp (snd (dedupe_batch cmp last a)) b)).
  Proof.
    induction a as [|r a IH]; intros last b; cbn [app dedupe_batch].
    - cbn. now destruct (dedupe_batch cmp last b).
    - destruct (match last with Some l => rcmp r l =? 0 | None => false end).
      + apply IH.
      + rewrite IH. destruct (dedupe_batch cmp (Some r) a) as [u l']. cbn.
        now destruct (dedupe_batch cmp l' b).
  Qed.

  Lemma dedupe_batches_concat bs : forall last,
    concat (dedupe_batches cmp last bs) = fst (dedupe_batch cmp last (concat bs)).
  Proof.
    induction bs as [|b bs IH]; intros last; cbn [dedupe_batches concat].
    - reflexivity.
    - rewrite dedupe_batch_app. cbn [fst]. destruct (dedupe_batch cmp last b) as [u l'] eqn:E. cbn [fst snd].
      rewrite <- IH. destruct u; reflexivity.
  Qed.

  Theorem dedupe_batches_spec bs :
    concat (dedupe_batches cmp None bs) = dedupe_spec cmp (concat bs).
  Proof. apply dedupe_batches_concat. Qed.

  (** ** the kept rows are the first rows of the runs of equal keys *)
  Definition same_key (a b : row) : Prop := rcmp a b = 0.

  Definition dup_of (prev : option row) (r : row) : bool :=
    match prev with Some p => rcmp r p =? 0 | None => false end.

  (* keep a row unless it has the key of the row just before it *)
  Fixpoint firsts_from (prev : option row) (l : list row) : list row :=
    match l with
    | [] => []
    | r :: t => if dup_of prev r then firsts_from (Some r) t else r :: firsts_from (Some r) t
    end.
  Definition firsts (l : list row) : list row := firsts_from None l.

  Lemma same_key_sym a b : same_key a b -> same_key b a.
  Proof. unfold same_key, Model.rcmp. apply (cmp_eq_sym K cmp cmp_opp). Qed.

  Lemma same_key_trans a b d : same_key a b -> same_key b d -> same_key a d.
  Proof. unfold same_key, Model.rcmp. apply (cmp_eq_trans K cmp cmp_opp cmp_trans). Qed.

  Lemma dedupe_firsts_gen l : forall last prev,
    match last, prev with
    | None, None => True
    | Some a, Some b => same_key a b
    | _, _ => False
    end ->
    fst (dedupe_batch cmp last l) = firsts_from prev l.
  Proof.
    induction l as [|r l IH]; intros last prev Hrel; cbn [dedupe_batch firsts_from]; [reflexivity|].
    assert (Hd : match last with Some a => rcmp r a =? 0 | None => false end = dup_of prev r).
    { destruct last as [a|], prev as [b|]; cbn; try contradiction; [|reflexivity].
      destruct (Z.eqb_spec (rcmp r a) 0) as [E|E]; destruct (Z.eqb_spec (rcmp r b) 0) as [F|F]; auto; exfalso.
      - apply F. exact (same_key_trans _ _ _ E Hrel).
      - apply E. exact (same_key_trans _ _ _ F (same_key_sym _ _ Hrel)). }
    rewrite Hd. destruct (dup_of prev r) eqn:Ed.
    - apply IH. destruct last as [a|], prev as [b|]; cbn in *; try contradiction; try discriminate.
      apply Z.eqb_eq in Ed. exact (same_key_trans _ _ _ Hrel (same_key_sym _ _ Ed)).
    - specialize (IH (Some r) (Some r)). destruct (dedupe_batch cmp (Some r) l) as [u l']. cbn [fst] in *.
      f_equal. apply IH. unfold same_key, Model.rcmp. apply (cmp_refl K cmp cmp_opp).
  Qed.

  Theorem dedupe_first_of_runs l : dedupe_spec cmp l = firsts l.
  Proof. unfold dedupe_spec, firsts. now apply dedupe_firsts_gen. Qed.

  (** ** on a sorted sequence: strictly increasing, complete, a subsequence *)
  Definition rlt (a b : row) : Prop := rcmp a b < 0.

  Inductive subseq : list row -> list row -> Prop :=
  | subseq_nil : subseq [] []
  | subseq_skip : forall x l1 l2, subseq l1 l2 -> subseq l1 (x :: l2)
  | subseq_keep : forall x l1 l2, subseq l1 l2 -> subseq (x :: l1) (x :: l2).

  Lemma firsts_from_subseq l : forall prev, subseq (firsts_from prev l) l.
  Proof.
    induction l as [|r l IH]; intros prev; cbn; [constructor|].
    destruct (dup_of prev r); constructor; apply IH.
  Qed.

  Lemma subseq_in l1 l2 x : subseq l1 l2 -> In x l1 -> In x l2.
  Proof. induction 1; cbn; intros; tauto. Qed.

  (* all kept rows are strictly above [prev] *)
  Lemma firsts_from_sorted l : forall p, sorted (p :: l) ->
    StronglySorted rlt (firsts_from (Some p) l) /\ Forall (rlt p) (firsts_from (Some p) l).
  Proof.
    induction l as [|r l IH]; intros p Hs; cbn [firsts_from]; [split; constructor|].
    inversion Hs as [|? ? Hs' Hf]; subst. inversion Hf as [|? ? Hpr Hf']; subst.
    destruct (IH r Hs') as [I1 I2].
    assert (Hup : forall x, rlt r x -> rle p r -> rlt p x).
    { intros x Hx Hp. unfold rlt, AbstractProofs.rle, Model.rcmp in *.
      eapply (cmp_le_lt_trans K cmp cmp_opp cmp_trans); eauto. }
    unfold dup_of. destruct (Z.eqb_spec (rcmp r p) 0) as [E|E].
    - split; [exact I1|]. eapply Forall_impl; [|exact I2]. intros x Hx. apply Hup; auto.
    - assert (Hlt : rlt p r).
      { unfold rlt, AbstractProofs.rle, Model.rcmp in *.
        destruct (Z.eq_dec (cmp (key p) (key r)) 0) as [Z0|Z0]; [|lia].
        exfalso. apply E. apply (cmp_eq_sym K cmp cmp_opp). exact Z0. }
      split.
      + constructor; assumption.
      + constructor; [exact Hlt|]. eapply Forall_impl; [|exact I2]. intros x Hx. apply Hup; auto.
  Qed.

  Lemma firsts_sorted l : sorted l -> StronglySorted rlt (firsts l).
  Proof.
    destruct l as [|r l]; cbn; intros Hs; [constructor|].
    destruct (firsts_from_sorted l r Hs). constructor; assumption.
  Qed.

  (* every row has a kept row with its key (or has the key of [prev]) *)
  Lemma firsts_from_complete l : forall prev x, In x l ->
    (exists p, prev = Some p /\ same_key x p) \/ exists y, In y (firsts_from prev l) /\ same_key x y.
  Proof.
    induction l as [|r l IH]; intros prev x Hx; [contradiction|]. cbn [firsts_from].
    destruct Hx as [<-|Hx].
    - destruct (dup_of prev r) eqn:Ed.
      + left. destruct prev as [p|]; cbn in Ed; [|discriminate]. exists p. split; [reflexivity|]. now apply Z.eqb_eq.
      + right. exists r. split; [now left|]. unfold same_key, Model.rcmp. apply (cmp_refl K cmp cmp_opp).
    - destruct (IH (Some r) x Hx) as [[p [Ep Hp]]|[y [Hy Hxy]]].
      + inversion Ep; subst p. destruct (dup_of prev r) eqn:Ed.
        * left. destruct prev as [q|]; cbn in Ed; [|discriminate]. exists q. split; [reflexivity|].
          apply Z.eqb_eq in Ed. exact (same_key_trans _ _ _ Hp Ed).
        * right. exists r. split; [now left|exact Hp].
      + right. exists y. split; [|exact Hxy]. destruct (dup_of prev r); [exact Hy|now right].
  Qed.

  Theorem dedupe_one_per_key bs :
    sorted (concat bs) ->
    let out := concat (dedupe_batches cmp None bs) in
    out = firsts (concat bs) /\
    StronglySorted rlt out /\
    (forall x, In x (concat bs) -> exists y, In y out /\ same_key x y) /\
    subseq out (concat bs).
  Proof.
    intros Hs out. assert (E : out = firsts (concat bs)).
    { unfold out. rewrite dedupe_batches_spec. apply dedupe_first_of_runs. }
    rewrite E. repeat split.
    - now apply firsts_sorted.
    - intros x Hx. destruct (firsts_from_complete (concat bs) None x Hx) as [[p [Ep _]]|H]; [discriminate|exact H].
    - apply firsts_from_subseq.
  Qed.

  Lemma strictly_sorted_distinct l : StronglySorted rlt l ->
    forall i j a b, (i < j)%nat -> nth_error l i = Some a -> nth_error l j = Some b -> ~ same_key a b.
  Proof.
    induction 1 as [|x l Hs IH Hf]; intros [|i] [|j] a b Hij Ha Hb; cbn in *; try discriminate; try lia.
    - inversion Ha; subst. rewrite Forall_forall in Hf. specialize (Hf b (nth_error_In _ _ Hb)).
      unfold rlt, same_key in *. lia.
    - eapply (IH i j); eauto. lia.
  Qed.
End Dedupe.
