(** The tournament tree of losers of mergedRowReader (merge.go:849).

    Positions 0..k-1 are the internal nodes, k+i is the leaf of buffer i, 2k a
    missing leaf; the children of p are 2p+1 and 2p+2.  [W] assigns to every
    position the winner of its subtree; the loser of the game played at p is
    stored in losers[p].  The invariant [Shape] says that [W] is consistent
    with the leaves, with the stored losers and with the comparison of the
    heads; it is established by playInitialGames and restored by replayGames
    after the head of the overall winner changed. *)
From Coq Require Import List ZArith Bool Lia Sorting.Sorted Sorting.Permutation.
From PQ Require Import Merge.Model Merge.AbstractProofs Merge.RunLengthProofs Merge.Merge2Proofs.
Import ListNotations.
Open Scope Z_scope.

Definition parent (p : nat) : nat := ((p - 1) / 2)%nat.

(* [up x q]: q is x or an ancestor of x *)
Inductive up (x : nat) : nat -> Prop :=
| up_refl : up x x
| up_step : forall q, (0 < q)%nat -> up x q -> up x (parent q).

Lemma parent_lt q : (0 < q)%nat -> (parent q < q)%nat.
Proof. intros H. unfold parent. apply Nat.div_lt_upper_bound; lia. Qed.

Lemma parent_child1 p : parent (2 * p + 1) = p.
Proof. unfold parent. replace (2 * p + 1 - 1)%nat with (p * 2)%nat by lia. now rewrite Nat.div_mul. Qed.

Lemma parent_child2 p : parent (2 * p + 2) = p.
Proof.
  unfold parent. replace (2 * p + 2 - 1)%nat with (1 + p * 2)%nat by lia.
  rewrite Nat.div_add by lia. cbn. lia.
Qed.

Lemma child_of_parent q : (0 < q)%nat -> q = (2 * parent q + 1)%nat \/ q = (2 * parent q + 2)%nat.
Proof.
  intros H. unfold parent.
  pose proof (Nat.div_mod (q - 1) 2 ltac:(lia)) as E.
  pose proof (Nat.mod_upper_bound (q - 1) 2 ltac:(lia)). lia.
Qed.

Lemma parent_lt_2k k q : (0 < q)%nat -> (q <= 2 * k)%nat -> (parent q < k)%nat.
Proof. intros H0 H. unfold parent. apply Nat.div_lt_upper_bound; lia. Qed.

Definition sibling (c s : nat) : Prop :=
  (c = 2 * parent c + 1 /\ s = 2 * parent c + 2)%nat \/ (c = 2 * parent c + 2 /\ s = 2 * parent c + 1)%nat.

Lemma sibling_ex c : (0 < c)%nat -> exists s, sibling c s.
Proof. intros H. destruct (child_of_parent c H); eexists; [left|right]; eauto. Qed.

Lemma sibling_of c q : (0 < c)%nat -> (0 < q)%nat -> parent q = parent c -> q <> c -> sibling c q.
Proof.
  intros Hc Hq E Hne. unfold sibling.
  destruct (child_of_parent c Hc), (child_of_parent q Hq); lia.
Qed.

Lemma up_le x q : up x q -> (q <= x)%nat.
Proof. induction 1; [lia|]. pose proof (parent_lt q H). lia. Qed.

Lemma up_trans x q r : up x q -> up q r -> up x r.
Proof. intros H1 H2. induction H2; [exact H1|]. now apply up_step. Qed.

Lemma up_root x : up x 0.
Proof.
  induction x as [x IH] using lt_wf_ind. destruct x as [|x]; [constructor|].
  apply up_trans with (parent (S x)).
  - apply up_step; [lia|constructor].
  - apply IH. apply parent_lt. lia.
Qed.

(* an ancestor other than x itself is above the parent of x *)
Lemma up_strict x q : up x q -> q <> x -> up (parent x) q.
Proof.
  induction 1 as [|q Hq Hup IH]; intros Hne; [congruence|].
  destruct (Nat.eq_dec q x) as [->|Hqx]; [constructor|].
  apply up_step; auto.
Qed.

Lemma up_linear x a b : up x a -> up x b -> up a b \/ up b a.
Proof.
  intros Ha. revert b. induction Ha as [|a Ha0 Ha IH]; intros b Hb.
  - now left.
  - destruct (IH b Hb) as [H|H].
    + destruct (Nat.eq_dec b a) as [->|Hne].
      * right. apply up_step; [exact Ha0|constructor].
      * left. apply up_strict; auto.
    + right. now apply up_step.
Qed.

(* two siblings are not both on the path of x *)
Lemma up_siblings x a : up x (2 * a + 1) -> up x (2 * a + 2) -> False.
Proof.
  intros H1 H2. destruct (up_linear _ _ _ H1 H2) as [H|H].
  - apply up_le in H. lia.
  - assert (Hs : up (parent (2 * a + 2)) (2 * a + 1)) by (apply up_strict; [exact H|lia]).
    rewrite parent_child2 in Hs. apply up_le in Hs. lia.
Qed.

Lemma up_parent_inv x p : up x p -> p <> x -> exists c, (0 < c)%nat /\ up x c /\ parent c = p.
Proof. intros H Hne. inversion H as [|c Hc Hu E]; [congruence|eauto]. Qed.

Lemma up_sibling x c s : sibling c s -> up x c -> up x s -> False.
Proof. intros [[E1 E2]|[E1 E2]] Hc Hs; apply (up_siblings x (parent c)); congruence. Qed.

Lemma off_path_children x q : ~ up x q -> (2 * q + 1)%nat <> x /\ (2 * q + 2)%nat <> x.
Proof.
  intros H. split; intros E; apply H; subst x.
  - pose proof (up_step _ (2 * q + 1) ltac:(lia) (up_refl _)) as U. now rewrite parent_child1 in U.
  - pose proof (up_step _ (2 * q + 2) ltac:(lia) (up_refl _)) as U. now rewrite parent_child2 in U.
Qed.

Lemma up_leaf k x q : (k <= q)%nat -> (x < 2 * k)%nat -> up x q -> q = x.
Proof.
  intros Hq Hx H. destruct (Nat.eq_dec q x) as [|Hne]; [assumption|].
  apply up_strict in H; [|exact Hne]. apply up_le in H. unfold parent in H.
  assert ((x - 1) / 2 < k)%nat by (apply Nat.div_lt_upper_bound; lia). lia.
Qed.

Lemma up_dec x : forall q, {up x q} + {~ up x q}.
Proof.
  induction x as [x IH] using (well_founded_induction lt_wf). intros q.
  destruct (Nat.eq_dec q x) as [->|Hne]; [left; constructor|].
  destruct x as [|x'].
  - right. intros H. apply up_le in H. lia.
  - destruct (IH (parent (S x')) (parent_lt (S x') ltac:(lia)) q) as [H|H].
    + left. eapply up_trans; [|exact H]. apply up_step; [lia|constructor].
    + right. intros Hu. apply H. apply up_strict; auto.
Qed.

Lemma leaf_parent_eq (x : nat) : (1 <= x)%nat -> leaf_parent (Z.of_nat x) = parent x.
Proof.
  intros H. unfold leaf_parent, parent.
  replace (Z.of_nat x - 1) with (Z.of_nat (x - 1)) by lia.
  change 2 with (Z.of_nat 2). rewrite <- Nat2Z.inj_div. apply Nat2Z.id.
Qed.

Section Tree.
  Variable K : Type.
  Variable cmp : K -> K -> Z.
  Hypothesis cmp_opp : forall a b, cmp a b < 0 <-> cmp b a > 0.
  Hypothesis cmp_trans : forall a b d, cmp a b <= 0 -> cmp b d <= 0 -> cmp a d <= 0.

  Notation row := (row K).
  Notation buf := (buf K).
  Notation rcmp := (rcmp cmp).
  Notation sorted := (sorted K cmp).
  Notation rle := (rle K cmp).
  Notation sched := (sched cmp).

  (** ** heads: [None] is an exhausted reader, which loses every game *)
  Definition ole (x y : option row) : Prop :=
    match y with
    | None => True
    | Some b => match x with Some a => rle a b | None => False end
    end.

  Lemma ole_refl x : ole x x.
  Proof. destruct x; cbn; auto. apply (rle_refl K cmp cmp_opp). Qed.

  Lemma ole_trans x y z : ole x y -> ole y z -> ole x z.
  Proof.
    destruct z as [c|]; cbn; auto. destruct y as [b|]; cbn; [|contradiction].
    destruct x as [a|]; cbn; [|contradiction]. apply (rle_trans K cmp cmp_trans).
  Qed.

  Definition lv (hd : nat -> option row) (i : nat) : Z :=
    match hd i with Some _ => Z.of_nat i | None => -1 end.

  Definition ph (hd : nat -> option row) (a : Z) : option row :=
    if a <? 0 then None else hd (Z.to_nat a).

  Lemma ph_of_nat hd i : ph hd (Z.of_nat i) = hd i.
  Proof. unfold ph. destruct (Z.ltb_spec (Z.of_nat i) 0); [lia|]. now rewrite Nat2Z.id. Qed.

  Lemma ph_neg hd a : a < 0 -> ph hd a = None.
  Proof. intros H. unfold ph. destruct (Z.ltb_spec a 0); [reflexivity|lia]. Qed.

  Lemma ph_ext hd hd' a : (0 <= a -> hd (Z.to_nat a) = hd' (Z.to_nat a)) -> ph hd a = ph hd' a.
  Proof. intros H. unfold ph. destruct (Z.ltb_spec a 0); [reflexivity|auto]. Qed.

  Lemma ph_lv hd i : ph hd (lv hd i) = hd i.
  Proof. unfold lv. destruct (hd i) eqn:E; [now rewrite ph_of_nat|reflexivity]. Qed.

  Definition loser (L : list Z) (p : nat) : Z := nth p L (-1).

  Record Shape (k : nat) (L : list Z) (w : Z) (hd : nat -> option row) (W : nat -> Z) : Prop := {
    sh_len : length L = k;
    sh_leaf : forall i, (i < k)%nat -> W (k + i)%nat = lv hd i;
    sh_phantom : W (2 * k)%nat = -1;
    sh_node : forall p, (p < k)%nat ->
      (W p = W (2 * p + 1)%nat /\ loser L p = W (2 * p + 2)%nat) \/
      (W p = W (2 * p + 2)%nat /\ loser L p = W (2 * p + 1)%nat);
    sh_game : forall p, (p < k)%nat -> ole (ph hd (W p)) (ph hd (loser L p));
    sh_root : W 0%nat = w;
    sh_hd : forall i, (k <= i)%nat -> hd i = None }.

  Definition TreeInv (k : nat) (L : list Z) (w : Z) (hd : nat -> option row) : Prop :=
    exists W, Shape k L w hd W.

  Section Facts.
    Variables (k : nat) (L : list Z) (w : Z) (hd : nat -> option row) (W : nat -> Z).
    Hypothesis SH : Shape k L w hd W.

    Lemma node_of c s : (0 < c)%nat -> (c <= 2 * k)%nat -> sibling c s ->
      (W (parent c) = W c /\ loser L (parent c) = W s) \/ (W (parent c) = W s /\ loser L (parent c) = W c).
    Proof.
      intros H0 Hc Hs. pose proof (sh_node _ _ _ _ _ SH _ (parent_lt_2k k c H0 Hc)) as N.
      destruct Hs as [[E1 E2]|[E1 E2]]; rewrite <- E1, <- E2 in N; tauto.
    Qed.

    Lemma parent_beats q : (0 < q)%nat -> (q <= 2 * k)%nat -> ole (ph hd (W (parent q))) (ph hd (W q)).
    Proof.
      intros H0 Hq. destruct (sibling_ex q H0) as [s Hs].
      destruct (node_of q s H0 Hq Hs) as [[E _]|[_ E]]; [rewrite E; apply ole_refl|].
      rewrite <- E. apply (sh_game _ _ _ _ _ SH). now apply parent_lt_2k.
    Qed.

    (* the winner of a subtree is one of its live leaves (or negative) *)
    Lemma provenance : forall q, (q <= 2 * k)%nat -> 0 <= W q ->
      exists i, (i < k)%nat /\ W q = Z.of_nat i /\ up (k + i) q /\ hd i <> None.
    Proof.
      intros q. induction q as [q IH] using (well_founded_induction (well_founded_ltof _ (fun q => 2 * k - q)%nat)).
      unfold ltof in IH. intros Hq Hw.
      destruct (Nat.lt_ge_cases q k) as [Hlt|Hge].
      - destruct (sh_node _ _ _ _ _ SH q Hlt) as [[E _]|[E _]]; rewrite E in Hw.
        + destruct (IH (2 * q + 1)%nat ltac:(lia) ltac:(lia) Hw) as [i [Hi [Ei [Hu Hh]]]].
          exists i. repeat split; auto; [congruence|]. rewrite <- (parent_child1 q). apply up_step; [lia|exact Hu].
        + destruct (IH (2 * q + 2)%nat ltac:(lia) ltac:(lia) Hw) as [i [Hi [Ei [Hu Hh]]]].
          exists i. repeat split; auto; [congruence|]. rewrite <- (parent_child2 q). apply up_step; [lia|exact Hu].
      - destruct (Nat.eq_dec q (2 * k)) as [->|Hne].
        + rewrite (sh_phantom _ _ _ _ _ SH) in Hw. lia.
        + replace q with (k + (q - k))%nat in * by lia. set (i := (q - k)%nat) in *.
          rewrite (sh_leaf _ _ _ _ _ SH i ltac:(lia)) in *. unfold lv in *.
          destruct (hd i) eqn:Eh; [|lia]. exists i. repeat split; auto; try lia; [constructor|congruence].
    Qed.

    Lemma player_range q : (q <= 2 * k)%nat -> -1 <= W q < Z.of_nat k.
    Proof.
      intros Hq. destruct (Z_lt_le_dec (W q) 0) as [Hn|Hp].
      - split; [|lia].
        (* negative winners are -1 *)
        revert Hq Hn. induction q as [q IH] using (well_founded_induction (well_founded_ltof _ (fun q => 2 * k - q)%nat)).
        unfold ltof in IH. intros Hq Hn.
        destruct (Nat.lt_ge_cases q k) as [Hlt|Hge].
        + destruct (sh_node _ _ _ _ _ SH q Hlt) as [[E _]|[E _]]; rewrite E in *; apply IH; lia.
        + destruct (Nat.eq_dec q (2 * k)) as [->|Hne]; [rewrite (sh_phantom _ _ _ _ _ SH); lia|].
          replace q with (k + (q - k))%nat in * by lia.
          rewrite (sh_leaf _ _ _ _ _ SH (q - k)%nat ltac:(lia)) in *. unfold lv in *. destruct (hd (q - k)%nat); lia.
      - destruct (provenance q Hq Hp) as [i [Hi [Ei _]]]. lia.
    Qed.

    Lemma subtree_min i : (i < k)%nat -> forall q, up (k + i) q -> ole (ph hd (W q)) (hd i).
    Proof.
      intros Hi q Hu. induction Hu as [|q Hq Hu IH].
      - rewrite (sh_leaf _ _ _ _ _ SH i Hi), ph_lv. apply ole_refl.
      - pose proof (up_le _ _ Hu). eapply ole_trans; [apply parent_beats; [exact Hq|lia]|exact IH].
    Qed.

    (** the overall winner is a minimal head *)
    Lemma winner_minimal i : (i < k)%nat -> ole (ph hd w) (hd i).
    Proof. intros Hi. rewrite <- (sh_root _ _ _ _ _ SH). apply subtree_min; auto. apply up_root. Qed.

    (** on the path of the overall winner every subtree is won by it *)
    Variable wn : nat.
    Hypothesis Hw : w = Z.of_nat wn.

    Lemma wn_lt : (wn < k)%nat.
    Proof.
      pose proof (player_range 0%nat ltac:(lia)) as H. rewrite (sh_root _ _ _ _ _ SH), Hw in H. lia.
    Qed.

    Lemma winner_only_on_path q : (q <= 2 * k)%nat -> W q = w -> up (k + wn) q.
    Proof.
      intros Hq Es. destruct (provenance q Hq ltac:(lia)) as [i [Hi [Ei [Hu _]]]].
      assert (i = wn) by lia. now subst i.
    Qed.

    Lemma not_winner_above q : up (k + wn) q -> W q <> w -> forall r, up q r -> W r <> w.
    Proof.
      intros Hx Hq r Hr. induction Hr as [|r Hr0 Hr IH]; [exact Hq|].
      pose proof (up_trans _ _ _ Hx Hr) as Hxr. pose proof (up_le _ _ Hxr) as Hle. pose proof wn_lt.
      destruct (sibling_ex r Hr0) as [s Hs]. intros Heq.
      destruct (node_of r s Hr0 ltac:(lia) Hs) as [[E _]|[E _]]; [apply IH; congruence|].
      (* the sibling carries the winner: it would be on the path as well *)
      apply (up_sibling _ _ _ Hs Hxr). apply winner_only_on_path; [|congruence].
      destruct Hs as [[? ->]|[? ->]]; lia.
    Qed.

    Lemma winner_path q : up (k + wn) q -> W q = w.
    Proof.
      intros Hx. destruct (Z.eq_dec (W q) w) as [|Hne]; [assumption|exfalso].
      apply (not_winner_above q Hx Hne 0%nat (up_root q)). apply (sh_root _ _ _ _ _ SH).
    Qed.

    (* at a node of the path the stored loser is the winner of the other subtree *)
    Lemma path_loser c s : (0 < c)%nat -> up (k + wn) c -> sibling c s ->
      loser L (parent c) = W s /\ ~ up (k + wn) s.
    Proof.
      intros Hc Hu Hs. pose proof (up_le _ _ Hu) as Hle. pose proof wn_lt.
      pose proof (winner_path c Hu) as Ec. pose proof (winner_path _ (up_step _ _ Hc Hu)) as Ep.
      split; [|intros Hus; exact (up_sibling _ _ _ Hs Hu Hus)].
      destruct (node_of c s Hc ltac:(lia) Hs) as [[_ E]|[E1 E2]]; congruence.
    Qed.

    (* players stored off the winner's path are not the winner *)
    Lemma off_path_players q : (q < k)%nat -> ~ up (k + wn) q -> W q <> w /\ loser L q <> w.
    Proof.
      intros Hq Hn. split.
      - intros E. apply Hn. apply winner_only_on_path; [lia|exact E].
      - intros E. apply Hn.
        assert (Hc : forall c, (0 < c <= 2 * k)%nat -> parent c = q -> W c = w -> up (k + wn) q).
        { intros c Hc <- Ec. apply up_step; [lia|]. apply winner_only_on_path; [lia|exact Ec]. }
        destruct (sh_node _ _ _ _ _ SH q Hq) as [[_ El]|[_ El]]; rewrite El in E;
          [apply (Hc (2 * q + 2)%nat)|apply (Hc (2 * q + 1)%nat)];
          auto using parent_child1, parent_child2; lia.
    Qed.
  End Facts.

  Lemma sh_hd_lt k L w hd W j y : Shape k L w hd W -> hd j = Some y -> (j < k)%nat.
  Proof.
    intros SH Hy. destruct (Nat.lt_ge_cases j k) as [|Hge]; [assumption|].
    rewrite (sh_hd _ _ _ _ _ SH _ Hge) in Hy. discriminate.
  Qed.

  (** ** replayGames restores the invariant *)
  Definition heads (bufs : list buf) (i : nat) : option row := head_of K bufs (Z.of_nat i).

  Lemma heads_overflow bufs i : (length bufs <= i)%nat -> heads bufs i = None.
  Proof. intros H. unfold heads, head_of. rewrite Nat2Z.id, nth_overflow by exact H. reflexivity. Qed.

  Lemma ph_heads bufs a : 0 <= a -> ph (heads bufs) a = head_of K bufs a.
  Proof. intros H. unfold ph, heads. destruct (Z.ltb_spec a 0); [lia|]. now rewrite Z2Nat.id. Qed.

  Lemma nth_upd_eq (l : list Z) i x d : (i < length l)%nat -> nth i (upd l i x) d = x.
  Proof. apply nth_upd_same. Qed.

  Lemma play_game_spec bufs a b :
    (0 <= a -> ph (heads bufs) a <> None) -> (0 <= b -> ph (heads bufs) b <> None) ->
    let '(lo, wi) := play_game K cmp bufs a b in
    ((wi = a /\ lo = b) \/ (wi = b /\ lo = a)) /\ ole (ph (heads bufs) wi) (ph (heads bufs) lo).
  Proof.
    intros Ha Hb. unfold play_game.
    destruct (Z.ltb_spec a 0) as [Ha0|Ha0]; [split; [now right|now rewrite (ph_neg _ a)]|].
    destruct (Z.ltb_spec b 0) as [Hb0|Hb0]; [split; [now left|now rewrite (ph_neg _ b)]|].
    destruct (ph (heads bufs) a) as [x|] eqn:Ea; [|exfalso; now apply Ha].
    destruct (ph (heads bufs) b) as [y|] eqn:Eb; [|exfalso; now apply Hb].
    unfold cmp_heads. rewrite <- !ph_heads, Ea, Eb by assumption.
    destruct (Z.ltb_spec (rcmp x y) 0) as [Hc|Hc]; (split; [auto|rewrite Ea, Eb; cbn]).
    - apply rle_of_lt. exact Hc.
    - apply (rle_of_ge K cmp cmp_opp). lia.
  Qed.

  Section Replay.
    Variables (k : nat) (L : list Z) (hd : nat -> option row) (W : nat -> Z) (wn : nat).
    Hypothesis SH : Shape k L (Z.of_nat wn) hd W.
    Variable bufs : list buf.
    Hypothesis Hlen : length bufs = k.
    Hypothesis Hagree : forall i, i <> wn -> heads bufs i = hd i.

    Let hd' := heads bufs.
    Let x := (k + wn)%nat.

    Definition node_ok (Lc : list Z) (Wc : nat -> Z) (q : nat) : Prop :=
      ((Wc q = Wc (2 * q + 1)%nat /\ loser Lc q = Wc (2 * q + 2)%nat) \/
       (Wc q = Wc (2 * q + 2)%nat /\ loser Lc q = Wc (2 * q + 1)%nat)) /\
      ole (ph hd' (Wc q)) (ph hd' (loser Lc q)).

    (* the walk is at [c] with candidate [cand]: the games at the strict ancestors
       of [c] are still to be replayed, every other node is consistent *)
    Record WI (c : nat) (cand : Z) (Lc : list Z) (Wc : nat -> Z) : Prop := {
      wi_up : up x c;
      wi_len : length Lc = k;
      wi_cand : Wc c = cand;
      wi_cand_hd : 0 <= cand -> ph hd' cand <> None;
      wi_x : Wc x = lv hd' wn;
      wi_done : forall q, (q < k)%nat -> ~ (up c q /\ q <> c) -> node_ok Lc Wc q;
      wi_todo : forall q, up c q -> q <> c -> loser Lc q = loser L q;
      wi_off : forall q, ~ up x q -> Wc q = W q }.

    Lemma parent_lt_k c : up x c -> (0 < c)%nat -> (parent c < k)%nat.
    Proof.
      intros Hu Hc. pose proof (up_le _ _ Hu). pose proof (wn_lt _ _ _ _ _ SH wn eq_refl). apply parent_lt_2k; unfold x in *; lia.
    Qed.

    (* one game of the replay: playGame between the stored loser and the candidate *)
    Definition game (Lc : list Z) (cand : Z) (p : nat) : list Z * Z :=
      let player := nth p Lc (-1) in
      if (0 <=? player) && ((cand <? 0) || (cmp_heads K cmp bufs player cand <? 0))
      then (upd Lc p cand, player) else (Lc, cand).

    Lemma game_play Lc cand p : (p < length Lc)%nat ->
      game Lc cand p = (upd Lc p (fst (play_game K cmp bufs (loser Lc p) cand)),
                        snd (play_game K cmp bufs (loser Lc p) cand)).
    Proof.
      intros Hp. unfold game, play_game, loser.
      assert (Eid : upd Lc p (nth p Lc (-1)) = Lc) by (apply upd_id, nth_error_nth'; exact Hp).
      destruct (Z.ltb_spec (nth p Lc (-1)) 0), (Z.leb_spec 0 (nth p Lc (-1))); try lia; cbn [andb fst snd];
        [now rewrite Eid|].
      destruct (cand <? 0); cbn [orb fst snd]; [reflexivity|].
      destruct (cmp_heads K cmp bufs _ cand <? 0); cbn [fst snd]; [reflexivity|now rewrite Eid].
    Qed.

    Lemma game_step c cand Lc Wc : WI c cand Lc Wc -> (0 < c)%nat ->
      let p := parent c in
      WI p (snd (game Lc cand p)) (fst (game Lc cand p))
           (fun q => if (q =? p)%nat then snd (game Lc cand p) else Wc q).
    Proof.
      intros [Iup Ilen Icand Ihd Ix Idone Itodo Ioff] Ipos p.
      assert (Hp : (p < k)%nat) by (apply parent_lt_k; assumption).
      assert (Hpc : (p < c)%nat) by (apply parent_lt; assumption).
      assert (Hupp : up x p) by (apply up_step; assumption).
      destruct (sibling_ex c Ipos) as [s Hch].
      destruct (path_loser k L _ hd W SH wn eq_refl c s Ipos Iup Hch) as [Hl Hns]. fold p in Hl.
      assert (Hsp : (p < s <= 2 * k)%nat) by (destruct Hch as [[? ->]|[? ->]]; fold p; lia).
      assert (Hplayer : loser Lc p = Wc s).
      { rewrite (Itodo p (up_step _ _ Ipos (up_refl _))) by lia. rewrite Hl. symmetry. now apply Ioff. }
      assert (Hphd : 0 <= Wc s -> ph hd' (Wc s) <> None).
      { rewrite (Ioff s Hns). intros H0.
        destruct (provenance k L _ hd W SH s ltac:(lia) H0) as [i [Hi [Ei [Hu Hh]]]].
        assert (i <> wn) by (intros ->; apply Hns; exact Hu).
        rewrite Ei, ph_of_nat. unfold hd'. now rewrite Hagree. }
      rewrite game_play by lia. cbn [fst snd]. rewrite Hplayer.
      pose proof (play_game_spec bufs (Wc s) cand Hphd Ihd) as G.
      destruct (play_game K cmp bufs (Wc s) cand) as [lo wi]. cbn [fst snd]. destruct G as [Gw Gole].
      assert (Hlp : loser (upd Lc p lo) p = lo) by (apply nth_upd_same; lia).
      assert (Hlq : forall q, q <> p -> loser (upd Lc p lo) q = loser Lc q)
        by (intros q Hq; apply nth_upd_other; auto).
      assert (Ekeep : forall q, q <> p -> (q =? p)%nat = false) by (intros q Hq; now apply Nat.eqb_neq).
      split.
      - exact Hupp.
      - now rewrite upd_length.
      - now rewrite Nat.eqb_refl.
      - destruct Gw as [[-> _]|[-> _]]; assumption.
      - rewrite Ekeep by (unfold x; lia). exact Ix.
      - intros q Hq Hn. destruct (Nat.eq_dec q p) as [->|Hqp].
        + unfold node_ok. rewrite Nat.eqb_refl, Hlp, !Ekeep by lia. split; [|exact Gole].
          destruct Hch as [[Ec Es]|[Ec Es]]; fold p in Ec, Es; rewrite <- Ec, <- Es, Icand;
            destruct Gw as [[-> ->]|[-> ->]]; auto.
        + assert (Hnq : ~ up p q) by tauto.
          destruct (off_path_children p q Hnq) as [Hch1 Hch2].
          destruct (Idone q Hq) as [N G].
          { intros [Hu Hne]. apply Hnq. now apply up_strict. }
          unfold node_ok. now rewrite !Ekeep, Hlq by assumption.
      - intros q Hq Hne. rewrite Hlq by assumption. pose proof (up_le _ _ Hq). apply Itodo; [|lia].
        eapply up_trans; [apply up_step; [exact Ipos|constructor]|exact Hq].
      - intros q Hq. rewrite Ekeep by (intros ->; auto). now apply Ioff.
    Qed.

    Lemma wi_init :
      WI x (lv hd' wn) L (fun q => if (q =? x)%nat then lv hd' wn else W q).
    Proof.
      pose proof (wn_lt _ _ _ _ _ SH wn eq_refl) as Hwn.
      split.
      - constructor.
      - exact (sh_len _ _ _ _ _ SH).
      - now rewrite Nat.eqb_refl.
      - intros H0. rewrite ph_lv. unfold lv in H0. destruct (hd' wn); [discriminate|lia].
      - now rewrite Nat.eqb_refl.
      - intros q Hq Hn.
        assert (Hnx : ~ up x q) by (intros Hu; apply Hn; split; [exact Hu|unfold x; lia]).
        destruct (off_path_players k L _ hd W SH wn eq_refl q Hq Hnx) as [O1 O2].
        destruct (off_path_children x q Hnx) as [E1 E2]. apply Nat.eqb_neq in E1, E2.
        unfold node_ok. replace (q =? x)%nat with false by (symmetry; apply Nat.eqb_neq; unfold x; lia).
        rewrite E1, E2, !(ph_ext hd' hd) by (intros; apply Hagree; lia).
        split; [exact (sh_node _ _ _ _ _ SH q Hq)|exact (sh_game _ _ _ _ _ SH q Hq)].
      - reflexivity.
      - intros q Hn. replace (q =? x)%nat with false; [reflexivity|].
        symmetry. apply Nat.eqb_neq. intros ->. apply Hn. constructor.
    Qed.

    Lemma wi_shape cand Lc Wc : WI 0%nat cand Lc Wc -> Shape k Lc cand hd' Wc.
    Proof.
      intros [Iup Ilen Icand Ihd Ix Idone Itodo Ioff]. pose proof (wn_lt _ _ _ _ _ SH wn eq_refl) as Hwn.
      assert (Hdone : forall q, (q < k)%nat -> node_ok Lc Wc q).
      { intros q Hq. apply Idone; [exact Hq|]. intros [Hu Hne]. apply up_le in Hu. lia. }
      split; [exact Ilen| | |apply Hdone|apply Hdone|exact Icand|].
      - intros i Hi. destruct (Nat.eq_dec i wn) as [->|Hne]; [exact Ix|].
        rewrite Ioff by (intros Hu; apply (up_leaf k) in Hu; unfold x in *; lia).
        rewrite (sh_leaf _ _ _ _ _ SH i Hi). unfold lv, hd'. now rewrite Hagree.
      - rewrite Ioff by (intros Hu; apply up_le in Hu; unfold x in *; lia). exact (sh_phantom _ _ _ _ _ SH).
      - intros i Hi. apply heads_overflow. lia.
    Qed.

    Lemma replay_walk_unfold fuel Lc cand p :
      replay_walk K cmp fuel bufs Lc cand p =
      if (p =? 0)%nat || (fuel =? 0)%nat then game Lc cand p
      else replay_walk K cmp (pred fuel) bufs (fst (game Lc cand p)) (snd (game Lc cand p)) (parent p).
    Proof.
      unfold game. destruct fuel; cbn [replay_walk];
        destruct ((0 <=? nth p Lc (-1)) && ((cand <? 0) || (cmp_heads K cmp bufs (nth p Lc (-1)) cand <? 0)));
        destruct p; reflexivity.
    Qed.

    Lemma replay_walk_shape fuel : forall c cand Lc Wc,
      WI c cand Lc Wc -> (0 < c)%nat -> (parent c <= fuel)%nat ->
      exists W', Shape k (fst (replay_walk K cmp fuel bufs Lc cand (parent c)))
                         (snd (replay_walk K cmp fuel bufs Lc cand (parent c))) hd' W'.
    Proof.
      induction fuel as [|f IH]; intros c cand Lc Wc I Hc Hf;
        pose proof (game_step c cand Lc Wc I Hc) as G; cbv zeta in G; rewrite replay_walk_unfold;
        destruct (Nat.eqb_spec (parent c) 0) as [E|E]; cbn [orb Nat.eqb pred]; try lia.
      - rewrite E in *. eexists. exact (wi_shape _ _ _ G).
      - rewrite E in *. eexists. exact (wi_shape _ _ _ G).
      - apply (IH _ _ _ _ G); [lia|]. pose proof (parent_lt (parent c)). lia.
    Qed.

    (** replayGames: from the leaf of the previous winner, whose head changed
        (or which is exhausted: candidate -1), the walk to the root restores
        the invariant for the current heads *)
    Theorem replay_walk_inv :
      TreeInv k (fst (replay_walk K cmp k bufs L (lv hd' wn) (parent x)))
                (snd (replay_walk K cmp k bufs L (lv hd' wn) (parent x))) hd'.
    Proof.
      pose proof (wn_lt _ _ _ _ _ SH wn eq_refl). pose proof (parent_lt_k x (up_refl _)).
      eapply replay_walk_shape; [exact wi_init|unfold x in *; lia..].
    Qed.
  End Replay.

  (** ** playInitialGames establishes the invariant *)
  Lemma up_child q i : up q i -> q <> i -> up q (2 * i + 1) \/ up q (2 * i + 2).
  Proof.
    intros H Hne. destruct (up_parent_inv q i H ltac:(congruence)) as [r [Hr [Hu <-]]].
    destruct (child_of_parent r Hr) as [Ec|Ec]; [left|right]; rewrite <- Ec; exact Hu.
  Qed.

  Section Initial.
    Variable bufs : list buf.
    Variable leaves : list Z.
    Let k := length bufs.
    Let hd := heads bufs.
    Hypothesis Hleaves_len : length leaves = k.
    Hypothesis Hleaves : forall i, (i < k)%nat -> nth i leaves (-1) = lv hd i.

    Fixpoint Wf (d q : nat) : Z :=
      if (k <=? q)%nat then nth (q - k) leaves (-1)
      else match d with
           | O => -1
           | S d' => snd (play_game K cmp bufs (Wf d' (2 * q + 1)) (Wf d' (2 * q + 2)))
           end.

    Lemma Wf_leaf d q : (k <= q)%nat -> Wf d q = nth (q - k) leaves (-1).
    Proof. intros H. destruct d; cbn [Wf]; destruct (Nat.leb_spec k q); auto; lia. Qed.

    Lemma Wf_node d q : (q < k)%nat ->
      Wf (S d) q = snd (play_game K cmp bufs (Wf d (2 * q + 1)) (Wf d (2 * q + 2))).
    Proof. intros H. cbn [Wf]. destruct (Nat.leb_spec k q); [lia|reflexivity]. Qed.

    Lemma Wf_fuel d : forall q, ((q + 1) * 2 ^ d > k)%nat -> Wf (S d) q = Wf d q.
    Proof.
      induction d as [|d IH]; intros q Hq.
      - cbn in Hq. rewrite !Wf_leaf by lia. reflexivity.
      - destruct (Nat.lt_ge_cases q k) as [Hlt|Hge]; [|now rewrite !Wf_leaf by lia].
        rewrite (Wf_node (S d) q Hlt), (Wf_node d q Hlt).
        rewrite !IH; [reflexivity| |]; rewrite Nat.pow_succ_r' in Hq; nia.
    Qed.

    Definition W0 : nat -> Z := Wf (S k).

    Lemma W0_node q : (q < k)%nat ->
      W0 q = snd (play_game K cmp bufs (W0 (2 * q + 1)) (W0 (2 * q + 2))).
    Proof.
      intros H. unfold W0. rewrite (Wf_node k q H).
      pose proof (Nat.pow_gt_lin_r 2 k). rewrite !(Wf_fuel k); [reflexivity| |]; nia.
    Qed.

    Lemma Wf_fuel_add d e q : ((q + 1) * 2 ^ d > k)%nat -> Wf (d + e) q = Wf d q.
    Proof.
      intros H. induction e as [|e IHe]; [now rewrite Nat.add_0_r|].
      rewrite Nat.add_succ_r, Wf_fuel; [exact IHe|]. rewrite Nat.pow_add_r. pose proof (Nat.pow_gt_lin_r 2 e). nia.
    Qed.

    (* both have enough fuel: compare through the sum *)
    Lemma W0_fuel d q : ((q + 1) * 2 ^ d > k)%nat -> Wf d q = W0 q.
    Proof.
      intros H. unfold W0. rewrite <- (Wf_fuel_add d (S k)), <- (Wf_fuel_add (S k) d); [f_equal; lia| |exact H].
      pose proof (Nat.pow_gt_lin_r 2 (S k)). nia.
    Qed.

    Lemma play_initial_winner d : forall Lin q, snd (play_initial K cmp d bufs leaves Lin q) = Wf d q.
    Proof.
      induction d as [|d IH]; intros Lin q; cbn [play_initial Wf]; fold k;
        destruct (k <=? q)%nat; try reflexivity.
      pose proof (IH Lin (2 * q + 1)%nat) as H1.
      destruct (play_initial K cmp d bufs leaves Lin (2 * q + 1)) as [l1 n1]. cbn [snd] in H1.
      pose proof (IH l1 (2 * q + 2)%nat) as H2.
      destruct (play_initial K cmp d bufs leaves l1 (2 * q + 2)) as [l2 n2]. cbn [snd] in H2.
      subst. destruct (play_game K cmp bufs _ _); reflexivity.
    Qed.

    Lemma play_initial_losers d : forall Lin i, ((i + 1) * 2 ^ d > k)%nat -> length Lin = k ->
      let L' := fst (play_initial K cmp d bufs leaves Lin i) in
      length L' = k /\
      (forall q, ~ (up q i /\ (q < k)%nat) -> nth q L' (-1) = nth q Lin (-1)) /\
      (forall q, (q < k)%nat -> up q i ->
         nth q L' (-1) = fst (play_game K cmp bufs (W0 (2 * q + 1)) (W0 (2 * q + 2)))).
    Proof.
      induction d as [|d IH]; intros Lin i Hf Hlen; cbn [play_initial]; fold k.
      - cbn in Hf. destruct (Nat.leb_spec k i); [|lia]. cbn [fst].
        repeat split; auto. intros q Hq Hu. apply up_le in Hu. lia.
      - destruct (Nat.leb_spec k i) as [Hge|Hlt]; cbn [fst].
        { repeat split; auto. intros q Hq Hu. apply up_le in Hu. lia. }
        rewrite Nat.pow_succ_r' in Hf.
        pose proof (IH Lin (2 * i + 1)%nat ltac:(nia) Hlen) as I1.
        pose proof (play_initial_winner d Lin (2 * i + 1)%nat) as V1.
        destruct (play_initial K cmp d bufs leaves Lin (2 * i + 1)) as [l1 n1]. cbn [fst snd] in I1, V1.
        destruct I1 as [I1a [I1b I1c]].
        pose proof (IH l1 (2 * i + 2)%nat ltac:(nia) I1a) as I2.
        pose proof (play_initial_winner d l1 (2 * i + 2)%nat) as V2.
        destruct (play_initial K cmp d bufs leaves l1 (2 * i + 2)) as [l2 n2]. cbn [fst snd] in I2, V2.
        destruct I2 as [I2a [I2b I2c]].
        rewrite (W0_fuel d) in V1, V2 by nia. subst n1 n2.
        destruct (play_game K cmp bufs (W0 (2 * i + 1)) (W0 (2 * i + 2))) as [lo wi] eqn:Eg. cbn [fst].
        split; [rewrite upd_length; exact I2a|]. split.
        + intros q Hq.
          assert (q <> i) by (intros ->; apply Hq; split; [constructor|lia]).
          rewrite nth_upd_other by auto.
          rewrite I2b.
          * apply I1b. intros [Hu Hk]. apply Hq. split; [|exact Hk].
            rewrite <- (parent_child1 i). apply up_step; [lia|exact Hu].
          * intros [Hu Hk]. apply Hq. split; [|exact Hk].
            rewrite <- (parent_child2 i). apply up_step; [lia|exact Hu].
        + intros q Hq Hu. destruct (Nat.eq_dec q i) as [->|Hne].
          * rewrite nth_upd_same by lia. now rewrite Eg.
          * rewrite nth_upd_other by auto. destruct (up_child q i Hu Hne) as [Hc|Hc].
            -- rewrite I2b; [apply I1c; assumption|].
               intros [Hu2 _]. exact (up_siblings q i Hc Hu2).
            -- apply I2c; assumption.
    Qed.

    Lemma Wf_alive d : forall q, 0 <= Wf d q -> ph hd (Wf d q) <> None.
    Proof.
      assert (Hleaf : forall d q, (k <= q)%nat -> 0 <= Wf d q -> ph hd (Wf d q) <> None).
      { intros d' q Hge. rewrite Wf_leaf by exact Hge. intros H.
        destruct (Nat.lt_ge_cases (q - k) k) as [Hi|Hi]; [|rewrite nth_overflow in H; lia].
        rewrite Hleaves in * by assumption. rewrite ph_lv. unfold lv in H. destruct (hd (q - k)%nat); [discriminate|lia]. }
      induction d as [|d IH]; intros q; (destruct (Nat.lt_ge_cases q k) as [Hlt|Hge]; [|now apply Hleaf]).
      - cbn [Wf]. destruct (Nat.leb_spec k q); lia.
      - rewrite Wf_node by exact Hlt. unfold play_game.
        destruct (Wf d (2 * q + 1) <? 0); [apply IH|]. destruct (Wf d (2 * q + 2) <? 0); [apply IH|].
        destruct (cmp_heads K cmp bufs _ _ <? 0); apply IH.
    Qed.

    Theorem play_initial_inv :
      let r := play_initial K cmp (S k) bufs leaves (repeat 0 k) 0 in
      TreeInv k (fst r) (snd r) hd.
    Proof.
      intros r. exists W0.
      pose proof (Nat.pow_gt_lin_r 2 (S k)) as Hp.
      destruct (play_initial_losers (S k) (repeat 0 k) 0%nat ltac:(lia) (repeat_length _ _)) as [P1 [_ P3]].
      fold r in P1, P3.
      assert (Hnode : forall p, (p < k)%nat ->
                ((W0 p = W0 (2 * p + 1)%nat /\ loser (fst r) p = W0 (2 * p + 2)%nat) \/
                 (W0 p = W0 (2 * p + 2)%nat /\ loser (fst r) p = W0 (2 * p + 1)%nat)) /\
                ole (ph hd (W0 p)) (ph hd (loser (fst r) p))).
      { intros p Hpk. unfold loser. rewrite (P3 p Hpk (up_root p)), (W0_node p Hpk).
        pose proof (play_game_spec bufs (W0 (2 * p + 1)) (W0 (2 * p + 2)) (Wf_alive _ _) (Wf_alive _ _)) as G.
        destruct (play_game K cmp bufs (W0 (2 * p + 1)) (W0 (2 * p + 2))) as [lo wi]. cbn [fst snd].
        destruct G as [[[-> ->]|[-> ->]] G2]; auto. }
      split.
      - exact P1.
      - intros i Hi. unfold W0. rewrite Wf_leaf by lia. replace (k + i - k)%nat with i by lia. now apply Hleaves.
      - unfold W0. rewrite Wf_leaf by lia. apply nth_overflow. lia.
      - intros p Hpk. apply Hnode; assumption.
      - intros p Hpk. apply Hnode; assumption.
      - unfold r. rewrite play_initial_winner. reflexivity.
      - intros i Hi. apply heads_overflow. exact Hi.
    Qed.
  End Initial.

  (** ** runBound is at or below the head of every other reader *)
  Definition bound_step (bufs : list buf) (L : list Z) (p : nat) (acc : option row) : option row :=
    let player := nth p L (-1) in
    if 0 <=? player then
      match head_of K bufs player with
      | Some h => match acc with
                  | None => Some h
                  | Some b => if rcmp h b <? 0 then Some h else acc
                  end
      | None => acc
      end
    else acc.

  Lemma bound_step_spec bufs L p acc :
    ole (bound_step bufs L p acc) acc /\ ole (bound_step bufs L p acc) (ph (heads bufs) (loser L p)).
  Proof.
    unfold bound_step, loser. destruct (Z.leb_spec 0 (nth p L (-1))) as [Hp|Hp].
    - rewrite ph_heads by assumption.
      destruct (head_of K bufs (nth p L (-1))) as [h|]; [|split; [apply ole_refl|exact I]].
      destruct acc as [b|]; [|split; [exact I|apply ole_refl]].
      destruct (Z.ltb_spec (rcmp h b) 0).
      + split; [|apply ole_refl]. cbn. unfold AbstractProofs.rle. lia.
      + split; [apply ole_refl|]. cbn. apply (rle_of_ge K cmp cmp_opp). lia.
    - split; [apply ole_refl|]. now rewrite ph_neg.
  Qed.

  Lemma bound_walk_unfold fuel bufs L p acc :
    bound_walk K cmp fuel bufs L p acc =
    if (p =? 0)%nat || (fuel =? 0)%nat then bound_step bufs L p acc
    else bound_walk K cmp (pred fuel) bufs L (parent p) (bound_step bufs L p acc).
  Proof. destruct fuel, p; reflexivity. Qed.

  Lemma bound_walk_spec bufs L fuel : forall p acc, (p <= fuel)%nat ->
    let r := bound_walk K cmp fuel bufs L p acc in
    ole r acc /\ forall q, up p q -> ole r (ph (heads bufs) (loser L q)).
  Proof.
    induction fuel as [|f IH]; intros p acc Hf r; subst r; rewrite bound_walk_unfold;
      destruct (bound_step_spec bufs L p acc) as [S1 S2];
      destruct (Nat.eqb_spec p 0) as [E|E]; cbn [orb Nat.eqb pred]; try lia.
    1, 2: split; [exact S1|]; intros q Hq; apply up_le in Hq; replace q with p by lia; exact S2.
    destruct (IH (parent p) (bound_step bufs L p acc)) as [I1 I2]; [pose proof (parent_lt p); lia|].
    split; [eapply ole_trans; eauto|].
    intros q Hq. destruct (Nat.eq_dec q p) as [->|Hne]; [eapply ole_trans; eauto|].
    apply I2. apply up_strict; auto.
  Qed.

  Section Bound.
    Variables (k : nat) (L : list Z) (hd : nat -> option row) (W : nat -> Z) (wn : nat).
    Hypothesis SH : Shape k L (Z.of_nat wn) hd W.
    Let x := (k + wn)%nat.

    (* every other reader is dominated by a loser stored on the winner's path *)
    Lemma path_covers i : (i < k)%nat -> i <> wn ->
      exists a, up (parent x) a /\ ole (ph hd (loser L a)) (hd i) /\ loser L a <> Z.of_nat wn.
    Proof.
      intros Hi Hne. pose proof (wn_lt k L _ hd W SH wn eq_refl) as Hwn.
      (* going up from the leaf of i: the winner of the subtree dominates i,
         until the path of the winner is met *)
      assert (P : forall q, up (k + i) q ->
                (~ up x q /\ ole (ph hd (W q)) (hd i)) \/
                (exists a, up (parent x) a /\ ole (ph hd (loser L a)) (hd i) /\ loser L a <> Z.of_nat wn)).
      { intros q Hu. induction Hu as [|q Hq Hu IH].
        - left. split.
          + intros Hx. apply (up_leaf k) in Hx; unfold x in *; lia.
          + apply (subtree_min k L _ hd W SH i Hi). constructor.
        - destruct IH as [[Hoff Hle]|IH]; [|now right].
          pose proof (up_le _ _ Hu) as Hqle. pose proof (parent_lt_2k k q Hq ltac:(lia)) as Hpk.
          destruct (up_dec x (parent q)) as [Hon|Hoff'].
          + (* the parent is on the path: q is the sibling of the path child *)
            right. exists (parent q).
            destruct (up_parent_inv _ _ Hon ltac:(unfold x; lia)) as [c [Hc [Hcu Ec]]].
            assert (Hs : sibling c q) by (apply sibling_of; auto; intros ->; auto).
            destruct (path_loser k L _ hd W SH wn eq_refl c q Hc Hcu Hs) as [Hl _].
            rewrite Ec in Hl. rewrite Hl. split; [apply up_strict; [exact Hon|unfold x; lia]|].
            split; [exact Hle|]. intros E. apply Hoff.
            apply (winner_only_on_path k L _ hd W SH wn eq_refl); [lia|exact E].
          + left. split; [exact Hoff'|].
            eapply ole_trans; [apply (parent_beats k L _ hd W SH q Hq); lia|exact Hle]. }
      destruct (P 0%nat (up_root _)) as [[Hoff _]|H]; [|exact H].
      exfalso. apply Hoff. apply up_root.
    Qed.
  End Bound.

  (** ** the state of mergedRowReader between two steps of its loop *)
  Notation mk := (mk K).
  Notation no_buf := (no_buf K).

  Definition absk (m : mk) : list (list row) := map remaining (k_bufs m).

  Definition is_some (o : option row) : bool := match o with Some _ => true | None => false end.

  Definition alive (hd : nat -> option row) (k : nat) : nat :=
    length (filter (fun i => is_some (hd i)) (List.seq 0 k)).

  Lemma alive_ext hd hd' k : (forall i, (i < k)%nat -> is_some (hd i) = is_some (hd' i)) -> alive hd k = alive hd' k.
  Proof. intros H. unfold alive. f_equal. apply filter_ext_in. intros i Hi. apply in_seq in Hi. apply H. lia. Qed.

  Lemma filter_seq_kill (f g : nat -> bool) w : forall n s,
    (s <= w < s + n)%nat -> f w = true -> g w = false -> (forall i, i <> w -> f i = g i) ->
    length (filter f (List.seq s n)) = S (length (filter g (List.seq s n))).
  Proof.
    induction n as [|n IH]; intros s Hw Hf Hg Hne; [lia|]. cbn [List.seq filter].
    destruct (Nat.eq_dec s w) as [->|Hsw].
    - rewrite Hf, Hg. cbn [length]. f_equal. f_equal. apply filter_ext_in. intros i Hi. apply in_seq in Hi. apply Hne. lia.
    - rewrite (Hne s Hsw). destruct (g s); cbn [length]; rewrite (IH (S s)); auto; lia.
  Qed.

  Lemma alive_kill hd hd' k w : (w < k)%nat -> hd w <> None -> hd' w = None ->
    (forall i, i <> w -> hd' i = hd i) -> alive hd k = S (alive hd' k).
  Proof.
    intros Hw H1 H2 H3. unfold alive. apply (filter_seq_kill _ _ w); try lia.
    - destruct (hd w); [reflexivity|congruence].
    - now rewrite H2.
    - intros i Hi. now rewrite H3.
  Qed.

  Lemma alive_zero hd k : alive hd k = 0%nat -> forall i, (i < k)%nat -> hd i = None.
  Proof.
    unfold alive. intros H i Hi. destruct (hd i) eqn:E; [|reflexivity]. exfalso.
    assert (In i (filter (fun i => is_some (hd i)) (List.seq 0 k))).
    { apply filter_In. split; [apply in_seq; lia|now rewrite E]. }
    destruct (filter _ _); [contradiction|discriminate].
  Qed.

  Lemma alive_ex hd k : alive hd k <> 0%nat -> exists i, (i < k)%nat /\ hd i <> None.
  Proof.
    unfold alive. destruct (filter _ _) as [|i l] eqn:F; [intros H; now contradiction H|]. intros _.
    assert (Hin : In i (i :: l)) by now left. rewrite <- F in Hin. apply filter_In in Hin.
    destruct Hin as [Hi Hs]. apply in_seq in Hi. exists i. split; [lia|]. now destruct (hd i).
  Qed.

  Lemma alive_pos hd k i : (i < k)%nat -> hd i <> None -> (0 < alive hd k)%nat.
  Proof.
    intros Hi H. destruct (alive hd k) eqn:E; [|lia]. exfalso. apply H. exact (alive_zero _ _ E i Hi).
  Qed.

  Lemma all_dead_empty hd (bufs : list buf) : alive hd (length bufs) = 0%nat ->
    (forall i, hd i = None -> remaining (nth i bufs no_buf) = []) -> all_empty K (map remaining bufs).
  Proof.
    intros Hc Hdead. apply Forall_forall. intros l Hl. apply in_map_iff in Hl. destruct Hl as [b [<- Hb]].
    apply In_nth with (d := no_buf) in Hb. destruct Hb as [i [Hi <-]].
    apply Hdead. exact (alive_zero _ _ Hc i Hi).
  Qed.

  Record KPre (m : mk) (hd : nat -> option row) : Prop := {
    kp_tree : TreeInv (length (k_bufs m)) (k_losers m) (k_winner m) hd;
    kp_leaf : k_leaf m = Z.of_nat (length (k_bufs m)) + k_winner m;
    kp_hd : forall i, Z.of_nat i <> k_winner m -> hd i = heads (k_bufs m) i;
    kp_sorted : forall i, sorted (remaining (nth i (k_bufs m) no_buf));
    kp_dead : forall i, hd i = None -> remaining (nth i (k_bufs m) no_buf) = [];
    kp_count : k_count m = alive hd (length (k_bufs m)) }.

  Definition KInv (m : mk) (hd : nat -> option row) : Prop :=
    KPre m hd /\
    forall i, Z.of_nat i = k_winner m -> b_win (nth i (k_bufs m) no_buf) <> [] -> hd i = heads (k_bufs m) i.

  Lemma heads_win bufs i : heads bufs i = match b_win (nth i bufs no_buf) with h :: _ => Some h | [] => None end.
  Proof. unfold heads, head_of. now rewrite Nat2Z.id. Qed.

  Lemma remaining_no_buf : remaining no_buf = [].
  Proof. reflexivity. Qed.

  Lemma kpre_winner m hd : KPre m hd -> k_count m <> 0%nat ->
    exists wn, k_winner m = Z.of_nat wn /\ (wn < length (k_bufs m))%nat /\ hd wn <> None.
  Proof.
    intros P Hc. destruct (kp_tree _ _ P) as [W SH]. rewrite (kp_count _ _ P) in Hc.
    destruct (alive_ex _ _ Hc) as [i [Hi Hh]].
    (* the winner beats a live reader: it is one *)
    pose proof (winner_minimal _ _ _ hd W SH i Hi) as Hm.
    destruct (hd i) as [y|]; [|congruence].
    destruct (Z_lt_le_dec (k_winner m) 0) as [Hn|Hp]; [now rewrite ph_neg in Hm|].
    exists (Z.to_nat (k_winner m)). rewrite Z2Nat.id by assumption. split; [reflexivity|].
    rewrite <- (Z2Nat.id _ Hp), ph_of_nat in Hm.
    destruct (hd (Z.to_nat (k_winner m))) eqn:Ew; [|contradiction].
    split; [exact (sh_hd_lt _ _ _ _ _ _ _ SH Ew)|congruence].
  Qed.

  Lemma map_upd {A B} (f : A -> B) l i x : map f (upd l i x) = upd (map f l) i (f x).
  Proof. revert i; induction l; intros [|i]; cbn; auto. now rewrite IHl. Qed.

  Lemma absk_set_buf m i b : absk (set_buf K m i b) = upd (absk m) i (remaining b).
  Proof. unfold absk, set_buf. cbn. apply map_upd. Qed.

  Lemma nth_error_absk m i : (i < length (k_bufs m))%nat ->
    nth_error (absk m) i = Some (remaining (nth i (k_bufs m) no_buf)).
  Proof.
    intros H. unfold absk. now rewrite nth_error_map, (nth_error_nth' _ no_buf H).
  Qed.

  Lemma other_heads m hd wn j r' t : KPre m hd -> k_winner m = Z.of_nat wn -> j <> wn ->
    nth_error (absk m) j = Some (r' :: t) -> hd j = Some r'.
  Proof.
    intros P Hw Hj E.
    assert (Hlt : (j < length (k_bufs m))%nat).
    { assert (j < length (absk m))%nat by (apply nth_error_Some; congruence). unfold absk in H. now rewrite map_length in H. }
    rewrite nth_error_absk in E by assumption. inversion E as [E'].
    rewrite (kp_hd _ _ P j) by lia. rewrite heads_win.
    destruct (hd j) eqn:Eh.
    - rewrite (kp_hd _ _ P j) in Eh by lia. rewrite heads_win in Eh.
      unfold remaining in E'. destruct (b_win (nth j (k_bufs m) no_buf)); [discriminate|].
      cbn in E'. congruence.
    - rewrite (kp_dead _ _ P j Eh) in E'. discriminate.
  Qed.

  Lemma kpre_set_buf m hd wn c' : KPre m hd -> k_winner m = Z.of_nat wn -> (wn < length (k_bufs m))%nat ->
    hd wn <> None -> sorted (remaining c') -> KPre (set_buf K m wn c') hd.
  Proof.
    intros P Hw Hlt Hal Hs. destruct P as [P1 P2 P3 P4 P5 P6].
    split; cbn [set_buf k_bufs k_losers k_winner k_leaf k_count]; rewrite ?upd_length; auto.
    - intros i Hi. rewrite (P3 i Hi), !heads_win, nth_upd by assumption.
      destruct (Nat.eqb_spec i wn); [lia|reflexivity].
    - intros i. rewrite nth_upd by assumption. destruct (i =? wn)%nat; auto.
    - intros i Hi. rewrite nth_upd by assumption. destruct (Nat.eqb_spec i wn) as [->|]; [congruence|auto].
  Qed.

  Lemma kinv_set_streak m hd s : KInv m hd -> KInv (set_streak K m s) hd.
  Proof. intros [[P1 P2 P3 P4 P5 P6] H]. split; [split|]; auto. Qed.

  Lemma winner_alive m hd wn : KPre m hd -> k_winner m = Z.of_nat wn -> hd wn <> None /\ (wn < length (k_bufs m))%nat.
  Proof.
    intros P Hw. destruct (kp_tree _ _ P) as [W SH]. rewrite Hw in SH.
    destruct (provenance _ _ _ _ _ SH 0%nat ltac:(lia)) as [i [Hi [Ei [_ Hh]]]].
    - rewrite (sh_root _ _ _ _ _ SH). lia.
    - rewrite (sh_root _ _ _ _ _ SH) in Ei. assert (i = wn) by lia. subst i. auto.
  Qed.

  Lemma emit_step m hd wn pre c' : KPre m hd -> k_winner m = Z.of_nat wn ->
    remaining (nth wn (k_bufs m) no_buf) = pre ++ remaining c' ->
    (forall r j y, In r pre -> j <> wn -> hd j = Some y -> rle r y) ->
    sched (absk m) pre (absk (set_buf K m wn c')) /\ KPre (set_buf K m wn c') hd /\
    nth wn (k_bufs (set_buf K m wn c')) no_buf = c' /\ sorted (remaining c').
  Proof.
    intros P Hw Hrem Hle. destruct (winner_alive _ _ _ P Hw) as [Hal Hlt].
    assert (Hs : sorted (remaining c')).
    { pose proof (kp_sorted _ _ P wn) as Hs. rewrite Hrem in Hs. now apply sorted_app_inv in Hs. }
    split; [|split; [now apply kpre_set_buf|split; [apply nth_upd_same; exact Hlt|exact Hs]]].
    rewrite absk_set_buf. apply (sched_prefix K cmp cmp_opp).
    - rewrite nth_error_absk by assumption. now rewrite Hrem.
    - rewrite <- Hrem. apply (kp_sorted _ _ P).
    - intros r j r' t Hr Hj E. eapply Hle; eauto. eapply other_heads; eauto.
  Qed.

  Lemma kinv_exhausted m hd wn : KPre m hd -> k_winner m = Z.of_nat wn ->
    b_win (nth wn (k_bufs m) no_buf) = [] -> KInv m hd.
  Proof.
    intros P Hw He. split; [exact P|]. intros i Hi Hwin. exfalso. apply Hwin.
    assert (i = wn) by (rewrite Hw in Hi; lia). now subst i.
  Qed.

  Lemma replay_unfold m :
    replay K cmp m =
    let r := replay_walk K cmp (length (k_bufs m)) (k_bufs m) (k_losers m) (k_winner m) (leaf_parent (k_leaf m)) in
    mkMK K (k_bufs m) (fst r) (k_count m) (snd r) (Z.of_nat (length (k_bufs m)) + snd r) (k_streak m).
  Proof. unfold replay. destruct (replay_walk _ _ _ _ _ _ _); reflexivity. Qed.

  Lemma kpre_leaf_parent m hd wn : KPre m hd -> k_winner m = Z.of_nat wn ->
    leaf_parent (k_leaf m) = parent (length (k_bufs m) + wn).
  Proof.
    intros P Hw. destruct (winner_alive _ _ _ P Hw) as [_ Hlt].
    rewrite (kp_leaf _ _ P), Hw, <- Nat2Z.inj_add. apply leaf_parent_eq. lia.
  Qed.

  (* [m0]: [m] with the winner reset to the new value of its leaf, count up to date *)
  Lemma replay_kinv m m0 hd wn : KPre m hd -> k_winner m = Z.of_nat wn ->
    k_bufs m0 = k_bufs m -> k_losers m0 = k_losers m -> k_leaf m0 = k_leaf m ->
    k_winner m0 = lv (heads (k_bufs m)) wn ->
    k_count m0 = alive (heads (k_bufs m)) (length (k_bufs m)) ->
    (heads (k_bufs m) wn = None -> remaining (nth wn (k_bufs m) no_buf) = []) ->
    KInv (replay K cmp m0) (heads (k_bufs m)).
  Proof.
    intros P Hw Eb El Ef Ewin Ecnt Hdead.
    destruct (kp_tree _ _ P) as [W SH]. rewrite Hw in SH.
    assert (Hagree : forall i, i <> wn -> heads (k_bufs m) i = hd i).
    { intros i Hi. symmetry. apply (kp_hd _ _ P). lia. }
    pose proof (replay_walk_inv _ _ hd W wn SH (k_bufs m) eq_refl Hagree) as T.
    rewrite replay_unfold, Eb, El, Ef, Ewin, Ecnt, (kpre_leaf_parent m hd wn P Hw). cbv zeta.
    split; [split|]; cbn [k_bufs k_losers k_winner k_leaf k_count]; auto.
    - intros i. apply (kp_sorted _ _ P).
    - intros i Hn. destruct (Nat.eq_dec i wn) as [->|Hne]; [now apply Hdead|].
      apply (kp_dead _ _ P). now rewrite <- Hagree.
  Qed.

  Lemma replay_alive m hd wn : KPre m hd -> k_winner m = Z.of_nat wn ->
    b_win (nth wn (k_bufs m) no_buf) <> [] -> KInv (replay K cmp m) (heads (k_bufs m)).
  Proof.
    intros P Hw Hwin. destruct (winner_alive _ _ _ P Hw) as [Hal Hlt].
    assert (Hsome : heads (k_bufs m) wn <> None).
    { rewrite heads_win. destruct (b_win (nth wn (k_bufs m) no_buf)); [congruence|discriminate]. }
    apply (replay_kinv m m hd wn P Hw); auto.
    - unfold lv. destruct (heads (k_bufs m) wn); [exact Hw|congruence].
    - rewrite (kp_count _ _ P). apply alive_ext. intros i Hi.
      destruct (Nat.eq_dec i wn) as [->|Hne]; [|now rewrite (kp_hd _ _ P i) by lia].
      destruct (hd wn), (heads (k_bufs m) wn); cbn; congruence.
    - congruence.
  Qed.

  Lemma replay_dead m hd wn : KPre m hd -> k_winner m = Z.of_nat wn ->
    remaining (nth wn (k_bufs m) no_buf) = [] ->
    KInv (replay K cmp (mkMK K (k_bufs m) (k_losers m) (k_count m - 1) (-1) (k_leaf m) (k_streak m)))
         (heads (k_bufs m)).
  Proof.
    intros P Hw Hrem. destruct (winner_alive _ _ _ P Hw) as [Hal Hlt].
    assert (Hnone : heads (k_bufs m) wn = None).
    { rewrite heads_win. unfold remaining in Hrem. destruct (b_win (nth wn (k_bufs m) no_buf)); [reflexivity|discriminate]. }
    apply (replay_kinv m _ hd wn P Hw); cbn [k_bufs k_losers k_winner k_leaf k_count]; auto.
    - unfold lv. now rewrite Hnone.
    - rewrite (kp_count _ _ P), (alive_kill hd (heads (k_bufs m)) _ wn); auto; [lia|].
      intros i Hi. symmetry. apply (kp_hd _ _ P). lia.
  Qed.

  Lemma run_bound_spec m hd wn : KPre m hd -> k_winner m = Z.of_nat wn ->
    forall j y, j <> wn -> hd j = Some y -> ole (run_bound K cmp m) (Some y).
  Proof.
    intros P Hw j y Hj Hy. destruct (winner_alive _ _ _ P Hw) as [Hal Hlt].
    destruct (kp_tree _ _ P) as [W SH]. rewrite Hw in SH.
    set (k := length (k_bufs m)) in *.
    destruct (path_covers k _ hd W wn SH j (sh_hd_lt _ _ _ _ _ _ _ SH Hy) Hj) as [a [Ha [Hle Hne]]].
    unfold run_bound. rewrite (kpre_leaf_parent m hd wn P Hw). fold k.
    pose proof (parent_lt_2k k (k + wn) ltac:(lia) ltac:(lia)) as Hpk.
    destruct (bound_walk_spec (k_bufs m) (k_losers m) k (parent (k + wn)) None ltac:(lia)) as [_ B].
    eapply ole_trans; [apply (B a Ha)|].
    rewrite (ph_ext _ hd) by (intros; symmetry; apply (kp_hd _ _ P); lia). now rewrite <- Hy.
  Qed.

  Lemma run_loop_spec fuel : forall room (c : buf) bound em c'' ret,
    run_loop K cmp fuel room c bound = (em, c'', ret) -> sorted (remaining c) -> b_win c <> [] ->
    remaining c = em ++ remaining c'' /\
    (forall r b, In r em -> bound = Some b -> rle r b) /\
    (ret = true -> b_win c'' = []) /\ (ret = false -> b_win c'' <> []) /\
    sorted (remaining c'').
  Proof.
    induction fuel as [|f IH]; intros room c bound em c'' ret H Hs Hw; cbn [run_loop] in H.
    { inversion H; subst. repeat split; auto; try discriminate; contradiction. }
    destruct (Nat.eqb_spec room 0).
    { inversion H; subst. repeat split; auto; try discriminate; contradiction. }
    set (window := firstn room (b_win c)) in *.
    set (run := match bound with None => length window | Some b => run_length cmp window b 0 end) in *.
    assert (Hsw : sorted window).
    { unfold window. apply sorted_firstn. unfold remaining in Hs. now apply sorted_app_inv in Hs. }
    assert (Hrun : (run <= length window)%nat).
    { unfold run. destruct bound; [apply run_length_le; auto|lia]. }
    assert (Hlw : (length window <= room)%nat) by (unfold window; rewrite firstn_length; lia).
    assert (Hf : firstn run window = firstn run (b_win c)).
    { unfold window. rewrite firstn_firstn. f_equal. lia. }
    assert (Hrem : remaining c = firstn run window ++ remaining (advance c run)).
    { rewrite Hf. apply remaining_advance. }
    assert (Hs' : sorted (remaining (advance c run))).
    { rewrite Hrem in Hs. now apply sorted_app_inv in Hs. }
    assert (Hq : forall r b, In r (firstn run window) -> bound = Some b -> rle r b).
    { intros r b Hr ->. unfold run in Hr.
      apply (run_length_prefix_qual K cmp cmp_opp cmp_trans window b 0 ltac:(auto) Hsw r Hr). }
    destruct (has_next (advance c run)) eqn:Hn; cbn [negb] in H.
    - destruct (Nat.ltb_spec run (length window)).
      + inversion H; subst. repeat split; auto; try discriminate. intros _. now apply (has_next_true K).
      + destruct (run_loop K cmp f (room - run) (advance c run) bound) as [[em2 cx] rx] eqn:El.
        inversion H; subst. destruct (IH _ _ _ _ _ _ El Hs' (has_next_true K _ Hn)) as [I1 [I2 [I3 [I4 I5]]]].
        repeat split; auto.
        * rewrite Hrem, I1. now rewrite app_assoc.
        * intros r b Hr Hb. apply in_app_or in Hr. destruct Hr; eauto.
    - inversion H; subst. repeat split; auto; try discriminate. intros _. now apply (has_next_false K).
  Qed.

  Lemma absk_same_bufs m m' : k_bufs m' = k_bufs m -> absk m' = absk m.
  Proof. unfold absk. now intros ->. Qed.

  Lemma replay_bufs m : k_bufs (replay K cmp m) = k_bufs m.
  Proof. rewrite replay_unfold. reflexivity. Qed.

  Lemma absk_set_same m i b : (i < length (k_bufs m))%nat ->
    remaining b = remaining (nth i (k_bufs m) no_buf) -> absk (set_buf K m i b) = absk m.
  Proof.
    intros Hi E. rewrite absk_set_buf, E. apply upd_id. now apply nth_error_absk.
  Qed.

  (* the heads the invariant speaks of are the heads of the buffers *)
  Definition Full (m : mk) : Prop := KInv m (heads (k_bufs m)).

  Lemma kinv_if_streak (b : bool) m hd : KInv m hd -> KInv (if b then m else set_streak K m 0) hd.
  Proof. intros I. destruct b; [exact I|now apply kinv_set_streak]. Qed.

  Lemma bufs_if_streak (b : bool) m : k_bufs (if b then m else set_streak K m 0) = k_bufs m.
  Proof. now destruct b. Qed.

  Lemma loopk_refill f room m hd wn : KPre m hd ->
    (room =? 0)%nat || (k_count m =? 0)%nat = false ->
    k_winner m = Z.of_nat wn -> b_win (nth wn (k_bufs m) no_buf) = [] ->
    exists mm, loopk K cmp (S f) room m = loopk K cmp f room mm /\
               Full mm /\ absk mm = absk m.
  Proof.
    intros P Estop Hw Ewin. destruct (winner_alive _ _ _ P Hw) as [Hal Hlt].
    cbn [loopk]. rewrite Estop, Hw, Nat2Z.id, Ewin.
    set (c := nth wn (k_bufs m) no_buf) in *. pose proof (kp_sorted _ _ P wn) as Hsc. fold c in Hsc.
    destruct (buf_read c) as [c'|] eqn:Er; eexists; (split; [reflexivity|]);
      unfold Full, absk; rewrite bufs_if_streak, replay_bufs.
    - destruct (buf_read_some K c c' Er Ewin) as [Hrem Hne].
      set (m1 := set_buf K m wn c').
      assert (P1 : KPre m1 hd) by (apply kpre_set_buf; auto; rewrite Hrem; exact Hsc).
      assert (Hc1 : nth wn (k_bufs m1) no_buf = c') by (apply nth_upd_same; exact Hlt).
      split; [|now apply absk_set_same].
      apply kinv_if_streak, (replay_alive m1 hd wn P1 Hw). now rewrite Hc1.
    - pose proof (buf_read_none K c Er) as Hsrc.
      assert (Hrem : remaining c = []) by (unfold remaining; now rewrite Ewin, Hsrc).
      split; [|reflexivity]. apply kinv_if_streak. exact (replay_dead m hd wn P Hw Hrem).
  Qed.

  (** ** the loop of ReadRows refines the scheduler *)
  Lemma loopk_refines fuel : forall room (m : mk) hd out eof m',
    KInv m hd -> loopk K cmp fuel room m = (out, eof, m') ->
    sched (absk m) out (absk m') /\ (exists hd', KInv m' hd') /\ (eof = true -> all_empty K (absk m')).
  Proof.
    induction fuel as [|f IH]; intros room m hd out eof m' I H.
    { inversion H; subst. split; [constructor|]. split; [eauto|discriminate]. }
    destruct ((room =? 0)%nat || (k_count m =? 0)%nat) eqn:Estop.
    { cbn [loopk] in H. rewrite Estop in H. inversion H; subst. split; [constructor|]. split; [eauto|].
      intros Hc. apply Nat.eqb_eq in Hc. destruct I as [P _].
      apply (all_dead_empty hd); [now rewrite <- (kp_count _ _ P)|apply (kp_dead _ _ P)]. }
    destruct I as [P Ihdw].
    destruct (kpre_winner _ _ P) as [wn [Hw [Hlt Hal]]].
    { apply orb_false_iff in Estop. apply Nat.eqb_neq, Estop. }
    set (c := nth wn (k_bufs m) no_buf) in *.
    pose proof (kp_sorted _ _ P wn) as Hsc. fold c in Hsc.
    destruct (b_win c) as [|h t] eqn:Ewin.
    - destruct (loopk_refill f room m hd wn P Estop Hw Ewin) as [mm [E [I3 Habs]]].
      rewrite E in H. destruct (IH _ _ _ _ _ _ I3 H) as [R1 R2]. rewrite Habs in R1. auto.
    - (* emit the winner's head *)
      cbn [loopk] in H. rewrite Estop, Hw, Nat2Z.id in H. fold c in H. rewrite Ewin in H.
      assert (Hhd : hd wn = Some h).
      { rewrite (Ihdw wn) by (auto; fold c; rewrite Ewin; discriminate). rewrite heads_win. fold c. now rewrite Ewin. }
      destruct (kp_tree _ _ P) as [W SH].
      set (c1 := advance c 1) in *.
      destruct (emit_step m hd wn [h] c1 P Hw (emit_one_spec K c h t Ewin)) as [Hstep1 [P1 [Hc1 Hs1]]].
      { intros r j y [<-|[]] Hj Hy.
        pose proof (winner_minimal _ _ _ hd W SH j (sh_hd_lt _ _ _ _ _ _ _ SH Hy)) as Hm.
        now rewrite Hw, ph_of_nat, Hhd, Hy in Hm. }
      set (m1 := set_buf K m wn c1) in *.
      assert (Hw1 : k_winner m1 = Z.of_nat wn) by exact Hw.
      destruct (has_next c1) eqn:Hn1; cbn [negb] in H.
      2:{ (* the buffer is exhausted: return *)
        injection H as <- <- <-. split; [exact Hstep1|]. split; [|discriminate].
        exists hd. apply (kinv_exhausted m1 hd wn P1 Hw1). rewrite Hc1. now apply (has_next_false K). }
      pose proof (has_next_true K _ Hn1) as Hne1.
      destruct (k_streak m >=? run_streak).
      + (* run mode *)
        destruct (run_loop K cmp (S room) (room - 1) c1 (run_bound K cmp m1)) as [[em c2] ret] eqn:El.
        destruct (run_loop_spec _ _ _ _ _ _ _ El Hs1 Hne1) as [L1 [L2 [L3 [L4 L5]]]].
        destruct (emit_step m1 hd wn em c2 P1 Hw1) as [Hstep2 [P2 [Hc2 _]]]; [rewrite Hc1; exact L1| |].
        { intros r j y Hr Hj Hy.
          pose proof (run_bound_spec m1 hd wn P1 Hw1 j y Hj Hy) as Hb.
          destruct (run_bound K cmp m1) as [b|] eqn:Eb; [|cbn in Hb; contradiction].
          cbn in Hb. apply (rle_trans K cmp cmp_trans) with b; [eapply L2; eauto|exact Hb]. }
        set (m2 := set_buf K m1 wn c2) in *.
        assert (Hw2 : k_winner m2 = Z.of_nat wn) by exact Hw.
        pose proof (sched_app K cmp _ _ _ _ _ Hstep1 Hstep2) as Hstep12.
        destruct ret.
        * injection H as <- <- <-. split; [exact Hstep12|]. split; [|discriminate].
          exists hd. apply (kinv_exhausted m2 hd wn P2 Hw2). rewrite Hc2. now apply L3.
        * destruct (loopk K cmp f (room - 1 - length em) (replay K cmp (set_streak K m2 0))) as [[o e] mf] eqn:Elk.
          injection H as <- <- <-.
          assert (P2' : KPre (set_streak K m2 0) hd) by (destruct P2; split; auto).
          pose proof (replay_alive (set_streak K m2 0) hd wn P2' Hw2 ltac:(cbn [set_streak k_bufs]; rewrite Hc2; now apply L4)) as I3.
          destruct (IH _ _ _ _ _ _ I3 Elk) as [R1 R2].
          rewrite (absk_same_bufs m2 (replay K cmp (set_streak K m2 0))) in R1 by (rewrite replay_bufs; reflexivity).
          split; [|exact R2]. exact (sched_app K cmp _ _ _ _ _ Hstep12 R1).
      + (* one game replay per row *)
        destruct (loopk K cmp f (room - 1) _) as [[o e] mf] eqn:Elk. injection H as <- <- <-.
        assert (I3 : KInv (replay K cmp m1) (heads (k_bufs m1)))
          by (apply (replay_alive m1 hd wn P1 Hw1); rewrite Hc1; exact Hne1).
        destruct (IH _ _ _ _ _ _ (kinv_set_streak _ _ _ I3) Elk) as [R1 R2].
        rewrite (absk_same_bufs m1) in R1 by apply replay_bufs.
        split; [|exact R2]. exact (sched_app K cmp _ _ _ _ _ Hstep1 R1).
  Qed.

  Lemma alive_heads_cons (b : buf) bs :
    alive (heads (b :: bs)) (S (length bs)) = ((if has_next b then 1 else 0) + alive (heads bs) (length bs))%nat.
  Proof.
    unfold alive. cbn [List.seq filter]. rewrite <- seq_shift.
    assert (E : filter (fun i => is_some (heads (b :: bs) i)) (map S (List.seq 0 (length bs)))
                = map S (filter (fun i => is_some (heads bs i)) (List.seq 0 (length bs)))).
    { induction (List.seq 0 (length bs)) as [|x l IH]; cbn [map filter]; [reflexivity|].
      rewrite IH. rewrite !heads_win. cbn [nth]. destruct (b_win (nth x bs no_buf)); reflexivity. }
    rewrite E. rewrite heads_win. cbn [nth]. unfold has_next.
    destruct (b_win b); cbn [is_some length]; rewrite map_length; reflexivity.
  Qed.

  Lemma init_reads_spec : forall (bufs : list buf) i bs leaves cnt,
    init_reads K bufs i = (bs, leaves, cnt) -> (forall b, In b bufs -> b_win b = []) ->
    length bs = length bufs /\ length leaves = length bufs /\ map remaining bs = map remaining bufs /\
    (forall j, (j < length bufs)%nat ->
       nth j leaves (-1) = if has_next (nth j bs no_buf) then Z.of_nat (i + j) else -1) /\
    (forall j, has_next (nth j bs no_buf) = false -> remaining (nth j bs no_buf) = []) /\
    cnt = alive (heads bs) (length bs).
  Proof.
    induction bufs as [|b bufs IH]; intros i bs leaves cnt H Hw; cbn [init_reads] in H.
    - inversion H; subst. repeat split; auto; try (intros; cbn in *; lia).
      intros j _. destruct j; reflexivity.
    - destruct (init_reads K bufs (S i)) as [[bs' ls'] cnt'] eqn:E.
      destruct (IH _ _ _ _ E ltac:(intros; apply Hw; now right)) as [I1 [I2 [I3 [I4 [I5 I6]]]]].
      assert (Hb : b_win b = []) by (apply Hw; now left).
      destruct (buf_read b) as [b'|] eqn:Er; injection H as <- <- <-.
      + destruct (buf_read_some K b b' Er Hb) as [R1 R2].
        assert (Hs : has_next b' = true) by (unfold has_next; destruct (b_win b'); congruence).
        repeat split; cbn [length map]; auto.
        * now rewrite R1, I3.
        * intros [|j] Hj; cbn [nth].
          -- rewrite Hs. f_equal. lia.
          -- rewrite I4 by lia. replace (S i + j)%nat with (i + S j)%nat by lia. reflexivity.
        * intros [|j]; cbn [nth]; [congruence|apply I5].
        * rewrite alive_heads_cons, Hs. cbn. now rewrite <- I6.
      + pose proof (buf_read_none K b Er) as Hsrc.
        assert (Hs : has_next b = false) by (unfold has_next; now rewrite Hb).
        repeat split; cbn [length map]; auto.
        * now rewrite I3.
        * intros [|j] Hj; cbn [nth].
          -- now rewrite Hs.
          -- rewrite I4 by lia. replace (S i + j)%nat with (i + S j)%nat by lia. reflexivity.
        * intros [|j]; cbn [nth]; [intros _; unfold remaining; now rewrite Hb, Hsrc|apply I5].
        * rewrite alive_heads_cons, Hs. cbn. exact I6.
  Qed.

  Definition KTop (m : mk) : Prop :=
    (k_count m = 0%nat /\ all_empty K (absk m)) \/ exists hd, KInv m hd.

  Lemma mk_init_inv (bufs : list buf) :
    (forall b, In b bufs -> b_win b = []) -> (forall b, In b bufs -> sorted (remaining b)) ->
    KTop (mk_init K cmp bufs) /\ absk (mk_init K cmp bufs) = map remaining bufs.
  Proof.
    intros Hw Hs. unfold mk_init.
    destruct (init_reads K bufs 0) as [[bs leaves] cnt] eqn:E.
    destruct (init_reads_spec _ _ _ _ _ E Hw) as [I1 [I2 [I3 [I4 [I5 I6]]]]].
    assert (Hsorted : forall i, sorted (remaining (nth i bs no_buf))).
    { intros i. destruct (Nat.lt_ge_cases i (length bs)) as [Hi|Hi].
      - assert (Hn : nth i (map remaining bs) [] = remaining (nth i bs no_buf)).
        { rewrite <- remaining_no_buf. apply map_nth. }
        rewrite <- Hn, I3. rewrite <- remaining_no_buf, map_nth. apply Hs. apply nth_In. lia.
      - rewrite nth_overflow by exact Hi. constructor. }
    assert (Hdead : forall i, heads bs i = None -> remaining (nth i bs no_buf) = []).
    { intros i Hn. apply I5. rewrite heads_win in Hn. unfold has_next. destruct (b_win (nth i bs no_buf)); [reflexivity|discriminate]. }
    destruct cnt as [|cnt'].
    - split; [|exact I3]. left. split; [reflexivity|]. exact (all_dead_empty (heads bs) bs (eq_sym I6) Hdead).
    - destruct (play_initial K cmp (S (length bufs)) bs leaves (repeat 0 (length bufs)) 0) as [losers w] eqn:Ep.
      split; [|exact I3]. right. exists (heads bs).
      assert (T : TreeInv (length bs) losers w (heads bs)).
      { assert (Hl : forall i, (i < length bs)%nat -> nth i leaves (-1) = lv (heads bs) i).
        { intros i Hi. rewrite I4 by lia. unfold lv. rewrite heads_win. unfold has_next.
          destruct (b_win (nth i bs no_buf)); reflexivity. }
        pose proof (play_initial_inv bs leaves ltac:(lia) Hl) as T. cbv zeta in T.
        rewrite I1, Ep in T. cbn [fst snd] in T. rewrite I1. exact T. }
      split; [split|]; cbn [k_bufs k_losers k_winner k_leaf k_count]; auto.
      now rewrite I1.
  Qed.

  Lemma read_rowsk_done m n : k_count m = 0%nat -> read_rowsk K cmp m n = ([], true, m).
  Proof.
    intros Hc. unfold read_rowsk. replace (2 * n + 2)%nat with (S (2 * n + 1)) by lia.
    cbn [loopk]. now rewrite Hc, Nat.eqb_refl, orb_true_r.
  Qed.

  Lemma read_rowsk_refines m n out eof m' : KTop m -> read_rowsk K cmp m n = (out, eof, m') ->
    sched (absk m) out (absk m') /\ KTop m' /\ (eof = true -> all_empty K (absk m')).
  Proof.
    intros [[Hc He]|[hd I]] H.
    - rewrite (read_rowsk_done m n Hc) in H. inversion H; subst.
      split; [constructor|]. split; [left; auto|auto].
    - destruct (loopk_refines _ _ _ _ _ _ _ I H) as [R1 [R2 R3]]. split; [exact R1|]. split; [right; exact R2|exact R3].
  Qed.

  Lemma runk_refines batches : forall m outs eof m', KTop m -> runk K cmp m batches = (outs, eof, m') ->
    sched (absk m) (concat outs) (absk m') /\ KTop m' /\ (eof = true -> all_empty K (absk m')).
  Proof.
    induction batches as [|n t IH]; intros m outs eof m' I H; cbn [runk] in H.
    - inversion H; subst. split; [constructor|]. split; [exact I|discriminate].
    - destruct (read_rowsk K cmp m n) as [[out e] m1] eqn:Er.
      destruct (read_rowsk_refines _ _ _ _ _ I Er) as [R1 [R2 R3]].
      destruct e.
      + inversion H; subst. split; [|auto]. destruct out; cbn; [exact R1|rewrite app_nil_r; exact R1].
      + destruct (runk K cmp m1 t) as [[outs' e'] m2] eqn:Et. inversion H; subst.
        destruct (IH _ _ _ _ R2 Et) as [J1 J2]. split; [|exact J2]. cbn [concat]. eapply sched_app; eauto.
  Qed.

  Lemma sources_spec (ins : list (list row)) : forall chunks,
    (forall b, In b (sources ins chunks) -> b_win b = []) /\
    map remaining (sources ins chunks) = ins.
  Proof.
    induction ins as [|r ins IH]; intros chunks; cbn [sources]; [split; [contradiction|reflexivity]|].
    destruct (IH (tl chunks)) as [I1 I2]. split.
    - intros b [<-|Hb]; [reflexivity|auto].
    - cbn [map]. now rewrite I2.
  Qed.

  Lemma mergek_init ins chunks : Forall sorted ins ->
    KTop (mk_init K cmp (sources ins chunks)) /\ absk (mk_init K cmp (sources ins chunks)) = ins.
  Proof.
    intros Hs. destruct (sources_spec ins chunks) as [S1 S2].
    destruct (mk_init_inv (sources ins chunks) S1) as [I A]; [|rewrite S2 in A; auto].
    intros b Hb. rewrite Forall_forall in Hs. apply Hs. rewrite <- S2. now apply in_map.
  Qed.

  (** for every chunking of the sources and every sequence of slice lengths
      the rows emitted so far are a run of the scheduler; nothing is left when
      io.EOF is reported *)
  Theorem mergek_refines ins chunks batches outs eof m' :
    Forall sorted ins -> mergek cmp ins chunks batches = (outs, eof, m') ->
    sched ins (concat outs) (absk m') /\ (eof = true -> all_empty K (absk m')).
  Proof.
    intros Hs H. destruct (mergek_init ins chunks Hs) as [I A].
    destruct (runk_refines _ _ _ _ _ I H) as [R1 [_ R2]]. rewrite A in R1. auto.
  Qed.
End Tree.
