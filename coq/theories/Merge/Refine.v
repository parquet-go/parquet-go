(** Model of merge_refine.go: newCutLookups (cutAbove / cutBelow over the page
    index of the first sorting column), refineSegment (the sweep over the
    start / end events of the row groups of an overlapping segment that slices
    the lone stretches off as row-range views) and the rows the refined plan
    delivers.  Executable; no proofs here (Merge/Refine*Proofs.v).

    Rows are [Model.row] (sort key, input, position).  The sort key is abstract
    ([K], compared by [cmp] as mergedCompare does); the value of the first
    sorting column of a key is [col0 k : V] (Go: key[columnIndex]), compared by
    [cmp0] (Go: orderCompare = compareValues(a, b, columnType, descending)). *)
From Coq Require Import List ZArith Bool Arith Lia.
From PQ Require Import Generated.Consts Merge.Model Merge.Instance.
Import ListNotations.
Open Scope Z_scope.

(** ** slices.SortStableFunc

    The result of a stable sort is determined by the comparison (a weak
    order); it is computed here by insertion: [x], which preceded every
    element of [l], goes before the first element that is not strictly less. *)
Section StableSort.
  Variable A : Type.
  Variable cmpf : A -> A -> Z.

  Fixpoint sinsert (x : A) (l : list A) : list A :=
    match l with
    | [] => [x]
    | y :: t => if cmpf y x <? 0 then y :: sinsert x t else x :: y :: t
    end.

  Definition ssort (l : list A) : list A := fold_right sinsert [] l.
End StableSort.
Arguments sinsert {A}.
Arguments ssort {A}.

(** ** sort.Search(n, f)

    i, j := 0, n; for i < j { h := int(uint(i+j) >> 1); if !f(h) { i = h + 1 } else { j = h } }; return i *)
Fixpoint search_loop (fuel : nat) (f : nat -> bool) (i j : nat) : nat :=
  match fuel with
  | O => i
  | S fu =>
      if (i <? j)%nat then
        let h := ((i + j) / 2)%nat in
        if f h then search_loop fu f i h else search_loop fu f (h + 1)%nat j
      else i
  end.

Definition search (n : nat) (f : nat -> bool) : nat := search_loop (S n) f 0%nat n.

Section Refine.
  Variable K : Type.
  Variable cmp : K -> K -> Z.
  Variable V : Type.
  Variable col0 : K -> V.
  Variable cmp0 : V -> V -> Z.

  Notation row := (row K).

  (** ** the stable merge: the reference for the rows of a merged region and
      of the unrefined segment.  Two-way: on equal keys the row of the left
      list goes first; k-way: the lists are merged from the right, so on equal
      keys the row of the list with the smallest position goes first. *)
  Fixpoint merge2s (a : list row) : list row -> list row :=
    match a with
    | [] => fun b => b
    | x :: a' =>
        fix inner (b : list row) : list row :=
          match b with
          | [] => x :: a'
          | y :: b' => if rcmp cmp y x <? 0 then y :: inner b' else x :: merge2s a' b
          end
    end.

  Definition smerge (st : list (list row)) : list row := fold_right merge2s [] st.

  (** ** refineTarget

      [t_pages]: the rows of the row group in order, cut at the page
      boundaries of the first sorting column (oi.FirstRowIndex); [t_min],
      [t_max]: minRow, maxRow; [t_cuts]: cutAbove and cutBelow are not nil. *)
  Record target := mkTarget {
    t_pages : list (list row); t_min : K; t_max : K; t_cuts : bool }.

  Definition t_rows (t : target) : list row := concat (t_pages t).
  Definition num_rows (t : target) : nat := length (t_rows t).
  Definition no_target (d : K) : target := mkTarget [] d d false.

  (** ** newCutLookups *)

  (* ci.MinValue(p) / ci.MaxValue(p), exchanged when descending: the extreme
     values of the page in the order of [cmp0] *)
  Definition min0 (a b : V) : V := if cmp0 b a <? 0 then b else a.
  Definition max0 (a b : V) : V := if cmp0 b a >? 0 then b else a.

  Definition page_earliest (pg : list row) : option V :=
    match pg with
    | [] => None
    | r :: t => Some (fold_left (fun m x => min0 m (col0 (key x))) t (col0 (key r)))
    end.
  Definition page_latest (pg : list row) : option V :=
    match pg with
    | [] => None
    | r :: t => Some (fold_left (fun m x => max0 m (col0 (key x))) t (col0 (key r)))
    end.

  Definition earliest (t : target) (p : nat) : option V := page_earliest (nth p (t_pages t) []).
  Definition latest (t : target) (p : nat) : option V := page_latest (nth p (t_pages t) []).

  (* oi.FirstRowIndex(p) *)
  Definition first_row_index (t : target) (p : nat) : nat := length (concat (firstn p (t_pages t))).

  (* pageEnd := func(p int) int64 { if p+1 < numPages { return oi.FirstRowIndex(p + 1) }; return numRows } *)
  Definition page_end (t : target) (p : nat) : nat :=
    if (p + 1 <? length (t_pages t))%nat then first_row_index t (p + 1) else num_rows t.

  (* cutAbove: p := sort.Search(numPages, func(p) { return orderCompare(earliest(p), kv) > 0 });
     if p == 0 { return 0 }; return pageEnd(p - 1).
     [strict = false] is the variant "orderCompare(earliest(p), kv) >= 0", kept
     for the refutation witness of Properties/C09.v. *)
  Definition cut_above_gen (strict : bool) (t : target) (k : K) : nat :=
    let kv := col0 k in
    let p := search (length (t_pages t))
               (fun p => match earliest t p with
                         | Some e => if strict then cmp0 e kv >? 0 else cmp0 e kv >=? 0
                         | None => false
                         end) in
    if (p =? 0)%nat then 0%nat else page_end t (p - 1).

  (* cutBelow: p := sort.Search(numPages, func(p) { return orderCompare(latest(p), kv) >= 0 });
     if p == numPages { return numRows }; return oi.FirstRowIndex(p) *)
  Definition cut_below (t : target) (k : K) : nat :=
    let kv := col0 k in
    let n := length (t_pages t) in
    let p := search n (fun p => match latest t p with
                                | Some e => cmp0 e kv >=? 0
                                | None => false
                                end) in
    if (p =? n)%nat then num_rows t else first_row_index t p.

  (** ** refineSegment *)

  Record event := mkEvent { e_key : K; e_start : bool; e_idx : nat }.

  (* the comparison handed to slices.SortStableFunc: by key; starts before ends *)
  Definition ev_cmp (a b : event) : Z :=
    let c := cmp (e_key a) (e_key b) in
    if negb (c =? 0) then c
    else if e_start a && negb (e_start b) then -1
    else if negb (e_start a) && e_start b then 1
    else 0.

  Fixpoint events_from (i : nat) (ts : list target) : list event :=
    match ts with
    | [] => []
    | t :: rest => mkEvent (t_min t) true i :: mkEvent (t_max t) false i :: events_from (S i) rest
    end.

  Definition sorted_events (ts : list target) : list event := ssort ev_cmp (events_from 0 ts).

  (* a participant of a region or a single-source element of the plan: rows
     [p_off, p_off + p_len) of target [p_idx] (the row group itself when the
     range is the whole of it, a row-range view otherwise) *)
  Record part := mkPart { p_idx : nat; p_off : nat; p_len : nat }.

  (* an element of the plan: one part (appended as it is) or the parts handed
     to makeMerged *)
  Definition piece := list part.

  Record state := mkState {
    s_plan : list piece;
    s_region : list part;
    s_cursors : list nat;
    s_active : list nat;       (* the set [active], without duplicates *)
    s_sliced : bool;
    s_lone : option nat;       (* pendingLone (None = -1) *)
    s_leftk : option K }.      (* pendingLeftK (None = nil) *)

  Section Sweep.
    Variable strict : bool.    (* true: the code as written *)
    Variable thr : nat.        (* minStreamedRegionRows *)
    Variable ts : list target.
    Variable dk : K.           (* only to index [ts] totally *)

    Definition tgt (i : nat) : target := nth i ts (no_target dk).
    Definition cursor (s : state) (i : nat) : nat := nth i (s_cursors s) 0%nat.

    (* closeRegion *)
    Definition close_region (plan : list piece) (region : list part) : list piece :=
      match region with
      | [] => plan
      | [p] => plan ++ [[p]]
      | _ => plan ++ [ssort (fun a b => Z.of_nat (p_idx a) - Z.of_nat (p_idx b)) region]
      end.

    (* resolveLone(rightK) *)
    Definition resolve_lone (s : state) (rightk : option K) : state :=
      match s_lone s with
      | None => s
      | Some i =>
          let s0 := mkState (s_plan s) (s_region s) (s_cursors s) (s_active s) (s_sliced s) None (s_leftk s) in
          let t := tgt i in
          if negb (t_cuts t) then s0 else
          let off := match s_leftk s with Some k => cut_above_gen strict t k | None => 0%nat end in
          let en := match rightk with Some k => cut_below t k | None => num_rows t end in
          let off := Nat.max off (cursor s i) in
          let en := Nat.min en (num_rows t) in
          (* if end-off < minStreamedRegionRows { return } *)
          if (en <? off + thr)%nat then s0 else
          let region := if (cursor s i <? off)%nat
                        then s_region s ++ [mkPart i (cursor s i) (off - cursor s i)]
                        else s_region s in
          let plan := close_region (s_plan s) region in
          mkState (plan ++ [[mkPart i off (en - off)]]) [] (upd (s_cursors s) i en)
                  (s_active s) true None (s_leftk s)
      end.

    (* remainder(i) *)
    Definition remainder (s : state) (i : nat) : option part * list nat :=
      let off := cursor s i in
      let n := num_rows (tgt i) in
      if (n <=? off)%nat then (None, s_cursors s)
      else (Some (mkPart i off (n - off)), upd (s_cursors s) i n).

    Definition add_active (a : list nat) (i : nat) : list nat :=
      if existsb (Nat.eqb i) a then a else a ++ [i].
    Definition del_active (a : list nat) (i : nat) : list nat :=
      filter (fun j => negb (Nat.eqb j i)) a.

    (* the body of "for _, ev := range events" *)
    Definition step (s : state) (ev : event) : state :=
      if e_start ev then
        let s1 := resolve_lone s (Some (e_key ev)) in
        let act := add_active (s_active s1) (e_idx ev) in
        if (length act =? 1)%nat
        then mkState (s_plan s1) (s_region s1) (s_cursors s1) act (s_sliced s1) (Some (e_idx ev)) None
        else mkState (s_plan s1) (s_region s1) (s_cursors s1) act (s_sliced s1) (s_lone s1) (s_leftk s1)
      else
        let s1 := match s_lone s with
                  | Some l => if (l =? e_idx ev)%nat then resolve_lone s None else s
                  | None => s
                  end in
        let act := del_active (s_active s1) (e_idx ev) in
        let '(r, cursors) := remainder s1 (e_idx ev) in
        let region := match r with Some p => s_region s1 ++ [p] | None => s_region s1 end in
        match act, s_lone s1 with
        | [l], None => mkState (s_plan s1) region cursors act (s_sliced s1) (Some l) (Some (e_key ev))
        | _, _ => mkState (s_plan s1) region cursors act (s_sliced s1) (s_lone s1) (s_leftk s1)
        end.

    Definition init_state : state :=
      mkState [] [] (repeat 0%nat (length ts)) [] false None None.

    Definition sweep_events (evs : list event) : state := fold_left step evs init_state.

    (* refineSegment: None = nil (no refinement applies) *)
    Definition refine_segment : option (list piece) :=
      if (length ts <? 2)%nat then None else
      let s := sweep_events (sorted_events ts) in
      if s_sliced s then Some (close_region (s_plan s) (s_region s)) else None.

    (** the rows of the plan *)
    Definition part_rows (p : part) : list row :=
      firstn (p_len p) (skipn (p_off p) (t_rows (tgt (p_idx p)))).

    (* a single part is read as it is; several are merged *)
    Definition piece_rows (pc : piece) : list row :=
      match pc with
      | [p] => part_rows p
      | _ => smerge (map part_rows pc)
      end.

    Definition refined_rows (plan : list piece) : list row := flat_map piece_rows plan.
  End Sweep.

  (* the unrefined merge of the segment *)
  Definition segment_rows (ts : list target) : list row := smerge (map t_rows ts).
End Refine.

Arguments merge2s {K}.
Arguments smerge {K}.
Arguments mkTarget {K}.
Arguments t_pages {K}.
Arguments t_min {K}.
Arguments t_max {K}.
Arguments t_cuts {K}.
Arguments t_rows {K}.
Arguments num_rows {K}.
Arguments mkEvent {K}.
Arguments e_key {K}.
Arguments e_start {K}.
Arguments e_idx {K}.
Arguments s_plan {K}.
Arguments s_region {K}.
Arguments s_cursors {K}.
Arguments s_active {K}.
Arguments s_sliced {K}.
Arguments s_lone {K}.
Arguments s_leftk {K}.
Arguments segment_rows {K}.

(** ** the instance of the oracle: keys are tuples of optional integers

    [layouts]: for every input, for every sorting column, the number of rows
    of each page of the column chunk (what its offset index says); [cuts]:
    for every input, whether the page index of the first sorting column
    supports the cut lookups. *)
Fixpoint split_pages {A : Type} (sizes : list nat) (l : list A) : list (list A) :=
  match sizes with
  | [] => match l with [] => [] | _ => [l] end
  | n :: t => firstn n l :: split_pages t (skipn n l)
  end.

Definition col0L (k : keyL) : option Z := hd None k.
Definition cmp0L (cfg : list colcfg) : option Z -> option Z -> Z := cmp_col (hd (false, false) cfg).

(* rowGroupRangeOfSortedColumns over explicit page layouts *)
Fixpoint bounds_cols_l (cfg : list colcfg) (j : nat) (layout : list (list nat)) (rows : list keyL)
  : option (keyL * keyL) :=
  match cfg with
  | [] => Some ([], [])
  | cf :: cfg' =>
      match column_bounds false cf (split_pages (nth j layout []) (column j rows)) with
      | None => None
      | Some (lo, hi) =>
          match bounds_cols_l cfg' (S j) layout rows with
          | None => None
          | Some (los, his) => Some (Some lo :: los, Some hi :: his)
          end
      end
  end.

Fixpoint collect_ranges_l (cfg : list colcfg) (i : nat) (ins : list (list keyL)) (layouts : list (list (list nat)))
  : option (list (range keyL)) :=
  match ins with
  | [] => Some []
  | rows :: t =>
      match rows with
      | [] => collect_ranges_l cfg (S i) t (tl layouts)
      | _ =>
          match bounds_cols_l cfg 0 (hd [] layouts) rows with
          | None => None
          | Some (lo, hi) =>
              match collect_ranges_l cfg (S i) t (tl layouts) with
              | None => None
              | Some rs => Some (mkRange i lo hi :: rs)
              end
          end
      end
  end.

Definition target_of (ins : list (list keyL)) (layouts : list (list (list nat))) (cuts : list bool)
           (rg : range keyL) : target keyL :=
  let i := r_id rg in
  mkTarget (split_pages (nth 0 (nth i layouts []) []) (tag i (nth i ins []))) (r_min rg) (r_max rg) (nth i cuts false).

(* the plan of MergeRowGroups (without DropDuplicatedRows): the elements of
   rowGroupSegments, each as its parts (input, offset, rows); parts without
   rows are left out *)
Definition c09_refine_gen (strict : bool) (thr : nat) (cfg : list colcfg) (ins : list (list keyL))
           (layouts : list (list (list nat))) (cuts : list bool) : list (list (nat * nat * nat)) :=
  let whole := fun i => (i, 0%nat, length (nth i ins [])) in
  let clean := fun pc : list (nat * nat * nat) => filter (fun x => negb (snd x =? 0)%nat) pc in
  let pieces :=
    match collect_ranges_l cfg 0 ins layouts with
    | None => [map whole (List.seq 0 (length ins))]
    | Some rs =>
        flat_map (fun seg : list (range keyL) =>
          let ids := map (@r_id keyL) seg in
          let ts := map (target_of ins layouts cuts) seg in
          match refine_segment keyL (cmpL cfg) (option Z) col0L (cmp0L cfg) strict thr ts [] with
          | Some plan =>
              map (map (fun p => (nth (p_idx p) ids 0%nat, p_off p, p_len p))) plan
          | None => [map whole ids]
          end) (segments (cmpL cfg) rs)
    end in
  filter (fun pc => match pc with [] => false | _ => true end) (map clean pieces).

Definition c09_refine (cfg : list colcfg) (ins : list (list keyL))
           (layouts : list (list (list nat))) (cuts : list bool) : list (list (nat * nat * nat)) :=
  c09_refine_gen true (Z.to_nat go_parquet_minStreamedRegionRows) cfg ins layouts cuts.
