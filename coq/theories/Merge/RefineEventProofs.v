(** The events of refineSegment (merge_refine.go): after the stable sort every
    target has its start event before its end event, the keys do not decrease,
    and an end event placed before a start event has a strictly smaller key. *)
From Coq Require Import List ZArith Bool Lia Sorting.Sorted Sorting.Permutation.
From PQ Require Import Merge.AbstractProofs Merge.Refine Merge.RefineCutProofs.
Import ListNotations.
Open Scope Z_scope.

Section Events.
  Variable K : Type.
  Variable cmp : K -> K -> Z.
  Hypothesis cmp_opp : forall a b, cmp a b < 0 <-> cmp b a > 0.
  Hypothesis cmp_trans : forall a b d, cmp a b <= 0 -> cmp b d <= 0 -> cmp a d <= 0.

  Notation event := (event K).
  Notation target := (target K).
  Notation ev_cmp := (ev_cmp K cmp).

  Lemma ev_cmp_le_iff a b :
    ev_cmp a b <= 0 <->
    cmp (e_key a) (e_key b) < 0 \/ (cmp (e_key a) (e_key b) = 0 /\ (e_start a = true \/ e_start b = false)).
  Proof.
    unfold Refine.ev_cmp. destruct (Z.eqb_spec (cmp (e_key a) (e_key b)) 0) as [E|E]; cbn [negb];
      [rewrite E|]; destruct (e_start a), (e_start b); cbn; intuition (try lia; try discriminate).
  Qed.

  Lemma ev_cmp_opp a b : ev_cmp a b < 0 <-> ev_cmp b a > 0.
  Proof.
    unfold Refine.ev_cmp.
    pose proof (cmp_opp (e_key a) (e_key b)) as O1. pose proof (cmp_opp (e_key b) (e_key a)) as O2.
    destruct (Z.eqb_spec (cmp (e_key a) (e_key b)) 0), (Z.eqb_spec (cmp (e_key b) (e_key a)) 0);
      cbn [negb]; try lia; destruct (e_start a), (e_start b); cbn; lia.
  Qed.

  Lemma ev_cmp_trans a b d : ev_cmp a b <= 0 -> ev_cmp b d <= 0 -> ev_cmp a d <= 0.
  Proof.
    rewrite !ev_cmp_le_iff. intros [H1|[H1 F1]] [H2|[H2 F2]].
    - left. apply (cmp_lt_le_trans K cmp cmp_opp cmp_trans) with (e_key b); [exact H1|lia].
    - left. apply (cmp_lt_le_trans K cmp cmp_opp cmp_trans) with (e_key b); [exact H1|lia].
    - left. apply (cmp_le_lt_trans K cmp cmp_opp cmp_trans) with (e_key b); [lia|exact H2].
    - right. split; [eapply (cmp_eq_trans K cmp cmp_opp cmp_trans); eauto|].
      destruct F1 as [F1|F1]; [now left|]. destruct F2 as [F2|F2]; [congruence|now right].
  Qed.

  Lemma end_before_start a b :
    ev_cmp a b <= 0 -> e_start a = false -> e_start b = true -> cmp (e_key a) (e_key b) < 0.
  Proof. rewrite ev_cmp_le_iff. intros [H|[_ [H|H]]] Ha Hb; [exact H|congruence|congruence]. Qed.

  Lemma ev_le_key a b : ev_cmp a b <= 0 -> cmp (e_key a) (e_key b) <= 0.
  Proof. rewrite ev_cmp_le_iff. intros [H|[H _]]; lia. Qed.

  Definition is_ev (b : bool) (j : nat) (e : event) : bool := Bool.eqb (e_start e) b && (e_idx e =? j)%nat.
  Definition evb (b : bool) (j : nat) (l : list event) : bool := existsb (is_ev b j) l.
  Notation startedb := (evb true).
  Notation endedb := (evb false).

  Lemma evb_app b j l1 l2 : evb b j (l1 ++ l2) = evb b j l1 || evb b j l2.
  Proof. apply existsb_app. Qed.

  Lemma evb_snoc b j pre ev :
    evb b j (pre ++ [ev]) = evb b j pre || (Bool.eqb (e_start ev) b && (e_idx ev =? j)%nat).
  Proof. rewrite evb_app. cbn. unfold is_ev. now rewrite orb_false_r. Qed.

  Lemma evb_in b j l e : In e l -> e_start e = b -> e_idx e = j -> evb b j l = true.
  Proof.
    intros He Hb Hj. apply existsb_exists. exists e. split; [exact He|].
    unfold is_ev. now rewrite Hb, Hj, eqb_reflx, Nat.eqb_refl.
  Qed.

  Lemma evb_ex b j l : evb b j l = true -> exists e, In e l /\ e_start e = b /\ e_idx e = j.
  Proof.
    intros H. apply existsb_exists in H. destruct H as [e [He H]]. unfold is_ev in H.
    apply andb_true_iff in H. destruct H as [H1 H2]. apply Nat.eqb_eq in H2. apply eqb_prop in H1. eauto.
  Qed.

  Section Targets.
    Variable ts : list target.
    Variable dk : K.
    Notation tgt := (tgt K ts dk).
    Notation k := (length ts).

    (* the bounds of every target are ordered (they bound at least one row) *)
    Hypothesis bounds_ordered : forall j, (j < k)%nat -> cmp (t_min (tgt j)) (t_max (tgt j)) <= 0.

    Definition ev_ok (e : event) : Prop :=
      (e_idx e < k)%nat /\ e_key e = if e_start e then t_min (tgt (e_idx e)) else t_max (tgt (e_idx e)).

    Lemma events_from_spec (l : list target) : forall s e, In e (events_from K s l) ->
      (s <= e_idx e < s + length l)%nat /\
      e_key e = if e_start e then t_min (nth (e_idx e - s) l (no_target K dk))
                else t_max (nth (e_idx e - s) l (no_target K dk)).
    Proof.
      induction l as [|t l IH]; intros s e H; [contradiction|]. cbn [events_from] in H.
      destruct H as [<-|[<-|H]]; cbn [e_idx e_start e_key length].
      - rewrite Nat.sub_diag. split; [lia|reflexivity].
      - rewrite Nat.sub_diag. split; [lia|reflexivity].
      - destruct (IH _ _ H) as [I1 I2]. split; [lia|]. rewrite I2.
        replace (e_idx e - s)%nat with (S (e_idx e - S s)) by lia. reflexivity.
    Qed.

    Lemma events_from_has (l : list target) : forall s j, (j < length l)%nat ->
      In (mkEvent (t_min (nth j l (no_target K dk))) true (s + j)) (events_from K s l) /\
      In (mkEvent (t_max (nth j l (no_target K dk))) false (s + j)) (events_from K s l).
    Proof.
      induction l as [|t l IH]; intros s [|j] H; cbn [length] in H; try lia; cbn [events_from nth].
      - rewrite Nat.add_0_r. split; [now left|right; now left].
      - destruct (IH (S s) j) as [I1 I2]; [lia|]. replace (s + S j)%nat with (S s + j)%nat by lia.
        split; right; right; assumption.
    Qed.

    Lemma events_from_cnt b (l : list target) j : forall s, (cnt (is_ev b j) (events_from K s l) <= 1)%nat /\
      ((j < s)%nat -> cnt (is_ev b j) (events_from K s l) = 0%nat).
    Proof.
      induction l as [|t l IH]; intros s; cbn [events_from]; [cbn; lia|].
      destruct (IH (S s)) as [I1 I2]. unfold cnt, is_ev in *. cbn [filter e_start e_idx].
      destruct (Nat.eqb_spec s j) as [E|E], b; cbn [Bool.eqb andb length]; try rewrite I2 by lia; try lia;
        (split; [lia|]; intros Hlt; apply I2; lia).
    Qed.

    Definition evs : list event := sorted_events K cmp ts.

    Lemma evs_perm : Permutation (events_from K 0 ts) evs.
    Proof. apply ssort_perm. Qed.

    Lemma evs_sorted : StronglySorted (fun a b => ev_cmp a b <= 0) evs.
    Proof. apply (ssort_sorted event ev_cmp ev_cmp_opp ev_cmp_trans). Qed.

    Lemma evs_ok e : In e evs -> ev_ok e.
    Proof.
      intros H. apply (Permutation_in _ (Permutation_sym evs_perm)) in H.
      destruct (events_from_spec _ _ _ H) as [I1 I2]. split; [lia|].
      rewrite I2, Nat.sub_0_r. reflexivity.
    Qed.

    Lemma evs_all_started j : (j < k)%nat -> startedb j evs = true /\ endedb j evs = true.
    Proof.
      intros Hj. destruct (events_from_has ts 0 j Hj) as [I1 I2].
      apply (Permutation_in _ evs_perm) in I1. apply (Permutation_in _ evs_perm) in I2.
      split; [apply (evb_in _ _ _ _ I1)|apply (evb_in _ _ _ _ I2)]; reflexivity.
    Qed.

    Lemma end_after_start e e' : ev_ok e -> ev_ok e' -> e_start e = false -> e_start e' = true ->
      e_idx e = e_idx e' -> ev_cmp e e' <= 0 -> False.
    Proof.
      intros [Hi Hk] [_ Hk'] He He' Eidx Hle. pose proof (end_before_start _ _ Hle He He') as Hlt.
      rewrite He in Hk. rewrite He', <- Eidx in Hk'. rewrite Hk, Hk' in Hlt.
      pose proof (bounds_ordered _ Hi). pose proof (cmp_opp (t_max (tgt (e_idx e))) (t_min (tgt (e_idx e)))). lia.
    Qed.

    (** the facts available when the sweep is at event [ev] *)
    Theorem event_facts pre ev post : evs = pre ++ ev :: post ->
      ev_ok ev /\
      (forall e, In e pre -> ev_cmp e ev <= 0) /\
      (forall e, In e post -> ev_cmp ev e <= 0) /\
      (forall e e', In e pre -> In e' post -> ev_cmp e e' <= 0) /\
      (forall e, In e pre -> ev_ok e) /\ (forall e, In e post -> ev_ok e) /\
      (e_start ev = true -> startedb (e_idx ev) pre = false /\ endedb (e_idx ev) pre = false) /\
      (e_start ev = false -> startedb (e_idx ev) pre = true /\ endedb (e_idx ev) pre = false).
    Proof.
      intros E. pose proof evs_sorted as Hs. rewrite E in Hs.
      apply SS_app_iff in Hs. destruct Hs as [_ [Hs Hpp]].
      assert (S1 : forall e, In e pre -> ev_cmp e ev <= 0) by (intros e He; apply Hpp; [exact He|now left]).
      assert (S2 : forall e, In e post -> ev_cmp ev e <= 0).
      { inversion Hs as [|? ? _ Hf]; subst. now apply Forall_forall. }
      assert (S3 : forall e e', In e pre -> In e' post -> ev_cmp e e' <= 0) by (intros e e' He He'; apply Hpp; [exact He|now right]).
      assert (Hok : forall e, In e (pre ++ ev :: post) -> ev_ok e) by (intros e He; apply evs_ok; now rewrite E).
      assert (Hev : ev_ok ev) by (apply Hok; apply in_or_app; right; now left).
      assert (Hpre : forall e, In e pre -> ev_ok e) by (intros e He; apply Hok; apply in_or_app; now left).
      assert (Hpost : forall e, In e post -> ev_ok e) by (intros e He; apply Hok; apply in_or_app; right; now right).
      assert (A1 : forall b, e_start ev = b -> evb b (e_idx ev) pre = false).
      { (* no earlier event of the same kind for the same target *)
        intros b Hst. apply cnt_zero_existsb.
        pose proof (cnt_perm (is_ev b (e_idx ev)) _ _ evs_perm) as Hc. rewrite E, cnt_app in Hc.
        destruct (events_from_cnt b ts (e_idx ev) 0) as [Hle _]. rewrite Hc in Hle.
        unfold cnt at 2 in Hle. cbn [filter] in Hle. unfold is_ev at 2 in Hle.
        rewrite Hst, eqb_reflx, Nat.eqb_refl in Hle. cbn in Hle. lia. }
      assert (A2 : e_start ev = true -> endedb (e_idx ev) pre = false).
      { intros Hst. destruct (endedb (e_idx ev) pre) eqn:Een; [|reflexivity]. exfalso.
        destruct (evb_ex _ _ _ Een) as [e [He [He1 He2]]].
        exact (end_after_start e ev (Hpre e He) Hev He1 Hst He2 (S1 e He)). }
      assert (A3 : e_start ev = false -> startedb (e_idx ev) pre = true).
      { intros Hen. destruct (evs_all_started _ (proj1 Hev)) as [Hall _]. rewrite E, evb_app in Hall.
        destruct (startedb (e_idx ev) pre) eqn:Est; [reflexivity|]. exfalso. cbn [orb evb existsb] in Hall.
        unfold is_ev at 1 in Hall. rewrite Hen in Hall. cbn [Bool.eqb andb orb] in Hall.
        destruct (evb_ex _ _ _ Hall) as [e [He [He1 He2]]].
        exact (end_after_start ev e Hev (Hpost e He) Hen He1 (eq_sym He2) (S2 e He)). }
      split; [exact Hev|]. split; [exact S1|]. split; [exact S2|]. split; [exact S3|].
      split; [exact Hpre|]. split; [exact Hpost|]. split; intros H; split; auto.
    Qed.
  End Targets.
End Events.
