(** The abstract merge scheduler is correct: any procedure that repeatedly
    emits a head that compares <= every head produces, from sorted inputs, a
    sorted sequence that is a permutation of the inputs and keeps every input
    in its original order. *)
From Coq Require Import List ZArith Lia Sorting.Sorted Sorting.Permutation.
From PQ Require Import Base.Order Merge.Model.
Import ListNotations.
Open Scope Z_scope.

Lemma upd_length {A} (l : list A) i x : length (upd l i x) = length l.
Proof. revert i; induction l; intros [|i]; cbn; auto. Qed.

Lemma nth_error_upd_same {A} (l : list A) i x :
  (i < length l)%nat -> nth_error (upd l i x) i = Some x.
Proof. revert i; induction l; intros [|i] H; cbn in *; try lia; auto. apply IHl; lia. Qed.

Lemma nth_error_upd_other {A} (l : list A) i j x :
  i <> j -> nth_error (upd l i x) j = nth_error l j.
Proof. revert i j; induction l; intros [|i] [|j] H; cbn; auto; try congruence. Qed.

Lemma nth_upd_same {A} (l : list A) i x d : (i < length l)%nat -> nth i (upd l i x) d = x.
Proof. revert i; induction l; intros [|i] H; cbn in *; try lia; auto. apply IHl; lia. Qed.

Lemma nth_upd_other {A} (l : list A) i j x d : i <> j -> nth j (upd l i x) d = nth j l d.
Proof. revert i j; induction l; intros [|i] [|j] H; cbn; auto; try congruence. Qed.

Lemma nth_upd {A} (l : list A) i j x d : (i < length l)%nat ->
  nth j (upd l i x) d = if (j =? i)%nat then x else nth j l d.
Proof.
  intros H. destruct (Nat.eqb_spec j i) as [->|Hne]; [now apply nth_upd_same|apply nth_upd_other; auto].
Qed.

Lemma upd_upd {A} (l : list A) i x y : upd (upd l i x) i y = upd l i y.
Proof. revert i; induction l; intros [|i]; cbn; auto. now rewrite IHl. Qed.

Lemma upd_id {A} (l : list A) i x : nth_error l i = Some x -> upd l i x = l.
Proof.
  revert i; induction l; intros [|i] H; cbn in *; try discriminate.
  - now inversion H.
  - now rewrite IHl.
Qed.

Lemma nth_error_lt {A} (l : list A) i x : nth_error l i = Some x -> (i < length l)%nat.
Proof. intros H. apply nth_error_Some. congruence. Qed.

Lemma concat_upd_perm {A} (st : list (list A)) i r t :
  nth_error st i = Some (r :: t) -> Permutation (concat st) (r :: concat (upd st i t)).
Proof.
  revert i; induction st as [|x st IH]; intros [|i] H; cbn in *; try discriminate.
  - inversion H; subst. reflexivity.
  - rewrite (IH _ H). rewrite <- Permutation_middle. reflexivity.
Qed.

Lemma in_concat_nth {A} (st : list (list A)) x :
  In x (concat st) <-> exists j l, nth_error st j = Some l /\ In x l.
Proof.
  split.
  - intros H. apply in_concat in H. destruct H as [l [Hl Hx]].
    apply In_nth_error in Hl. destruct Hl as [j Hj]. eauto.
  - intros [j [l [Hj Hx]]]. apply in_concat. exists l. split; [|exact Hx].
    eapply nth_error_In; eauto.
Qed.

Definition cnt {A} (f : A -> bool) (l : list A) : nat := length (filter f l).

Lemma cnt_app {A} (f : A -> bool) l1 l2 : cnt f (l1 ++ l2) = (cnt f l1 + cnt f l2)%nat.
Proof. unfold cnt. now rewrite filter_app, app_length. Qed.

Lemma cnt_perm {A} (f : A -> bool) l1 l2 : Permutation l1 l2 -> cnt f l1 = cnt f l2.
Proof.
  unfold cnt. induction 1 as [|x l l' _ IH|x y l|l l' l'' _ IH1 _ IH2]; cbn; try lia.
  - destruct (f x); cbn; lia.
  - destruct (f x), (f y); cbn; lia.
Qed.

Lemma cnt_zero_existsb {A} (f : A -> bool) l : cnt f l = 0%nat -> existsb f l = false.
Proof.
  unfold cnt. induction l as [|x l IH]; cbn; [reflexivity|]. destruct (f x); cbn; [lia|exact IH].
Qed.

Lemma SS_app_iff {A} (R : A -> A -> Prop) l1 l2 :
  StronglySorted R (l1 ++ l2) <->
  StronglySorted R l1 /\ StronglySorted R l2 /\ forall a b, In a l1 -> In b l2 -> R a b.
Proof.
  induction l1 as [|x l1 IH]; cbn.
  - split; [intros H; repeat split; [constructor|exact H|contradiction]|intros [_ [H _]]; exact H].
  - split.
    + intros H. inversion H as [|? ? Hs Hf]; subst. apply IH in Hs. destruct Hs as [H1 [H2 H3]].
      rewrite Forall_app in Hf. destruct Hf as [Hf1 Hf2]. rewrite Forall_forall in Hf2.
      repeat split; [constructor; assumption|assumption|]. intros a b [->|Ha] Hb; auto.
    + intros [H1 [H2 H3]]. inversion H1 as [|? ? Hs Hf]; subst. constructor.
      * apply IH. repeat split; auto.
      * rewrite Forall_app. split; [exact Hf|]. rewrite Forall_forall. auto.
Qed.

Section Abstract.
  Variable K : Type.
  Variable cmp : K -> K -> Z.
  Hypothesis cmp_opp : forall a b, cmp a b < 0 <-> cmp b a > 0.
  Hypothesis cmp_trans : forall a b d, cmp a b <= 0 -> cmp b d <= 0 -> cmp a d <= 0.

  Notation row := (row K).
  Notation rcmp := (rcmp cmp).

  Definition rle (a b : row) : Prop := rcmp a b <= 0.
  Definition sorted (l : list row) : Prop := StronglySorted rle l.

  Lemma cmp_ge_le a b : cmp a b >= 0 -> cmp b a <= 0.
  Proof. intros H. apply (cmp_nlt_le K cmp cmp_opp). lia. Qed.

  Lemma cmp_total a b : cmp a b <= 0 \/ cmp b a < 0.
  Proof. pose proof (cmp_opp a b); pose proof (cmp_opp b a). lia. Qed.

  Lemma cmp_le_lt_trans a b d : cmp a b <= 0 -> cmp b d < 0 -> cmp a d < 0.
  Proof. exact (Order.cmp_le_lt_trans K cmp cmp_opp (fun _ => True) (fun a b d _ _ _ => cmp_trans a b d) a b d I I I). Qed.

  Lemma cmp_lt_le_trans a b d : cmp a b < 0 -> cmp b d <= 0 -> cmp a d < 0.
  Proof. exact (Order.cmp_lt_le_trans K cmp cmp_opp (fun _ => True) (fun a b d _ _ _ => cmp_trans a b d) a b d I I I). Qed.

  Lemma cmp_eq_trans a b d : cmp a b = 0 -> cmp b d = 0 -> cmp a d = 0.
  Proof. exact (Order.cmp_eq_trans K cmp cmp_opp (fun _ => True) (fun a b d _ _ _ => cmp_trans a b d) a b d I I I). Qed.

  Lemma rle_refl a : rle a a.
  Proof. apply (cmp_refl_le K cmp cmp_opp). Qed.

  Lemma rle_trans a b d : rle a b -> rle b d -> rle a d.
  Proof. unfold rle, Model.rcmp. apply cmp_trans. Qed.

  Lemma rle_of_lt a b : rcmp a b < 0 -> rle a b.
  Proof. unfold rle. lia. Qed.

  Lemma rle_of_ge a b : rcmp a b >= 0 -> rle b a.
  Proof. apply cmp_ge_le. Qed.

  Lemma sorted_app_inv l1 l2 : sorted (l1 ++ l2) ->
    sorted l1 /\ sorted l2 /\ forall a b, In a l1 -> In b l2 -> rle a b.
  Proof. apply SS_app_iff. Qed.

  Lemma sorted_app l1 l2 : sorted l1 -> sorted l2 ->
    (forall a b, In a l1 -> In b l2 -> rle a b) -> sorted (l1 ++ l2).
  Proof. intros H1 H2 H. apply SS_app_iff. auto. Qed.

  Lemma sorted_skipn n l : sorted l -> sorted (skipn n l).
  Proof.
    intros H. rewrite <- (firstn_skipn n l) in H. now apply sorted_app_inv in H.
  Qed.

  Lemma sorted_firstn n l : sorted l -> sorted (firstn n l).
  Proof.
    intros H. rewrite <- (firstn_skipn n l) in H. now apply sorted_app_inv in H.
  Qed.

  Lemma sorted_tl l : sorted l -> sorted (tl l).
  Proof. destruct l; cbn; [auto|]. intros H. now inversion H. Qed.

  Lemma sorted_head_le r t x : sorted (r :: t) -> In x (r :: t) -> rle r x.
  Proof.
    intros H [->|Hx]; [apply rle_refl|]. inversion H as [|? ? _ Hf]; subst.
    rewrite Forall_forall in Hf. auto.
  Qed.

  Lemma sorted_nth_le l i j a b : sorted l -> (i <= j)%nat ->
    nth_error l i = Some a -> nth_error l j = Some b -> rle a b.
  Proof.
    revert i j; induction l as [|x l IH]; intros [|i] [|j] Hs Hij Ha Hb; cbn in *; try discriminate; try lia.
    - inversion Ha; inversion Hb; subst. apply rle_refl.
    - inversion Ha; subst. eapply sorted_head_le; eauto. right. eapply nth_error_In; eauto.
    - inversion Hs; subst. apply (IH i j); auto. lia.
  Qed.

  Lemma StronglySorted_Sorted_rle l : sorted l -> Sorted rle l.
  Proof. apply StronglySorted_Sorted. Qed.

  Definition tagged (st : list (list row)) : Prop :=
    forall i l r, nth_error st i = Some l -> In r l -> input r = i.

  Definition of_input (i : nat) (l : list row) : list row := filter (fun r => Nat.eqb (input r) i) l.

  Lemma heads_ge_all st r : Forall sorted st -> heads_ge cmp st r ->
    forall x, In x (concat st) -> rle r x.
  Proof.
    intros Hs Hh x Hx. apply in_concat_nth in Hx. destruct Hx as [j [l [Hj Hx]]].
    destruct l as [|h t]; [contradiction|].
    apply rle_trans with h; [exact (Hh j h t Hj)|].
    rewrite Forall_forall in Hs. eapply sorted_head_le; eauto. apply Hs. eapply nth_error_In; eauto.
  Qed.

  Lemma Forall_sorted_upd st i t r :
    Forall sorted st -> nth_error st i = Some (r :: t) -> Forall sorted (upd st i t).
  Proof.
    intros Hs Hi. rewrite Forall_forall in *. intros l Hl.
    apply In_nth_error in Hl. destruct Hl as [j Hj].
    destruct (Nat.eq_dec i j) as [->|Hne].
    - rewrite nth_error_upd_same in Hj by (eapply nth_error_lt; eauto). inversion Hj; subst.
      assert (sorted (r :: l)) by (apply Hs; eapply nth_error_In; eauto). now inversion H.
    - rewrite nth_error_upd_other in Hj by assumption. apply Hs. eapply nth_error_In; eauto.
  Qed.

  Lemma tagged_upd st i t r : tagged st -> nth_error st i = Some (r :: t) -> tagged (upd st i t).
  Proof.
    intros Ht Hi j l x Hj Hx. destruct (Nat.eq_dec i j) as [->|Hne].
    - rewrite nth_error_upd_same in Hj by (eapply nth_error_lt; eauto). inversion Hj; subst.
      eapply Ht; eauto. now right.
    - rewrite nth_error_upd_other in Hj by assumption. eapply Ht; eauto.
  Qed.

  Lemma of_input_notin i l : (forall r, In r l -> input r <> i) -> of_input i l = [].
  Proof.
    induction l as [|x l IH]; cbn; intros H; [reflexivity|].
    destruct (Nat.eqb_spec (input x) i) as [E|E]; [exfalso; eapply H; eauto|].
    apply IH. intros r Hr. apply H. now right.
  Qed.

  Lemma of_input_all i l : (forall r, In r l -> input r = i) -> of_input i l = l.
  Proof.
    induction l as [|x l IH]; cbn; intros H; [reflexivity|].
    destruct (Nat.eqb_spec (input x) i) as [E|E]; [|exfalso; apply E; auto].
    f_equal. apply IH. auto.
  Qed.

  Lemma sched_preserves_sorted st out st' :
    sched cmp st out st' -> Forall sorted st -> Forall sorted st'.
  Proof. induction 1; intros Hs; [exact Hs|]. apply IHsched. eapply Forall_sorted_upd; eauto. Qed.

  Lemma sched_length st out st' : sched cmp st out st' ->
    length (concat st) = (length out + length (concat st'))%nat.
  Proof.
    induction 1 as [st|st i r t out st' Hi Hh Hrun IH]; [reflexivity|].
    pose proof (Permutation_length (concat_upd_perm _ _ _ _ Hi)) as Hp. cbn [length] in *. lia.
  Qed.

  Lemma sched_width st out st' : sched cmp st out st' -> length st' = length st.
  Proof. induction 1 as [|st i r t out st' Hi Hh Hrun IH]; [reflexivity|]. now rewrite IH, upd_length. Qed.

  (** every prefix of a run of the scheduler is sorted, below what is left,
      a permutation, and keeps each input's order *)
  Theorem sched_correct st out st' :
    sched cmp st out st' -> Forall sorted st -> tagged st ->
    sorted out /\
    (forall a b, In a out -> In b (concat st') -> rle a b) /\
    Permutation (concat st) (out ++ concat st') /\
    (forall i, nth i st [] = of_input i out ++ nth i st' []) /\
    Forall sorted st' /\ tagged st' /\ length st' = length st.
  Proof.
    induction 1 as [st|st i r t out st' Hi Hh Hrun IH]; intros Hs Ht.
    - repeat split; auto; try constructor; try contradiction.
    - destruct (IH (Forall_sorted_upd _ _ _ _ Hs Hi) (tagged_upd _ _ _ _ Ht Hi))
        as [I1 [I2 [I3 [I4 [I5 [I6 I7]]]]]].
      pose proof (heads_ge_all _ _ Hs Hh) as Hmin.
      pose proof (concat_upd_perm _ _ _ _ Hi) as Hp.
      assert (Hr_le : forall x, In x (out ++ concat st') -> rle r x).
      { intros x Hx. apply Hmin. rewrite Hp. right. rewrite I3. exact Hx. }
      repeat split; auto.
      + constructor; [exact I1|]. rewrite Forall_forall. intros x Hx. apply Hr_le. apply in_or_app; auto.
      + intros a b [->|Ha] Hb; [|auto]. apply Hr_le. apply in_or_app; auto.
      + rewrite Hp. cbn. now rewrite I3.
      + intros j. pose proof (I4 j) as Hj. unfold of_input. cbn [filter].
        assert (Hin : input r = i) by (eapply Ht; eauto; now left).
        destruct (Nat.eq_dec i j) as [->|Hne].
        * rewrite nth_upd_same in Hj by (eapply nth_error_lt; eauto).
          rewrite (nth_error_nth _ _ [] Hi). rewrite Hin, Nat.eqb_refl. cbn. f_equal. exact Hj.
        * rewrite nth_upd_other in Hj by assumption.
          destruct (Nat.eqb_spec (input r) j); [congruence|]. exact Hj.
      + rewrite I7. apply upd_length.
  Qed.

  Definition all_empty (st : list (list row)) : Prop := Forall (fun l => l = []) st.

  Lemma all_empty_concat st : all_empty st -> concat st = [].
  Proof. induction 1; cbn; subst; auto. Qed.

  Lemma all_empty_nth st i : all_empty st -> nth i st [] = [].
  Proof.
    intros H. destruct (nth_error st i) eqn:E.
    - rewrite (nth_error_nth _ _ [] E). unfold all_empty in H. rewrite Forall_forall in H. apply H. eapply nth_error_In; eauto.
    - apply nth_overflow. now apply nth_error_None.
  Qed.

  Theorem sched_complete_correct st out st' :
    sched cmp st out st' -> all_empty st' -> Forall sorted st -> tagged st ->
    sorted out /\ Permutation (concat st) out /\ forall i, of_input i out = nth i st [].
  Proof.
    intros Hrun He Hs Ht. destruct (sched_correct _ _ _ Hrun Hs Ht) as [I1 [_ [I3 [I4 _]]]].
    rewrite (all_empty_concat _ He), app_nil_r in I3.
    repeat split; auto. intros i. rewrite (I4 i), (all_empty_nth _ i He), app_nil_r. reflexivity.
  Qed.

  Lemma sched_app st out1 st1 out2 st2 :
    sched cmp st out1 st1 -> sched cmp st1 out2 st2 -> sched cmp st (out1 ++ out2) st2.
  Proof. induction 1; cbn; intros; [assumption|]. econstructor; eauto. Qed.

  (** a prefix of one input all of whose rows are <= the heads of the other
      inputs can be emitted in one go (bulk run emission) *)
  Lemma sched_prefix pre : forall st i post,
    nth_error st i = Some (pre ++ post) -> sorted (pre ++ post) ->
    (forall r j r' t, In r pre -> j <> i -> nth_error st j = Some (r' :: t) -> rle r r') ->
    sched cmp st pre (upd st i post).
  Proof.
    induction pre as [|r pre IH]; intros st i post Hi Hs Hle; cbn in *.
    - rewrite upd_id by assumption. constructor.
    - pose proof (nth_error_lt _ _ _ Hi) as Hlt.
      apply sched_cons with (i := i) (t := pre ++ post); [exact Hi| |].
      + intros j r' t Hj. destruct (Nat.eq_dec j i) as [->|Hne].
        * rewrite Hi in Hj. inversion Hj; subst. apply rle_refl.
        * eapply Hle; eauto.
      + rewrite <- (upd_upd st i (pre ++ post) post). apply IH.
        * now apply nth_error_upd_same.
        * now inversion Hs.
        * intros x j r' t Hx Hne Hj. rewrite nth_error_upd_other in Hj by auto. eapply Hle; eauto.
  Qed.

  (** ** the reference scheduler (first minimal head) is an instance *)

  Definition better (best : option (nat * row)) (i : nat) (r : row) : option (nat * row) :=
    match best with
    | None => Some (i, r)
    | Some (_, b) => if rcmp r b <? 0 then Some (i, r) else best
    end.

  Lemma min_head_cons r l st i best :
    min_head K cmp ((r :: l) :: st) i best = min_head K cmp st (S i) (better best i r).
  Proof. destruct best as [[? b]|]; cbn; [destruct (rcmp r b <? 0)|]; reflexivity. Qed.

  Lemma better_spec best i r :
    exists bi br, better best i r = Some (bi, br) /\ rle br r /\
      (forall ci cr, best = Some (ci, cr) -> rle br cr) /\
      (better best i r = best \/ (bi = i /\ br = r)).
  Proof.
    unfold better. destruct best as [[bi0 b]|].
    - destruct (Z.ltb_spec (rcmp r b) 0).
      + exists i, r. repeat split; auto using rle_refl.
        intros ? ? E; inversion E; subst. unfold rle. lia.
      + exists bi0, b. repeat split; auto.
        * apply rle_of_ge. lia.
        * intros ? ? E; inversion E; subst. apply rle_refl.
    - exists i, r. repeat split; auto using rle_refl. intros ? ? E; discriminate.
  Qed.

  Lemma min_head_spec st : forall i best,
    match min_head K cmp st i best with
    | None => best = None /\ Forall (fun l => l = []) st
    | Some (mi, mr) =>
        (best = Some (mi, mr) \/ exists d t, mi = (i + d)%nat /\ nth_error st d = Some (mr :: t)) /\
        (forall bi br, best = Some (bi, br) -> rle mr br) /\
        heads_ge cmp st mr
    end.
  Proof.
    induction st as [|l st IH]; intros i best.
    - cbn [min_head]. destruct best as [[bi br]|]; [|auto].
      split; [now left|]. split; [intros ? ? E; inversion E; subst; apply rle_refl|].
      intros [|j] ? ? Hj; discriminate.
    - destruct l as [|r l].
      + cbn [min_head]. specialize (IH (S i) best). destruct (min_head K cmp st (S i) best) as [[mi mr]|].
        * destruct IH as [I1 [I2 I3]]. split; [|split; [exact I2|]].
          -- destruct I1 as [I1|[d [t [-> I1]]]]; [now left|right]. exists (S d), t. split; [lia|exact I1].
          -- intros [|j] r' t Hj; cbn in Hj; [discriminate|eauto].
        * destruct IH as [I1 I2]. split; [exact I1|]. constructor; auto.
      + rewrite min_head_cons. destruct (better_spec best i r) as [bi [br [Hbest' [Hbr [Hold Hwhich]]]]].
        specialize (IH (S i) (better best i r)). rewrite Hbest' in *.
        destruct (min_head K cmp st (S i) (Some (bi, br))) as [[mi mr]|]; [|destruct IH; discriminate].
        destruct IH as [I1 [I2 I3]]. specialize (I2 _ _ eq_refl).
        split; [|split].
        * destruct I1 as [I1|[d [t [-> I1]]]]; [|right; exists (S d), t; split; [lia|exact I1]].
          inversion I1; subst mi mr. destruct Hwhich as [E|[-> ->]]; [left; now rewrite <- E|].
          right. exists 0%nat, l. split; [lia|reflexivity].
        * intros ci cr E. apply rle_trans with br; auto. eapply Hold; eauto.
        * intros [|j] r' t Hj; cbn in Hj; [|eauto].
          inversion Hj; subst. apply rle_trans with br; auto.
  Qed.

  Lemma ref_merge_sched fuel : forall st,
    (length (concat st) <= fuel)%nat ->
    exists st', sched cmp st (ref_merge K cmp fuel st) st' /\ all_empty st'.
  Proof.
    induction fuel as [|f IH]; intros st Hlen.
    - exists st. split; [constructor|].
      assert (E : concat st = []) by (destruct (concat st); cbn in *; [auto|lia]).
      clear Hlen. induction st as [|l st IHst]; [constructor|].
      cbn in E. apply app_eq_nil in E. destruct E. constructor; auto. apply IHst; auto.
    - cbn [ref_merge]. pose proof (min_head_spec st 0%nat None) as Hm.
      destruct (min_head K cmp st 0 None) as [[mi mr]|].
      + destruct Hm as [I1 [_ I3]].
        destruct I1 as [I1|[d [t [-> I1]]]]; [discriminate|]. cbn [Nat.add].
        rewrite (nth_error_nth _ _ [] I1). cbn [tl].
        destruct (IH (upd st d t)) as [st' [Hrun He]].
        { pose proof (concat_upd_perm _ _ _ _ I1) as Hp. apply Permutation_length in Hp. cbn in Hp. lia. }
        exists st'. split; [|exact He]. econstructor; eauto.
      + destruct Hm as [_ He]. exists st. split; [constructor|exact He].
  Qed.

  Theorem ref_merge_all_correct st : Forall sorted st -> tagged st ->
    sorted (ref_merge_all cmp st) /\ Permutation (concat st) (ref_merge_all cmp st) /\
    forall i, of_input i (ref_merge_all cmp st) = nth i st [].
  Proof.
    intros Hs Ht. destruct (ref_merge_sched (length (concat st)) st (le_n _)) as [st' [Hrun He]].
    eapply sched_complete_correct; eauto.
  Qed.
End Abstract.
