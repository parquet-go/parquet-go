(** Proofs about Merge/Nested.v: an input with computed rows forces a single
    segment; the witness of the defect repaired by commit 4f9d711. *)
From Coq Require Import List ZArith Lia Sorting.Sorted.
From PQ Require Import Merge.Model Merge.Instance Merge.InstanceProofs Merge.Nested.
Import ListNotations.

Lemma combine_map_map {A B C : Type} (f : A -> B) (g : A -> C) (l : list A) :
  combine (map f l) (map g l) = map (fun x => (f x, g x)) l.
Proof. induction l as [|a l IH]; cbn; [reflexivity|now rewrite IH]. Qed.

Lemma some_computed_intro (xs : list ninput) (x : ninput) :
  In x xs -> n_computed x = true -> n_rows x <> [] ->
  some_computed (map n_rows xs) (map n_computed xs) = true.
Proof.
  intros Hin Hc Hr. unfold some_computed. rewrite combine_map_map. apply existsb_exists.
  exists (n_rows x, n_computed x). split.
  - apply in_map_iff. exists x. split; [reflexivity|exact Hin].
  - cbn. rewrite Hc. destruct (n_rows x); [contradiction|reflexivity].
Qed.

(* one non-empty input with computed rows: a single segment, every input, in argument order *)
Lemma nested_one_segment (cfg : list colcfg) (xs : list ninput) (x : ninput) :
  In x xs -> n_computed x = true -> n_rows x <> [] ->
  nested_segments false cfg xs = [List.seq 0 (length xs)].
Proof.
  intros Hin Hc Hr. unfold nested_segments. cbn [negb andb].
  now rewrite (some_computed_intro xs x Hin Hc Hr).
Qed.

Lemma refine_nested_one_piece cfg ins layouts cuts computed :
  some_computed ins computed = true ->
  (length (c09_refine_nested cfg ins layouts cuts computed) <= 1)%nat.
Proof.
  intros H. unfold c09_refine_nested. rewrite H.
  destruct (filter _ _); cbn; lia.
Qed.

(** ** the witness: merge (merge (A = 0..9, B = 4..5), C = 7..8) *)
Definition exn_cfg : list colcfg := [(false, false)].
Definition exn_A : list keyL := map (fun z => [Some z]) [0; 1; 2; 3; 4; 5; 6; 7; 8; 9]%Z.
Definition exn_B : list keyL := [[Some 4%Z]; [Some 5%Z]].
Definition exn_C : list keyL := [[Some 7%Z]; [Some 8%Z]].
Definition exn_AB : ninput := merged_input exn_cfg 64 [exn_A; exn_B].
Definition exn_inputs : list ninput := [exn_AB; (exn_C, None)].

Lemma exn_leaves_sorted :
  Forall (fun l => Sorted (fun a b => cmpL exn_cfg a b <= 0) l) [exn_A; exn_B; exn_C].
Proof. constructor; [|constructor; [|constructor; [|constructor]]]; apply sortedb_Sorted; reflexivity. Qed.

(* the inner merge delivers sorted rows: the inputs of the outer merge are sorted *)
Lemma exn_inputs_sorted :
  Forall (fun x => Sorted (fun a b => cmpL exn_cfg a b <= 0) (n_rows x)) exn_inputs.
Proof. constructor; [|constructor; [|constructor]]; apply sortedb_Sorted; vm_compute; reflexivity. Qed.

Lemma exn_AB_rows :
  n_rows exn_AB = map (fun z => [Some z]) [0; 1; 2; 3; 4; 4; 5; 5; 6; 7; 8; 9]%Z /\ n_computed exn_AB = true.
Proof. split; vm_compute; reflexivity. Qed.

(* pinned: the pages of the concatenated chunks [0..9][4..5] give the "bounds" 0 .. 5 of rows that go up to 9;
   C = 7..8 is taken for disjoint and concatenated *)
Lemma exn_pinned_plan :
  nested_segments true exn_cfg exn_inputs = [[0%nat]; [1%nat]] /\
  map (@key keyL) (nested_rows true exn_cfg 64 exn_inputs) =
    map (fun z => [Some z]) [0; 1; 2; 3; 4; 4; 5; 5; 6; 7; 8; 9; 7; 8]%Z.
Proof. split; vm_compute; reflexivity. Qed.

Lemma exn_pinned_not_sorted :
  ~ Sorted (fun a b => cmpL exn_cfg a b <= 0) (map (@key keyL) (nested_rows true exn_cfg 64 exn_inputs)).
Proof. rewrite (proj2 exn_pinned_plan), <- sortedb_Sorted. discriminate. Qed.

Lemma exn_current_plan :
  nested_segments false exn_cfg exn_inputs = [[0%nat; 1%nat]] /\
  Sorted (fun a b => cmpL exn_cfg a b <= 0) (map (@key keyL) (nested_rows false exn_cfg 64 exn_inputs)) /\
  c09_refine_nested exn_cfg (map n_rows exn_inputs) [[[12%nat]]; [[2%nat]]] [true; true] (map n_computed exn_inputs)
    = [[(0%nat, 0%nat, 12%nat); (1%nat, 0%nat, 2%nat)]].
Proof.
  split; [vm_compute; reflexivity|]. split; [|vm_compute; reflexivity].
  apply sortedb_Sorted. vm_compute. reflexivity.
Qed.
