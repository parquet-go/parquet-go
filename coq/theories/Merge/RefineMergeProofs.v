(** The stable merge of Merge/Refine.v and the abstract scheduler: both can be
    cut along a "clean cut" (every row before the cut of one input is strictly
    below every row after the cut of every other input); lists without rows
    do not matter. *)
From Coq Require Import List ZArith Lia Sorting.Sorted Sorting.Permutation.
From PQ Require Import Base.Order Base.ListExtra Merge.Model Merge.AbstractProofs Merge.Refine.
Import ListNotations.
Open Scope Z_scope.

(** pointwise concatenation of two vectors of lists *)
Fixpoint zapp {A : Type} (L R : list (list A)) : list (list A) :=
  match L, R with
  | l :: L', r :: R' => (l ++ r) :: zapp L' R'
  | _, _ => []
  end.

Lemma zapp_length {A} (L R : list (list A)) : length L = length R -> length (zapp L R) = length L.
Proof. revert R; induction L as [|l L IH]; intros [|r R] H; cbn in *; try lia. f_equal. apply IH. lia. Qed.

Lemma zapp_nth {A} (L R : list (list A)) i : length L = length R ->
  nth i (zapp L R) [] = nth i L [] ++ nth i R [].
Proof.
  revert R i; induction L as [|l L IH]; intros [|r R] [|i] H; cbn in *; try lia; try reflexivity.
  apply IH. lia.
Qed.

Lemma zapp_nth_error {A} (L R : list (list A)) i l r :
  nth_error L i = Some l -> nth_error R i = Some r -> nth_error (zapp L R) i = Some (l ++ r).
Proof.
  revert R i; induction L as [|l0 L IH]; intros [|r0 R] [|i] Hl Hr; cbn in *; try discriminate.
  - now inversion Hl; inversion Hr.
  - eauto.
Qed.

Lemma zapp_upd {A} (L R : list (list A)) i l :
  upd (zapp L R) i (l ++ nth i R []) = zapp (upd L i l) R.
Proof.
  revert R i; induction L as [|l0 L IH]; intros [|r0 R] [|i]; cbn; auto. f_equal. apply IH.
Qed.

Lemma zapp_all_nil_l {A} (L R : list (list A)) :
  length L = length R -> Forall (fun l => l = []) L -> zapp L R = R.
Proof.
  revert R; induction L as [|l L IH]; intros [|r R] H HL; cbn in *; try lia; auto.
  inversion HL; subst. cbn. f_equal. apply IH; [lia|assumption].
Qed.

Section RefineMerge.
  Variable K : Type.
  Variable cmp : K -> K -> Z.
  Hypothesis cmp_opp : forall a b, cmp a b < 0 <-> cmp b a > 0.
  Hypothesis cmp_trans : forall a b d, cmp a b <= 0 -> cmp b d <= 0 -> cmp a d <= 0.

  Notation row := (row K).
  Notation rcmp := (rcmp cmp).
  Notation sorted := (sorted K cmp).
  Notation rle := (rle K cmp).
  Notation merge2s := (merge2s cmp).
  Notation smerge := (smerge cmp).

  Lemma merge2s_nil_l b : merge2s [] b = b.
  Proof. reflexivity. Qed.

  Lemma merge2s_nil_r a : merge2s a [] = a.
  Proof. destruct a; reflexivity. Qed.

  Lemma merge2s_cons x a y b :
    merge2s (x :: a) (y :: b) =
    if rcmp y x <? 0 then y :: merge2s (x :: a) b else x :: merge2s a (y :: b).
  Proof. reflexivity. Qed.

  Lemma merge2s_perm a : forall b, Permutation (a ++ b) (merge2s a b).
  Proof.
    induction a as [|x a IHa]; intros b; [reflexivity|].
    induction b as [|y b IHb].
    - rewrite merge2s_nil_r, app_nil_r. reflexivity.
    - rewrite merge2s_cons. destruct (rcmp y x <? 0).
      + rewrite <- IHb. symmetry. apply Permutation_middle.
      + cbn. constructor. apply IHa.
  Qed.

  Lemma merge2s_in a b z : In z (merge2s a b) <-> In z a \/ In z b.
  Proof.
    rewrite <- in_app_iff. split; intros H.
    - eapply Permutation_in; [symmetry; apply merge2s_perm|exact H].
    - eapply Permutation_in; [apply merge2s_perm|exact H].
  Qed.

  Lemma merge2s_sorted a : forall b, sorted a -> sorted b -> sorted (merge2s a b).
  Proof.
    induction a as [|x a IHa]; intros b Ha Hb; [exact Hb|].
    induction b as [|y b IHb]; [rewrite merge2s_nil_r; exact Ha|].
    rewrite merge2s_cons. inversion Ha as [|? ? Ha' Hxa]; subst. inversion Hb as [|? ? Hb' Hyb]; subst.
    rewrite Forall_forall in Hxa, Hyb.
    destruct (Z.ltb_spec (rcmp y x) 0) as [Hlt|Hge].
    - constructor; [apply IHb; assumption|]. rewrite Forall_forall. intros z Hz.
      apply merge2s_in in Hz. destruct Hz as [[<-|Hz]|Hz].
      + unfold rle. lia.
      + apply (rle_trans K cmp cmp_trans) with x; [unfold rle; lia|auto].
      + auto.
    - assert (Hxy : rle x y).
      { apply (rle_of_ge K cmp cmp_opp). lia. }
      constructor; [apply IHa; assumption|]. rewrite Forall_forall. intros z Hz.
      apply merge2s_in in Hz. destruct Hz as [Hz|[<-|Hz]]; auto.
      apply (rle_trans K cmp cmp_trans) with y; auto.
  Qed.

  (** cutting a two-way merge: the rows of [l1] are <= those of [r2] and the
      rows of [l2] strictly below those of [r1] *)
  Lemma merge2s_split l1 : forall l2 r1 r2,
    (forall a b, In a l1 -> In b r2 -> rcmp a b <= 0) ->
    (forall a b, In a l2 -> In b r1 -> rcmp a b < 0) ->
    merge2s (l1 ++ r1) (l2 ++ r2) = merge2s l1 l2 ++ merge2s r1 r2.
  Proof.
    induction l1 as [|x l1 IH1]; intros l2; induction l2 as [|y l2 IH2]; intros r1 r2 H1 H2.
    - reflexivity.
    - cbn [app]. rewrite merge2s_nil_l. destruct r1 as [|x r1].
      + rewrite !merge2s_nil_l. reflexivity.
      + change ((y :: l2) ++ r2) with (y :: (l2 ++ r2)). rewrite merge2s_cons.
        assert (Hlt : rcmp y x < 0) by (apply H2; now left).
        destruct (Z.ltb_spec (rcmp y x) 0); [|lia].
        cbn [app]. f_equal.
        specialize (IH2 (x :: r1) r2 H1). cbn [app] in IH2. rewrite merge2s_nil_l in IH2. apply IH2.
        intros a b Ha Hb. apply H2; [now right|exact Hb].
    - rewrite merge2s_nil_r. cbn [app]. destruct r2 as [|y r2].
      + rewrite !merge2s_nil_r. reflexivity.
      + change ((x :: l1) ++ r1) with (x :: (l1 ++ r1)). rewrite merge2s_cons.
        assert (Hle : rcmp x y <= 0) by (apply H1; now left).
        destruct (Z.ltb_spec (rcmp y x) 0) as [Hlt|_].
        { unfold Model.rcmp in *. pose proof (cmp_opp (key y) (key x)). lia. }
        cbn [app]. f_equal.
        specialize (IH1 [] r1 (y :: r2)). cbn [app] in IH1. rewrite merge2s_nil_r in IH1. apply IH1.
        * intros a b Ha Hb. apply H1; [now right|exact Hb].
        * intros a b [].
    - change ((x :: l1) ++ r1) with (x :: (l1 ++ r1)). change ((y :: l2) ++ r2) with (y :: (l2 ++ r2)).
      rewrite !merge2s_cons. destruct (rcmp y x <? 0).
      + cbn [app]. f_equal. change (x :: (l1 ++ r1)) with ((x :: l1) ++ r1). apply IH2; [exact H1|].
        intros a b Ha Hb. apply H2; [now right|exact Hb].
      + cbn [app]. f_equal. change (y :: (l2 ++ r2)) with ((y :: l2) ++ r2). apply IH1; [|exact H2].
        intros a b Ha Hb. apply H1; [now right|exact Hb].
  Qed.

  Lemma smerge_cons l st : smerge (l :: st) = merge2s l (smerge st).
  Proof. reflexivity. Qed.

  Lemma smerge_in st z : In z (smerge st) <-> In z (concat st).
  Proof.
    induction st as [|l st IH]; cbn [concat]; [reflexivity|].
    rewrite smerge_cons, merge2s_in, in_app_iff, IH. reflexivity.
  Qed.

  Lemma smerge_perm st : Permutation (concat st) (smerge st).
  Proof.
    induction st as [|l st IH]; cbn [concat]; [reflexivity|].
    rewrite smerge_cons, <- merge2s_perm. now apply Permutation_app_head.
  Qed.

  Lemma smerge_sorted st : Forall sorted st -> sorted (smerge st).
  Proof.
    induction 1 as [|l st Hl Hst IH]; [constructor|]. rewrite smerge_cons. now apply merge2s_sorted.
  Qed.

  Lemma smerge_single l : smerge [l] = l.
  Proof. cbn. apply merge2s_nil_r. Qed.

  (* a clean cut: strict between different inputs *)
  Definition clean_cut (L R : list (list row)) : Prop :=
    forall i j a b, i <> j -> In a (nth i L []) -> In b (nth j R []) -> rcmp a b < 0.

  Lemma in_concat_nth_d (st : list (list row)) x :
    In x (concat st) -> exists j, In x (nth j st []).
  Proof.
    intros H. apply in_concat_nth in H. destruct H as [j [l [Hj Hx]]].
    exists j. now rewrite (nth_error_nth _ _ [] Hj).
  Qed.

  Theorem smerge_split L : forall R,
    length L = length R -> clean_cut L R -> smerge (zapp L R) = smerge L ++ smerge R.
  Proof.
    induction L as [|l L IH]; intros [|r R] Hlen Hcut; cbn in Hlen; try lia; [reflexivity|].
    cbn [zapp]. rewrite !smerge_cons. rewrite IH.
    - apply merge2s_split.
      + intros a b Ha Hb. apply smerge_in in Hb. apply in_concat_nth_d in Hb. destruct Hb as [j Hb].
        assert (rcmp a b < 0); [|lia]. apply (Hcut 0%nat (S j)); auto.
      + intros a b Ha Hb. apply smerge_in in Ha. apply in_concat_nth_d in Ha. destruct Ha as [j Ha].
        apply (Hcut (S j) 0%nat); auto.
    - lia.
    - intros i j a b Hij Ha Hb. apply (Hcut (S i) (S j)); auto.
  Qed.

  Definition nonempty {A} (l : list A) : bool := match l with [] => false | _ => true end.

  Lemma smerge_filter st : smerge (filter nonempty st) = smerge st.
  Proof.
    induction st as [|l st IH]; [reflexivity|]. destruct l as [|x l]; cbn [filter nonempty].
    - rewrite smerge_cons, merge2s_nil_l. exact IH.
    - rewrite !smerge_cons, IH. reflexivity.
  Qed.

  (** ** the abstract scheduler along a cut (<= is enough) *)
  Definition weak_cut (L R : list (list row)) : Prop :=
    forall i j a b, i <> j -> In a (nth i L []) -> In b (nth j R []) -> rcmp a b <= 0.

  Lemma sched_zapp L out L' : sched cmp L out L' -> forall R,
    length L = length R -> weak_cut L R -> sched cmp (zapp L R) out (zapp L' R).
  Proof.
    induction 1 as [st|st i r t out st' Hi Hh Hrun IH]; intros R Hlen Hcut; [constructor|].
    pose proof (nth_error_lt _ _ _ Hi) as Hlt.
    destruct (nth_error R i) as [ri|] eqn:HRi; [|apply nth_error_None in HRi; lia].
    apply sched_cons with (i := i) (t := t ++ ri).
    - change (r :: t ++ ri) with ((r :: t) ++ ri). now apply zapp_nth_error.
    - intros j r' t' Hj.
      assert (Hjlt : (j < length st)%nat).
      { apply nth_error_lt in Hj. rewrite zapp_length in Hj; lia. }
      destruct (nth_error st j) as [lj|] eqn:Hlj; [|apply nth_error_None in Hlj; lia].
      destruct (nth_error R j) as [rj|] eqn:Hrj; [|apply nth_error_None in Hrj; lia].
      rewrite (zapp_nth_error _ _ _ _ _ Hlj Hrj) in Hj. destruct lj as [|h lj].
      + cbn in Hj. destruct (Nat.eq_dec i j) as [->|Hne]; [rewrite Hi in Hlj; discriminate|].
        apply (Hcut i j); auto.
        * rewrite (nth_error_nth _ _ [] Hi). now left.
        * rewrite (nth_error_nth _ _ [] Hrj). inversion Hj; subst. now left.
      + cbn in Hj. inversion Hj; subst. exact (Hh j r' lj Hlj).
    - rewrite <- (nth_error_nth _ _ [] HRi). rewrite zapp_upd.
      apply IH; [now rewrite upd_length|].
      intros a j x y Haj Hx Hy. destruct (Nat.eq_dec a i) as [->|Hne].
      + rewrite nth_upd_same in Hx by assumption. apply (Hcut i j); auto.
        rewrite (nth_error_nth _ _ [] Hi). now right.
      + rewrite nth_upd_other in Hx by auto. apply (Hcut a j); auto.
  Qed.

  Theorem sched_split L R o1 o2 E1 E2 :
    length L = length R -> weak_cut L R ->
    sched cmp L o1 E1 -> all_empty K E1 -> sched cmp R o2 E2 ->
    sched cmp (zapp L R) (o1 ++ o2) E2.
  Proof.
    intros Hlen Hcut H1 He1 H2. eapply (sched_app K cmp); [apply sched_zapp; eauto|].
    rewrite zapp_all_nil_l; auto. rewrite (sched_width K cmp _ _ _ H1). exact Hlen.
  Qed.

  (** ** embedding a list of inputs into a longer vector whose other entries
      have no rows (the participants of a region among all the targets) *)
  Definition embeds (f : nat -> nat) (st ST : list (list row)) : Prop :=
    (forall j l, nth_error st j = Some l -> nth_error ST (f j) = Some l) /\
    (forall q l, nth_error ST q = Some l -> l <> [] -> exists j, q = f j /\ nth_error st j = Some l) /\
    (forall j j', (j < length st)%nat -> (j' < length st)%nat -> f j = f j' -> j = j').

  Lemma sched_embed f st out st' : sched cmp st out st' -> forall ST,
    embeds f st ST -> exists ST', sched cmp ST out ST' /\ embeds f st' ST'.
  Proof.
    induction 1 as [st|st i r t out st' Hi Hh Hrun IH]; intros ST HE; [exists ST; split; [constructor|exact HE]|].
    destruct HE as [E1 [E2 E3]].
    pose proof (nth_error_lt _ _ _ Hi) as Hlt.
    pose proof (E1 _ _ Hi) as HSi. pose proof (nth_error_lt _ _ _ HSi) as HSlt.
    destruct (IH (upd ST (f i) t)) as [ST' [Hrun' HE']].
    - split; [|split].
      + intros j l Hj. destruct (Nat.eq_dec j i) as [->|Hne].
        * rewrite nth_error_upd_same in Hj by assumption. inversion Hj; subst.
          now apply nth_error_upd_same.
        * rewrite nth_error_upd_other in Hj by auto.
          rewrite nth_error_upd_other; [auto|]. intros Hf. apply Hne. symmetry.
          apply E3; auto. eapply nth_error_lt; eauto.
      + intros q l Hq Hne. destruct (Nat.eq_dec q (f i)) as [->|Hqi].
        * rewrite nth_error_upd_same in Hq by assumption. inversion Hq; subst.
          exists i. split; [reflexivity|]. now apply nth_error_upd_same.
        * rewrite nth_error_upd_other in Hq by auto. destruct (E2 _ _ Hq Hne) as [j [-> Hj]].
          exists j. split; [reflexivity|]. rewrite nth_error_upd_other; [exact Hj|]. intros ->. now apply Hqi.
      + intros j j'. rewrite upd_length. apply E3.
    - exists ST'. split; [|exact HE']. apply sched_cons with (i := f i) (t := t); auto.
      intros q r' t' Hq. destruct (E2 _ _ Hq) as [j [-> Hj]]; [discriminate|]. exact (Hh j r' t' Hj).
  Qed.

  Lemma embeds_all_empty f st ST : embeds f st ST -> all_empty K st -> all_empty K ST.
  Proof.
    intros [_ [E2 _]] He. unfold all_empty in *. rewrite Forall_forall in *. intros l Hl.
    destruct l as [|x l]; [reflexivity|]. apply In_nth_error in Hl. destruct Hl as [q Hq].
    destruct (E2 _ _ Hq) as [j [_ Hj]]; [discriminate|]. apply He. eapply nth_error_In; eauto.
  Qed.

  Theorem sched_embed_complete f st out st' ST :
    sched cmp st out st' -> all_empty K st' -> embeds f st ST ->
    exists ST', sched cmp ST out ST' /\ all_empty K ST'.
  Proof.
    intros Hrun He HE. destruct (sched_embed f _ _ _ Hrun _ HE) as [ST' [H1 H2]].
    exists ST'. split; [exact H1|]. eapply embeds_all_empty; eauto.
  Qed.

  (** ** scattering the participants (target index, rows) over [k] slots *)
  Fixpoint lookup (q : nat) (pcs : list (nat * list row)) : list row :=
    match pcs with
    | [] => []
    | x :: t => if (fst x =? q)%nat then snd x else lookup q t
    end.

  Definition scatter (k : nat) (pcs : list (nat * list row)) : list (list row) :=
    map (fun q => lookup q pcs) (List.seq 0 k).

  Lemma scatter_length k pcs : length (scatter k pcs) = k.
  Proof. unfold scatter. now rewrite map_length, seq_length. Qed.

  Lemma scatter_nth k pcs q : (q < k)%nat -> nth q (scatter k pcs) [] = lookup q pcs.
  Proof.
    intros H. unfold scatter. now rewrite nth_map_seq.
  Qed.

  Lemma scatter_nth_error k pcs q : (q < k)%nat -> nth_error (scatter k pcs) q = Some (lookup q pcs).
  Proof.
    intros H. rewrite <- (scatter_nth k pcs q H). apply nth_error_nth'. now rewrite scatter_length.
  Qed.

  Lemma lookup_none q pcs : (forall x, In x pcs -> fst x <> q) -> lookup q pcs = [].
  Proof.
    induction pcs as [|x t IH]; intros H; [reflexivity|]. cbn.
    destruct (Nat.eqb_spec (fst x) q) as [E|_]; [exfalso; eapply H; eauto; now left|].
    apply IH. intros y Hy. apply H. now right.
  Qed.

  Lemma lookup_in q pcs x : NoDup (map fst pcs) -> In x pcs -> fst x = q -> lookup q pcs = snd x.
  Proof.
    induction pcs as [|y t IH]; intros Hnd Hin Hq; [contradiction|]. destruct Hin as [->|Hx]; cbn.
    - subst. now rewrite Nat.eqb_refl.
    - inversion Hnd as [|? ? Hnin Hnd']; subst.
      destruct (Nat.eqb_spec (fst y) (fst x)) as [E|_]; [|now apply IH].
      exfalso. apply Hnin. rewrite E. now apply in_map.
  Qed.

  Lemma filter_scatter_aux n : forall s pcs,
    StronglySorted lt (map fst pcs) -> (forall x, In x pcs -> (s <= fst x < s + n)%nat) ->
    filter nonempty (map (fun q => lookup q pcs) (List.seq s n)) = filter nonempty (map snd pcs).
  Proof.
    induction n as [|n IH]; intros s pcs Hs Hr.
    - destruct pcs as [|x t]; [reflexivity|]. specialize (Hr x (or_introl eq_refl)). lia.
    - cbn [List.seq map filter]. destruct pcs as [|x t].
      + cbn [lookup nonempty]. apply (IH (S s) []); [constructor|intros ? []].
      + cbn [map] in Hs. inversion Hs as [|? ? Hs' Hf]; subst. rewrite Forall_forall in Hf.
        assert (Hgt : forall y, In y t -> (fst x < fst y)%nat) by (intros y Hy; apply Hf; now apply in_map).
        pose proof (Hr x (or_introl eq_refl)) as Hx.
        destruct (Nat.eq_dec (fst x) s) as [E|Hne].
        * assert (Hrest : map (fun q => lookup q (x :: t)) (List.seq (S s) n) = map (fun q => lookup q t) (List.seq (S s) n)).
          { apply map_ext_in. intros q Hq. apply in_seq in Hq. cbn [lookup].
            destruct (Nat.eqb_spec (fst x) q); [lia|reflexivity]. }
          rewrite Hrest, (IH (S s) t).
          -- cbn [lookup]. rewrite E, Nat.eqb_refl. reflexivity.
          -- exact Hs'.
          -- intros y Hy. specialize (Hgt y Hy). specialize (Hr y (or_intror Hy)). lia.
        * rewrite (lookup_none s (x :: t)).
          2:{ intros y [<-|Hy]; [exact Hne|]. specialize (Hgt y Hy). lia. }
          cbn [nonempty]. apply (IH (S s) (x :: t)); [exact Hs|].
          intros y [<-|Hy]; [lia|]. specialize (Hgt y Hy). specialize (Hr y (or_intror Hy)). lia.
  Qed.

  Theorem smerge_scatter k pcs :
    StronglySorted lt (map fst pcs) -> (forall x, In x pcs -> (fst x < k)%nat) ->
    smerge (scatter k pcs) = smerge (map snd pcs).
  Proof.
    intros Hs Hk. rewrite <- smerge_filter, <- (smerge_filter (map snd pcs)). f_equal.
    apply filter_scatter_aux; [exact Hs|]. intros x Hx. specialize (Hk x Hx). lia.
  Qed.

  Theorem embeds_scatter k pcs :
    NoDup (map fst pcs) -> (forall x, In x pcs -> (fst x < k)%nat) ->
    embeds (fun j => fst (nth j pcs (0%nat, []))) (map snd pcs) (scatter k pcs).
  Proof.
    intros Hnd Hk. split; [|split].
    - intros j l Hj. rewrite nth_error_map in Hj. destruct (nth_error pcs j) as [x|] eqn:Hx; [|discriminate].
      cbn in Hj. inversion Hj; subst. rewrite (nth_error_nth _ _ (0%nat, []) Hx).
      pose proof (nth_error_In _ _ Hx) as Hin.
      rewrite scatter_nth_error by auto. f_equal. now apply lookup_in.
    - intros q l Hq Hne. pose proof (nth_error_lt _ _ _ Hq) as Hlt. rewrite scatter_length in Hlt.
      rewrite scatter_nth_error in Hq by assumption. inversion Hq; subst. clear Hq.
      assert (Hex : exists x, In x pcs /\ fst x = q).
      { clear Hnd Hk Hlt. induction pcs as [|y t IH]; [now contradiction Hne|]. cbn in Hne.
        destruct (Nat.eqb_spec (fst y) q) as [E|_]; [exists y; split; [now left|exact E]|].
        destruct (IH Hne) as [x [Hx Ex]]. exists x. split; [now right|exact Ex]. }
      destruct Hex as [x [Hx Ex]]. apply In_nth_error in Hx. destruct Hx as [j Hj]. exists j.
      rewrite (nth_error_nth _ _ (0%nat, []) Hj). split; [now symmetry|].
      rewrite nth_error_map, Hj. cbn. f_equal. symmetry. apply lookup_in; auto. eapply nth_error_In; eauto.
    - intros j j' Hj Hj' E. rewrite map_length in Hj, Hj'.
      rewrite <- !(map_nth fst) in E. cbn in E.
      apply (proj1 (NoDup_nth (map fst pcs) 0%nat) Hnd); auto; now rewrite map_length.
  Qed.

  (** ** the stable merge is a run of the abstract scheduler *)
  Lemma sched_cons_nil st out E : sched cmp st out E -> sched cmp ([] :: st) out ([] :: E).
  Proof.
    induction 1 as [st|st i r t out st' Hi Hh Hrun IH]; [constructor|].
    apply sched_cons with (i := S i) (t := t); [exact Hi| |exact IH].
    intros [|j] r' t' Hj; cbn in Hj; [discriminate|]. exact (Hh j r' t' Hj).
  Qed.

  Lemma merge2s_sched l : sorted l -> forall st out E,
    sched cmp st out E -> all_empty K E ->
    sched cmp (l :: st) (merge2s l out) ([] :: E).
  Proof.
    induction l as [|x l IHl]; intros Hl st out E Hrun He.
    - rewrite merge2s_nil_l. now apply sched_cons_nil.
    - assert (Hl' : sorted l) by (now inversion Hl).
      induction Hrun as [st|st i y t out st' Hi Hh Hrun IHrun].
      + rewrite merge2s_nil_r.
        pose proof (sched_prefix K cmp cmp_opp (x :: l) ((x :: l) :: st) 0%nat []) as Hp.
        cbn [upd] in Hp. apply Hp.
        * cbn. now rewrite app_nil_r.
        * now rewrite app_nil_r.
        * intros r j r' t' _ Hj Hn. destruct j as [|j]; [congruence|]. cbn in Hn.
          unfold all_empty in He. rewrite Forall_forall in He.
          specialize (He _ (nth_error_In _ _ Hn)). discriminate.
      + rewrite merge2s_cons. destruct (Z.ltb_spec (rcmp y x) 0) as [Hlt|Hge].
        * apply sched_cons with (i := S i) (t := t); [exact Hi| |].
          -- intros [|j] r' t' Hj; cbn in Hj; [inversion Hj; subst; lia|exact (Hh j r' t' Hj)].
          -- cbn [upd]. apply IHrun. exact He.
        * assert (Hxy : rle x y) by (apply (rle_of_ge K cmp cmp_opp); lia).
          apply sched_cons with (i := 0%nat) (t := l); [reflexivity| |].
          -- intros [|j] r' t' Hj; cbn in Hj; [inversion Hj; subst; apply (rle_refl K cmp cmp_opp)|].
             apply (rle_trans K cmp cmp_trans) with y; [exact Hxy|exact (Hh j r' t' Hj)].
          -- cbn [upd]. apply IHl; [exact Hl'| |exact He]. econstructor; eauto.
  Qed.

  Theorem smerge_sched st : Forall sorted st ->
    exists E, sched cmp st (smerge st) E /\ all_empty K E.
  Proof.
    induction 1 as [|l st Hl Hst IH]; [exists []; split; constructor|].
    destruct IH as [E [Hrun He]]. exists ([] :: E). split; [|constructor; auto].
    rewrite smerge_cons. now apply merge2s_sched.
  Qed.

  (** ** two sorted arrangements of the same rows carry the same keys at the
      same positions (so any two complete runs of the scheduler on the same
      inputs differ only by the order of rows with equal keys) *)
  Notation cle a := (cnt (fun y => rcmp y a <=? 0)).

  Lemma cle_lower l : forall i x, sorted l -> nth_error l i = Some x -> (i < cle x l)%nat.
  Proof.
    induction l as [|y l IH]; intros [|i] x Hs Hx; cbn in Hx; try discriminate.
    - inversion Hx; subst. unfold cnt. cbn [filter]. unfold Model.rcmp. rewrite (cmp_refl K cmp cmp_opp). cbn. lia.
    - inversion Hs as [|? ? Hs' Hf]; subst. rewrite Forall_forall in Hf.
      assert (Hyx : rle y x) by (apply Hf; eapply nth_error_In; eauto).
      specialize (IH i x Hs' Hx). unfold cnt in *. cbn [filter].
      destruct (Z.leb_spec (rcmp y x) 0); [cbn; lia|unfold rle in Hyx; lia].
  Qed.

  Lemma cle_upper l : forall i a b, sorted l -> nth_error l i = Some b -> rcmp a b < 0 -> (cle a l <= i)%nat.
  Proof.
    induction l as [|y l IH]; intros [|i] a b Hs Hb Hab; cbn in Hb; try discriminate.
    - inversion Hb; subst. unfold cnt.
      assert (E : filter (fun z => rcmp z a <=? 0) (b :: l) = []).
      { clear IH. assert (Hall : forall z, In z (b :: l) -> (rcmp z a <=? 0) = false).
        { intros z Hz. pose proof (sorted_head_le K cmp cmp_opp _ _ _ Hs Hz) as Hbz.
          destruct (Z.leb_spec (rcmp z a) 0) as [Hza|]; [|reflexivity]. exfalso.
          assert (rcmp a z < 0).
          { unfold Model.rcmp in *. apply (cmp_lt_le_trans K cmp cmp_opp cmp_trans) with (key b); assumption. }
          unfold Model.rcmp in *. pose proof (cmp_opp (key a) (key z)). lia. }
        revert Hall. generalize (b :: l). intros l0. induction l0 as [|z l0 IH0]; intros Hall; [reflexivity|].
        cbn [filter]. rewrite (Hall z (or_introl eq_refl)). apply IH0. intros w Hw. apply Hall. now right. }
      rewrite E. cbn. lia.
    - inversion Hs as [|? ? Hs' Hf]; subst. specialize (IH i a b Hs' Hb Hab). unfold cnt in *. cbn [filter].
      destruct (rcmp y a <=? 0); cbn; lia.
  Qed.

  Theorem sorted_perm_same_keys l1 l2 i a b :
    sorted l1 -> sorted l2 -> Permutation l1 l2 ->
    nth_error l1 i = Some a -> nth_error l2 i = Some b -> rcmp a b = 0.
  Proof.
    intros H1 H2 Hp Ha Hb.
    destruct (Z_lt_le_dec (rcmp a b) 0) as [Hlt|Hge].
    - pose proof (cle_lower _ _ _ H1 Ha). pose proof (cle_upper _ _ _ _ H2 Hb Hlt).
      rewrite (cnt_perm _ _ _ Hp) in *. lia.
    - destruct (Z_lt_le_dec (rcmp b a) 0) as [Hlt'|Hge'].
      + pose proof (cle_lower _ _ _ H2 Hb). pose proof (cle_upper _ _ _ _ H1 Ha Hlt').
        rewrite (cnt_perm _ _ _ Hp) in *. lia.
      + unfold Model.rcmp in *. pose proof (cmp_opp (key a) (key b)). pose proof (cmp_opp (key b) (key a)). lia.
  Qed.
End RefineMerge.
